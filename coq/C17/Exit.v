(* C17, process exit layer on top of the C04 transition system (which is not modified):
   (1) RootNode.ProcessEndOfStream (pkg/dsl/cst/root.go) + MultiOutputHandlerManager.Close
       (pkg/output/file_output_handlers.go): the end-of-stream close of the redirected outputs of a put/filter verb,
       as a function on handler states; its error result is the verb's Transform error for the end-of-stream
       batch (put_or_filter.go: `if err := ProcessEndOfStream(); err != nil { return err }`), i.e. the skeleton's
       step VWork true -> VSendE;
   (2) stream.Stream after the two drains: bufferedOutputStream.Flush() may fail, then retval = that error if
       retval was nil;
   (3) entrypoint.Main / exitOnError: exit status 1 and a diagnostic iff retval <> nil;
   (4) os.Exit(1) taken directly from the verb goroutine (asserting_* built-ins, type-gate failures) after a
       diagnostic was written: possible whenever some verb is inside Transform (VWork). *)
From Coq Require Import List Bool Arith.
Import ListNotations.
From Miller Require Import C04.Model C04.Search C04.Rules C04.Progress C04.Errors C04.Termination C17.Faults.

(* ------------------------------------------------------------------ (1) end-of-stream close *)
(* a redirected-output handler: open (with the outcome its flush/close will have), closed, or failed on close *)
Inductive hstate := HOpen (will_fail : bool) | HClosedOk | HCloseFailed.

Definition is_failed (h : hstate) : bool := match h with HCloseFailed => true | _ => false end.
Definition is_closed_ok (h : hstate) : bool := match h with HClosedOk => true | _ => false end.

(* FileOutputHandler.Close *)
Definition close_handler (h : hstate) : hstate :=
  match h with HOpen false => HClosedOk | HOpen true => HCloseFailed | _ => h end.

(* MultiOutputHandlerManager.Close: every handler is closed, every error is appended to errs *)
Definition mgr_close (m : list hstate) : list hstate * bool :=
  let m' := map close_handler m in (m', existsb is_failed m').

(* RootNode.ProcessEndOfStream as in /repo: returns at the first manager whose Close reported errors
   (the managers after it stay open; the error is returned) *)
Fixpoint process_eos_repo (ms : list (list hstate)) : list (list hstate) * bool :=
  match ms with
  | [] => ([], false)
  | m :: rest =>
      let '(m', e) := mgr_close m in
      if e then (m' :: rest, true)
      else let '(rest', e') := process_eos_repo rest in (m' :: rest', e')
  end.

(* the variant that closes every manager but keeps only the errors of the last one (`errs = mgr.Close()`) *)
Fixpoint process_eos_last (ms : list (list hstate)) (errs : bool) : list (list hstate) * bool :=
  match ms with
  | [] => ([], errs)
  | m :: rest =>
      let '(m', e) := mgr_close m in
      let '(rest', e') := process_eos_last rest e in (m' :: rest', e')
  end.

Definition process_eos (keep_last : bool) (ms : list (list hstate)) : list (list hstate) * bool :=
  if keep_last then process_eos_last ms false else process_eos_repo ms.

Definition all_closed_ok (ms : list (list hstate)) : bool := forallb (forallb is_closed_ok) ms.
Definition never_closed (ms : list (list hstate)) : bool :=
  forallb (forallb (fun h => match h with HOpen _ => true | _ => false end)) ms.

(* closing handlers none of which was closed before reports an error exactly when some close fails, and leaves every
   handler closed ok when it reports none *)
Lemma mgr_close_spec m : never_closed [m] = true ->
  snd (mgr_close m) = existsb (fun h => match h with HOpen true => true | _ => false end) m
  /\ (snd (mgr_close m) = false -> forallb is_closed_ok (fst (mgr_close m)) = true).
Proof.
  unfold mgr_close, never_closed; cbn. rewrite andb_true_r.
  induction m as [|[[]| |] m IH]; cbn; try discriminate; auto; intros [E H]%IH; rewrite E; auto.
Qed.

Lemma process_eos_repo_spec ms : never_closed ms = true ->
  snd (process_eos_repo ms) = existsb (existsb (fun h => match h with HOpen true => true | _ => false end)) ms
  /\ (snd (process_eos_repo ms) = false -> all_closed_ok (fst (process_eos_repo ms)) = true).
Proof.
  induction ms as [|m rest IH]; cbn [process_eos_repo existsb]; [auto|].
  unfold never_closed; cbn [forallb]. intros [Hm Hr]%andb_true_iff.
  destruct (mgr_close_spec m) as [E H]; [unfold never_closed; cbn; now rewrite Hm|].
  destruct (mgr_close m) as [m' e]. cbn [fst snd] in *. subst e.
  destruct (existsb _ m); [now split|]. destruct (IH Hr) as [E' H']. destruct (process_eos_repo rest) as [rest' e'].
  cbn in *. split; [exact E'|]. intros He. now rewrite H, H'.
Qed.

(* no error returned => every handler of every manager was flushed and closed successfully *)
Theorem process_eos_repo_complete ms :
  never_closed ms = true -> snd (process_eos_repo ms) = false -> all_closed_ok (fst (process_eos_repo ms)) = true.
Proof. intros Ho. apply process_eos_repo_spec, Ho. Qed.

(* a failing close of any handler of any manager is reported *)
Theorem process_eos_repo_reports ms :
  never_closed ms = true -> existsb (existsb (fun h => match h with HOpen true => true | _ => false end)) ms = true ->
  snd (process_eos_repo ms) = true.
Proof. intros [-> _]%process_eos_repo_spec Hex. exact Hex. Qed.

(* the keep-only-the-last-errors variant loses a failure: the statement above is false of it *)
Theorem process_eos_keep_last_refuted :
  exists ms, never_closed ms = true /\ snd (process_eos true ms) = false
             /\ all_closed_ok (fst (process_eos true ms)) = false
             /\ snd (process_eos false ms) = true.
Proof. exists [[HOpen true]; [HOpen false]]. vm_compute. auto. Qed.

(* ------------------------------------------------------------------ (2)-(4) flush, exit status, os.Exit *)
Inductive fstate := FPending | FOk | FFailed.

Record xstate := mkX {
  base : state;             (* the C04 transition system *)
  xfl : fstate;             (* bufferedOutputStream.Flush() at the end of stream.Stream *)
  xexit : option nat;       (* the process has exited with this status *)
  xdiag : bool              (* a diagnostic was written to stderr by the exit path *)
}.

Definition is_work (p : vpc) : bool := match p with VWork _ => true | _ => false end.

Lemma final_step blocking s s' : step blocking s s' -> is_final s = true -> is_final s' = true.
Proof. intros Hs. apply step_rule in Hs. destruct Hs; cbn; trivial; discriminate. Qed.

Section Ext.
  Variable blocking : bool.

  Definition xsuccs (x : xstate) : list xstate :=
    match xexit x with
    | Some _ => []          (* exited: absorbing *)
    | None =>
        map (fun s' => mkX s' (xfl x) None false) (succs blocking (base x))
        ++ (match mn (base x), xfl x with
            | MExit _, FPending => [mkX (base x) FOk None false; mkX (base x) FFailed None false]
            | MExit r, FOk => [mkX (base x) FOk (Some (if r then 1 else 0)) r]     (* exitOnError / normal return *)
            | MExit _, FFailed => [mkX (base x) FFailed (Some 1) true]             (* retval = the flush error *)
            | _, _ => []
            end)
        ++ (if existsb (fun v => is_work (vp v)) (cvs (ch (base x)))
            then [mkX (base x) (xfl x) (Some 1) true]                             (* fmt.Fprintf(os.Stderr, ...); os.Exit(1) *)
            else [])
    end.

  Definition xstep (x x' : xstate) : Prop := In x' (xsuccs x).

  Inductive xreachable (x0 : xstate) : xstate -> Prop :=
  | xreach_refl : xreachable x0 x0
  | xreach_step x x' : xreachable x0 x -> xstep x x' -> xreachable x0 x'.

  Definition xinit (k : nat) (kinds : list bool) : xstate := mkX (init k kinds) FPending None false.

  Definition XI k kinds (x : xstate) : Prop :=
    reachable blocking (init k kinds) (base x)
    /\ (xfl x <> FPending -> is_final (base x) = true)
    /\ (forall c, xexit x = Some c ->
          (c = 0 /\ mn (base x) = MExit false /\ xfl x = FOk /\ xdiag x = false) \/ (c = 1 /\ xdiag x = true)).

  Lemma XI_step k kinds x x' : XI k kinds x -> xstep x x' -> XI k kinds x'.
  Proof.
    intros (Hr & Hfl & Hex) Hst. unfold xstep, xsuccs in Hst.
    destruct (xexit x) as [c|] eqn:Hx; [destruct Hst|].
    rewrite !in_app_iff in Hst. destruct Hst as [Hst|[Hst|Hst]].
    - apply in_map_iff in Hst as (s' & <- & Hin). unfold XI; cbn. split; [eapply reach_step; eauto|]. split.
      + intros Hne. eapply final_step; eauto.
      + intros c Hc. discriminate.
    - destruct (mn (base x)) as [r|r|r|r] eqn:Hm; try destruct Hst.
      destruct (xfl x) eqn:Hf.
      + destruct Hst as [<-|[<-|[]]]; unfold XI; cbn; repeat split; auto; try discriminate;
          try (intros _; unfold is_final; rewrite Hm; reflexivity).
      + destruct Hst as [<-|[]]. unfold XI; cbn. split; [exact Hr|]. split; [intros _; unfold is_final; rewrite Hm; reflexivity|].
        intros c Hc. inversion Hc; subst c. destruct r; [right|left]; auto.
      + destruct Hst as [<-|[]]. unfold XI; cbn. split; [exact Hr|]. split; [intros _; unfold is_final; rewrite Hm; reflexivity|].
        intros c Hc. inversion Hc; subst c. right; auto.
    - destruct (existsb _ _); [|destruct Hst]. destruct Hst as [<-|[]]. unfold XI; cbn. split; [exact Hr|]. split; [exact Hfl|].
      intros c Hc. inversion Hc; subst c. right; auto.
  Qed.

  Lemma XI_init k kinds : XI k kinds (xinit k kinds).
  Proof. unfold XI, xinit; cbn. split; [apply reach_refl|]. split; [intros H; now elim H|discriminate]. Qed.

  Lemma XI_reachable k kinds x : xreachable (xinit k kinds) x -> XI k kinds x.
  Proof. intros Hr. induction Hr; [apply XI_init|eapply XI_step; eauto]. Qed.

  (* exit status 0 => all input consumed, every stage finished, nothing failed, stdout flushed, nothing on stderr *)
  Theorem xexit0_complete k kinds x :
    xreachable (xinit k kinds) x -> xexit x = Some 0 ->
    (rd (base x) = RDone /\ Forall (fun v => vp v = VDone) (cvs (ch (base x))) /\ wr (base x) = WDone
     /\ cfailed (ch (base x)) = false)
    /\ xfl x = FOk /\ xdiag x = false.
  Proof.
    intros Hr Hx. destruct (XI_reachable _ _ _ Hr) as (Hb & _ & Hex).
    destruct (Hex 0 Hx) as [(_ & Hm & Hf & Hd)|(Hc & _)]; [|discriminate].
    split; [eapply exit0_implies_complete; eauto|auto].
  Qed.

  (* every exit has status 0 or 1, and status 1 comes with a diagnostic *)
  Theorem xexit_status_and_diagnostic k kinds x c :
    xreachable (xinit k kinds) x -> xexit x = Some c -> (c = 0 /\ xdiag x = false) \/ (c = 1 /\ xdiag x = true).
  Proof.
    intros Hr Hx. destruct (XI_reachable _ _ _ Hr) as (_ & _ & Hex).
    destruct (Hex c Hx) as [(A & _ & _ & D)|(A & D)]; auto.
  Qed.

  (* a fault of any stage at any position: whichever way the process exits (main's return, a flush failure,
     os.Exit from a verb), the status is 1 and a diagnostic was written *)
  Theorem xfault_exit_nonzero k kinds x c :
    xreachable (xinit k kinds) x -> cfailed (ch (base x)) = true -> xexit x = Some c -> c = 1 /\ xdiag x = true.
  Proof.
    intros Hr Hf Hx. destruct (XI_reachable _ _ _ Hr) as (Hb & _ & Hex).
    destruct (Hex c Hx) as [(_ & Hm & _ & _)|(A & D)]; [|auto].
    pose proof (error_never_lost _ _ _ _ _ Hb Hm Hf). discriminate.
  Qed.

  (* a failed final flush of standard output *)
  Theorem xflush_failure_exit_nonzero k kinds x c :
    xreachable (xinit k kinds) x -> xfl x = FFailed -> xexit x = Some c -> c = 1 /\ xdiag x = true.
  Proof.
    intros Hr Hf Hx. destruct (XI_reachable _ _ _ Hr) as (_ & _ & Hex).
    destruct (Hex c Hx) as [(_ & _ & Hok & _)|(A & D)]; [congruence|auto].
  Qed.

  (* os.Exit(1) from the verb goroutine is enabled whenever a verb is inside Transform, and exiting is absorbing *)
  Theorem xosexit_enabled x :
    xexit x = None -> existsb (fun v => is_work (vp v)) (cvs (ch (base x))) = true ->
    xstep x (mkX (base x) (xfl x) (Some 1) true).
  Proof.
    intros Hx Hw. unfold xstep, xsuccs. rewrite Hx, Hw. apply in_or_app. right. apply in_or_app. right. now left.
  Qed.

  Theorem xexit_absorbing x c : xexit x = Some c -> xsuccs x = [].
  Proof. intros Hx. unfold xsuccs. now rewrite Hx. Qed.
End Ext.

(* follow a schedule in the extended system *)
Fixpoint xrun_sched (blocking : bool) (sched : list nat) (x : xstate) : option xstate :=
  match sched with
  | [] => Some x
  | n :: rest => match nth_error (xsuccs blocking x) n with
                 | Some x' => xrun_sched blocking rest x'
                 | None => None
                 end
  end.

Lemma xrun_sched_reachable blocking sched : forall x0 x x',
  xreachable blocking x0 x -> xrun_sched blocking sched x = Some x' -> xreachable blocking x0 x'.
Proof.
  induction sched as [|n rest IH]; intros x0 x x' Hr H; cbn in H.
  - now inversion H; subst.
  - destruct (nth_error (xsuccs blocking x) n) as [x1|] eqn:E; [|discriminate].
    eapply IH; [|exact H]. eapply xreach_step; [exact Hr|]. unfold xstep. eapply nth_error_In; eauto.
Qed.

Definition xsummary (x : xstate) := (mn (base x), cfailed (ch (base x)), xfl x, xexit x, xdiag x).

Ltac xrun_witness sch :=
  eexists; split; [eapply xrun_sched_reachable with (sched := sch); [apply xreach_refl|vm_compute; reflexivity]|reflexivity].

(* a fault-free run: flush succeeds, exit 0, nothing on stderr *)
Example xrun_clean_exit0 :
  exists x, xreachable false (xinit 1 [false]) x /\ xsummary x = (MExit false, false, FOk, Some 0, false).
Proof. xrun_witness (repeat 0 20). Qed.

(* nothing failed inside the stream but the final flush of standard output fails: exit 1 with a diagnostic *)
Example xrun_flush_failure_exit1 :
  exists x, xreachable false (xinit 1 [false]) x /\ xsummary x = (MExit false, false, FFailed, Some 1, true).
Proof. xrun_witness (repeat 0 18 ++ [1; 0]). Qed.

(* the reader has failed (its error is still on its way to main) and then a verb exits the process directly *)
Example xrun_osexit_after_reader_fault :
  exists x, xreachable false (xinit 2 [false]) x /\ xsummary x = (MLoop false, true, FPending, Some 1, true).
Proof. xrun_witness ([1] ++ repeat 0 6 ++ [4]). Qed.
