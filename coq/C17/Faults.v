(* C17, fault positions: corollaries of C04.Errors (invariant J, error_never_lost), C04.Progress (no_deadlock)
   and C04.Termination (every_run_reaches_final) stated per fault position, plus the ghost invariant tying the
   control points of a failing stage to the [cfailed] flag.

   Go anchors: pkg/stream/stream.go:Stream (main: select loop, two drains, return retval);
   pkg/entrypoint/entrypoint.go:exitOnError (retval <> nil: printError "mlr: %v" + os.Exit(1); nil: exit 0);
   pkg/transformers/aaa_chain_transformer.go:runSingleTransformerBatch (VWork -> VSendE -> VErrSig);
   pkg/output/channel_writer.go:ChannelWriter (WRecv -> WErr -> WFin); record readers (RPoll -> RErr). *)
From Coq Require Import List Bool Arith.
Import ListNotations.
From Miller Require Import C04.Model C04.Search C04.Rules C04.Progress C04.Errors C04.Termination.

(* entrypoint.Main: err := stream.Stream(...); if err != nil { exitOnError(err) }  -- exit 1 after printing it *)
Definition exit_code (s : state) : option nat :=
  match mn s with MExit true => Some 1 | MExit false => Some 0 | _ => None end.
(* exitOnError prints "mlr: <err>" exactly when Stream's return value is an error *)
Definition stderr_nonempty (s : state) : bool :=
  match mn s with MExit r => r | _ => false end.

Definition is_werr (w : wpc) : bool := match w with WErr => true | _ => false end.

(* an error value exists somewhere on its way to main: buffered on inputErrorChannel or
   dataProcessingErrorChannel, already taken by main (retval), or held by a stage that is at the control
   point just before its post (the reader's blocking send, the writer's non-blocking send) *)
Definition diag_pending (s : state) : bool :=
  ierr s || cerr (ch s) || ret_of (mn s) || is_rerr (rd s) || is_werr (wr s).

Lemma cfailed_step blocking s s' : step blocking s s' -> cfailed (ch s) = true -> cfailed (ch s') = true.
Proof.
  intros Hs. apply step_rule in Hs. destruct Hs as [| | | | |s c Hc| | | | | | | | | | |]; cbn; auto.
  now apply chain_rule_flags in Hc.
Qed.

Lemma cfailed_reachable blocking s s' :
  reachable blocking s s' -> cfailed (ch s) = true -> cfailed (ch s') = true.
Proof. intros Hr Hf. induction Hr; [exact Hf|]. eapply cfailed_step; eauto. Qed.

Definition F (s : state) : Prop :=
  (is_rerr (rd s) = true -> cfailed (ch s) = true)
  /\ (wr s = WErr -> cfailed (ch s) = true)
  /\ (existsb verr_pc (cvs (ch s)) = true -> cfailed (ch s) = true).

Lemma verr_pc_set_vd v d : verr_pc (set_vd v d) = verr_pc v.
Proof. reflexivity. Qed.
Lemma verr_pc_set_vin v q : verr_pc (set_vin v q) = verr_pc v.
Proof. reflexivity. Qed.

Lemma sends_verr v b p' : sends (vp v) b p' -> verr_pc (set_vp v p') = true -> verr_pc v = true.
Proof. unfold verr_pc. destruct v; cbn. now destruct 1 as [[]|]. Qed.

(* a verb enters its error path only by the step that sets the flag; the other chain steps keep it there or move on *)
Lemma chain_rule_verr blocking d e f vs wq c : chain_rule blocking d e f vs wq c ->
  (existsb verr_pc vs = true -> f = true) -> existsb verr_pc (cvs c) = true -> cfailed c = true.
Proof.
  induction 1 as [? ? ? ? ? ? ? ? ? ? Hv|? ? ? v ? ? ? Hs|? ? ? v ? ? ? ? ? Hs|? ? ? ? ? ? ? Hc IH]; cbn [cvs cfailed existsb].
  - unfold verr_pc at 1 3. destruct Hv as [| | | | | |? ? ? ? ? ? ? [-> | ->]|]; cbn; auto.
  - intros Hf H. apply Hf. rewrite orb_false_r in *. eapply sends_verr; eauto.
  - intros Hf [H|H]%orb_true_iff; apply Hf; [now rewrite (sends_verr _ _ _ Hs H)|].
    rewrite verr_pc_set_vin in H. rewrite H. apply orb_true_r.
  - rewrite verr_pc_set_vd. intros Hf [Hv|Hr]%orb_true_iff.
    + apply (chain_rule_flags _ _ _ _ _ _ _ Hc), Hf. now rewrite Hv.
    + apply IH; [|exact Hr]. intros Hr'. apply Hf. rewrite Hr'. apply orb_true_r.
Qed.

Lemma F_init k kinds : F (init k kinds).
Proof.
  unfold F, init; cbn. repeat split; try discriminate. now induction kinds.
Qed.

Lemma F_step blocking s s' : F s -> step blocking s s' -> F s'.
Proof.
  intros (F1 & F2 & F3) Hs. pose proof (cfailed_step _ _ _ Hs) as Hmono. apply step_rule in Hs. unfold F.
  destruct Hs as [| | | |k ? ? ? ? ? ? ? ? ? ?|s c Hc|? ? ? b ? ? ? ?| | | | | | | | | |]; cbn in *;
    try solve [intuition discriminate].
  - destruct k; intuition discriminate.
  - repeat split; auto. eapply chain_rule_verr; eauto.
  - destruct b; intuition discriminate.
Qed.

Lemma F_reachable blocking k kinds s : reachable blocking (init k kinds) s -> F s.
Proof. intros Hr. induction Hr; [apply F_init|eapply F_step; eauto]. Qed.

(* the first clause of C04.Errors.J as a boolean: once any stage has failed, an error value is in flight or already with main *)
Theorem fault_diagnostic_in_flight blocking k kinds s :
  reachable blocking (init k kinds) s -> cfailed (ch s) = true -> diag_pending s = true.
Proof.
  intros Hr Hf. destruct (J_reachable _ _ _ _ Hr) as (J1 & _). unfold diag_pending.
  destruct (J1 Hf) as [H|[H|[H|[H|H]]]]; rewrite H; cbn; rewrite ?orb_true_r; reflexivity.
Qed.

(* every final state after a failure exits 1 with a diagnostic, under both done-flag protocols *)
Theorem fault_anywhere_every_exit_nonzero blocking k kinds s s' :
  reachable blocking (init k kinds) s -> cfailed (ch s) = true ->
  reachable blocking s s' -> is_final s' = true -> exit_code s' = Some 1 /\ stderr_nonempty s' = true.
Proof.
  intros Hr Hf Hr' Hfin. pose proof (cfailed_reachable _ _ _ Hr' Hf) as Hf'.
  pose proof (reachable_trans _ _ _ _ Hr Hr') as Hr0.
  unfold is_final in Hfin. unfold exit_code, stderr_nonempty.
  destruct (mn s') as [r|r|r|r] eqn:Hm; try discriminate.
  rewrite (error_never_lost _ _ _ _ _ Hr0 Hm Hf'). auto.
Qed.

(* the fault position is irrelevant: for every chain, every number of batches, every reachable state (hence
   every schedule prefix and every position of the fault) in which some stage has failed,
   (1) an error value is in flight; (2) every final state reachable from it exits 1 with a diagnostic;
   (3) a final state is reachable (termination), under the repaired protocol *)
Theorem fault_anywhere_nonzero_exit k kinds s :
  kinds <> [] -> reachable false (init k kinds) s -> cfailed (ch s) = true ->
  diag_pending s = true
  /\ (forall s', reachable false s s' -> is_final s' = true -> exit_code s' = Some 1 /\ stderr_nonempty s' = true)
  /\ (exists s', reachable false s s' /\ is_final s' = true /\ exit_code s' = Some 1 /\ stderr_nonempty s' = true).
Proof.
  intros Hk Hr Hf. pose proof (fun s' => fault_anywhere_every_exit_nonzero _ _ _ _ s' Hr Hf) as Hex.
  split; [eapply fault_diagnostic_in_flight; eauto|]. split; [intros s'; apply Hex|].
  destruct (every_run_reaches_final k kinds Hk s Hr) as (s' & Hr' & Hfin). exists s'. destruct (Hex s' Hr' Hfin). auto.
Qed.

(* a state F knows to have failed: the shape of the three statements below *)
Lemma fault_position blocking k kinds s :
  reachable blocking (init k kinds) s -> (F s -> cfailed (ch s) = true) ->
  cfailed (ch s) = true
  /\ forall s', reachable blocking s s' -> is_final s' = true -> exit_code s' = Some 1 /\ stderr_nonempty s' = true.
Proof.
  intros Hr Hf. specialize (Hf (F_reachable _ _ _ _ Hr)). split; [exact Hf|].
  intros s'. now apply fault_anywhere_every_exit_nonzero with k kinds.
Qed.

(* reader fault at any batch: the reader is about to post an open/parse error (RErr j, j batches still to read) *)
Theorem reader_fault_nonzero_exit blocking k kinds s j :
  reachable blocking (init k kinds) s -> rd s = RErr j ->
  cfailed (ch s) = true
  /\ forall s', reachable blocking s s' -> is_final s' = true -> exit_code s' = Some 1 /\ stderr_nonempty s' = true.
Proof. intros Hr Hrd. apply (fault_position _ k kinds); [exact Hr|]. intros (F1 & _). apply F1. now rewrite Hrd. Qed.

(* the fault step itself is enabled at every batch that is still to be read *)
Theorem reader_fault_step_enabled blocking s j :
  rd s = RPoll (S j) ->
  step blocking s (mkS (RErr j) (ierr s) (set_failed (ch s)) (wr s) (doneq s) (mn s)).
Proof.
  intros Hrd. unfold step, succs. apply in_or_app. left. unfold reader_steps. rewrite Hrd.
  apply in_or_app. right. left. reflexivity.
Qed.

Lemma nth_verr vs i v : nth_error vs i = Some v -> verr_pc v = true -> existsb verr_pc vs = true.
Proof. intros Hn Hv. apply existsb_exists. exists v. split; [eapply nth_error_In; eauto|exact Hv]. Qed.

(* verb fault: stage i of an n-stage chain is on its error path (Transform returned an error for some batch,
   the end-of-stream batch included: VSendE = error posted, about to forward the marker; VErrSig = marker forwarded) *)
Theorem verb_fault_nonzero_exit blocking k kinds s i v :
  reachable blocking (init k kinds) s -> nth_error (cvs (ch s)) i = Some v -> verr_pc v = true ->
  cfailed (ch s) = true
  /\ forall s', reachable blocking s s' -> is_final s' = true -> exit_code s' = Some 1 /\ stderr_nonempty s' = true.
Proof.
  intros Hr Hn Hv. apply (fault_position _ k kinds); [exact Hr|]. intros (_ & _ & F3). apply F3. eapply nth_verr; eauto.
Qed.

(* writer fault (channel_writer.go: recordWriter.Write failed, "mlr: ..." printed; about to post
   "exiting due to data error" with a non-blocking send, then signal done).  Holds also when a verb error was
   posted first and the writer's own post is dropped: first error wins, the status is still non-zero *)
Theorem writer_fault_nonzero_exit blocking k kinds s :
  reachable blocking (init k kinds) s -> wr s = WErr ->
  cfailed (ch s) = true
  /\ forall s', reachable blocking s s' -> is_final s' = true -> exit_code s' = Some 1 /\ stderr_nonempty s' = true.
Proof. intros Hr Hw. apply (fault_position _ k kinds); [exact Hr|]. intros (_ & F2 & _). now apply F2. Qed.

(* termination after a fault at any of the three kinds of position *)
Theorem faulty_run_reaches_exit1 k kinds s :
  kinds <> [] -> reachable false (init k kinds) s ->
  (is_rerr (rd s) = true \/ wr s = WErr \/ existsb verr_pc (cvs (ch s)) = true) ->
  exists s', reachable false s s' /\ is_final s' = true /\ exit_code s' = Some 1.
Proof.
  intros Hk Hr Hpos. destruct (F_reachable _ _ _ _ Hr) as (F1 & F2 & F3).
  assert (Hf : cfailed (ch s) = true) by (destruct Hpos as [H|[H|H]]; auto).
  destruct (fault_anywhere_nonzero_exit k kinds s Hk Hr Hf) as (_ & _ & s' & A & B & C & _). eauto.
Qed.

(* ---------------------------------------------------------------- non-vacuity: concrete faulty runs *)
(* always take the first enabled step, at most [fuel] times *)
Fixpoint run0 (fuel : nat) (s : state) : state :=
  match fuel with
  | 0 => s
  | S f => match succs false s with [] => s | s' :: _ => run0 f s' end
  end.

Lemma run0_reachable fuel : forall s, reachable false s (run0 fuel s).
Proof.
  induction fuel as [|f IH]; intros s; cbn; [apply reach_refl|].
  destruct (succs false s) as [|s' l] eqn:E; [apply reach_refl|].
  eapply reachable_trans; [|apply IH]. eapply reach_step; [apply reach_refl|]. unfold step. rewrite E. now left.
Qed.

Definition nthpc (s : state) (i : nat) : option vpc :=
  match nth_error (cvs (ch s)) i with Some v => Some (vp v) | None => None end.

(* the state a schedule leads to, computed once; what is claimed of it is then checked on that state *)
Ltac run_witness sch :=
  eexists; split; [eapply run_sched_reachable with (sched := sch); [apply reach_refl|vm_compute; reflexivity]|]; repeat split.

(* the middle verb of a chain of three fails while processing the end-of-stream batch (its end block):
   27 steps bring verb 1 to VWork true with the reader finished, step 1 there is its Transform error *)
Definition sched_mid_eos : list nat := repeat 0 27 ++ [1].
Example verb_fault_mid_of_3_at_eos :
  exists s, reachable false (init 2 [false; false; false]) s
    /\ rd s = RDone /\ nthpc s 0 = Some VDone /\ nthpc s 1 = Some VSendE /\ nthpc s 2 = Some (VWork false)
    /\ is_final (run0 100 s) = true /\ exit_code (run0 100 s) = Some 1.
Proof. run_witness sched_mid_eos. Qed.

(* the reader fails on the first of three batches *)
Example reader_fault_first_batch :
  exists s, reachable false (init 3 [false]) s /\ rd s = RErr 2
    /\ is_final (run0 100 s) = true /\ exit_code (run0 100 s) = Some 1.
Proof. run_witness [1]. Qed.

(* the writer fails on a data batch (batch boundary), nothing else has failed *)
Definition sched_writer : list nat := repeat 0 30 ++ [1].
Example writer_fault_batch_boundary :
  exists s, reachable false (init 2 [false; true]) s /\ wr s = WErr /\ cerr (ch s) = false
    /\ is_final (run0 100 s) = true /\ exit_code (run0 100 s) = Some 1.
Proof. run_witness sched_writer. Qed.

(* a verb error is already posted when the writer fails on the end-of-stream batch: the writer's own
   non-blocking post is dropped (first error wins) and the run still exits 1 *)
Definition sched_writer_after_verb : list nat := repeat 0 18 ++ [1; 0; 0; 0; 1].
Example writer_fault_after_verb_error :
  exists s, reachable false (init 1 [false; false]) s /\ wr s = WErr /\ cerr (ch s) = true
    /\ is_final (run0 100 s) = true /\ exit_code (run0 100 s) = Some 1.
Proof. run_witness sched_writer_after_verb. Qed.
