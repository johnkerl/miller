(* C17: ONE combined transition system = the goroutine/channel skeleton (C04.Model, with every failure step) + the
   redirected-output handlers of every put/filter/tee/split verb, closed by RootNode.ProcessEndOfStream when the verb's
   Transform handles the end-of-stream marker (put_or_filter.go: `if err := ProcessEndOfStream(); err != nil { return err }`;
   tee.go / split.go: the same shape with one manager).
   A combined step is a skeleton step together with what it does to each verb's handlers:
     verb i moves  VWork true -> VSend true   (Transform on the marker returned nil)  : ProcessEndOfStream ran on its
                                               handlers and returned no error;
     verb i moves  VWork true -> VSendE       (Transform returned an error)           : its handlers are untouched
                                               (failure before the close) or ProcessEndOfStream ran and returned an error;
     otherwise                                                                       : its handlers are unchanged.
   Invariant, for every chain length, number of batches, interleaving and fault: a verb that has forwarded its
   end-of-stream marker has all its handlers closed ok, or some stage has failed.  Hence: exit status 0 => every handler
   of every manager of every verb was flushed and closed successfully (and, by C17_exit0_implies_complete, the reader
   reached end of input, every verb forwarded the marker and the writer finished). *)
From Coq Require Import List Bool Arith Lia.
Import ListNotations.
From Miller Require Import C04.Model C04.Search C04.Rules C04.Progress C04.Errors C17.Faults C17.Exit.

Definition hset := list (list hstate).        (* the output-handler managers of one verb *)
Record cstate := mkCS { cbase : state; chs : list hset }.

(* pc transitions of one verb goroutine *)
Definition T (p p' : vpc) : Prop :=
  match p, p' with
  | VRecv, VWork _ => True
  | VWork b, VWork b' | VWork b, VRelay b' | VWork b, VOwn b' | VWork b, VSend b' => b' = b
  | VWork _, VSendE => True
  | VRelay b, VWork b' | VOwn b, VWork b' => b' = b
  | VSend b, VDone => b = true
  | VSend b, VRecv => b = false
  | VSendE, VErrSig => True
  | VErrSig, VDone => True
  | _, _ => False
  end.

Definition TE (p p' : vpc) : Prop := p' = p \/ T p p'.
(* what a step may do to the pcs of the chain *)
Definition moves : list vstage -> list vstage -> Prop := Forall2 (fun v v' => TE (vp v) (vp v')).

Lemma moves_refl l : moves l l.
Proof. induction l; constructor; auto. now left. Qed.

Lemma chain_rule_T blocking d e f vs wq c : chain_rule blocking d e f vs wq c -> moves vs (cvs c).
Proof.
  induction 1 as [? ? ? ? ? ? ? ? ? ? Hv|? ? ? v ? ? ? Hs|? ? ? v ? ? ? ? ? Hs|]; cbn.
  - constructor; [right|apply moves_refl]. destruct Hv as [| | | | | |? ? ? ? ? ? ? [-> | ->]|]; cbn; auto.
  - constructor; [right|constructor]. destruct Hs as [[]|]; cbn; auto.
  - constructor; [right|constructor; [now left|apply moves_refl]]. destruct Hs as [[]|]; cbn; auto.
  - constructor; [now left|assumption].
Qed.

Lemma step_T blocking s s' : step blocking s s' -> moves (cvs (ch s)) (cvs (ch s')).
Proof.
  intros Hs. apply step_rule in Hs. destruct Hs as [| | | | |s c Hc| | | | | | | | | | |]; cbn; try apply moves_refl.
  - constructor; [now left|apply moves_refl].
  - eapply chain_rule_T; eauto.
Qed.

(* what a step of verb i from pc p to pc p' does to its handlers *)
Definition handlers_step (p p' : vpc) (h h' : hset) : Prop :=
  match p, p' with
  | VWork true, VSend true => snd (process_eos_repo h) = false /\ h' = fst (process_eos_repo h)
  | VWork true, VSendE => h' = h \/ (snd (process_eos_repo h) = true /\ h' = fst (process_eos_repo h))
  | _, _ => h' = h
  end.

Inductive hsteps : list vstage -> list vstage -> list hset -> list hset -> Prop :=
| hs_nil : hsteps [] [] [] []
| hs_cons v v' vs vs' h h' hs hs' :
    handlers_step (vp v) (vp v') h h' -> hsteps vs vs' hs hs' -> hsteps (v :: vs) (v' :: vs') (h :: hs) (h' :: hs').

Definition cstep (c c' : cstate) : Prop :=
  step false (cbase c) (cbase c') /\ hsteps (cvs (ch (cbase c))) (cvs (ch (cbase c'))) (chs c) (chs c').

Inductive creachable (c0 : cstate) : cstate -> Prop :=
| creach_refl : creachable c0 c0
| creach_step c c' : creachable c0 c -> cstep c c' -> creachable c0 c'.

(* initially every handler is open (each with the outcome its flush/close will have) *)
Definition cinit (k : nat) (kinds : list bool) (hs : list hset) : cstate := mkCS (init k kinds) hs.

(* a verb's handlers against its control point *)
Definition hok (failed : bool) (p : vpc) (h : hset) : Prop :=
  match p with
  | VSend true | VDone => all_closed_ok h = true \/ failed = true
  | VSendE | VErrSig => True
  | _ => never_closed h = true
  end.

Inductive hinv (failed : bool) : list vstage -> list hset -> Prop :=
| hi_nil : hinv failed [] []
| hi_cons v vs h hs : hok failed (vp v) h -> hinv failed vs hs -> hinv failed (v :: vs) (h :: hs).

Lemma hinv_fresh kinds hs :
  length hs = length kinds -> forallb never_closed hs = true -> hinv false (map fresh_verb kinds) hs.
Proof.
  revert hs; induction kinds as [|y kinds IH]; intros hs Hl Hn; destruct hs as [|h hs]; try discriminate; cbn; constructor.
  - cbn in Hn. apply andb_true_iff in Hn as [A _]. exact A.
  - apply IH; [cbn in Hl; lia|]. cbn in Hn. now apply andb_true_iff in Hn as [_ B].
Qed.

(* one verb: its handlers stay as its control point requires, through each move of the pc automaton.  Closing happens on
   VWork true -> VSend true (no error: all closed ok, process_eos_repo_complete); a verb on its error path counts as failed *)
Lemma hok_step f f' p p' h h' :
  TE p p' -> handlers_step p p' h h' -> (f = true -> f' = true) ->
  (match p with VSendE | VErrSig => true | _ => false end = true -> f' = true) ->
  hok f p h -> hok f' p' h'.
Proof.
  unfold hok, handlers_step. intros [->|Ht] Hs Hmono Hv Hk.
  - destruct p as [|[]|[]|[]|[]| | |]; subst; tauto.
  - destruct p as [|[]|[]|[]|[]| | |], p' as [|[]|[]|[]|[]| | |]; cbn in Ht; try contradiction; try discriminate; subst; auto; try tauto.
    destruct Hs as [He ->]. left. now apply process_eos_repo_complete.
Qed.

Lemma hinv_step f f' vs vs' hs hs' :
  moves vs vs' -> hsteps vs vs' hs hs' ->
  (f = true -> f' = true) -> (existsb verr_pc vs = true -> f' = true) ->
  hinv f vs hs -> hinv f' vs' hs'.
Proof.
  intros HT Hh Hmono. revert HT. induction Hh as [|v v' vs vs' h h' hs hs' Hs Hrest IH]; intros HT Hverr Hi; [constructor|].
  inversion HT as [|? ? ? ? Ht HT']; subst. inversion Hi as [|? ? ? ? Hk Hi']; subst. cbn in Hverr.
  constructor.
  - apply (hok_step f f' (vp v) (vp v') h); auto. intros E0. apply Hverr. unfold verr_pc. now rewrite E0.
  - apply IH; auto. intros E0. apply Hverr. rewrite E0. apply orb_true_r.
Qed.

Definition CInv k kinds (c : cstate) : Prop :=
  reachable false (init k kinds) (cbase c) /\ hinv (cfailed (ch (cbase c))) (cvs (ch (cbase c))) (chs c).

Lemma CInv_step k kinds c c' : CInv k kinds c -> cstep c c' -> CInv k kinds c'.
Proof.
  intros [Hr Hi] [Hst Hh]. split; [eapply reach_step; eauto|].
  eapply hinv_step; [eapply step_T; eauto|exact Hh| | |exact Hi].
  - intros Hf. eapply cfailed_step; eauto.
  - intros Hv. destruct (F_reachable _ _ _ _ Hr) as (_ & _ & F3). eapply cfailed_step; eauto.
Qed.

Lemma CInv_reachable k kinds hs c :
  length hs = length kinds -> forallb never_closed hs = true -> creachable (cinit k kinds hs) c -> CInv k kinds c.
Proof.
  intros Hl Hn Hr. induction Hr as [|c c' _ IH Hs].
  - split; [apply reach_refl|]. unfold cinit, init; cbn. now apply hinv_fresh.
  - eapply CInv_step; eauto.
Qed.

Lemma hinv_all_done vs hs : hinv false vs hs -> Forall (fun v => vp v = VDone) vs -> Forall (fun h => all_closed_ok h = true) hs.
Proof.
  induction 1 as [|v vs h hs Hk _ IH]; intros Hd; [constructor|]. inversion Hd as [|? ? Hv Hd']; subst.
  constructor; [|now apply IH]. unfold hok in Hk. rewrite Hv in Hk. destruct Hk as [Hk|Hk]; [exact Hk|discriminate].
Qed.

(* THE COMBINED INVARIANT AT EXIT: status 0 => the reader reached end of input, every verb forwarded the end-of-stream
   marker, the writer finished, nothing failed, AND every handler of every manager of every verb closed ok *)
Theorem cexit0_all_handlers_closed k kinds hs c :
  length hs = length kinds -> forallb never_closed hs = true ->
  creachable (cinit k kinds hs) c -> mn (cbase c) = MExit false ->
  (rd (cbase c) = RDone /\ Forall (fun v => vp v = VDone) (cvs (ch (cbase c))) /\ wr (cbase c) = WDone
   /\ cfailed (ch (cbase c)) = false)
  /\ Forall (fun h => all_closed_ok h = true) (chs c).
Proof.
  intros Hl Hn Hr Hm. destruct (CInv_reachable _ _ _ _ Hl Hn Hr) as [Hb Hi].
  pose proof (exit0_implies_complete _ _ _ _ Hb Hm) as (A & B & C & D). split; [auto|].
  rewrite D in Hi. eapply hinv_all_done; eauto.
Qed.

(* contrapositive, in the words of the property: a handler whose close fails is never followed by exit status 0 *)
Corollary cfailing_close_never_exit0 k kinds hs c :
  length hs = length kinds -> forallb never_closed hs = true ->
  creachable (cinit k kinds hs) c ->
  Exists (fun h => all_closed_ok h = false) (chs c) -> mn (cbase c) <> MExit false.
Proof.
  intros Hl Hn Hr Hex Hm. destruct (cexit0_all_handlers_closed _ _ _ _ Hl Hn Hr Hm) as [_ Hall].
  apply Exists_exists in Hex as (h & Hin & Hh). rewrite Forall_forall in Hall. rewrite (Hall h Hin) in Hh. discriminate.
Qed.

(* every combined run projects onto a run of the skeleton: termination and no-deadlock carry over unchanged *)
Lemma creachable_base k kinds hs c : creachable (cinit k kinds hs) c -> reachable false (init k kinds) (cbase c).
Proof. induction 1 as [|c c' _ IH [Hs _]]; [apply reach_refl|eapply reach_step; eauto]. Qed.
