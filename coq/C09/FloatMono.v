(* float64(int64) of the C06 model is exact, hence strictly monotone, on the integers that binary64 represents. *)
From Miller Require Import Base.Record C06.Model C09.Model.
Open Scope Z_scope.

(* the bits of the positive double q * 2^(e-52), 2^52 <= q < 2^53 ... *)
Definition fbits (e q : Z) : Z := (e + 1023) * 2 ^ 52 + (q - 2 ^ 52).
(* ... and what it means for it to be the integer n *)
Definition repr (n e q : Z) : Prop := 0 <= e /\ 2 ^ 52 <= q < 2 ^ 53 /\ n * 2 ^ 52 = q * 2 ^ e.

Lemma repr_range n e q : repr n e q -> 2 ^ e <= n < 2 ^ (e + 1).
Proof.
  intros (He & Hq & E). assert (0 < 2 ^ e) by (apply Z.pow_pos_nonneg; lia).
  rewrite Z.pow_add_r by lia. nia.
Qed.

Lemma rpr_repr n e q : repr n e q -> e <= 63 -> round_pos_rational n 1 = Some (fbits e q).
Proof.
  intros R Hmax. pose proof (repr_range n e q R) as Hn. destruct R as (He & Hq & E).
  assert (D : exists d, 0 < d /\ (if 0 <=? e - 52 then (n, 1 * 2 ^ (e - 52)) else (n * 2 ^ (- (e - 52)), 1)) = (q * d, d)).
  { destruct (Z.leb_spec 0 (e - 52)); [exists (2 ^ (e - 52))|exists 1]; (split; [try apply Z.pow_pos_nonneg; lia|]); f_equal; try lia.
    - apply (Z.mul_cancel_r _ _ (2 ^ 52)); [lia|]. rewrite E, <- Z.mul_assoc, <- Z.pow_add_r by lia. do 2 f_equal. lia.
    - rewrite Z.mul_1_r. apply (Z.mul_cancel_r _ _ (2 ^ e)); [lia|]. rewrite <- E, <- Z.mul_assoc, <- Z.pow_add_r by lia. do 2 f_equal. lia. }
  destruct D as (d & Hd & D).
  unfold round_pos_rational. rewrite (Z.log2_unique n e) by lia. change (Z.log2 1) with 0. rewrite Z.sub_0_r. cbv zeta.
  rewrite (proj2 (Z.leb_le 0 e)), (proj2 (Z.leb_le (1 * 2 ^ e) n)), Z.max_l, D by lia. cbv iota beta.
  rewrite Z.div_mul, Z.mod_mul by lia.
  rewrite (proj2 (Z.ltb_lt (2 * 0) d)), (proj2 (Z.eqb_neq q (2 ^ 53))) by lia. cbv iota beta.
  rewrite (proj2 (Z.ltb_ge q (2 ^ 52))), (proj2 (Z.leb_gt 2047 _)) by lia. unfold fbits. do 2 f_equal. lia.
Qed.

Lemma repr_mono x y e1 e2 q1 q2 : repr x e1 q1 -> repr y e2 q2 -> x < y -> fbits e1 q1 < fbits e2 q2.
Proof.
  intros R1 R2 Hxy. pose proof (repr_range _ _ _ R1) as X. pose proof (repr_range _ _ _ R2) as Y.
  destruct R1 as (H1 & Q1 & E1), R2 as (H2 & Q2 & E2). unfold fbits.
  destruct (Z.lt_trichotomy e1 e2) as [L|[->|G]].
  - assert ((e1 + 1024) * 2 ^ 52 <= (e2 + 1023) * 2 ^ 52) by (apply Z.mul_le_mono_nonneg_r; lia). lia.
  - assert (q1 < q2); [|lia]. apply (Z.mul_lt_mono_pos_r (2 ^ e2)); [apply Z.pow_pos_nonneg; lia|]. lia.
  - assert (2 ^ (e2 + 1) <= 2 ^ e1) by (apply Z.pow_le_mono_r; lia). lia.
Qed.

Lemma log2_range n : 0 < n -> 2 ^ Z.log2 n <= n < 2 ^ (Z.log2 n + 1).
Proof. intros H. rewrite Z.add_1_r. now apply Z.log2_spec. Qed.

(* up to 2^53 every integer is represented: n = (n * 2^(52-e)) * 2^(e-52) *)
Definition enc (n e : Z) : Z := (e + 1023) * 2 ^ 52 + (n * 2 ^ (52 - e) - 2 ^ 52).

Lemma repr_enc n e : 0 <= e <= 52 -> 2 ^ e <= n < 2 ^ (e + 1) -> repr n e (n * 2 ^ (52 - e)).
Proof.
  intros He Hn. assert (P : 0 < 2 ^ (52 - e)) by (apply Z.pow_pos_nonneg; lia).
  assert (H : 2 ^ 52 = 2 ^ (52 - e) * 2 ^ e) by (rewrite <- Z.pow_add_r by lia; f_equal; lia).
  rewrite Z.pow_add_r in Hn by lia. unfold repr. nia.
Qed.
Lemma rpr_enc n e : 0 <= e <= 52 -> 2 ^ e <= n < 2 ^ (e + 1) -> round_pos_rational n 1 = Some (enc n e).
Proof. intros He Hn. apply (rpr_repr n e _ (repr_enc n e He Hn)). lia. Qed.

(* float_of_int on 1 .. 2^53 *)
Definition penc (n : Z) : Z := if n =? 2 ^ 53 then 1076 * 2 ^ 52 else enc n (Z.log2 n).

(* Beyond 2^53 an integer n with 2^e <= |n| < 2^(e+1), e >= 53, is exactly representable as a binary64 iff it is a multiple of
   2^(e-52).  [exact_int] is that predicate (all |n| <= 2^53 included); on it float64(int64) of the model is exact, hence
   strictly monotone. *)
Definition exact_int (n : Z) : bool :=
  let a := Z.abs n in
  (a <=? 2 ^ 53) || ((a <? 2 ^ 64) && (a mod 2 ^ (Z.log2 a - 52) =? 0)).

Definition benc (n e : Z) : Z := (e + 1023) * 2 ^ 52 + (n / 2 ^ (e - 52) - 2 ^ 52).

Lemma repr_benc n e : 52 <= e -> 2 ^ e <= n < 2 ^ (e + 1) -> n mod 2 ^ (e - 52) = 0 -> repr n e (n / 2 ^ (e - 52)).
Proof.
  intros He Hn Hm. assert (P : 0 < 2 ^ (e - 52)) by (apply Z.pow_pos_nonneg; lia).
  assert (H : 2 ^ e = 2 ^ (e - 52) * 2 ^ 52) by (rewrite <- Z.pow_add_r by lia; f_equal; lia).
  assert (Q : n = 2 ^ (e - 52) * (n / 2 ^ (e - 52))) by (apply Z.div_exact; lia).
  rewrite Z.pow_add_r in Hn by lia. unfold repr. nia.
Qed.

(* positive exactly-representable integers below 2^64 *)
Definition exact_pos (n : Z) : Prop := 0 < n /\ (n <= 2 ^ 53 \/ (n < 2 ^ 64 /\ n mod 2 ^ (Z.log2 n - 52) = 0)).
Definition pk (n : Z) : Z := if n <=? 2 ^ 53 then penc n else benc n (Z.log2 n).

Lemma pk_repr n : exact_pos n -> exists e q, repr n e q /\ e <= 63 /\ pk n = fbits e q.
Proof.
  intros [Hpos Hn]. pose proof (log2_range n Hpos) as Hr. pose proof (Z.log2_nonneg n) as H0. unfold pk, penc.
  destruct (Z.leb_spec n (2 ^ 53)) as [Hle|Hgt].
  - destruct (Z.eqb_spec n (2 ^ 53)) as [->|Hne]; [exists 53, (2 ^ 52); unfold repr, fbits; lia|].
    assert (Z.log2 n < 53) by (apply Z.log2_lt_pow2; lia).
    exists (Z.log2 n), (n * 2 ^ (52 - Z.log2 n)). split; [apply repr_enc; lia|split; [lia|reflexivity]].
  - destruct Hn as [Hn|[Hlt Hm]]; [lia|].
    assert (53 <= Z.log2 n) by (apply Z.log2_le_pow2; lia). assert (Z.log2 n < 64) by (apply Z.log2_lt_pow2; lia).
    exists (Z.log2 n), (n / 2 ^ (Z.log2 n - 52)). split; [apply repr_benc; lia|split; [lia|reflexivity]].
Qed.

Lemma pk_mono x y : exact_pos x -> exact_pos y -> x < y -> pk x < pk y.
Proof.
  intros Hx Hy Hxy. destruct (pk_repr x Hx) as (e1 & q1 & R1 & _ & ->). destruct (pk_repr y Hy) as (e2 & q2 & R2 & _ & ->).
  exact (repr_mono _ _ _ _ _ _ R1 R2 Hxy).
Qed.

Lemma fkey_pk n : exact_pos n -> fkey (float_of_int n) = pk n /\ fkey (float_of_int (- n)) = - pk n /\ 0 < pk n.
Proof.
  intros Hn. destruct (pk_repr n Hn) as (e & q & R & He & ->). pose proof (rpr_repr n e q R He) as Hr.
  destruct Hn as [Hpos _]. destruct R as (He0 & Hq & _).
  assert (B : 0 < fbits e q < two63) by (unfold fbits; change two63 with (2048 * 2 ^ 52); lia).
  unfold float_of_int.
  rewrite (proj2 (Z.eqb_neq n 0)), (proj2 (Z.eqb_neq (- n) 0)), (proj2 (Z.ltb_ge n 0)), (proj2 (Z.ltb_lt (- n) 0)),
    Z.abs_opp, Z.abs_eq, Hr by lia.
  unfold fkey. rewrite (proj2 (Z.ltb_lt (0 + fbits e q) two63)), (proj2 (Z.ltb_ge (two63 + fbits e q) two63)) by lia. lia.
Qed.

Lemma exact_int_pos n : exact_int n = true -> n <> 0 -> exact_pos (Z.abs n).
Proof.
  unfold exact_int, exact_pos. cbv zeta. intros H Hn. split; [lia|].
  apply orb_true_iff in H. destruct H as [H|H]; [left; apply Z.leb_le; exact H|right].
  apply andb_true_iff in H. destruct H as [H1 H2]. split; [apply Z.ltb_lt; exact H1|apply Z.eqb_eq; exact H2].
Qed.

(* the key used by the numeric comparator is strictly increasing on ALL exactly representable integers *)
Theorem float_of_int_mono_exact x y : exact_int x = true -> exact_int y = true -> x < y ->
  fkey (float_of_int x) < fkey (float_of_int y).
Proof.
  intros Ex Ey Hxy.
  (* n <> 0: the key of n is pk |n| with the sign of n *)
  assert (K : forall n, exact_int n = true -> n <> 0 ->
                exact_pos (Z.abs n) /\ 0 < pk (Z.abs n) /\ fkey (float_of_int n) = Z.sgn n * pk (Z.abs n)).
  { intros n En Hn. pose proof (exact_int_pos n En Hn) as Pn. destruct (fkey_pk _ Pn) as (K1 & K2 & K3).
    split; [exact Pn|split; [exact K3|]]. destruct (Z.abs_spec n) as [[G E]|[L E]]; rewrite E in *.
    - rewrite Z.sgn_pos by lia. lia.
    - rewrite Z.opp_involutive in K2. rewrite Z.sgn_neg by lia. lia. }
  change (fkey (float_of_int 0)) with 0 in K.
  destruct (Z.eq_dec x 0) as [->|Hx]; destruct (Z.eq_dec y 0) as [->|Hy]; try lia.
  - destruct (K y Ey Hy) as (_ & P & ->). change (fkey (float_of_int 0)) with 0. nia.
  - destruct (K x Ex Hx) as (_ & P & ->). change (fkey (float_of_int 0)) with 0. nia.
  - destruct (K x Ex Hx) as (Px & Qx & ->). destruct (K y Ey Hy) as (Py & Qy & ->).
    pose proof (pk_mono _ _ Px Py) as M1. pose proof (pk_mono _ _ Py Px) as M2. nia.
Qed.

Lemma exact_int_small n : - 2 ^ 53 <= n <= 2 ^ 53 -> exact_int n = true.
Proof. intros H. unfold exact_int. cbv zeta. apply orb_true_iff. left. apply Z.leb_le. lia. Qed.

Theorem float_of_int_mono x y : - 2 ^ 53 <= x -> y <= 2 ^ 53 -> x < y ->
  fkey (float_of_int x) < fkey (float_of_int y).
Proof. intros Hx Hy Hxy. apply float_of_int_mono_exact; [apply exact_int_small; lia..|exact Hxy]. Qed.

Example exact_int_examples :
  exact_int (2 ^ 53 + 2) = true /\ exact_int (2 ^ 53 + 1) = false /\ exact_int (2 ^ 63 - 1) = false
  /\ exact_int (- 2 ^ 63) = true /\ exact_int (2 ^ 63 - 1024) = true /\ exact_int (2 ^ 63 - 512) = false
  /\ exact_int (- (2 ^ 60 + 256)) = true /\ exact_int (2 ^ 60 + 128) = false /\ exact_int 9007199254740993 = false.
Proof. vm_compute. repeat split; reflexivity. Qed.
