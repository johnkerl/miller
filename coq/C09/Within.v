(* C09 -- sort-within-records (C09/WithinModel.v): theorems *)
From Miller Require Import Base.Record C09.Model C09.Proofs C09.StableSort C09.WithinModel.
From Coq Require Import Permutation.
Open Scope Z_scope.

Section JvInd.
  Variable P : jv -> Prop.
  Hypothesis HS : forall s, P (JS s).
  Hypothesis HA : forall l, P (JA l).
  Hypothesis HM : forall m, Forall (fun e => P (snd e)) m -> P (JM m).
  Fixpoint jv_ind2 (v : jv) : P v :=
    match v with
    | JS s => HS s
    | JA l => HA l
    | JM m => HM m ((fix go (m : list (bytes * jv)) : Forall (fun e => P (snd e)) m :=
                       match m with
                       | [] => Forall_nil _
                       | e :: t => Forall_cons e (jv_ind2 (snd e)) (go t)
                       end) m)
    end.
End JvInd.

(* leaves with their paths: what "every value unchanged" means for nested records *)
Fixpoint jflat (v : jv) : list (list bytes * jv) :=
  match v with
  | JM m => flat_map (fun e => map (fun pl => (fst e :: fst pl, snd pl)) (jflat (snd e))) m
  | _ => [([], v)]
  end.

Lemma flat_map_perm_pointwise {A B} (f g : A -> list B) l :
  Forall (fun x => Permutation (f x) (g x)) l -> Permutation (flat_map f l) (flat_map g l).
Proof. induction 1 as [|x t Hx Ht IH]; cbn [flat_map]; [reflexivity|]. now apply Permutation_app. Qed.

(* every (path, leaf) pair is kept, for ANY callback (natural order included) *)
Theorem jsort_keeps_leaves lt v : Permutation (jflat (jsort lt v)) (jflat v).
Proof.
  induction v as [s|l|m IH] using jv_ind2; try reflexivity.
  cbn [jsort jflat]. unfold sort_fields.
  rewrite (Permutation_flat_map _ (isort_perm_any (key_lt lt) (map (fun e => (fst e, jsort lt (snd e))) m))).
  rewrite flat_map_concat_map, map_map, <- flat_map_concat_map. cbn [fst snd].
  apply flat_map_perm_pointwise. eapply Forall_impl; [|exact IH]. cbn beta. intros e He. now apply Permutation_map.
Qed.

(* ascending at every level *)
Inductive jsorted : jv -> Prop :=
| jsorted_s s : jsorted (JS s)
| jsorted_a l : jsorted (JA l)
| jsorted_m m : ForallOrdPairs (fun e f => lex_cmp (fst e) (fst f) <= 0) m -> Forall (fun e => jsorted (snd e)) m -> jsorted (JM m).

Lemma sort_fields_lex_sorted {V} (m : list (bytes * V)) :
  ForallOrdPairs (fun e f => lex_cmp (fst e) (fst f) <= 0) (sort_fields lex_lt m) /\ Permutation (sort_fields lex_lt m) m.
Proof.
  pose proof (preorder_less _ _ (total_preorder_key _ (@fst bytes V) _ lex_preorder)) as [Ha Hn].
  destruct (isort_stable_sorted (key_lt lex_lt) (fun _ _ => True) _ Ha Hn m) as [Hp Hf].
  - apply Forall_forall. auto.
  - apply FOP_true.
  - split; [|exact Hp]. eapply FOP_impl; [|exact Hf]. intros e f [H _]. unfold key_lt, lex_lt in H. apply Z.ltb_ge in H.
    rewrite (lex_sym (fst e) (fst f)). lia.
Qed.

Theorem jsort_lex_sorted v : jsorted (jsort lex_lt v).
Proof.
  induction v as [s|l|m IH] using jv_ind2; try constructor.
  - apply sort_fields_lex_sorted.
  - destruct (sort_fields_lex_sorted (map (fun e => (fst e, jsort lex_lt (snd e))) m)) as [_ Hp].
    apply Forall_forall. intros e He. apply (Permutation_in _ Hp) in He. apply in_map_iff in He. destruct He as (e0 & <- & He0).
    rewrite Forall_forall in IH. exact (IH e0 He0).
Qed.
