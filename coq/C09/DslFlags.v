(* C09 -- decodeSortFlags (pkg/dsl/cst/hofs.go): the flag string of the DSL functions sort(collection, "flags").
   Every character is looked at in turn: n / f / c / t select the sort type (the LAST one wins; default numerical),
   r sets reverse, v sets by-map-value; any other character is ignored. *)
From Miller Require Import Base.Record C09.Model.
Open Scope Z_scope.

Inductive stype := TLex | TCase | TNum | TNat.
Fixpoint decode_from (s : bytes) (st : stype) (rev byv : bool) : stype * bool * bool :=
  match s with
  | [] => (st, rev, byv)
  | c :: t =>
    if Ascii.eqb c "n" then decode_from t TNum rev byv
    else if Ascii.eqb c "f" then decode_from t TLex rev byv
    else if Ascii.eqb c "c" then decode_from t TCase rev byv
    else if Ascii.eqb c "t" then decode_from t TNat rev byv
    else if Ascii.eqb c "r" then decode_from t st true byv
    else if Ascii.eqb c "v" then decode_from t st rev true
    else decode_from t st rev byv
  end.
Definition decode_sort_flags (s : bytes) : stype * bool * bool := decode_from s TNum false false.
(* the comparator of sortA / sortM the decoded flags select (C09.Model.flag_cmp) *)
Definition dsl_flag (st : stype) (rev : bool) : sflag :=
  match st, rev with
  | TLex, false => Ff | TLex, true => Fr
  | TCase, false => Dc | TCase, true => Dcr
  | TNum, false => Fnf | TNum, true => Fnr
  | TNat, false => Dt | TNat, true => Dtr
  end.
Definition dsl_flag_of (s : bytes) : sflag * bool := let '(st, rev, byv) := decode_sort_flags s in (dsl_flag st rev, byv).

Definition is_type_char (c : ascii) : bool := Ascii.eqb c "n" || Ascii.eqb c "f" || Ascii.eqb c "c" || Ascii.eqb c "t".
Definition type_of_char (c : ascii) : stype :=
  if Ascii.eqb c "n" then TNum else if Ascii.eqb c "f" then TLex else if Ascii.eqb c "c" then TCase else TNat.

Lemma decode_from_spec s : forall st rev byv,
  decode_from s st rev byv
  = (fold_left (fun st c => if is_type_char c then type_of_char c else st) s st,
     rev || existsb (fun c => Ascii.eqb c "r") s, byv || existsb (fun c => Ascii.eqb c "v") s).
Proof.
  induction s as [|c t IH]; intros st rev byv; [cbn; now rewrite !orb_false_r|].
  cbn [decode_from fold_left existsb]. unfold is_type_char, type_of_char.
  (* which of n f c t r v the character is, if any *)
  repeat match goal with |- context [Ascii.eqb c ?k] => destruct (Ascii.eqb_spec c k) as [->|_] end;
    rewrite IH; cbn; rewrite ?orb_true_r; reflexivity.
Qed.

Lemma decode_from_app s1 s2 st rev byv :
  decode_from (s1 ++ s2) st rev byv = let '(st', rev', byv') := decode_from s1 st rev byv in decode_from s2 st' rev' byv'.
Proof. rewrite !decode_from_spec, fold_left_app, !existsb_app, !orb_assoc. reflexivity. Qed.
Lemma decode_from_rev s st rev byv : snd (fst (decode_from s st rev byv)) = rev || existsb (fun c => Ascii.eqb c "r") s.
Proof. now rewrite decode_from_spec. Qed.
Lemma decode_from_byv s st rev byv : snd (decode_from s st rev byv) = byv || existsb (fun c => Ascii.eqb c "v") s.
Proof. now rewrite decode_from_spec. Qed.
Lemma type_scan_other s : forall st, forallb (fun c => negb (is_type_char c)) s = true ->
  fold_left (fun st c => if is_type_char c then type_of_char c else st) s st = st.
Proof.
  induction s as [|c t IH]; intros st H; [reflexivity|].
  cbn [forallb] in H. apply andb_true_iff in H. destruct H as [Hc Ht]. apply negb_true_iff in Hc.
  cbn [fold_left]. rewrite Hc. now apply IH.
Qed.
Lemma decode_from_type_other s st rev byv : forallb (fun c => negb (is_type_char c)) s = true ->
  fst (fst (decode_from s st rev byv)) = st.
Proof. rewrite decode_from_spec. apply type_scan_other. Qed.
Lemma decode_last_type_wins s1 c s2 : is_type_char c = true -> forallb (fun c => negb (is_type_char c)) s2 = true ->
  fst (fst (decode_sort_flags (s1 ++ c :: s2))) = type_of_char c.
Proof.
  intros Hc H2. unfold decode_sort_flags. rewrite decode_from_spec, fold_left_app. cbn [fst fold_left].
  rewrite Hc. now apply type_scan_other.
Qed.
