(* C09 -- natural order: github.com/facette/natsort Compare (C09.Model.natsort_less) IS the non-strict part "<=" of a
   three-way comparison [nat_cmp3] of the chunk lists (chunks both numeric: by value; otherwise bytewise; a proper
   prefix first), and [nat_cmp3] is a total preorder on the clean domain: texts none of whose digit runs exceeds
   2^63-1 (so that strconv.Atoi succeeds on every digit chunk). *)
From Miller Require Import Base.Record C06.Model C11.Model C09.Model C09.Proofs.
Open Scope Z_scope.

(* lexicographic three-way comparison of lists, a proper prefix first *)
Section Lcmp.
  Context {A : Type}.
  Variable c : A -> A -> Z.
  Fixpoint lcmp (la lb : list A) : Z :=
    match la, lb with
    | [], [] => 0
    | [], _ :: _ => -1
    | _ :: _, [] => 1
    | a :: ra, b :: rb => let r := c a b in if r <? 0 then -1 else if 0 <? r then 1 else lcmp ra rb
    end.

  Lemma lcmp_range la : forall lb, lcmp la lb = -1 \/ lcmp la lb = 0 \/ lcmp la lb = 1.
  Proof.
    induction la as [|a ra IH]; intros [|b rb]; cbn [lcmp]; auto. cbn zeta.
    destruct (c a b <? 0); auto. destruct (0 <? c a b); auto.
  Qed.

  Hypothesis c_refl : forall a, c a a = 0.
  Hypothesis c_sym : forall a b, c a b = - c b a.

  Lemma lcmp_refl la : lcmp la la = 0.
  Proof. induction la as [|a ra IH]; cbn [lcmp]; [reflexivity|]. cbn zeta. rewrite c_refl. cbn. exact IH. Qed.

  Lemma lcmp_sym la : forall lb, lcmp la lb = - lcmp lb la.
  Proof.
    induction la as [|a ra IH]; intros [|b rb]; cbn [lcmp]; try reflexivity.
    cbn zeta. rewrite (c_sym a b), (IH rb). apply lexstep_sym.
  Qed.

  Variable D : A -> Prop.
  Hypothesis c_trans : forall a b x, D a -> D b -> D x -> c a b <= 0 -> c b x <= 0 -> c a x <= 0.

  Lemma lcmp_trans la : forall lb lx, Forall D la -> Forall D lb -> Forall D lx ->
    lcmp la lb <= 0 -> lcmp lb lx <= 0 -> lcmp la lx <= 0.
  Proof.
    induction la as [|a ra IH]; intros [|b rb] [|x rx] Ha Hb Hx; cbn [lcmp]; try lia.
    inversion Ha as [|? ? Da Ha']; subst. inversion Hb as [|? ? Db Hb']; subst. inversion Hx as [|? ? Dx Hx']; subst.
    apply (lexstep_trans D c); [|assumption..|now apply IH].
    exact (conj (fun a _ => c_refl a) (conj (fun a b _ _ => c_sym a b) c_trans)).
  Qed.

  Lemma lcmp_preorder : total_preorder_on (Forall D) lcmp.
  Proof.
    split; [intros; apply lcmp_refl|]. split; [intros; apply lcmp_sym|].
    intros a b x. apply lcmp_trans.
  Qed.
End Lcmp.

(* the comparison natsort makes between two chunks *)
Definition chunk_cmp3 (a b : bytes) : Z :=
  match chunk_num a, chunk_num b with
  | Some x, Some y => cmpZ x y
  | _, _ => lex_cmp a b
  end.
(* a chunk as chunkify produces it on the clean domain: non-empty; a digit chunk converts (strconv.Atoi succeeds) *)
Definition good_chunk (c : bytes) : bool :=
  match c with
  | [] => false
  | d :: _ => if is_dig d then match chunk_num c with Some _ => true | None => false end else true
  end.
Definition chunks_of (s : bytes) : list bytes := chunkify (List.length s) s.
Definition clean (s : bytes) : bool := forallb good_chunk (chunks_of s).
Definition nat_cmp3 (a b : bytes) : Z := lcmp chunk_cmp3 (chunks_of a) (chunks_of b).

(* first-byte class: 0 below '0' (and the empty chunk), 1 a digit, 2 above '9' *)
Definition cls (c : bytes) : Z :=
  match c with
  | [] => 0
  | d :: _ => if (code d <? 48)%N then 0 else if (code d <=? 57)%N then 1 else 2
  end.
Definition cval (c : bytes) : Z := match chunk_num c with Some v => v | None => 0 end.
Definition ccmp (a b : bytes) : Z :=
  if cls a <? cls b then -1 else if cls b <? cls a then 1
  else if cls a =? 1 then cmpZ (cval a) (cval b) else lex_cmp a b.

Lemma is_dig_cls d t : is_dig d = true <-> cls (d :: t) = 1.
Proof.
  unfold is_dig, in_range, cle, cls. change (code "0"%char) with 48%N. change (code "9"%char) with 57%N.
  rewrite andb_true_iff, !N.leb_le.
  destruct (N.ltb_spec (code d) 48), (N.leb_spec (code d) 57); split; intros; try lia; discriminate.
Qed.
Lemma cls_range c : 0 <= cls c <= 2.
Proof. destruct c as [|d t]; cbn [cls]; [lia|]. destruct (code d <? 48)%N; [lia|]. destruct (code d <=? 57)%N; lia. Qed.

Lemma lex_cls_lt a b : cls a < cls b -> lex_cmp a b = -1.
Proof.
  destruct a as [|x a], b as [|y b]; cbn [lex_cmp]; intros H; try reflexivity.
  - cbn [cls] in H. lia.
  - pose proof (cls_range (x :: a)). change (cls []) with 0 in H. lia.
  - cbn [cls] in H.
    destruct (N.ltb_spec (code x) 48), (N.leb_spec (code x) 57), (N.ltb_spec (code y) 48), (N.leb_spec (code y) 57); try lia;
      destruct (N.ltb_spec (code x) (code y)); try reflexivity; lia.
Qed.
Lemma lex_cls_gt a b : cls b < cls a -> lex_cmp a b = 1.
Proof. intros H. rewrite lex_sym, (lex_cls_lt b a H). reflexivity. Qed.

(* numeric chunks are of class 1, and good chunks of class 1 are numeric *)
Lemma good_chunk_num c : good_chunk c = true -> match chunk_num c with Some _ => cls c = 1 | None => cls c <> 1 end.
Proof.
  destruct c as [|d t]; [discriminate|]. unfold good_chunk. pose proof (is_dig_cls d t) as C.
  destruct (chunk_num (d :: t)) eqn:E.
  - intros _. apply C. unfold chunk_num in E. now destruct (is_dig d).
  - destruct (is_dig d); [discriminate|]. intros _ H. apply C in H. discriminate.
Qed.

Lemma chunk_cmp3_ccmp a b : good_chunk a = true -> good_chunk b = true -> chunk_cmp3 a b = ccmp a b.
Proof.
  intros Ga Gb. unfold chunk_cmp3, ccmp, cval.
  pose proof (good_chunk_num a Ga) as Na. pose proof (good_chunk_num b Gb) as Nb.
  (* different classes: the bytewise comparison agrees with the classes, and at most one chunk is numeric *)
  destruct (Z.ltb_spec (cls a) (cls b)) as [H|H]; [rewrite (lex_cls_lt a b H)|].
  2: destruct (Z.ltb_spec (cls b) (cls a)) as [H'|H']; [rewrite (lex_cls_gt a b H')|].
  all: destruct (chunk_num a), (chunk_num b); try reflexivity; try lia.
  (* same class: both numeric or neither *)
  all: destruct (Z.eqb_spec (cls a) 1); reflexivity || lia.
Qed.

Lemma ccmp_refl a : ccmp a a = 0.
Proof. unfold ccmp. rewrite Z.ltb_irrefl. destruct (cls a =? 1); [apply cmpZ_refl|apply lex_refl]. Qed.
Lemma ccmp_sym a b : ccmp a b = - ccmp b a.
Proof.
  unfold ccmp. destruct (Z.ltb_spec (cls a) (cls b)), (Z.ltb_spec (cls b) (cls a)); try lia; try reflexivity.
  assert (E : cls a = cls b) by lia. rewrite E. destruct (cls b =? 1); [apply cmpZ_sym|apply lex_sym].
Qed.
Lemma ccmp_trans a b x : ccmp a b <= 0 -> ccmp b x <= 0 -> ccmp a x <= 0.
Proof.
  unfold ccmp.
  destruct (Z.ltb_spec (cls a) (cls b)), (Z.ltb_spec (cls b) (cls a)), (Z.ltb_spec (cls b) (cls x)), (Z.ltb_spec (cls x) (cls b)),
           (Z.ltb_spec (cls a) (cls x)), (Z.ltb_spec (cls x) (cls a)); try lia.
  assert (E : cls a = cls b) by lia. assert (E' : cls b = cls x) by lia. rewrite E, E'.
  destruct (cls x =? 1); [rewrite !cmpZ_le; lia|apply lex_trans].
Qed.

Lemma chunk_cmp3_refl a : chunk_cmp3 a a = 0.
Proof. unfold chunk_cmp3. destruct (chunk_num a); [apply cmpZ_refl|apply lex_refl]. Qed.
Lemma chunk_cmp3_sym a b : chunk_cmp3 a b = - chunk_cmp3 b a.
Proof. unfold chunk_cmp3. destruct (chunk_num a), (chunk_num b); try apply lex_sym. apply cmpZ_sym. Qed.
Lemma chunk_cmp3_trans a b x : good_chunk a = true -> good_chunk b = true -> good_chunk x = true ->
  chunk_cmp3 a b <= 0 -> chunk_cmp3 b x <= 0 -> chunk_cmp3 a x <= 0.
Proof. intros Ga Gb Gx. rewrite !chunk_cmp3_ccmp by assumption. apply ccmp_trans. Qed.

Lemma cmpZ_zero x y : cmpZ x y = 0 <-> x = y.
Proof. unfold cmpZ. destruct (Z.ltb_spec x y), (Z.ltb_spec y x); split; intros; try lia; discriminate. Qed.

(* the two tests natsort makes on a pair of chunks are "chunk_cmp3 = 0" and "chunk_cmp3 < 0" *)
Lemma chunk_tests a b :
  let both := match chunk_num a, chunk_num b with Some x, Some y => Some (x, y) | _, _ => None end in
  match both with Some (x, y) => x =? y | None => beqb a b end = (chunk_cmp3 a b =? 0)
  /\ match both with Some (x, y) => x <? y | None => lex_cmp a b <? 0 end = (chunk_cmp3 a b <? 0).
Proof.
  cbn zeta. unfold chunk_cmp3.
  assert (L : beqb a b = (lex_cmp a b =? 0)).
  { destruct (beqb_spec a b) as [->|Hne]; [now rewrite lex_refl|]. symmetry. apply Z.eqb_neq. intros E. now apply lex_eq in E. }
  destruct (chunk_num a) as [x|], (chunk_num b) as [y|]; try (split; [exact L|reflexivity]).
  unfold cmpZ. destruct (Z.ltb_spec x y), (Z.ltb_spec y x), (Z.eqb_spec x y); split; reflexivity || lia.
Qed.

Lemma nat_chunks_less_lcmp ca : forall cb, ca <> [] -> cb <> [] ->
  nat_chunks_less ca cb = (lcmp chunk_cmp3 ca cb <=? 0).
Proof.
  induction ca as [|a ra IH]; intros [|b rb] Ha Hb; try congruence.
  cbn [nat_chunks_less lcmp]. cbn zeta. destruct (chunk_tests a b) as [-> ->].
  destruct (Z.eqb_spec (chunk_cmp3 a b) 0) as [E|E].
  - rewrite E. cbn. destruct ra as [|a' ra']; [destruct rb; reflexivity|]. destruct rb as [|b' rb']; [reflexivity|].
    apply IH; congruence.
  - destruct (Z.ltb_spec (chunk_cmp3 a b) 0); [reflexivity|]. destruct (Z.ltb_spec 0 (chunk_cmp3 a b)); [reflexivity|lia].
Qed.

Lemma chunks_of_nil s : chunks_of s = [] <-> s = [].
Proof.
  unfold chunks_of. destruct s as [|c t]; [split; reflexivity|]. cbn [List.length chunkify].
  destruct (take_run (is_dig c) (c :: t)). split; discriminate.
Qed.

Lemma natsort_less_cmp3 a b : a <> [] -> b <> [] -> natsort_less a b = (nat_cmp3 a b <=? 0).
Proof.
  intros Ha Hb. unfold natsort_less, nat_cmp3. apply nat_chunks_less_lcmp; fold (chunks_of a); fold (chunks_of b); now rewrite chunks_of_nil.
Qed.

Lemma nat_cmp3_refl a : nat_cmp3 a a = 0.
Proof. apply lcmp_refl. exact chunk_cmp3_refl. Qed.
Lemma nat_cmp3_sym a b : nat_cmp3 a b = - nat_cmp3 b a.
Proof. apply lcmp_sym. exact chunk_cmp3_sym. Qed.
Lemma nat_cmp3_range a b : nat_cmp3 a b = -1 \/ nat_cmp3 a b = 0 \/ nat_cmp3 a b = 1.
Proof. apply lcmp_range. Qed.

Lemma nat_cmp3_preorder : total_preorder_on (fun a => clean a = true) nat_cmp3.
Proof.
  apply (total_preorder_weaken (fun a => Forall (fun c => good_chunk c = true) (chunks_of a))).
  - intros a Ha. apply Forall_forall, forallb_forall, Ha.
  - apply (total_preorder_key _ chunks_of), lcmp_preorder; [exact chunk_cmp3_refl|exact chunk_cmp3_sym|exact chunk_cmp3_trans].
Qed.

Lemma nat_cmp3_nil_l b : b <> [] -> nat_cmp3 [] b = -1.
Proof.
  intros Hb. unfold nat_cmp3. change (chunks_of []) with (@nil bytes).
  destruct (chunks_of b) eqn:E; [apply chunks_of_nil in E; congruence|reflexivity].
Qed.
Lemma nat_cmp3_nil_r a : a <> [] -> nat_cmp3 a [] = 1.
Proof. intros Ha. rewrite nat_cmp3_sym, nat_cmp3_nil_l by assumption. reflexivity. Qed.

Section Flags.
  Variable infer : bytes -> ival.
  Lemma nac_is_cmp3 a b : nac natsort_less a b = nat_cmp3 b a.
  Proof.
    unfold nac. destruct (beqb_spec a b) as [->|Hne]; [now rewrite nat_cmp3_refl|].
    destruct a as [|x a]; [destruct b as [|y b]; [congruence|]; now rewrite nat_cmp3_nil_r|].
    destruct b as [|y b]; [now rewrite nat_cmp3_nil_l|].
    rewrite !natsort_less_cmp3 by discriminate. cbn zeta.
    pose proof (nat_cmp3_sym (x :: a) (y :: b)) as S. pose proof (nat_cmp3_range (y :: b) (x :: a)) as R.
    destruct R as [R|[R|R]]; rewrite R in *; rewrite S; reflexivity.
  Qed.
  Lemma natural_flags_are_cmp3 a b :
    flag_cmp infer natsort_less Ft a b = nat_cmp3 a b /\ flag_cmp infer natsort_less Ftr a b = nat_cmp3 b a.
  Proof. cbn [flag_cmp]. now rewrite !nac_is_cmp3. Qed.

  Lemma natural_total_preorder :
    total_preorder_on (fun a => clean a = true) (flag_cmp infer natsort_less Ft)
    /\ total_preorder_on (fun a => clean a = true) (flag_cmp infer natsort_less Ftr).
  Proof.
    split; [apply (total_preorder_ext _ _ nat_cmp3)|apply (total_preorder_ext _ _ (fun a b => nat_cmp3 b a))];
      try (intros a b _ _; apply natural_flags_are_cmp3).
    - exact nat_cmp3_preorder.
    - exact (total_preorder_flip _ _ nat_cmp3_preorder).
  Qed.

  Variable exact : Z -> Prop.
  Hypothesis exact_mono : forall x y, exact x -> exact y -> x < y -> fkey (float_of_int x) < fkey (float_of_int y).
  (* the domain of all eight verb flags: numeric domain (integers exactly representable as doubles) and clean digit runs *)
  Definition sort_dom (a : bytes) : Prop := num_dom infer exact a /\ clean a = true.
  Definition verb_flags : list sflag := [Ff; Fr; Fc; Fcr; Fnf; Fnr; Ft; Ftr].

  Lemma verb_flag_preorder f : In f verb_flags -> total_preorder_on sort_dom (flag_cmp infer natsort_less f).
  Proof.
    intros Hin. cbn in Hin. destruct Hin as [<-|[<-|[<-|[<-|[<-|[<-|[<-|[<-|[]]]]]]]]];
      try (apply (total_preorder_weaken (num_dom infer exact)); [intros a [H _]; exact H|];
           apply (std_flag_preorder infer natsort_less exact exact_mono); cbn; tauto).
    - apply (total_preorder_weaken (fun a => clean a = true)); [intros a [_ H]; exact H|apply natural_total_preorder].
    - apply (total_preorder_weaken (fun a => clean a = true)); [intros a [_ H]; exact H|apply natural_total_preorder].
  Qed.
  Lemma verb_chain_preorder fl : (forall f, In f fl -> In f verb_flags) ->
    total_preorder_on (fun l => List.length l = List.length fl /\ Forall sort_dom l) (chain_cmp infer natsort_less fl).
  Proof. intros H. apply chain_preorder. intros f Hf. apply verb_flag_preorder. auto. Qed.
End Flags.
