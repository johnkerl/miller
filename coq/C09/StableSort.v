(* C09 -- stable sorting, abstractly.  sort.SliceStable is not modelled beyond its insertion-sort blocks (symMerge);
   instead: the stable sorted permutation of a list under a strict weak order is UNIQUE ([stable_sorted_unique]), so
   EVERY function that meets the contract of sort.SliceStable ("sorts ... keeping equal elements in their original
   order") returns the same list as insertion sort ([isort], C09.Model) and as the merge-sort model [msort] below,
   both of which are proved to meet the contract for lists of ANY length. *)
From Miller Require Import Base.Record C09.Model C09.Proofs.
From Coq Require Import Permutation.
Open Scope Z_scope.

Lemma FOP_app {A} (P : A -> A -> Prop) l1 l2 :
  ForallOrdPairs P (l1 ++ l2) <-> ForallOrdPairs P l1 /\ ForallOrdPairs P l2 /\ (forall x y, In x l1 -> In y l2 -> P x y).
Proof.
  induction l1 as [|a t IH]; cbn [app].
  - split; [intros H; repeat split; [constructor|exact H|intros x y []]|tauto].
  - rewrite !FOP_cons, IH. split.
    + intros (H1 & H2 & H3 & H4). repeat split; auto using in_or_app. intros x y [<-|Hx] Hy; auto using in_or_app.
    + intros ((H1 & H2) & H3 & H4). repeat split; auto; [|intros x y Hx; apply H4; cbn; auto].
      intros y Hy. apply in_app_or in Hy. destruct Hy; [auto|apply H4; cbn; auto].
Qed.
Lemma FOP_rev {A} (P : A -> A -> Prop) l : ForallOrdPairs P (rev l) <-> ForallOrdPairs (fun x y => P y x) l.
Proof.
  induction l as [|a t IH]; cbn [rev]; [split; constructor|].
  rewrite FOP_app, IH, (FOP_cons (fun x y => P y x) a t). split.
  - intros (H1 & _ & H3). split; [|exact H1]. intros y Hy. apply H3; [now apply in_rev in Hy|cbn; auto].
  - intros [Ha Ht]. repeat split; [exact Ht|repeat constructor|]. intros x y Hx [<-|[]]. apply Ha. now apply in_rev.
Qed.
Section Stable.
  Context {A : Type}.
  Variable lt : A -> A -> bool.        (* the callback: less *)
  Variable before : A -> A -> Prop.    (* x arrived before y (the verb: smaller index in the first-appearance list) *)
  Variable D : A -> Prop.              (* the elements on which the callback is a strict weak order *)
  Hypothesis lt_asym : forall a b, D a -> D b -> lt a b = true -> lt b a = false.
  (* "not less" is transitive: a <= b -> b <= c -> a <= c *)
  Hypothesis lt_negtrans : forall a b c, D a -> D b -> D c -> lt b a = false -> lt c b = false -> lt c a = false.

  (* x may stand before y: y is not less than x, and if they are equivalent x arrived first *)
  Definition may_precede (x y : A) : Prop := lt y x = false /\ (lt x y = false -> before x y).
  (* the contract of a stable sort of l (whose elements arrive in the order of l) *)
  Definition stable_sorted (l out : list A) : Prop := Permutation out l /\ ForallOrdPairs may_precede out.
  Definition arrival_ordered (l : list A) : Prop := ForallOrdPairs before l.

  Hypothesis before_asym : forall x y, before x y -> before y x -> False.
  Lemma may_precede_asym x y : D x -> D y -> may_precede x y -> may_precede y x -> False.
  Proof.
    intros Dx Dy [H1 H2] [H3 H4]. specialize (H2 H3). specialize (H4 H1). eauto.
  Qed.
  Lemma less_may_precede x y : D x -> D y -> lt x y = true -> may_precede x y.
  Proof. intros Dx Dy E. split; [exact (lt_asym x y Dx Dy E)|]. intros H. rewrite E in H. discriminate. Qed.
  Lemma stable_sorted_unique_aux o1 : forall o2, Forall D o1 -> Permutation o1 o2 ->
    ForallOrdPairs may_precede o1 -> ForallOrdPairs may_precede o2 -> o1 = o2.
  Proof.
    induction o1 as [|a t1 IH]; intros o2 Hd Hp F1 F2.
    - apply Permutation_nil in Hp. now subst.
    - destruct o2 as [|b t2]; [symmetry in Hp; apply Permutation_nil in Hp; discriminate|].
      assert (E : a = b).
      { assert (Ha : In a (b :: t2)) by (eapply Permutation_in; [exact Hp|cbn; auto]).
        assert (Hb : In b (a :: t1)) by (eapply Permutation_in; [symmetry; exact Hp|cbn; auto]).
        destruct Ha as [Ha|Ha]; [now subst|]. destruct Hb as [Hb|Hb]; [now subst|].
        exfalso. rewrite Forall_forall in Hd.
        apply (may_precede_asym a b); [apply Hd; cbn; auto..|exact (FOP_In _ _ _ F1 b Hb)|exact (FOP_In _ _ _ F2 a Ha)]. }
      subst b. f_equal.
      apply IH; [now inversion Hd|exact (Permutation_cons_inv Hp)|exact (FOP_tail _ _ _ F1)|exact (FOP_tail _ _ _ F2)].
  Qed.
  Theorem stable_sorted_unique l o1 o2 : Forall D l -> stable_sorted l o1 -> stable_sorted l o2 -> o1 = o2.
  Proof.
    intros Hd [P1 F1] [P2 F2]. apply stable_sorted_unique_aux; auto.
    - apply Forall_forall. intros x Hx. rewrite Forall_forall in Hd. apply Hd. exact (Permutation_in x P1 Hx).
    - etransitivity; [exact P1|symmetry; exact P2].
  Qed.

  Lemma ins_rev_In x rp z : In z (ins_rev lt x rp) <-> z = x \/ In z rp.
  Proof.
    induction rp as [|y rp' IH]; cbn [ins_rev].
    - cbn. intuition.
    - destruct (lt x y); cbn [In]; [rewrite IH|]; intuition.
  Qed.
  Lemma ins_rev_perm x rp : Permutation (ins_rev lt x rp) (x :: rp).
  Proof.
    induction rp as [|y rp' IH]; cbn [ins_rev]; [reflexivity|].
    destruct (lt x y); [|reflexivity]. etransitivity; [apply perm_skip, IH|apply perm_swap].
  Qed.
  (* the reversed sorted prefix: a before b in rp means b is earlier in the output *)
  Definition rp_ok (rp : list A) : Prop := ForallOrdPairs (fun a b => may_precede b a) rp.
  Lemma ins_rev_ok x rp : D x -> Forall D rp -> (forall b, In b rp -> before b x) -> rp_ok rp -> rp_ok (ins_rev lt x rp).
  Proof.
    intros Dx. induction rp as [|y rp' IH]; intros Hd Hpos Hok; cbn [ins_rev].
    - apply FOP_cons_intro; [intros ? []|constructor].
    - inversion Hd as [|? ? Dy Hd']; subst. pose proof Hd' as Hd''. rewrite Forall_forall in Hd''.
      destruct (lt x y) eqn:E.
      + apply FOP_cons_intro.
        * intros z Hz. apply ins_rev_In in Hz.
          destruct Hz as [->|Hz]; [now apply less_may_precede|exact (FOP_In _ _ _ Hok z Hz)].
        * apply IH; [exact Hd'|intros b Hb; apply Hpos; cbn; auto|eapply FOP_tail; eauto].
      + apply FOP_cons_intro; [|exact Hok].
        intros z [<-|Hz].
        * split; [exact E|]. intros _. apply Hpos. cbn. auto.
        * split.
          -- destruct (FOP_In _ _ _ Hok z Hz) as [H1 _]. apply (lt_negtrans z y x); auto.
          -- intros _. apply Hpos. cbn. auto.
  Qed.

  Lemma isort_fold_perm l : forall rp, Permutation (fold_left (fun rp x => ins_rev lt x rp) l rp) (l ++ rp).
  Proof.
    induction l as [|x t IH]; intros rp; cbn [fold_left app]; [reflexivity|].
    rewrite IH, ins_rev_perm. symmetry. apply Permutation_middle.
  Qed.
  (* isort returns a permutation WHATEVER the callback (inconsistent user comparators included) *)
  Theorem isort_perm_any l : Permutation (isort lt l) l.
  Proof. unfold isort. now rewrite <- Permutation_rev, isort_fold_perm, app_nil_r. Qed.

  Lemma isort_fold_ok l : forall rp, Forall D l -> Forall D rp -> arrival_ordered l ->
    (forall b x, In b rp -> In x l -> before b x) -> rp_ok rp -> rp_ok (fold_left (fun rp x => ins_rev lt x rp) l rp).
  Proof.
    induction l as [|x t IH]; intros rp Hl Hr Ha Hc Hok; cbn [fold_left]; [exact Hok|].
    inversion Hl as [|? ? Dx Hl']; subst. apply IH; [exact Hl'| |exact (FOP_tail _ _ _ Ha)| |].
    - apply Forall_forall. intros z Hz. apply ins_rev_In in Hz. destruct Hz as [->|Hz]; [exact Dx|]. rewrite Forall_forall in Hr. auto.
    - intros b y Hb Hy. apply ins_rev_In in Hb. destruct Hb as [->|Hb]; [exact (FOP_In _ _ _ Ha y Hy)|apply Hc; cbn; auto].
    - apply ins_rev_ok; auto. intros b Hb. apply Hc; cbn; auto.
  Qed.

  Theorem isort_stable_sorted l : Forall D l -> arrival_ordered l -> stable_sorted l (isort lt l).
  Proof.
    intros Hl Ha. split; [apply isort_perm_any|]. apply FOP_rev.
    apply isort_fold_ok; [exact Hl|constructor|exact Ha|intros b x []|constructor].
  Qed.

  (* a merge sort, top-down; stable because the right run's head is taken only when strictly less *)
  Fixpoint merge (l1 : list A) : list A -> list A :=
    fix merge_aux (l2 : list A) : list A :=
      match l1, l2 with
      | [], _ => l2
      | _, [] => l1
      | x :: t1, y :: t2 => if lt y x then y :: merge_aux t2 else x :: merge t1 l2
      end.
  Fixpoint msort (fuel : nat) (l : list A) : list A :=
    match fuel with
    | O => l
    | S f => match l with
             | [] | [_] => l
             | _ => let h := Nat.div2 (List.length l) in merge (msort f (firstn h l)) (msort f (skipn h l))
             end
    end.

  Lemma merge_perm l1 : forall l2, Permutation (merge l1 l2) (l1 ++ l2).
  Proof.
    induction l1 as [|x t1 IH1]; intros l2.
    - destruct l2; reflexivity.
    - induction l2 as [|y t2 IH2]; [cbn; now rewrite app_nil_r|].
      cbn [merge]. destruct (lt y x).
      + etransitivity; [apply perm_skip; exact IH2|]. apply (Permutation_middle (x :: t1) t2 y).
      + cbn [app]. apply perm_skip. apply IH1.
  Qed.
  Lemma merge_In l1 l2 z : In z (merge l1 l2) <-> In z l1 \/ In z l2.
  Proof.
    split.
    - intros H. apply in_app_or. eapply Permutation_in; [apply merge_perm|exact H].
    - intros H. eapply Permutation_in; [symmetry; apply merge_perm|]. now apply in_or_app.
  Qed.
  Lemma merge_ok l1 : forall l2, Forall D l1 -> Forall D l2 ->
    ForallOrdPairs may_precede l1 -> ForallOrdPairs may_precede l2 ->
    (forall a b, In a l1 -> In b l2 -> before a b) -> ForallOrdPairs may_precede (merge l1 l2).
  Proof.
    induction l1 as [|x t1 IH1]; intros l2 D1 D2 F1 F2 Hc.
    - destruct l2; exact F2.
    - induction l2 as [|y t2 IH2]; [exact F1|].
      inversion D1 as [|? ? Dx D1']; subst. inversion D2 as [|? ? Dy D2']; subst.
      pose proof D1' as E1. pose proof D2' as E2. rewrite Forall_forall in E1, E2.
      cbn [merge]. destruct (lt y x) eqn:E.
      + apply FOP_cons_intro.
        * intros z Hz. change (In z (merge (x :: t1) t2)) in Hz. apply merge_In in Hz. destruct Hz as [[<-|Hz]|Hz].
          -- now apply less_may_precede.
          -- destruct (FOP_In _ _ _ F1 z Hz) as [G1 _]. apply less_may_precede; auto.
             destruct (lt y z) eqn:L; [reflexivity|]. rewrite (lt_negtrans x z y Dx (E1 z Hz) Dy G1 L) in E. discriminate.
          -- exact (FOP_In _ _ _ F2 z Hz).
        * apply IH2; [exact D2'|eapply FOP_tail; eauto|]. intros a b Ha Hb. apply Hc; cbn; auto.
      + apply FOP_cons_intro.
        * intros z Hz. apply merge_In in Hz. destruct Hz as [Hz|[<-|Hz]].
          -- exact (FOP_In _ _ _ F1 z Hz).
          -- split; [exact E|]. intros _. apply Hc; cbn; auto.
          -- destruct (FOP_In _ _ _ F2 z Hz) as [G1 _]. split.
             ++ apply (lt_negtrans x y z); auto.
             ++ intros _. apply Hc; cbn; auto.
        * apply IH1; [exact D1'|exact D2|eapply FOP_tail; eauto|exact F2|]. intros a b Ha Hb. apply Hc; cbn; auto.
  Qed.

  Theorem msort_stable_sorted fuel : forall l, (List.length l <= fuel)%nat -> Forall D l -> arrival_ordered l -> stable_sorted l (msort fuel l).
  Proof.
    induction fuel as [|f IH]; intros l Hlen Hd Ha.
    - destruct l; [|cbn in Hlen; lia]. split; [reflexivity|constructor].
    - cbn [msort]. destruct l as [|a [|b t]]; [split; [reflexivity|constructor]|split; [reflexivity|repeat constructor]|].
      set (l := a :: b :: t) in *. set (h := Nat.div2 (List.length l)). cbn zeta.
      assert (Hh : (1 <= h < List.length l)%nat).
      { unfold h, l. cbn [List.length]. split; [cbn; lia|apply Nat.lt_div2; lia]. }
      unfold arrival_ordered in *. rewrite <- (firstn_skipn h l) in Ha, Hd.
      apply FOP_app in Ha. destruct Ha as (A1 & A2 & A3). apply Forall_app in Hd. destruct Hd as [D1 D2].
      destruct (IH (firstn h l)) as [P1 F1]; [rewrite firstn_length; lia|exact D1|exact A1|].
      destruct (IH (skipn h l)) as [P2 F2]; [rewrite skipn_length; lia|exact D2|exact A2|].
      split; [rewrite merge_perm, P1, P2; now rewrite firstn_skipn|].
      apply merge_ok; auto; [now rewrite P1|now rewrite P2|].
      intros x y Hx Hy. apply A3; eapply Permutation_in; eauto.
  Qed.

  Theorem any_stable_sort_is_isort (ssort : list A -> list A) l :
    Forall D l -> arrival_ordered l -> stable_sorted l (ssort l) -> ssort l = isort lt l.
  Proof. intros Hd Ha Hs. eapply stable_sorted_unique; eauto. now apply isort_stable_sorted. Qed.
  Theorem msort_is_isort l : Forall D l -> arrival_ordered l -> msort (List.length l) l = isort lt l.
  Proof. intros Hd Ha. apply (any_stable_sort_is_isort (msort (List.length l))); auto. apply msort_stable_sorted; auto. Qed.
End Stable.
