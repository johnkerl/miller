(* C09 -- the sort verb with ANY stable sorting function in place of sort.SliceStable: no bound on the number of groups. *)
From Miller Require Import Base.Record C06.Model C11.Model C11.Proofs C09.Model C09.Proofs C09.StableSort C09.Natural.
From Coq Require Import Permutation.
From Miller Require Import Base.RecordFacts.
Open Scope Z_scope.

(* the arrival position of a group key is its index in the first-appearance list *)
Lemma index_of_arrival l : NoDup l -> ForallOrdPairs (fun x y => (index_of x l < index_of y l)%nat) l.
Proof.
  induction 1 as [|a t Hni Hnd IH]; [constructor|].
  assert (Hne : forall y, In y t -> beqb y a = false) by (intros y Hy; apply beqb_false; congruence).
  apply FOP_cons_intro.
  - intros y Hy. cbn [index_of]. rewrite beqb_refl, (Hne y Hy). apply Nat.lt_0_succ.
  - eapply FOP_impl_in; [|exact IH]. intros x y Hx Hy Hlt. cbn [index_of]. rewrite (Hne x Hx), (Hne y Hy). apply -> Nat.succ_lt_mono. exact Hlt.
Qed.

Section Verb.
  Variable infer : bytes -> ival.
  Let nat_less := natsort_less.
  Variable exact : Z -> Prop.
  Hypothesis exact_mono : forall x y, exact x -> exact y -> x < y -> fkey (float_of_int x) < fkey (float_of_int y).

  Definition head_lt (ks : list (bytes * sflag)) (inp : list record) (g h : bytes) : bool :=
    less infer nat_less (map snd ks) (head_vals ks inp g) (head_vals ks inp h).
  Definition gpos (ks : list (bytes * sflag)) (inp : list record) (g : bytes) : nat := index_of g (dkeys (sort_keyf ks) inp).
  Definition gbefore (ks : list (bytes * sflag)) (inp : list record) (g h : bytes) : Prop := (gpos ks inp g < gpos ks inp h)%nat.
  Lemma gbefore_asym ks inp g h : gbefore ks inp g h -> gbefore ks inp h g -> False.
  Proof. unfold gbefore. lia. Qed.
  (* the verb with the sorting function [ssort] where the code calls sort.SliceStable *)
  Definition sort_with (ssort : (bytes -> bytes -> bool) -> list bytes -> list bytes) (ks : list (bytes * sflag)) (inp : list record) : list record :=
    sort_output ks inp (ssort (head_lt ks inp) (dkeys (sort_keyf ks) inp)).
  Lemma sort_model_is_sort_with ks inp : sort_model infer nat_less ks inp = sort_with (@isort bytes) ks inp.
  Proof. reflexivity. Qed.

  (* the inputs on which the flag chain is a total preorder: any of the eight flags, every sort-key value in the numeric
     comparator's domain (any float, empty, string; integers exactly representable as doubles) and without a digit run
     above 2^63-1 *)
  Definition std_keys (ks : list (bytes * sflag)) : Prop := forall f, In f (map snd ks) -> In f verb_flags.
  Definition keys_in_dom (ks : list (bytes * sflag)) (inp : list record) : Prop :=
    forall r k v, In r inp -> In k (map fst ks) -> get k r = Some v -> sort_dom infer exact v.
  Definition vdom (ks : list (bytes * sflag)) (l : list bytes) : Prop :=
    List.length l = List.length (map snd ks) /\ Forall (sort_dom infer exact) l.

  Lemma head_vals_dom ks inp g : keys_in_dom ks inp -> In g (dkeys (sort_keyf ks) inp) -> vdom ks (head_vals ks inp g).
  Proof.
    intros Hk Hg. apply dkeys_group in Hg. unfold head_vals.
    destruct (group_of (sort_keyf ks) g inp) as [|r rest] eqn:E; [congruence|].
    assert (H : In r (group_of (sort_keyf ks) g inp)) by (rewrite E; cbn; auto). apply group_of_In in H. destruct H as [Hr K].
    unfold sort_keyf, grouping_key in K. destruct (selected_values (map fst ks) r) as [vs|] eqn:S; [|discriminate].
    split; [now rewrite (selected_values_length _ _ _ S), !map_length|].
    apply Forall_forall. intros v Hv. destruct (selected_values_In _ _ _ S v Hv) as (k & Hk' & Hg'). eapply Hk; eauto.
  Qed.

  Section WithChain.
    Variable ks : list (bytes * sflag).
    Variable inp : list record.
    Hypothesis Hstd : std_keys ks.
    Hypothesis Hdom : keys_in_dom ks inp.
    Let Dg (g : bytes) : Prop := In g (dkeys (sort_keyf ks) inp).

    (* the callback compares group heads by the flag chain: a strict weak order on the groups of the input *)
    Lemma head_pre :
      total_preorder_on Dg (fun g h => chain_cmp infer nat_less (map snd ks) (head_vals ks inp g) (head_vals ks inp h)).
    Proof.
      apply (total_preorder_weaken (fun g => vdom ks (head_vals ks inp g))); [intros g; now apply head_vals_dom|].
      exact (total_preorder_key _ (head_vals ks inp) _ (verb_chain_preorder infer exact exact_mono _ Hstd)).
    Qed.
    Definition head_lt_asym := proj1 (preorder_less _ _ head_pre).
    Definition head_lt_negtrans := proj2 (preorder_less _ _ head_pre).

    Lemma dkeys_Dg : Forall Dg (dkeys (sort_keyf ks) inp).
    Proof. apply Forall_forall. auto. Qed.
    Lemma dkeys_arrival : arrival_ordered (gbefore ks inp) (dkeys (sort_keyf ks) inp).
    Proof. apply index_of_arrival. apply dkeys_NoDup. Qed.

    (* the contract of sort.SliceStable for this call *)
    Definition meets_contract (ssort : (bytes -> bytes -> bool) -> list bytes -> list bytes) : Prop :=
      stable_sorted (head_lt ks inp) (gbefore ks inp) (dkeys (sort_keyf ks) inp) (ssort (head_lt ks inp) (dkeys (sort_keyf ks) inp)).

    Theorem sort_with_any_stable_sort ssort : meets_contract ssort ->
      sort_with ssort ks inp = sort_model infer nat_less ks inp /\ sort_spec infer nat_less ks inp (sort_with ssort ks inp).
    Proof.
      intros Hc. split.
      - unfold sort_with, sort_model. f_equal.
        apply (any_stable_sort_is_isort (head_lt ks inp) (gbefore ks inp) Dg head_lt_asym head_lt_negtrans (gbefore_asym ks inp) (ssort (head_lt ks inp)));
          [exact dkeys_Dg|exact dkeys_arrival|exact Hc].
      - destruct Hc as [Hp Hf]. exists (ssort (head_lt ks inp) (dkeys (sort_keyf ks) inp)). split; [exact Hp|]. split; [reflexivity|]. split.
        + eapply FOP_impl; [|exact Hf]. intros g h [H _]. exact H.
        + eapply FOP_impl; [|exact Hf]. intros g h [_ H] E. apply H. unfold head_lt, less. rewrite E. reflexivity.
    Qed.

    Theorem isort_meets_contract : meets_contract (@isort bytes).
    Proof. apply (isort_stable_sorted (head_lt ks inp) (gbefore ks inp) Dg head_lt_asym head_lt_negtrans); [exact dkeys_Dg|exact dkeys_arrival]. Qed.
    Theorem msort_meets_contract : meets_contract (fun lt l => msort lt (List.length l) l).
    Proof.
      apply (msort_stable_sorted (head_lt ks inp) (gbefore ks inp) Dg head_lt_asym head_lt_negtrans); [lia|exact dkeys_Dg|exact dkeys_arrival].
    Qed.
  End WithChain.
End Verb.
