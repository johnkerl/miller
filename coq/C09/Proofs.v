(* C09 -- the comparators are total preorders; the sort checker accepts exactly the outputs the specification allows. *)
From Miller Require Import Base.Record C06.Model C11.Model C11.Proofs C11.Checkers C11.CheckerProofs C09.Model.
From Coq Require Import Permutation.
From Miller Require Import Base.RecordFacts.
Open Scope Z_scope.

Definition total_preorder_on {A} (D : A -> Prop) (c : A -> A -> Z) : Prop :=
  (forall a, D a -> c a a = 0)
  /\ (forall a b, D a -> D b -> c a b = - c b a)
  /\ (forall a b x, D a -> D b -> D x -> c a b <= 0 -> c b x <= 0 -> c a x <= 0).

Lemma total_preorder_total {A} (D : A -> Prop) c a b : total_preorder_on D c -> D a -> D b -> c a b <= 0 \/ c b a <= 0.
Proof. intros (_ & Hs & _) Ha Hb. rewrite (Hs a b Ha Hb). lia. Qed.

(* [c a b <? 0] is then a strict weak order *)
Lemma preorder_less {A} (D : A -> Prop) c : total_preorder_on D c ->
  (forall a b, D a -> D b -> (c a b <? 0) = true -> (c b a <? 0) = false)
  /\ (forall a b x, D a -> D b -> D x -> (c b a <? 0) = false -> (c x b <? 0) = false -> (c x a <? 0) = false).
Proof.
  intros (_ & Hs & Ht). split.
  - intros a b Ha Hb. rewrite (Hs a b Ha Hb), Z.ltb_lt, Z.ltb_ge. lia.
  - intros a b x Ha Hb Hx. rewrite !Z.ltb_ge, (Hs b a), (Hs x b), (Hs x a) by assumption.
    pose proof (Ht a b x Ha Hb Hx). lia.
Qed.

Lemma total_preorder_flip {A} (D : A -> Prop) c : total_preorder_on D c -> total_preorder_on D (fun a b => c b a).
Proof.
  intros (Hr & Hs & Ht). split; [auto|]. split; [intros a b Ha Hb; apply Hs; auto|].
  intros a b x Ha Hb Hx H1 H2. apply (Ht x b a); auto.
Qed.
Lemma total_preorder_key {A B} (D : B -> Prop) (k : A -> B) c :
  total_preorder_on D c -> total_preorder_on (fun a => D (k a)) (fun a b => c (k a) (k b)).
Proof.
  intros (Hr & Hs & Ht). split; [intros; apply Hr; auto|]. split; [intros; apply Hs; auto|].
  intros a b x Ha Hb Hx. apply Ht; auto.
Qed.
Lemma total_preorder_weaken {A} (D D' : A -> Prop) c : (forall a, D' a -> D a) -> total_preorder_on D c -> total_preorder_on D' c.
Proof. intros Hd (Hr & Hs & Ht). split; [auto|]. split; [auto|]. intros a b x Ha Hb Hx. apply Ht; auto. Qed.

Lemma total_preorder_ext {A} (D : A -> Prop) c c' :
  (forall a b, D a -> D b -> c a b = c' a b) -> total_preorder_on D c' -> total_preorder_on D c.
Proof.
  intros E (Hr & Hs & Ht). split; [|split]; [intros a Ha|intros a b Ha Hb|intros a b x Ha Hb Hx]; rewrite !E by assumption; eauto.
Qed.

Lemma total_preorder_neg {A} (D : A -> Prop) c : total_preorder_on D c -> total_preorder_on D (fun a b => - c a b).
Proof.
  intros H. apply (total_preorder_ext _ _ (fun a b => c b a)); [|now apply total_preorder_flip].
  intros a b Ha Hb. rewrite (proj1 (proj2 H) a b Ha Hb). lia.
Qed.

(* the first difference decides: r compares the heads, s the tails *)
Definition lexstep (r s : Z) : Z := if r <? 0 then -1 else if 0 <? r then 1 else s.

Lemma lexstep_sym r s : lexstep (- r) (- s) = - lexstep r s.
Proof. unfold lexstep. destruct (Z.ltb_spec r 0), (Z.ltb_spec 0 r), (Z.ltb_spec (- r) 0), (Z.ltb_spec 0 (- r)); lia. Qed.

Lemma lexstep_trans {A} (D : A -> Prop) c a b x sab sbx sax : total_preorder_on D c -> D a -> D b -> D x ->
  (sab <= 0 -> sbx <= 0 -> sax <= 0) ->
  lexstep (c a b) sab <= 0 -> lexstep (c b x) sbx <= 0 -> lexstep (c a x) sax <= 0.
Proof.
  intros (_ & Cs & Ct) Da Db Dx. unfold lexstep.
  pose proof (Cs a b Da Db). pose proof (Cs b x Db Dx). pose proof (Cs a x Da Dx).
  pose proof (Ct a b x Da Db Dx). pose proof (Ct x b a Dx Db Da).
  pose proof (Ct b x a Db Dx Da). pose proof (Ct x a b Dx Da Db).
  destruct (Z.ltb_spec (c a b) 0), (Z.ltb_spec 0 (c a b)), (Z.ltb_spec (c b x) 0), (Z.ltb_spec 0 (c b x)),
           (Z.ltb_spec (c a x) 0), (Z.ltb_spec 0 (c a x)); lia.
Qed.

Lemma cmpZ_refl a : cmpZ a a = 0.
Proof. unfold cmpZ. rewrite Z.ltb_irrefl. reflexivity. Qed.
Lemma cmpZ_sym a b : cmpZ a b = - cmpZ b a.
Proof. unfold cmpZ. destruct (Z.ltb_spec a b), (Z.ltb_spec b a); lia. Qed.
Lemma cmpZ_lt a b : a < b -> cmpZ a b = -1.
Proof. intros H. unfold cmpZ. now rewrite (proj2 (Z.ltb_lt a b) H). Qed.
Lemma cmpZ_le a b : cmpZ a b <= 0 <-> a <= b.
Proof. unfold cmpZ. destruct (Z.ltb_spec a b), (Z.ltb_spec b a); lia. Qed.
Lemma cmpZ_preorder : total_preorder_on (fun _ => True) cmpZ.
Proof.
  split; [intros; apply cmpZ_refl|]. split; [intros; apply cmpZ_sym|].
  intros a b x _ _ _. rewrite !cmpZ_le. lia.
Qed.

Lemma lex_refl a : lex_cmp a a = 0.
Proof. induction a as [|x a IH]; cbn; [reflexivity|]. now rewrite N.ltb_irrefl. Qed.
Lemma lexstep_cmpZ a b s : lexstep (cmpZ a b) s = if a <? b then -1 else if b <? a then 1 else s.
Proof. unfold lexstep, cmpZ. now destruct (a <? b), (b <? a). Qed.
Lemma lex_cons x a y b : lex_cmp (x :: a) (y :: b) = lexstep (cmpZ (Z.of_N (code x)) (Z.of_N (code y))) (lex_cmp a b).
Proof. rewrite lexstep_cmpZ. unfold Z.ltb. rewrite !N2Z.inj_compare. reflexivity. Qed.
Lemma lex_sym a : forall b, lex_cmp a b = - lex_cmp b a.
Proof.
  induction a as [|x a IH]; intros [|y b]; try reflexivity.
  rewrite !lex_cons, (cmpZ_sym (Z.of_N (code x))), (IH b). apply lexstep_sym.
Qed.
Lemma lex_range a : forall b, lex_cmp a b = -1 \/ lex_cmp a b = 0 \/ lex_cmp a b = 1.
Proof.
  induction a as [|x a IH]; intros [|y b]; cbn; auto.
  destruct (N.ltb (code x) (code y)); auto. destruct (N.ltb (code y) (code x)); auto.
Qed.
Lemma lex_eq a : forall b, lex_cmp a b = 0 -> a = b.
Proof.
  induction a as [|x a IH]; intros [|y b]; cbn; try discriminate; [reflexivity|].
  destruct (N.ltb_spec (code x) (code y)) as [H1|H1]; [discriminate|]. destruct (N.ltb_spec (code y) (code x)) as [H2|H2]; [discriminate|].
  intros H. f_equal; [apply code_inj; lia|auto].
Qed.
Lemma lex_trans a : forall b x, lex_cmp a b <= 0 -> lex_cmp b x <= 0 -> lex_cmp a x <= 0.
Proof.
  induction a as [|p a IH]; intros [|q b] [|r x]; try (cbn; lia). rewrite !lex_cons.
  apply (lexstep_trans (fun _ => True) (fun u v => cmpZ (Z.of_N (code u)) (Z.of_N (code v)))); [|exact I..|apply IH].
  exact (total_preorder_key _ _ _ cmpZ_preorder).
Qed.
Lemma lex_preorder : total_preorder_on (fun _ => True) lex_cmp.
Proof.
  split; [intros; apply lex_refl|]. split; [intros; apply lex_sym|].
  intros a b x _ _ _. apply lex_trans.
Qed.

Lemma FOP_cons {A} (P : A -> A -> Prop) a t : ForallOrdPairs P (a :: t) <-> (forall y, In y t -> P a y) /\ ForallOrdPairs P t.
Proof. rewrite <- Forall_forall. split; [intros H; now inversion H|intros [H1 H2]; now constructor]. Qed.
Lemma FOP_In {A} (P : A -> A -> Prop) a t : ForallOrdPairs P (a :: t) -> forall y, In y t -> P a y.
Proof. intros H y Hy. inversion H as [|? ? Ha _]; subst. rewrite Forall_forall in Ha. auto. Qed.
Lemma FOP_tail {A} (P : A -> A -> Prop) a t : ForallOrdPairs P (a :: t) -> ForallOrdPairs P t.
Proof. intros H. now inversion H. Qed.
Lemma FOP_cons_intro {A} (P : A -> A -> Prop) a t : (forall y, In y t -> P a y) -> ForallOrdPairs P t -> ForallOrdPairs P (a :: t).
Proof. intros H Ht. constructor; [now apply Forall_forall|exact Ht]. Qed.
Lemma FOP_impl_in {A} (P Q : A -> A -> Prop) l :
  (forall x y, In x l -> In y l -> P x y -> Q x y) -> ForallOrdPairs P l -> ForallOrdPairs Q l.
Proof.
  induction l as [|a t IH]; [constructor|]. rewrite !FOP_cons. intros H [Ha Ht]. split.
  - intros y Hy. apply H; cbn; auto.
  - apply IH; [|exact Ht]. intros x y Hx Hy. apply H; cbn; auto.
Qed.
Lemma FOP_impl {A} (P Q : A -> A -> Prop) l : (forall x y, P x y -> Q x y) -> ForallOrdPairs P l -> ForallOrdPairs Q l.
Proof. intros H. apply FOP_impl_in. auto. Qed.
Lemma FOP_true {A} (l : list A) : ForallOrdPairs (fun _ _ => True) l.
Proof. induction l; constructor; [apply Forall_forall; auto|assumption]. Qed.
Lemma FOP_adjacent {A} (P : A -> A -> Prop) l : ForallOrdPairs P l -> forall pre x y post, l = pre ++ x :: y :: post -> P x y.
Proof.
  induction 1 as [|a t Ha Ht IH]; intros [|p pre] x y post E; try discriminate; cbn [app] in E; injection E as -> ->.
  - now inversion Ha.
  - eapply IH; reflexivity.
Qed.

Lemma pairs_test_spec {A} (test : list A -> bool) (p : A -> A -> bool) (P : A -> A -> Prop) :
  test [] = true -> (forall x t, test (x :: t) = forallb (p x) t && test t) -> (forall x y, p x y = true <-> P x y) ->
  forall l, test l = true <-> ForallOrdPairs P l.
Proof.
  intros H0 Hc Hp. induction l as [|x t IH]; [split; [constructor|auto]|].
  rewrite Hc, andb_true_iff, forallb_forall, IH, FOP_cons.
  split; intros [H1 H2]; (split; [|assumption]); intros y Hy; apply Hp; auto.
Qed.
Lemma ordered_by_spec {A} (lt : A -> A -> bool) l :
  ordered_by lt l = true <-> ForallOrdPairs (fun x y => lt y x = false) l.
Proof. apply (pairs_test_spec _ (fun x y => negb (lt y x))); auto. intros x y. apply negb_true_iff. Qed.
Lemma stable_by_spec eqv (E : bytes -> bytes -> Prop) pos l : (forall x y, eqv x y = true <-> E x y) ->
  stable_by eqv pos l = true <-> ForallOrdPairs (fun x y => E x y -> (pos x < pos y)%nat) l.
Proof.
  intros HE. apply (pairs_test_spec _ (fun x y => negb (eqv x y) || (pos x <? pos y)%nat)); auto.
  intros x y. rewrite <- HE, <- Nat.ltb_lt. destruct (eqv x y), (pos x <? pos y)%nat; cbn; intuition discriminate.
Qed.
Lemma adjacent_by_spec {A} (lt : A -> A -> bool) l :
  adjacent_by lt l = true <-> (forall pre x y post, l = pre ++ x :: y :: post -> lt y x = false).
Proof.
  induction l as [|a t IH].
  - split; [intros _ pre x y post E; destruct pre; discriminate|reflexivity].
  - cbn [adjacent_by]. rewrite andb_true_iff, IH. split.
    + intros [H1 H2] [|p pre] x y post E; cbn [app] in E; injection E as -> ->.
      * now apply negb_true_iff.
      * eapply H2; reflexivity.
    + intros H. split.
      * destruct t as [|y t']; [reflexivity|]. apply negb_true_iff. apply (H [] a y t'). reflexivity.
      * intros pre x y post E. apply (H (a :: pre) x y post). cbn [app]. now rewrite E.
Qed.

(* every accepted arrangement is a permutation of the input: nothing lost, duplicated or altered *)
Lemma sort_output_perm ks inp gs :
  Permutation gs (dkeys (sort_keyf ks) inp) -> Permutation (sort_output ks inp gs) inp.
Proof.
  intros Hp. unfold sort_output, spill.
  rewrite (Permutation_flat_map (fun g => group_of (sort_keyf ks) g inp) Hp).
  rewrite groups_permutation. apply split3_perm, filter_split3.
Qed.
Lemma spill_keyless ks inp r : In r (spill ks inp) -> sort_keyf ks r = None.
Proof. intros H. apply filter_In in H. unfold has_key in H. now destruct (sort_keyf ks r); destruct H. Qed.
(* the part common to both checkers: the groups of the output are those of the input, each once, arranged as [sort_output] *)
Lemma check_groups_sound ks inp out : let gs := dkeys (sort_keyf ks) out in
  records_eqb out (sort_output ks inp gs) && (List.length gs =? List.length (dkeys (sort_keyf ks) inp))%nat
  && forallb (fun g => mem g gs) (dkeys (sort_keyf ks) inp) = true ->
  Permutation gs (dkeys (sort_keyf ks) inp) /\ out = sort_output ks inp gs.
Proof.
  cbn zeta. rewrite !andb_true_iff. intros [[H1 H2] H3]. split.
  - symmetry. apply NoDup_Permutation_bis.
    + apply dkeys_NoDup.
    + apply Nat.eqb_eq in H2. lia.
    + intros g Hg. rewrite forallb_forall in H3. apply mem_In. auto.
  - now destruct (records_eqb_spec out (sort_output ks inp (dkeys (sort_keyf ks) out))).
Qed.

Lemma dkeys_same_key_prefix keyf g xs rest : xs <> [] -> (forall r, In r xs -> keyf r = Some g) ->
  dkeys keyf (xs ++ rest) = g :: filter (fun x => negb (beqb x g)) (dkeys keyf rest).
Proof.
  induction xs as [|r t IH]; [congruence|]. intros _ Hk. cbn [app dkeys]. rewrite (Hk r (or_introl eq_refl)).
  destruct t as [|r' t'].
  - reflexivity.
  - rewrite IH by (congruence || (intros x Hx; apply Hk; cbn; auto)). cbn [filter]. rewrite beqb_refl. cbn [negb].
    f_equal. apply filter_filter_imp. auto.
Qed.
Lemma dkeys_keyless keyf l : (forall r, In r l -> keyf r = None) -> dkeys keyf l = [].
Proof.
  induction l as [|r t IH]; intros H; [reflexivity|]. cbn [dkeys]. rewrite (H r (or_introl eq_refl)). apply IH.
  intros x Hx. apply H. cbn. auto.
Qed.
Lemma dkeys_flat_groups keyf inp gs tail : NoDup gs -> (forall g, In g gs -> In g (dkeys keyf inp)) ->
  (forall r, In r tail -> keyf r = None) ->
  dkeys keyf (flat_map (fun g => group_of keyf g inp) gs ++ tail) = gs.
Proof.
  induction 1 as [|g gs Hni Hnd IH]; intros Hin Ht.
  - cbn. now apply dkeys_keyless.
  - cbn [flat_map]. rewrite <- app_assoc. rewrite (dkeys_same_key_prefix keyf g).
    + rewrite IH by (auto; intros x Hx; apply Hin; cbn; auto). f_equal. apply filter_all_true.
      intros x Hx. rewrite negb_true_iff. apply beqb_false. congruence.
    + apply dkeys_group, Hin. cbn. auto.
    + intros r Hr. now apply group_of_In in Hr.
Qed.

Section Cmp.
  Variable infer : bytes -> ival.
  Variable nat_less : bytes -> bytes -> bool.

  Lemma lexical_total_preorder :
    total_preorder_on (fun _ => True) (flag_cmp infer nat_less Ff) /\ total_preorder_on (fun _ => True) (flag_cmp infer nat_less Fr).
  Proof. split; [exact lex_preorder|exact (total_preorder_flip _ _ lex_preorder)]. Qed.

  Lemma casefold_total_preorder :
    total_preorder_on (fun _ => True) (flag_cmp infer nat_less Fc) /\ total_preorder_on (fun _ => True) (flag_cmp infer nat_less Fcr).
  Proof.
    assert (H : total_preorder_on (fun _ : bytes => True) case_cmp)
      by exact (total_preorder_key (fun _ => True) fold_text lex_cmp lex_preorder).
    split; [exact H|exact (total_preorder_flip _ _ H)].
  Qed.

  (* numeric comparator.  [exact] is any set of integers on which conversion to binary64 is strictly monotone
     (it is for |n| <= 2^53, where the conversion is exact; it is NOT for all int64: 2^53 and 2^53+1 collide). *)
  Variable exact : Z -> Prop.
  Hypothesis exact_mono : forall x y, exact x -> exact y -> x < y -> fkey (float_of_int x) < fkey (float_of_int y).

  Definition num_dom (a : bytes) : Prop := match infer a with VInt x => exact x | _ => True end.

  Inductive nv := NNum (k : Z) | NOther (s : bytes).
  Definition nview (a : bytes) : nv :=
    match infer a with VInt x => NNum (fkey (float_of_int x)) | VFloat f => NNum (fkey f) | _ => NOther a end.
  Definition nv_cmp (u v : nv) : Z :=
    match u, v with
    | NNum x, NNum y => cmpZ x y
    | NNum _, NOther _ => -1
    | NOther _, NNum _ => 1
    | NOther s, NOther t => lex_cmp s t
    end.

  Lemma cmpZ_mono x y : exact x -> exact y -> cmpZ x y = cmpZ (fkey (float_of_int x)) (fkey (float_of_int y)).
  Proof.
    intros Hx Hy. destruct (Z.lt_trichotomy x y) as [L|[->|G]].
    - now rewrite !cmpZ_lt by auto.
    - now rewrite !cmpZ_refl.
    - now rewrite (cmpZ_sym x), (cmpZ_sym (fkey _)), !cmpZ_lt by auto.
  Qed.

  Lemma num_cmp_view a b : num_dom a -> num_dom b -> num_cmp infer a b = nv_cmp (nview a) (nview b).
  Proof.
    unfold num_dom, num_cmp, nview. destruct (infer a), (infer b); cbn; intros Ha Hb; try reflexivity.
    now apply cmpZ_mono.
  Qed.

  Lemma nv_cmp_preorder : total_preorder_on (fun _ => True) nv_cmp.
  Proof.
    split; [|split].
    - intros [k|s] _; cbn; [apply cmpZ_refl|apply lex_refl].
    - intros [k|s] [k'|s'] _ _; cbn; try reflexivity; [apply cmpZ_sym|apply lex_sym].
    - intros [k|s] [k'|s'] [k2|s2] _ _ _; cbn; try lia; [rewrite !cmpZ_le; lia|apply lex_trans].
  Qed.

  Lemma numeric_total_preorder :
    total_preorder_on num_dom (flag_cmp infer nat_less Fnf) /\ total_preorder_on num_dom (flag_cmp infer nat_less Fnr).
  Proof.
    assert (H : total_preorder_on num_dom (num_cmp infer)).
    { apply (total_preorder_ext _ _ _ num_cmp_view), (total_preorder_weaken (fun _ => True)); [auto|].
      exact (total_preorder_key _ nview _ nv_cmp_preorder). }
    split; [exact H|exact (total_preorder_neg _ _ H)].
  Qed.

  (* collation: numbers (by value) before empties and strings; reversed by -nr *)
  Lemma numeric_collation a b :
    (exists n, infer a = VInt n) \/ (exists f, infer a = VFloat f) ->
    infer b = VEmpty \/ infer b = VString ->
    flag_cmp infer nat_less Fnf a b = -1 /\ flag_cmp infer nat_less Fnr a b = 1
    /\ flag_cmp infer nat_less Fnf b a = 1 /\ flag_cmp infer nat_less Fnr b a = -1.
  Proof.
    intros [[n Ha]|[f Ha]] [Hb|Hb]; cbn [flag_cmp]; unfold num_cmp; rewrite Ha, Hb; repeat split; reflexivity.
  Qed.
  Lemma numeric_void_before_string a b : infer a = VEmpty -> a = [] -> infer b = VString -> b <> [] ->
    flag_cmp infer nat_less Fnf a b = -1.
  Proof. intros Ha -> Hb Hne. cbn [flag_cmp]. unfold num_cmp. rewrite Ha, Hb. destruct b; [congruence|reflexivity]. Qed.

  (* descending flags are the ascending comparators with the arguments exchanged (the natural pair included) *)
  Lemma descending_is_flipped a b :
    flag_cmp infer nat_less Fr a b = flag_cmp infer nat_less Ff b a
    /\ flag_cmp infer nat_less Fcr a b = flag_cmp infer nat_less Fc b a
    /\ (num_dom a -> num_dom b -> flag_cmp infer nat_less Fnr a b = flag_cmp infer nat_less Fnf b a)
    /\ flag_cmp infer nat_less Ftr a b = flag_cmp infer nat_less Ft b a.
  Proof.
    repeat split; try reflexivity. intros Ha Hb. cbn [flag_cmp].
    destruct numeric_total_preorder as [(_ & Hs & _) _]. cbn [flag_cmp] in Hs. rewrite (Hs b a Hb Ha). lia.
  Qed.

  (* the sort.Slice callback over several keys: a total preorder on value tuples whenever each key's comparator is one *)
  Lemma chain_preorder (D : bytes -> Prop) fl :
    (forall f, In f fl -> total_preorder_on D (flag_cmp infer nat_less f)) ->
    total_preorder_on (fun l => List.length l = List.length fl /\ Forall D l) (chain_cmp infer nat_less fl).
  Proof.
    induction fl as [|f fl IH]; intros Hf.
    - split; [|split]; intros; destruct a; reflexivity || (cbn; lia).
    - pose proof (Hf f (or_introl eq_refl)) as Hc. destruct (IH (fun g Hg => Hf g (or_intror Hg))) as (Ir & Is & It).
      assert (T : forall l, List.length l = List.length (f :: fl) /\ Forall D l ->
                    exists x a, l = x :: a /\ D x /\ List.length a = List.length fl /\ Forall D a).
      { intros [|x a] [Hl Hd]; [discriminate|]. inversion Hd; subst. exists x, a. cbn in Hl. repeat split; auto; lia. }
      split; [|split].
      + intros l Hl. destruct (T l Hl) as (x & a & -> & Hx & Ha). cbn [chain_cmp]. cbn zeta.
        rewrite (proj1 Hc x Hx). exact (Ir a Ha).
      + intros l1 l2 H1 H2. destruct (T l1 H1) as (x & a & -> & Hx & Ha). destruct (T l2 H2) as (y & b & -> & Hy & Hb).
        cbn [chain_cmp]. cbn zeta. rewrite (proj1 (proj2 Hc) x y Hx Hy), (Is a b Ha Hb). apply lexstep_sym.
      + intros l1 l2 l3 H1 H2 H3. destruct (T l1 H1) as (x & a & -> & Hx & Ha).
        destruct (T l2 H2) as (y & b & -> & Hy & Hb). destruct (T l3 H3) as (z & c & -> & Hz & Hc').
        apply (lexstep_trans D (flag_cmp infer nat_less f)); auto. apply It; assumption.
  Qed.

  Lemma std_flag_preorder f : In f [Ff; Fr; Fc; Fcr; Fnf; Fnr] -> total_preorder_on num_dom (flag_cmp infer nat_less f).
  Proof.
    intros Hin. cbn in Hin.
    destruct Hin as [<-|[<-|[<-|[<-|[<-|[<-|[]]]]]]].
    5, 6: apply numeric_total_preorder.
    all: apply (total_preorder_weaken (fun _ => True)); [auto|].
    1, 2: apply lexical_total_preorder.
    all: apply casefold_total_preorder.
  Qed.
  Lemma std_chain_preorder fl : (forall f, In f fl -> In f [Ff; Fr; Fc; Fcr; Fnf; Fnr]) ->
    total_preorder_on (fun l => List.length l = List.length fl /\ Forall num_dom l) (chain_cmp infer nat_less fl).
  Proof. intros H. apply chain_preorder. intros f Hf. apply std_flag_preorder. auto. Qed.

  Definition sort_spec (ks : list (bytes * sflag)) (inp out : list record) : Prop :=
    exists gs,
      Permutation gs (dkeys (sort_keyf ks) inp)           (* every group exactly once *)
      /\ out = sort_output ks inp gs                        (* groups contiguous, each in input order; key-less records last, in input order *)
      /\ ForallOrdPairs (fun g h => less infer nat_less (map snd ks) (head_vals ks inp h) (head_vals ks inp g) = false) gs
      (* stable: groups whose heads compare equal under the flag chain are in first-appearance order *)
      /\ ForallOrdPairs (fun g h => chain_cmp infer nat_less (map snd ks) (head_vals ks inp g) (head_vals ks inp h) = 0 ->
                                    (index_of g (dkeys (sort_keyf ks) inp) < index_of h (dkeys (sort_keyf ks) inp))%nat) gs.

  Lemma check_sort_sound ks inp out : check_sort infer nat_less ks inp out = true -> sort_spec ks inp out.
  Proof.
    unfold check_sort. cbn zeta. rewrite andb_true_iff, (andb_true_iff _ (ordered_by _ _)). intros [[H H4] H5].
    destruct (check_groups_sound ks inp out H) as [Hp Ho].
    exists (dkeys (sort_keyf ks) out). split; [exact Hp|split; [exact Ho|split]].
    - now apply ordered_by_spec.
    - unfold check_stable in H5. eapply stable_by_spec in H5; [exact H5|]. intros g h. apply Z.eqb_eq.
  Qed.

  Lemma check_sort_complete ks inp out : sort_spec ks inp out -> check_sort infer nat_less ks inp out = true.
  Proof.
    intros (gs & Hp & -> & Ho & Hs). unfold check_sort. cbn zeta.
    assert (Hnd : NoDup gs) by (eapply Permutation_NoDup; [symmetry; exact Hp|apply dkeys_NoDup]).
    assert (Hd : dkeys (sort_keyf ks) (sort_output ks inp gs) = gs).
    { unfold sort_output. apply dkeys_flat_groups; [assumption| |apply spill_keyless].
      intros g Hg. eapply Permutation_in; eauto. }
    rewrite Hd. rewrite !andb_true_iff. repeat split.
    - destruct (records_eqb_spec (sort_output ks inp gs) (sort_output ks inp gs)); congruence.
    - apply Nat.eqb_eq. now apply Permutation_length.
    - apply forallb_forall. intros g Hg. apply mem_In. eapply Permutation_in; [symmetry; exact Hp|exact Hg].
    - now apply ordered_by_spec.
    - unfold check_stable. cbn zeta. rewrite Hd. eapply stable_by_spec; [|exact Hs]. intros g h. apply Z.eqb_eq.
  Qed.

  (* the weaker specification for callbacks that are not strict weak orders (natural-order keys) *)
  Definition sort_spec_adj (ks : list (bytes * sflag)) (inp out : list record) : Prop :=
    exists gs,
      Permutation gs (dkeys (sort_keyf ks) inp)
      /\ out = sort_output ks inp gs
      /\ (forall pre g h post, gs = pre ++ g :: h :: post ->
           less infer nat_less (map snd ks) (head_vals ks inp h) (head_vals ks inp g) = false).
  Definition top_group_spec (domax : bool) (k : Z) (x : bytes) (G O : list record) : Prop :=
    exists rest, Permutation G (O ++ rest)
      /\ Z.of_nat (List.length O) = Z.min k (Z.of_nat (List.length G))
      /\ ForallOrdPairs (fun r s => top_cmp infer domax x s r <= 0) O
      /\ (forall r o, In r rest -> In o O -> top_cmp infer domax x r o <= 0).

  Lemma check_top_group_sound domax k x G O : check_top_group infer domax k x G O = true -> top_group_spec domax k x G O.
  Proof.
    unfold check_top_group. destruct (msub O G) as [rest|] eqn:E; [|discriminate].
    rewrite !andb_true_iff. intros [[H1 H2] H3]. exists rest. split; [now apply C11.CheckerProofs.msub_sound|].
    split; [now apply Z.eqb_eq|]. split.
    - apply ordered_by_spec in H2. eapply FOP_impl; [|exact H2]. cbn beta. intros r s H. apply Z.ltb_ge. exact H.
    - intros r o Hr Ho. rewrite forallb_forall in H3. specialize (H3 r Hr). rewrite forallb_forall in H3.
      specialize (H3 o Ho). rewrite negb_true_iff in H3. now apply Z.ltb_ge.
  Qed.

End Cmp.

Inductive keys_ascending : record -> Prop :=
| ka_nil : keys_ascending []
| ka_one f : keys_ascending [f]
| ka_cons f g t : lex_cmp (fst f) (fst g) <= 0 -> keys_ascending (g :: t) -> keys_ascending (f :: g :: t).

Lemma insert_field_perm f r : Permutation (insert_field f r) (f :: r).
Proof.
  induction r as [|g t IH]; cbn [insert_field]; [reflexivity|].
  destruct (lex_cmp (fst f) (fst g) <=? 0); [reflexivity|].
  etransitivity; [apply perm_skip, IH|apply perm_swap].
Qed.
Lemma sort_within_record_perm r : Permutation (sort_within_record r) r.
Proof.
  induction r as [|f t IH]; [reflexivity|]. cbn. etransitivity; [apply insert_field_perm|]. now apply perm_skip.
Qed.
Lemma insert_field_sorted f r : keys_ascending r -> keys_ascending (insert_field f r).
Proof.
  induction 1 as [|g|g h t Hgh Hs IH]; cbn [insert_field].
  - constructor.
  - destruct (Z.leb_spec (lex_cmp (fst f) (fst g)) 0) as [H|H]; constructor; try constructor; auto.
    rewrite lex_sym. lia.
  - destruct (Z.leb_spec (lex_cmp (fst f) (fst g)) 0) as [H|H].
    + constructor; [assumption|]. constructor; assumption.
    + cbn [insert_field] in IH. destruct (Z.leb_spec (lex_cmp (fst f) (fst h)) 0) as [H2|H2].
      * constructor; [rewrite lex_sym; lia|]. exact IH.
      * constructor; [assumption|]. exact IH.
Qed.
Lemma sort_within_record_sorted r : keys_ascending (sort_within_record r).
Proof. induction r as [|f t IH]; [constructor|]. cbn. now apply insert_field_sorted. Qed.
