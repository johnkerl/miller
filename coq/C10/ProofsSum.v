(* Sums of ints stay ints -- the exact condition.  The code adds with `+` on Mlrvals
   (bifs.BIF_plus, plus_n_ii): int + int is an int unless that 64-bit addition overflows, in which case the result is
   converted to float, and float + anything is float.  So the sum of ints is an int exactly when EVERY partial sum, in
   arrival order, fits in int64; otherwise it is a float (whose exact value over Q is still the sum). *)
From Miller Require Import C10.Model C10.Verbs C10.Spec C10.ProofsAcc.
Open Scope char_scope.

Fixpoint partials_fit (acc : Z) (zs : list Z) : bool :=
  match zs with [] => true | z :: t => in64 (acc + z) && partials_fit (acc + z) t end.

Lemma ingest_sum_s1 s v : st_s1 (ingest ASum s v) = match numof v with Some x => nv_plus (st_s1 s) x | None => st_s1 s end.
Proof. cbn [ingest]. destruct (numof v); reflexivity. Qed.

Lemma sum_float_stays_float vs : forall s q, st_s1 s = F q -> exists q', st_s1 (fold_left (ingest ASum) vs s) = F q'.
Proof.
  induction vs as [|v vs IH]; intros s q Hs; cbn [fold_left]; [eauto|].
  assert (H : exists q1, st_s1 (ingest ASum s v) = F q1).
  { rewrite ingest_sum_s1, Hs. destruct (numof v) as [[z|p]|]; cbn [nv_plus]; eauto. }
  destruct H as (q1 & H1). exact (IH _ _ H1).
Qed.

Lemma sum_ints_exact vs : forall s acc, all_int (numerics vs) = true -> st_s1 s = I acc ->
  match st_s1 (fold_left (ingest ASum) vs s) with
  | I z => partials_fit acc (ints_of (numerics vs)) = true /\ z = (acc + Zsum_list (ints_of (numerics vs)))%Z
  | F _ => partials_fit acc (ints_of (numerics vs)) = false
  end.
Proof.
  induction vs as [|v vs IH]; intros s acc Hall Hs.
  - cbn [fold_left numerics flat_map ints_of partials_fit Zsum_list fold_right]. rewrite Hs. split; [reflexivity|lia].
  - rewrite numerics_cons in Hall |- *. cbn [fold_left]. pose proof (ingest_sum_s1 s v) as E. rewrite Hs in E.
    destruct (numof v) as [[z|q]|].
    + change (ints_of (I z :: numerics vs)) with (z :: ints_of (numerics vs)).
      change (all_int (I z :: numerics vs)) with (all_int (numerics vs)) in Hall.
      cbn [partials_fit]. rewrite Zsum_list_cons. cbn [nv_plus] in E. destruct (in64 (acc + z)) eqn:Hin.
      * specialize (IH _ _ Hall E). destruct (st_s1 (fold_left (ingest ASum) vs (ingest ASum s v))); cbn [andb]; [|exact IH].
        destruct IH as [IH1 IH2]. split; [exact IH1|lia].
      * destruct (sum_float_stays_float vs _ _ E) as (q' & Hq). rewrite Hq. reflexivity.
    + cbn in Hall. discriminate.
    + exact (IH _ _ Hall E).
Qed.

Lemma qs_of_all_int vs : all_int (numerics vs) = true -> Qsum_list (qs_of vs) == inject_Z (Zsum_list (ints_of (numerics vs))).
Proof.
  unfold qs_of. induction (numerics vs) as [|x xs IH]; intros Hall; [reflexivity|].
  destruct x as [z|q]; [|cbn in Hall; discriminate]. change (all_int (I z :: xs)) with (all_int xs) in Hall.
  change (ints_of (I z :: xs)) with (z :: ints_of xs). cbn [map]. rewrite Qsum_list_cons, Zsum_list_cons, IH by exact Hall.
  cbn [qof]. rewrite inject_Z_plus. reflexivity.
Qed.

(* sums of ints stay ints exactly when every partial sum fits; otherwise the sum is a float, still the exact sum over Q *)
Theorem int_sum_stays_int_iff vs : all_int (numerics vs) = true ->
  (partials_fit 0 (ints_of (numerics vs)) = true -> run_acc false ASum vs = OInt (Zsum_list (ints_of (numerics vs))))
  /\ (partials_fit 0 (ints_of (numerics vs)) = false ->
      exists q, run_acc false ASum vs = OFlt q /\ q == inject_Z (Zsum_list (ints_of (numerics vs)))).
Proof.
  intros Hall. pose proof (sum_ints_exact vs st0 0 Hall eq_refl) as H. pose proof (sum_value vs) as (q & Hq & Hsum).
  unfold run_acc in *. cbn [emit] in *. destruct (st_s1 (fold_left (ingest ASum) vs st0)) as [z|p]; cbn [oval_of_nv] in *.
  - destruct H as [Hfit ->]. split; [reflexivity|congruence].
  - split; [congruence|]. intros _. exists p. split; [reflexivity|]. cbn [oval_q] in Hq. injection Hq as <-.
    rewrite Hsum. now apply qs_of_all_int.
Qed.

(* when the magnitudes add up within int64 every partial sum fits (the sufficient condition of C10_int_sums_stay_int) *)
Lemma partials_fit_of_abs zs : forall acc,
  (Z.abs acc + Zsum_list (map Z.abs zs) <= 9223372036854775807)%Z -> partials_fit acc zs = true.
Proof.
  induction zs as [|z zs IH]; intros acc Hb; [reflexivity|]. cbn [partials_fit map] in *. rewrite Zsum_list_cons in Hb.
  pose proof (Zsum_abs_nonneg zs) as Hnn. apply andb_true_intro. split.
  - unfold in64. apply andb_true_intro. split; apply Z.leb_le; lia.
  - apply IH. lia.
Qed.

Corollary sum_ints_stay_int vs : all_int (numerics vs) = true ->
  (Zsum_list (map Z.abs (ints_of (numerics vs))) <= 9223372036854775807)%Z ->
  run_acc false ASum vs = OInt (Zsum_list (ints_of (numerics vs))).
Proof. intros Hall Hb. exact (proj1 (int_sum_stays_int_iff vs Hall) (partials_fit_of_abs _ 0%Z Hb)). Qed.

Example partials_fit_examples :
  partials_fit 0 [9223372036854775807; -5; 3]%Z = true
  /\ partials_fit 0 [9223372036854775807; 3; -5]%Z = false
  /\ run_acc false ASum [B "9223372036854775807"; B "-5"; B "3"] = OInt 9223372036854775805
  /\ run_acc false ASum [B "9223372036854775807"; B "3"; B "-5"] = OFlt (inject_Z 9223372036854775805).
Proof. vm_compute. repeat split; reflexivity. Qed.
