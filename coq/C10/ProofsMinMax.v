(* min / max over ints stay ints (the int value and the text of one of the inputs). *)
From Miller Require Import C10.Model C10.Verbs C10.Spec C10.ProofsGroup.
Open Scope Z_scope.

Definition all_ints (vs : list val) : Prop := forall v, In v vs -> exists z, classify v = NInt z.

(* min, max, minlen and maxlen keep in st_best the running extreme of one candidate per value *)
Definition is_best (a : accname) : bool := match a with AMin | AMax | AMinLen | AMaxLen => true | _ => false end.
Definition best_op (a : accname) : mv -> mv -> mv := match a with AMin | AMinLen => mv_min | _ => mv_max end.
Definition best_cand (a : accname) (v : val) : mv := match a with AMin | AMax => mv_of v | _ => MInt (utf8_len v) [] end.
(* the order in which the value kept is the least *)
Definition best_le (a : accname) (x y : Z) : Prop := match a with AMin | AMinLen => x <= y | _ => y <= x end.

Lemma best_fold a vs : is_best a = true -> forall s,
  st_best (fold_left (ingest a) vs s) = fold_left (best_op a) (map (best_cand a) vs) (st_best s).
Proof.
  intros Ha s. rewrite fold_left_map. apply (fold_left_proj st_best). intros s' v _. destruct a; try discriminate; reflexivity.
Qed.

Lemma best_only a vs : (a = AMin \/ a = AMax) -> forall s s', st_best s = st_best s' ->
  st_best (fold_left (ingest a) vs s) = st_best (fold_left (ingest a) vs s').
Proof. intros Ha s s' H. rewrite !best_fold by (destruct Ha as [ -> | -> ]; reflexivity). now rewrite H. Qed.

Lemma run_best a vs : is_best a = true ->
  run_acc false a vs = oval_of_mv (fold_left (best_op a) (map (best_cand a) vs) MAbsent).
Proof.
  intros Ha. unfold run_acc. change MAbsent with (st_best st0). rewrite <- best_fold by exact Ha.
  destruct a; try discriminate; reflexivity.
Qed.

Lemma best_le_trans a x y z : best_le a x y -> best_le a y z -> best_le a x z.
Proof. destruct a; cbn [best_le]; lia. Qed.

Lemma best_op_ints a x tx y ty : is_best a = true ->
  (best_op a (MInt x tx) (MInt y ty) = MInt x tx /\ best_le a x y)
  \/ (best_op a (MInt x tx) (MInt y ty) = MInt y ty /\ best_le a y x).
Proof.
  intros Ha. destruct a; try discriminate; cbn [best_op mv_min mv_max best_le].
  1, 3: destruct (Z.ltb_spec x y); [left|right]; (split; [reflexivity|lia]).
  all: destruct (Z.ltb_spec y x); [left|right]; (split; [reflexivity|lia]).
Qed.

(* folded over ints only, the operation returns one of them, the least in that order *)
Lemma best_of_ints a ms : is_best a = true -> (forall m, In m ms -> exists z t, m = MInt z t) -> ms <> [] ->
  exists z t, fold_left (best_op a) ms MAbsent = MInt z t /\ In (MInt z t) ms
    /\ forall z' t', In (MInt z' t') ms -> best_le a z z'.
Proof.
  intros Ha. induction ms as [|m ms IH] using rev_ind; intros Hall Hne; [congruence|].
  rewrite fold_left_app. cbn [fold_left]. destruct (Hall m) as (zm & tm & ->); [apply in_or_app; right; now left|].
  destruct ms as [|m0 ms0].
  - exists zm, tm. split; [destruct a; reflexivity|]. split; [now left|].
    intros z' t' [E|[]]. injection E as <- _. destruct a; cbn [best_le]; lia.
  - destruct IH as (z & t & -> & Hin & Hle); [intros m Hm; apply Hall, in_or_app; now left|discriminate|].
    destruct (best_op_ints a z t zm tm Ha) as [[-> L]|[-> L]].
    + exists z, t. split; [reflexivity|]. split; [apply in_or_app; now left|].
      intros z' t' Hin'. apply in_app_or in Hin'. destruct Hin' as [Hin'|[E|[]]]; [now apply (Hle z' t')|].
      injection E as <- _. exact L.
    + exists zm, tm. split; [reflexivity|]. split; [apply in_or_app; right; now left|].
      intros z' t' Hin'. apply in_app_or in Hin'. destruct Hin' as [Hin'|[E|[]]].
      * exact (best_le_trans a zm z z' L (Hle z' t' Hin')).
      * injection E as <- _. destruct a; cbn [best_le]; lia.
Qed.

Lemma mv_of_int v z t : mv_of v = MInt z t <-> t = v /\ classify v = NInt z.
Proof.
  unfold mv_of. split.
  - destruct (classify v); intros E; inversion E. now split.
  - intros [-> ->]. reflexivity.
Qed.

Theorem extreme_ints_stay_int a vs : (a = AMin \/ a = AMax) -> vs <> [] -> all_ints vs ->
  exists z t, run_acc false a vs = OInt z /\ In t vs /\ classify t = NInt z
    /\ (forall v z', In v vs -> classify v = NInt z' -> best_le a z z').
Proof.
  intros Ha Hne Hall. assert (Hb : is_best a = true) by (destruct Ha as [ -> | -> ]; reflexivity).
  assert (Hc : best_cand a = mv_of) by (destruct Ha as [ -> | -> ]; reflexivity).
  rewrite run_best, Hc by exact Hb.
  destruct (best_of_ints a (map mv_of vs) Hb) as (z & t & -> & Hin & Hle).
  - intros m Hm. apply in_map_iff in Hm. destruct Hm as (v & <- & Hv). destruct (Hall v Hv) as [z Hz].
    exists z, v. now apply mv_of_int.
  - destruct vs; [congruence|discriminate].
  - apply in_map_iff in Hin. destruct Hin as (w & E & Hw). apply mv_of_int in E. destruct E as [-> Hz].
    exists z, w. repeat split; [exact Hw|exact Hz|]. intros v z' Hv Hz'. apply (Hle z' v).
    apply in_map_iff. exists v. split; [now apply mv_of_int|exact Hv].
Qed.
