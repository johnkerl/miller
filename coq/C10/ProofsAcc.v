(* Streaming accumulators = definitions (sums, mean, variance family) over Q / Z. *)
From Miller Require Import C10.Model C10.Verbs C10.Spec.
From Coq Require Import Lqa.
Open Scope Q_scope.

Lemma qof_plus a b : qof (nv_plus a b) == qof a + qof b.
Proof.
  destruct a as [x|p], b as [y|q]; cbn [nv_plus qof]; try reflexivity.
  destruct (in64 (x + y)); cbn [qof]; [rewrite inject_Z_plus; reflexivity|reflexivity].
Qed.
Lemma qof_times a b : qof (nv_times a b) == qof a * qof b.
Proof.
  destruct a as [x|p], b as [y|q]; cbn [nv_times qof]; try reflexivity.
  destruct (Z.abs (x * y) <=? 9223372036854774784)%Z; cbn [qof]; [rewrite inject_Z_mult; reflexivity|reflexivity].
Qed.

Lemma inject_Z_nonzero n : (n <> 0)%Z -> ~ inject_Z n == 0.
Proof. intros H E. unfold Qeq, inject_Z in E. cbn in E. lia. Qed.

Lemma qof_div_int a n : (n <> 0)%Z -> qof (nv_div_int a n) == qof a / inject_Z n.
Proof.
  intros Hn. pose proof (inject_Z_nonzero n Hn) as Hq. destruct a as [x|p]; cbn [nv_div_int qof]; [|reflexivity].
  destruct (x mod n =? 0)%Z eqn:E; cbn [qof]; [|reflexivity].
  apply Z.eqb_eq in E. pose proof (Z.div_mod x n Hn) as D. rewrite E, Z.add_0_r in D.
  rewrite D at 2. rewrite inject_Z_mult. field. exact Hq.
Qed.

Definition is_moment (a : accname) : bool :=
  match a with ASum | AMean | AVar | AStddev | AMeanEB | ASkewness | AKurtosis => true | _ => false end.

Lemma Qsum_list_cons x l : Qsum_list (x :: l) = x + Qsum_list l.
Proof. reflexivity. Qed.

Lemma numerics_cons v vs : numerics (v :: vs) = match numof v with Some x => x :: numerics vs | None => numerics vs end.
Proof. unfold numerics. cbn [flat_map]. destruct (numof v); reflexivity. Qed.

(* the moment accumulators all keep the same four power sums *)
Lemma ingest_moment a s v : is_moment a = true -> ingest a s v = ingest ASum s v.
Proof. destruct a; try discriminate; reflexivity. Qed.

Lemma Qsum_list_snoc l x : Qsum_list (l ++ [x]) == Qsum_list l + x.
Proof. induction l as [|y l IH]; cbn [app]; rewrite ?Qsum_list_cons, ?IH; cbn; ring. Qed.
Lemma pow_sum_snoc k xs x : pow_sum k (xs ++ [x]) == pow_sum k xs + qpow x k.
Proof. unfold pow_sum. rewrite map_app. apply Qsum_list_snoc. Qed.

Lemma pow_sum_step k s p xs x : qof s == pow_sum k xs -> qof p == qpow x k -> qof (nv_plus s p) == pow_sum k (xs ++ [x]).
Proof. intros Hs Hp. now rewrite pow_sum_snoc, qof_plus, Hs, Hp. Qed.

Lemma moments a vs : is_moment a = true ->
  let s := fold_left (ingest a) vs st0 in
  st_count s = Z.of_nat (List.length (qs_of vs))
  /\ qof (st_s1 s) == pow_sum 1 (qs_of vs) /\ qof (st_s2 s) == pow_sum 2 (qs_of vs)
  /\ qof (st_s3 s) == pow_sum 3 (qs_of vs) /\ qof (st_s4 s) == pow_sum 4 (qs_of vs).
Proof.
  intros Ha. induction vs as [|v vs IH] using rev_ind; cbv zeta; [repeat split; reflexivity|].
  cbv zeta in IH. destruct IH as (I0 & I1 & I2 & I3 & I4).
  rewrite fold_left_app. cbn [fold_left]. rewrite (ingest_moment a _ v Ha). cbn [ingest].
  unfold qs_of, numerics in *. rewrite flat_map_app, map_app. cbn [flat_map].
  destruct (numof v) as [x|]; cbn [app map]; [|rewrite !app_nil_r; repeat split; assumption].
  cbv zeta. cbn [st_count st_s1 st_s2 st_s3 st_s4].
  rewrite app_length, I0. cbn [List.length].
  repeat split; [lia|..]; (apply pow_sum_step; [assumption|rewrite ?qof_times; cbn [qpow]; ring]).
Qed.

Lemma pow_sum_1 xs : pow_sum 1 xs == Qsum_list xs.
Proof. unfold pow_sum. induction xs as [|x xs IH]; cbn [map]; [reflexivity|]. rewrite !Qsum_list_cons, IH. cbn [qpow]. ring. Qed.

Definition oval_q (o : oval) : option Q := match o with OInt z => Some (inject_Z z) | OFlt q => Some q | _ => None end.

Lemma oval_q_of_nv x : oval_q (oval_of_nv x) = Some (qof x).
Proof. now destruct x. Qed.

Theorem sum_value vs : exists q, oval_q (run_acc false ASum vs) = Some q /\ q == Qsum_list (qs_of vs).
Proof.
  destruct (moments ASum vs eq_refl) as (_ & I1 & _). eexists. split; [apply oval_q_of_nv|].
  rewrite I1. apply pow_sum_1.
Qed.

Lemma Zsum_abs_nonneg zs : (0 <= Zsum_list (map Z.abs zs))%Z.
Proof. induction zs as [|z zs IH]; cbn [map]; [cbn; lia|]. change (Zsum_list (Z.abs z :: map Z.abs zs)) with (Z.abs z + Zsum_list (map Z.abs zs))%Z. lia. Qed.

Lemma Zsum_list_cons z zs : Zsum_list (z :: zs) = (z + Zsum_list zs)%Z.
Proof. reflexivity. Qed.

Theorem mean_value vs : qs_of vs <> [] ->
  exists q, oval_q (run_acc false AMean vs) = Some q /\ q == mean_def (qs_of vs).
Proof.
  intros Hne. destruct (moments AMean vs eq_refl) as (I0 & I1 & _). unfold run_acc. cbn [emit].
  set (s := fold_left (ingest AMean) vs st0) in *.
  assert (Hn : (st_count s <> 0)%Z) by (rewrite I0; destruct (qs_of vs); [congruence|cbn; lia]).
  apply Z.eqb_neq in Hn as Hn'. rewrite Hn'. eexists. split; [apply oval_q_of_nv|].
  rewrite (qof_div_int _ _ Hn), I1, I0. unfold mean_def. now rewrite pow_sum_1.
Qed.
Theorem mean_empty vs : qs_of vs = [] -> run_acc false AMean vs = OVoid.
Proof.
  intros He. destruct (moments AMean vs eq_refl) as (I0 & _). unfold run_acc. cbn [emit]. rewrite I0, He. reflexivity.
Qed.

Lemma inject_Z_succ n : inject_Z (Z.of_nat (S n)) == inject_Z (Z.of_nat n) + 1.
Proof. rewrite Nat2Z.inj_succ. unfold Z.succ. rewrite inject_Z_plus. reflexivity. Qed.

Lemma Qsum_list_map_ext (f g : Q -> Q) l : (forall x, f x == g x) -> Qsum_list (map f l) == Qsum_list (map g l).
Proof.
  intros H. induction l as [|x l IH]; cbn [map]; [reflexivity|]. rewrite !Qsum_list_cons, IH, (H x). reflexivity.
Qed.

Lemma dev_sums xs m :
  let n := inject_Z (Z.of_nat (List.length xs)) in
  Qsum_list (map (fun x => qpow (x - m) 2) xs) == pow_sum 2 xs - 2 * m * pow_sum 1 xs + n * m * m
  /\ Qsum_list (map (fun x => qpow (x - m) 3) xs)
     == pow_sum 3 xs - 3 * m * pow_sum 2 xs + 3 * m * m * pow_sum 1 xs - n * m * m * m
  /\ Qsum_list (map (fun x => qpow (x - m) 4) xs)
     == pow_sum 4 xs - 4 * m * pow_sum 3 xs + 6 * m * m * pow_sum 2 xs - 4 * m * m * m * pow_sum 1 xs
        + n * m * m * m * m.
Proof.
  cbv zeta. unfold pow_sum. induction xs as [|x xs (IH2 & IH3 & IH4)]; cbn [map List.length].
  - cbn [Qsum_list fold_right Z.of_nat]. unfold inject_Z. repeat split; ring.
  - rewrite !Qsum_list_cons, IH2, IH3, IH4, inject_Z_succ. cbn [qpow]. repeat split; ring.
Qed.

Lemma len_nonzero (xs : list Q) : xs <> [] -> ~ inject_Z (Z.of_nat (List.length xs)) == 0.
Proof. intros Hne. apply inject_Z_nonzero. destruct xs; [congruence|cbn [List.length]; lia]. Qed.

(* the code's expressions, with mean = s1/n, ARE the central moment sums *)
Lemma central_eqs xs : xs <> [] ->
  let fn := inject_Z (Z.of_nat (List.length xs)) in let mean := pow_sum 1 xs / fn in
  central 2 xs == pow_sum 2 xs - fn * mean * mean
  /\ central 3 xs == pow_sum 3 xs - mean * (3 * pow_sum 2 xs - 2 * fn * mean * mean)
  /\ central 4 xs == pow_sum 4 xs - mean * (4 * pow_sum 3 xs - mean * (6 * pow_sum 2 xs - 3 * fn * mean * mean)).
Proof.
  intros Hne fn mean. pose proof (len_nonzero xs Hne) as Hn. fold fn in Hn.
  destruct (dev_sums xs (mean_def xs)) as (D2 & D3 & D4). fold fn in D2, D3, D4.
  unfold central. rewrite D2, D3, D4. unfold mean_def. rewrite <- (pow_sum_1 xs). fold fn. subst mean.
  repeat split; field; exact Hn.
Qed.

Lemma sumsq_nonneg xs m : 0 <= Qsum_list (map (fun x => qpow (x - m) 2) xs).
Proof.
  induction xs as [|x xs IH]; cbn [map]; [cbn; lra|]. rewrite Qsum_list_cons.
  assert (0 <= qpow (x - m) 2) by (cbn [qpow]; destruct (Qlt_le_dec (x - m) 0); nra). lra.
Qed.

Lemma var_def_central xs : var_def xs == central 2 xs / inject_Z (Z.of_nat (List.length xs) - 1).
Proof.
  unfold var_def, central. apply Qdiv_comp; [|reflexivity]. apply Qsum_list_map_ext. intros x. cbn [qpow]. ring.
Qed.

(* the code's numerator sum2 - mean*(2*sum - n*mean) IS sum (x-mean)^2; the round-off clamp never fires over Q *)
Lemma var_numerator_def xs s1 s2 : xs <> [] -> s1 == pow_sum 1 xs -> s2 == pow_sum 2 xs ->
  var_numerator (Z.of_nat (List.length xs)) s1 s2 == central 2 xs.
Proof.
  intros Hne H1 H2. unfold var_numerator. destruct (central_eqs xs Hne) as (C2 & _). cbv zeta in C2.
  set (n := inject_Z (Z.of_nat (List.length xs))) in *.
  assert (E : s2 - s1 / n * (2 * s1 - n * (s1 / n)) == central 2 xs) by (rewrite C2, H1, H2; field; now apply len_nonzero).
  destruct (Qle_bool 0 _) eqn:B; [exact E|].
  exfalso. pose proof (sumsq_nonneg xs (mean_def xs)) as Hle. fold (central 2 xs) in Hle. rewrite <- E in Hle.
  apply Qle_bool_iff in Hle. congruence.
Qed.

Theorem finalize_var_def a vs : is_moment a = true -> (2 <= List.length (qs_of vs))%nat ->
  let s := fold_left (ingest a) vs st0 in
  exists q, finalize_var (st_count s) (qof (st_s1 s)) (qof (st_s2 s)) = Some q /\ q == var_def (qs_of vs).
Proof.
  intros Ha Hlen. destruct (moments a vs Ha) as (I0 & I1 & I2 & _). cbv zeta.
  set (s := fold_left (ingest a) vs st0) in *. unfold finalize_var. rewrite I0.
  destruct (Z.of_nat (List.length (qs_of vs)) <? 2)%Z eqn:E; [lia|]. eexists. split; [reflexivity|].
  rewrite var_def_central, var_numerator_def; [reflexivity|destruct (qs_of vs); [cbn in Hlen; lia|congruence]|exact I1|exact I2].
Qed.

Theorem var_stream_eq_def vs : (2 <= List.length (qs_of vs))%nat ->
  exists q, run_acc false AVar vs = OFlt q /\ q == var_def (qs_of vs).
Proof.
  intros H. destruct (finalize_var_def AVar vs eq_refl H) as (q & E & Hq). exists q. split; [|exact Hq].
  unfold run_acc. cbn [emit]. now rewrite E.
Qed.
Theorem stddev_stream_eq_def vs : (2 <= List.length (qs_of vs))%nat ->
  exists q, run_acc false AStddev vs = OSqrt q /\ q == var_def (qs_of vs).
Proof.
  intros H. destruct (finalize_var_def AStddev vs eq_refl H) as (q & E & Hq). exists q. split; [|exact Hq].
  unfold run_acc. cbn [emit]. now rewrite E.
Qed.
Theorem meaneb_stream_eq_def vs : (2 <= List.length (qs_of vs))%nat ->
  exists q, run_acc false AMeanEB vs = OSqrt q /\ q == var_def (qs_of vs) / inject_Z (Z.of_nat (List.length (qs_of vs))).
Proof.
  intros H. destruct (finalize_var_def AMeanEB vs eq_refl H) as (q & E & Hq).
  destruct (moments AMeanEB vs eq_refl) as (I0 & _).
  eexists. split; [unfold run_acc; cbn [emit]; rewrite E; reflexivity|]. rewrite I0, Hq. reflexivity.
Qed.
Theorem var_too_few vs : (List.length (qs_of vs) < 2)%nat -> run_acc false AVar vs = OVoid.
Proof.
  intros H. destruct (moments AVar vs eq_refl) as (I0 & _). unfold run_acc. cbn [emit]. unfold finalize_var. rewrite I0.
  destruct (Z.of_nat (List.length (qs_of vs)) <? 2)%Z eqn:E; [reflexivity|lia].
Qed.
