(* histogram, count-similar, uniq / count-distinct, count-distinct -u, top: each cell is the fold
   over exactly the values (records) of its group, and the verb output is the definitional recomputation. *)
From Miller Require Import C10.Model C10.Verbs C10.Verbs2 C10.Spec C10.ProofsGroup C10.ProofsPctl C10.ProofsAcc C10.Proofs C10.ProofsCells.
From Coq Require Import Permutation.
From Miller Require Import Base.RecordFacts.
Open Scope char_scope.

Definition hist_step (lo hi : Q) (nbins : Z) (cs : list Z) (v : Q) : list Z :=
  match hist_bin lo hi nbins v with Some i => if (i <? 0)%Z then cs else incr_nth (Z.to_nat i) cs | None => cs end.
Definition hist_cu (lo hi : Q) (nbins : Z) (o : option (list Z)) (v : val) : option (list Z) :=
  match numof v with
  | None => None
  | Some x => match hist_bin lo hi nbins (qof x), o with
              | Some i, Some cs => if (i <? 0)%Z then None else Some (incr_nth (Z.to_nat i) cs)
              | _, _ => None
              end
  end.

Lemma hist_ingest_cells lo hi nbins fs counts r : hist_ingest lo hi nbins fs counts r = cell_rec (hist_cu lo hi nbins) fs counts r.
Proof.
  unfold hist_ingest, cell_rec. apply fold_left_ext. intros m f. unfold ostep, hist_cu.
  destruct (get f r) as [v|]; [|reflexivity]. destruct (numof v) as [x|]; [|reflexivity].
  destruct (hist_bin lo hi nbins (qof x)) as [i|]; [|reflexivity]. destruct (oget f m); [|reflexivity].
  destruct (i <? 0)%Z; reflexivity.
Qed.

Lemma hist_init_get (z : list Z) fs f : NoDup fs -> In f fs -> oget f (fold_left (fun m f => oput f z m) fs []) = Some z.
Proof.
  intros Hnd Hin.
  rewrite (fold_left_ext (fun m f => oput f z m) (ostep (fun _ _ => Some z))) by reflexivity.
  rewrite fold_oput_get by exact Hnd. apply mem_In in Hin. now rewrite Hin.
Qed.

Lemma hist_fold_values lo hi nbins vs : forall cs,
  fold_left (cell_upd (hist_cu lo hi nbins)) vs (Some cs) = Some (fold_left (hist_step lo hi nbins) (qs_of vs) cs).
Proof.
  induction vs as [|v vs IH]; intros cs; [reflexivity|]. cbn [fold_left]. unfold qs_of. rewrite numerics_cons.
  unfold cell_upd at 2, hist_cu. destruct (numof v) as [x|]; [|apply IH]. cbn [map fold_left]. unfold hist_step at 2.
  destruct (hist_bin lo hi nbins (qof x)) as [i|]; [|apply IH]. destruct (i <? 0)%Z; apply IH.
Qed.

(* the counts kept for value field f are the bin counts of exactly the numeric values of f carried by the records *)
Theorem histogram_cell lo hi nbins fs rs f : NoDup fs -> In f fs ->
  oget f (hist_counts lo hi nbins fs rs)
  = Some (fold_left (hist_step lo hi nbins) (qs_of (values_of f rs)) (repeat 0%Z (Z.to_nat nbins))).
Proof.
  intros Hnd Hin. unfold hist_counts.
  rewrite (fold_left_ext (hist_ingest lo hi nbins fs) (cell_rec (hist_cu lo hi nbins) fs)) by (intros; apply hist_ingest_cells).
  rewrite (cells_get (hist_cu lo hi nbins) fs f Hnd Hin), hist_init_get by assumption. apply hist_fold_values.
Qed.

(* the records come out grouped, groups in first-appearance order, each record with the size of its group appended *)
Theorem count_similar_equals_definition gs out rs :
  verb_count_similar gs out rs
  = flat_map (fun k => map (fun r => oput out (OInt (Z.of_nat (List.length (members (group_key gs) k rs)))) (otext_rec r))
                           (members (group_key gs) k rs))
             (first_keys (group_key gs) rs).
Proof.
  unfold verb_count_similar. rewrite gfold_spec, (spec_groups_map _ _ _ (fun k => members (group_key gs) k rs)).
  - now rewrite flat_map_concat_map, map_map, <- flat_map_concat_map.
  - intros k r0 rest E. rewrite E. apply fold_snoc.
Qed.

Theorem count_similar_emits_every_contributing_record gs out rs :
  List.length (verb_count_similar gs out rs) = List.length (filter (has_key (group_key gs)) rs).
Proof.
  unfold verb_count_similar. cbv zeta. apply Nat2Z.inj.
  rewrite <- (gfold_weight (group_key gs) (fun _ => []) (fun s r => s ++ [r]) (fun l => Z.of_nat (List.length l)) rs).
  - induction (gfold _ _ _ rs) as [|e m IH]; [reflexivity|]. cbn [flat_map wtotal fold_right].
    rewrite app_length, map_length, Nat2Z.inj_add. f_equal. exact IH.
  - reflexivity.
  - intros s r. rewrite app_length. cbn [List.length]. lia.
Qed.

Definition first_sel (gs : list bytes) (ms : list record) : list bytes :=
  match ms with r0 :: _ => match selected gs r0 with Some vs => vs | None => [] end | [] => [] end.

(* the whole state of count / uniq / count-distinct / most-frequent: per group (first-appearance order) the group-by
   texts of its first member and the number of its members *)
Theorem count_groups_entries gs rs :
  count_groups gs rs
  = map (fun k => (k, (first_sel gs (members (group_key gs) k rs), Z.of_nat (List.length (members (group_key gs) k rs)))))
        (first_keys (group_key gs) rs).
Proof.
  unfold count_groups. rewrite gfold_spec. apply spec_groups_map. intros k r0 rest E. now rewrite E, count_fold.
Qed.

Theorem uniq_equals_definition gs show_counts only_n out rs :
  verb_uniq gs show_counts only_n out rs
  = if only_n then [[(B "count", OInt (Z.of_nat (List.length (first_keys (group_key gs) rs))))]]
    else map (fun k => put_all (group_fields gs (first_sel gs (members (group_key gs) k rs))
                                ++ (if show_counts then [(out, OInt (Z.of_nat (List.length (members (group_key gs) k rs))))] else [])) [])
             (first_keys (group_key gs) rs).
Proof.
  unfold verb_uniq. rewrite count_groups_entries. destruct only_n.
  - now rewrite map_length.
  - rewrite map_map. reflexivity.
Qed.

Definition dfl_cm (o : option (omap Z)) : omap Z := match o with Some cm => cm | None => [] end.

(* per listed field, the counts by value text of exactly the values of that field, first-seen order (the counts map is
   the one of C10_counts_by_value_equal_occurrences) *)
Theorem count_distinct_u_cell fs f rs : NoDup fs -> In f fs ->
  dfl_cm (oget f (fold_left (unlashed_step fs) rs [])) = fold_left (fun cm v => cm_incr v cm) (values_of f rs) [].
Proof.
  intros Hnd Hin. apply (fold_cell (fun m => dfl_cm (oget f m)) (get f) _ (fun cm v => cm_incr v cm)). intros m r _.
  unfold unlashed_step.
  rewrite (fold_oput_get (fun f o => Some (match get f r with Some v => cm_incr v (dfl_cm o) | None => dfl_cm o end))) by exact Hnd.
  apply mem_In in Hin. rewrite Hin. now destruct (get f r).
Qed.

Definition top_cu (n : nat) (domax : bool) (o : option (list val)) (v : val) : option (list val) :=
  Some (top_add n domax v (match o with Some l => l | None => [] end)).
Definition top_key (fs gs : list bytes) (r : record) : option bytes :=
  match selected fs r with Some _ => group_key gs r | None => None end.
Definition top_groups (n : nat) (domax : bool) (fs gs : list bytes) (rs : list record) : omap (list bytes * omap (list val)) :=
  gfold (top_key fs gs)
        (fun r => (match selected gs r with Some vs => vs | None => [] end, []))
        (fun (s : list bytes * omap (list val)) r => (fst s, cell_rec (top_cu n domax) fs (snd s) r)) rs.

Lemma verb_top_groups n domax out fs gs rs :
  verb_top n domax out fs gs rs
  = flat_map (fun e : bytes * (list bytes * omap (list val)) =>
              map (fun i =>
                     fold_left (fun o fl => oput ((fst fl) ++ B "_top")%list
                                                 (match nth_error (snd fl) i with Some v => oval_of_val v | None => OText [] end)
                                                 (oput out (OInt (Z.of_nat i + 1)) o))
                               (snd (snd e)) (put_all (group_fields gs (fst (snd e))) []))
                  (seq 0 n)) (top_groups n domax fs gs rs).
Proof.
  unfold verb_top, top_groups, gfold. cbv zeta. apply f_equal, fold_left_ext. intros m r. unfold gstep, top_key.
  destruct (match selected fs r with Some _ => group_key gs r | None => None end) as [k|]; [|reflexivity].
  f_equal. f_equal. unfold cell_rec. apply fold_left_ext. intros m0 f. unfold ostep, top_cu. destruct (get f r); reflexivity.
Qed.

(* keeping only the best n at every step = the best n of all *)
Lemma firstn_top_insert better n x : forall l, firstn n (top_insert better x (firstn n l)) = firstn n (top_insert better x l).
Proof.
  induction n as [|n IH]; intros l; [reflexivity|]. destruct l as [|y l]; [reflexivity|].
  rewrite firstn_cons. cbn [top_insert]. destruct (better x y).
  - rewrite !firstn_cons. f_equal. destruct n as [|n']; [reflexivity|]. rewrite !firstn_cons. f_equal.
    rewrite firstn_firstn. f_equal. lia.
  - rewrite !firstn_cons. f_equal. apply IH.
Qed.

Definition top_better (domax : bool) (a b : val) : bool := if domax then val_lt b a else val_lt a b.
(* all the values, best first (insertion sort as TopKeeper.Add orders them) *)
Definition top_sorted (domax : bool) (vs : list val) : list val :=
  fold_left (fun l v => top_insert (top_better domax) v l) vs [].

Lemma top_add_fold n domax vs : forall l,
  fold_left (fun l v => top_add n domax v l) vs (firstn n l)
  = firstn n (fold_left (fun l v => top_insert (top_better domax) v l) vs l).
Proof.
  induction vs as [|v vs IH]; intros l; [reflexivity|]. cbn [fold_left]. unfold top_add at 2.
  fold (top_better domax). rewrite firstn_top_insert. apply IH.
Qed.

Lemma top_insert_perm better x l : Permutation (top_insert better x l) (x :: l).
Proof.
  induction l as [|y l IH]; [apply Permutation_refl|]. cbn [top_insert]. destruct (better x y); [apply Permutation_refl|].
  eapply Permutation_trans; [apply perm_skip, IH|apply perm_swap].
Qed.
Lemma top_sorted_perm domax vs : Permutation (top_sorted domax vs) vs.
Proof. exact (fold_insert_perm _ (top_insert_perm _) vs []). Qed.

(* top: the list kept for (group k, field f) is the best n of exactly the values of f carried by the members of k
   (members: the records having every group-by AND every value field) *)
Theorem top_cell n domax fs gs rs k f : NoDup fs -> In f fs ->
  match oget k (top_groups n domax fs gs rs) with Some s => oget f (snd s) | None => None end
  = match values_of f (members (top_key fs gs) k rs) with
    | [] => None
    | vs => Some (firstn n (top_sorted domax vs))
    end.
Proof.
  intros Hnd Hin. unfold top_groups. rewrite oget_gfold. unfold group_state.
  destruct (members (top_key fs gs) k rs) as [|r0 rest]; [reflexivity|].
  rewrite fold_left_snd. cbn [snd]. rewrite (cells_get (top_cu n domax) fs f Hnd Hin). cbn [oget].
  etransitivity; [exact (fold_some (fun l v => top_add n domax v l) [] _ None)|].
  destruct (values_of f (r0 :: rest)) as [|v vs]; [reflexivity|].
  f_equal. pose proof (top_add_fold n domax (v :: vs) []) as E. now rewrite firstn_nil in E.
Qed.

Lemma top_members_have_fields fs gs k rs r f : In r (members (top_key fs gs) k rs) -> In f fs -> get f r <> None.
Proof.
  unfold members. rewrite filter_In. intros [_ Hk] Hf. unfold keyb, top_key in Hk.
  destruct (selected fs r) eqn:S; [|discriminate]. intros Hn.
  assert (X : selected fs r = None) by (apply selected_none_iff; eauto). congruence.
Qed.

Section StableSort.
  Context {A : Type} (less : A -> A -> bool) (key : A -> Z).
  Hypothesis Hless : forall a b, less a b = (key a <? key b)%Z.

  Fixpoint sortedk (l : list A) : Prop :=
    match l with [] => True | y :: t => Forall (fun z => (key y <= key z)%Z) t /\ sortedk t end.

  Lemma ins_by_perm x l : Permutation (ins_by less x l) (x :: l).
  Proof.
    induction l as [|y l IH]; [apply Permutation_refl|]. cbn [ins_by]. destruct (less x y); [apply Permutation_refl|].
    eapply Permutation_trans; [apply perm_skip, IH|apply perm_swap].
  Qed.

  Lemma ins_by_sorted x l : sortedk l -> sortedk (ins_by less x l).
  Proof.
    induction l as [|y l IH]; intros Hs; cbn [ins_by]; [cbn; auto|].
    destruct Hs as [Hall Hs]. rewrite Hless. destruct (Z.ltb_spec (key x) (key y)) as [Hlt|Hge].
    - cbn [sortedk]. repeat split; [|assumption|assumption].
      constructor; [lia|]. eapply Forall_impl; [|exact Hall]. cbn beta. intros z Hz. lia.
    - cbn [sortedk]. split; [|now apply IH].
      eapply Permutation_Forall; [apply Permutation_sym, ins_by_perm|]. constructor; [lia|exact Hall].
  Qed.

  Definition has_key_c (c : Z) (a : A) : bool := (key a =? c)%Z.

  (* stability: x goes behind every element with the same key *)
  Lemma ins_by_stable c x l : sortedk l ->
    filter (has_key_c c) (ins_by less x l) = filter (has_key_c c) l ++ (if has_key_c c x then [x] else []).
  Proof.
    induction l as [|y l IH]; intros Hs; cbn [ins_by]; [cbn [filter]; now destruct (has_key_c c x)|].
    destruct Hs as [Hall Hs]. rewrite Hless. destruct (Z.ltb_spec (key x) (key y)) as [Hlt|Hge].
    - (* x goes in front: if its key is c, nothing from y on has key c *)
      assert (E : has_key_c c x = true -> filter (has_key_c c) (y :: l) = []).
      { intros Hx. apply Z.eqb_eq in Hx. apply filter_none. intros z Hz. apply Z.eqb_neq.
        assert (key y <= key z)%Z by (destruct Hz as [<-|Hz]; [lia|exact (proj1 (Forall_forall _ _) Hall z Hz)]). lia. }
      change (filter (has_key_c c) (x :: y :: l))
        with (if has_key_c c x then x :: filter (has_key_c c) (y :: l) else filter (has_key_c c) (y :: l)).
      destruct (has_key_c c x); [now rewrite E|now rewrite app_nil_r].
    - cbn [filter]. rewrite IH by assumption. destruct (has_key_c c y); reflexivity.
  Qed.

  Lemma stable_sort_from l : forall acc, sortedk acc ->
    sortedk (fold_left (fun acc x => ins_by less x acc) l acc)
    /\ forall c, filter (has_key_c c) (fold_left (fun acc x => ins_by less x acc) l acc)
                 = filter (has_key_c c) acc ++ filter (has_key_c c) l.
  Proof.
    induction l as [|x l IH]; intros acc Hs; cbn [fold_left].
    - split; [assumption|intros; cbn [filter]; now rewrite app_nil_r].
    - destruct (IH (ins_by less x acc) (ins_by_sorted x acc Hs)) as (S1 & F1). split; [exact S1|].
      intros c. rewrite F1, ins_by_stable by exact Hs. cbn [filter]. rewrite <- app_assoc.
      destruct (has_key_c c x); reflexivity.
  Qed.

  (* the three facts that determine the result: sorted by key, a permutation, equal keys keep their input order *)
  Theorem stable_sort_spec l :
    sortedk (stable_sort less l) /\ Permutation (stable_sort less l) l
    /\ forall c, filter (has_key_c c) (stable_sort less l) = filter (has_key_c c) l.
  Proof.
    unfold stable_sort. destruct (stable_sort_from l [] Logic.I) as (S1 & F1).
    repeat split; [assumption|exact (fold_insert_perm _ ins_by_perm l [])|assumption].
  Qed.
End StableSort.

Definition freq_key (descending : bool) (e : bytes * (list bytes * Z)) : Z := if descending then (- snd (snd e))%Z else snd (snd e).
Definition freq_sorted (descending : bool) (gs : list bytes) (rs : list record) : list (bytes * (list bytes * Z)) :=
  stable_sort (fun a b : bytes * (list bytes * Z) =>
                 if descending then (snd (snd b) <? snd (snd a))%Z else (snd (snd a) <? snd (snd b))%Z) (count_groups gs rs).

(* most-frequent / least-frequent: the groups (with their sizes, C10_count_groups_entries) sorted by size, descending
   for most-frequent, groups of equal size in first-appearance order; then the first maxn *)
Theorem frequent_order descending gs rs :
  sortedk (freq_key descending) (freq_sorted descending gs rs)
  /\ Permutation (freq_sorted descending gs rs) (count_groups gs rs)
  /\ forall c, filter (has_key_c (freq_key descending) c) (freq_sorted descending gs rs)
               = filter (has_key_c (freq_key descending) c) (count_groups gs rs).
Proof.
  unfold freq_sorted. apply stable_sort_spec. intros a b. unfold freq_key. destruct descending; [|reflexivity].
  destruct (Z.ltb_spec (snd (snd b)) (snd (snd a))), (Z.ltb_spec (- snd (snd a)) (- snd (snd b))); try reflexivity; lia.
Qed.
