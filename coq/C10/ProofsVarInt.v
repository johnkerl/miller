(* The variance finalizer on exact (int) sums (fix: var of ints, pkg/bifs/stats.go).
   The code computes (n sum2 - sum^2) / (n (n-1)) from the exact integer sums with ONE rounding; the model's finalizer is
   the float formula taken exactly over Q.  They are the same rational number: *)
From Miller Require Import C10.Model.

Lemma inject_Z_pos_neq0 n : (0 < n)%Z -> ~ inject_Z n == 0.
Proof. intros H E. unfold Qeq in E. cbn [inject_Z Qnum Qden] in E. lia. Qed.

Theorem var_finalizer_is_exact_quotient n s1 s2 : (2 <= n)%Z -> 0 <= inject_Z n * s2 - s1 * s1 ->
  exists q, finalize_var n s1 s2 = Some q /\ q == (inject_Z n * s2 - s1 * s1) / (inject_Z n * inject_Z (n - 1)).
Proof.
  intros Hn HD. unfold finalize_var. destruct (Z.ltb_spec n 2) as [L|_]; [lia|].
  assert (N0 : ~ inject_Z n == 0) by (apply inject_Z_pos_neq0; lia).
  assert (N1 : ~ inject_Z (n - 1) == 0) by (apply inject_Z_pos_neq0; lia).
  eexists. split; [reflexivity|]. unfold var_numerator.
  set (num := s2 - s1 / inject_Z n * (2 * s1 - inject_Z n * (s1 / inject_Z n))).
  assert (Hnum : num == (inject_Z n * s2 - s1 * s1) / inject_Z n) by (unfold num; field; exact N0).
  assert (Hpos : 0 <= num).
  { rewrite Hnum. unfold Qdiv. apply Qmult_le_0_compat; [exact HD|]. apply Qinv_le_0_compat.
    unfold Qle. cbn [inject_Z Qnum Qden]. lia. }
  apply Qle_bool_iff in Hpos. rewrite Hpos. rewrite Hnum. field. split; assumption.
Qed.

(* the witness of the repaired defect: three timestamp-scale ints, exact sums, var = 7/3 *)
Lemma var_timestamps_instance :
  exists q, run_acc false AVar [B "1700000001"; B "1700000004"; B "1700000002"] = OFlt q /\ q == 7 # 3.
Proof. eexists. split; [vm_compute; reflexivity|]. vm_compute. reflexivity. Qed.
