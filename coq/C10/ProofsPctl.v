(* Percentile index arithmetic (pkg/bifs/percentiles.go) and the sort the keeper relies on. *)
From Miller Require Import C10.Model C10.Verbs C10.Spec.
From Coq Require Import Lqa Permutation Sorted.
Open Scope Q_scope.

Lemma pctl_index_clamp p n : pctl_index p n = Z.max 0 (Z.min (Qfloor (p * inject_Z n / 100)) (n - 1)).
Proof.
  unfold pctl_index. set (i := Qfloor (p * inject_Z n / 100)).
  destruct (Z.leb_spec n i); [destruct (Z.ltb_spec (n - 1) 0)|destruct (Z.ltb_spec i 0)]; lia.
Qed.

Lemma pctl_index_range p n : (0 < n)%Z -> (0 <= pctl_index p n < n)%Z.
Proof. intros Hn. rewrite pctl_index_clamp. lia. Qed.

Lemma inject_Z_pos n : (0 < n)%Z -> 0 < inject_Z n.
Proof. intros H. unfold Qlt, inject_Z. cbn. lia. Qed.
Lemma inject_Z_nonneg n : (0 <= n)%Z -> 0 <= inject_Z n.
Proof. intros H. unfold Qle, inject_Z. cbn. lia. Qed.

Lemma Qle_bool_false a b : Qle_bool a b = false -> b < a.
Proof. intros H. destruct (Qlt_le_dec b a) as [L|L]; [exact L|]. apply Qle_bool_iff in L. congruence. Qed.

Lemma pn_bounds p n : 0 <= p -> p <= 100 -> (0 < n)%Z -> 0 <= p * inject_Z n / 100 /\ p * inject_Z n / 100 <= inject_Z n.
Proof.
  intros H0 H1 Hn. pose proof (inject_Z_pos n Hn) as Hq. split.
  - assert (H : 0 <= p * inject_Z n) by (apply Qmult_le_0_compat; lra).
    apply Qle_shift_div_l; lra.
  - assert (H : p * inject_Z n <= 100 * inject_Z n) by (apply Qmult_le_compat_r; lra).
    apply Qle_shift_div_r; lra.
Qed.

(* inside 0..100 the index is floor(p*n/100), except that p*n/100 = n (p = 100) is pulled back to n-1 *)
Lemma pctl_index_formula p n : 0 <= p -> p <= 100 -> (0 < n)%Z ->
  pctl_index p n = Z.min (Qfloor (p * inject_Z n / 100)) (n - 1)
  /\ (0 <= Qfloor (p * inject_Z n / 100) <= n)%Z.
Proof.
  intros H0 H1 Hn. destruct (pn_bounds p n H0 H1 Hn) as [Hlo Hhi].
  apply Qfloor_resp_le in Hlo, Hhi. rewrite Qfloor_Z in Hhi. change (Qfloor 0) with 0%Z in Hlo.
  rewrite pctl_index_clamp. lia.
Qed.

Lemma pctl_index_monotone p q n : p <= q -> (0 < n)%Z -> (pctl_index p n <= pctl_index q n)%Z.
Proof.
  intros Hpq Hn. pose proof (inject_Z_pos n Hn) as Hq.
  assert (Hle : p * inject_Z n / 100 <= q * inject_Z n / 100).
  { apply Qmult_le_compat_r; [apply Qmult_le_compat_r; lra|]. unfold Qle; cbn; lia. }
  apply Qfloor_resp_le in Hle. rewrite !pctl_index_clamp. lia.
Qed.

Lemma nthZ_some {A} (l : list A) i : (0 <= i < Z.of_nat (List.length l))%Z -> exists x, nthZ i l = Some x.
Proof.
  intros H. unfold nthZ. destruct (i <? 0)%Z eqn:E; [lia|].
  destruct (nth_error l (Z.to_nat i)) eqn:N; [eauto|]. apply nth_error_None in N. lia.
Qed.

Lemma pctl_nonint_is_element p sorted : sorted <> [] ->
  exists v, nthZ (pctl_index p (Z.of_nat (List.length sorted))) sorted = Some v /\ pctl_nonint p sorted = oval_of_val v.
Proof.
  intros Hne. assert (Hn : (0 < Z.of_nat (List.length sorted))%Z) by (destruct sorted; [congruence|cbn; lia]).
  destruct (nthZ_some sorted _ (pctl_index_range p _ Hn)) as [v Hv]. exists v. split; [exact Hv|].
  unfold pctl_nonint. now rewrite Hv.
Qed.

Lemma pctl_findex_nonneg p n : 0 <= pctl_findex p n.
Proof. unfold pctl_findex. destruct (Qle_bool 0 (p / 100 * inject_Z (n - 1))) eqn:E; [now apply Qle_bool_iff|lra]. Qed.

Lemma findex_bounds p n : 0 <= p -> p <= 100 -> (0 < n)%Z -> 0 <= pctl_findex p n /\ pctl_findex p n <= inject_Z (n - 1).
Proof.
  intros H0 H1 Hn. split; [apply pctl_findex_nonneg|]. unfold pctl_findex.
  assert (Hm : 0 <= inject_Z (n - 1)) by (apply inject_Z_nonneg; lia).
  assert (Hp1 : p / 100 <= 1) by (apply Qle_shift_div_r; lra).
  assert (Hhi : p / 100 * inject_Z (n - 1) <= 1 * inject_Z (n - 1)) by (apply Qmult_le_compat_r; assumption).
  destruct (Qle_bool 0 (p / 100 * inject_Z (n - 1))); lra.
Qed.

(* after fix: 444a9e97f the interpolated form never indexes out of range, for EVERY p *)
Lemma pctl_interp_never_panics p sorted : sorted <> [] -> pctl_interp p sorted <> OPanic.
Proof.
  intros Hne. assert (Hn : (0 < Z.of_nat (List.length sorted))%Z) by (destruct sorted; [congruence|cbn; lia]).
  unfold pctl_interp.
  set (n := Z.of_nat (List.length sorted)) in *. set (f := pctl_findex p n) in *.
  assert (Hf0 : (0 <= Qfloor f)%Z).
  { change 0%Z with (Qfloor 0). apply Qfloor_resp_le. apply pctl_findex_nonneg. }
  destruct (n - 1 <=? Qfloor f)%Z eqn:E.
  - destruct (nthZ_some sorted (n - 1)) as [v Hv]; [fold n; lia|]. rewrite Hv.
    unfold oval_of_val. destruct (classify v); discriminate.
  - apply Z.leb_gt in E.
    destruct (nthZ_some sorted (Qfloor f)) as [a Ha]; [fold n; lia|].
    destruct (nthZ_some sorted (Qfloor f + 1)) as [b Hb]; [fold n; lia|]. rewrite Ha, Hb.
    destruct (numof a), (numof b); discriminate.
Qed.

Lemma pctl_interp_no_panic p sorted : 0 <= p -> p <= 100 -> sorted <> [] -> pctl_interp p sorted <> OPanic.
Proof. intros _ _. apply pctl_interp_never_panics. Qed.

(* p above 100 clamps to the last element (witness p = 200) *)
Lemma pctl_interp_clamps_above : pctl_interp 200 [B "1"; B "2"] = oval_of_val (B "2").
Proof. vm_compute. reflexivity. Qed.

Lemma insert_sorted_perm x l : Permutation (insert_sorted x l) (x :: l).
Proof.
  induction l as [|y l IH]; cbn; [reflexivity|].
  destruct (val_lt y x); [|reflexivity]. rewrite IH. apply perm_swap.
Qed.
Lemma fold_insert_perm {A} (ins : A -> list A -> list A) : (forall x l, Permutation (ins x l) (x :: l)) ->
  forall l acc, Permutation (fold_left (fun acc x => ins x acc) l acc) (acc ++ l).
Proof.
  intros Hins. induction l as [|x l IH]; intros acc; cbn [fold_left]; [now rewrite app_nil_r|].
  rewrite IH, Hins. cbn [app]. apply Permutation_middle.
Qed.
Lemma sort_vals_perm l : Permutation (sort_vals l) l.
Proof. exact (fold_insert_perm _ insert_sorted_perm l []). Qed.
Lemma sort_vals_length l : List.length (sort_vals l) = List.length l.
Proof. apply Permutation_length, sort_vals_perm. Qed.

Lemma bltb_asym a : forall b, bltb a b = true -> bltb b a = false.
Proof.
  induction a as [|x a IH]; intros [|y b]; cbn [bltb]; try discriminate; try reflexivity.
  destruct (code x <? code y)%N eqn:E1, (code y <? code x)%N eqn:E2; try discriminate; try reflexivity.
  - apply N.ltb_lt in E1, E2. lia.
  - intros H. now apply IH.
Qed.

Lemma val_lt_asym a b : val_lt a b = true -> val_lt b a = false.
Proof.
  unfold val_lt. destruct (numof a) as [x|], (numof b) as [y|]; try discriminate; try reflexivity.
  - intros H. apply negb_true_iff, Qle_bool_false in H. apply negb_false_iff, Qle_bool_iff. now apply Qlt_le_weak.
  - apply bltb_asym.
Qed.

Lemma insert_sorted_sorted x l : LocallySorted val_le l -> LocallySorted val_le (insert_sorted x l).
Proof.
  induction l as [|y t IH]; intros Hs; cbn [insert_sorted]; [constructor|].
  destruct (val_lt y x) eqn:E.
  - assert (Ht : LocallySorted val_le t) by (inversion Hs; [constructor|assumption]).
    specialize (IH Ht). destruct t as [|z t'].
    + cbn [insert_sorted] in *. constructor; [constructor|]. unfold val_le. now apply val_lt_asym.
    + cbn [insert_sorted] in *. destruct (val_lt z x) eqn:E2.
      * constructor; [exact IH|]. inversion Hs; assumption.
      * constructor; [exact IH|]. unfold val_le. now apply val_lt_asym.
  - constructor; [exact Hs|exact E].
Qed.

Lemma sort_vals_sorted l : LocallySorted val_le (sort_vals l).
Proof.
  unfold sort_vals. assert (G : forall acc, LocallySorted val_le acc -> LocallySorted val_le (fold_left (fun acc x => insert_sorted x acc) l acc)).
  { induction l as [|x l IH]; intros acc Hs; cbn [fold_left]; [exact Hs|]. apply IH. now apply insert_sorted_sorted. }
  apply G. constructor.
Qed.
