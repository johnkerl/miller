(* stats2 (Verbs5.v).  (1) The sums kept for (group, pair of value fields) are the sums over exactly
   the numeric (x, y) pairs of the group's records carrying both fields non-empty; (2) they are the definitional power
   sums; (3) cov from the sums = sum (x-mean_x)(y-mean_y)/(n-1); (4) the OLS slope and intercept solve the normal equations
   of the least-squares fit; (5) r2 from the sums = cov^2/(var_x var_y) in its rational form. *)
From Miller Require Import C10.Model C10.Verbs C10.Verbs5 C10.Spec C10.ProofsGroup C10.ProofsAcc C10.Proofs.
From Miller Require Import Base.ListFacts.
Open Scope char_scope.

Definition dflt_s2 (o : option s2st) : s2st := match o with Some s => s | None => s2st0 end.
Definition pair_values (p : bytes * bytes) (ms : list record) : list (Q * Q) :=
  flat_map (fun r => match pair_value p r with Some xy => [xy] | None => [] end) ms.

Lemma s2_ingest_rec_get ps r : NoDup (map pair_key ps) -> forall m p, In p ps ->
  oget (pair_key p) (s2_ingest_rec ps m r)
  = match pair_value p r with Some xy => Some (s2_ingest (dflt_s2 (oget (pair_key p) m)) xy) | None => oget (pair_key p) m end.
Proof.
  intros Hnd m p Hin. unfold s2_ingest_rec.
  rewrite (fold_left_ext _ (fun m q => ostep (fun _ o => option_map (s2_ingest (dflt_s2 o)) (pair_value q r)) m (pair_key q)))
    by (intros m0 q; unfold ostep; now destruct (pair_value q r)).
  rewrite (pass_self pair_key _ ps p Hnd Hin). now destruct (pair_value p r).
Qed.

(* the verb: the sums of (group k, pair p) are the sums over exactly the (x, y) pairs of the members of group k that carry
   both fields non-empty, in order; no entry before the first such record *)
Theorem stats2_cell_sees_exactly_its_group ps gs rs k p : NoDup (map pair_key ps) -> In p ps ->
  match oget k (stats2_groups ps gs rs) with Some e => oget (pair_key p) (snd e) | None => None end
  = match pair_values p (members (group_key gs) k rs) with [] => None | xys => Some (fold_left s2_ingest xys s2st0) end.
Proof.
  intros Hnd Hin. unfold stats2_groups. rewrite oget_gfold. unfold group_state.
  destruct (members (group_key gs) k rs) as [|r0 rest]; [reflexivity|].
  rewrite (fold_cell (fun s => oget (pair_key p) (snd s)) (pair_value p) _ (fun o xy => Some (s2_ingest (dflt_s2 o) xy))).
  - exact (fold_some s2_ingest s2st0 (pair_values p (r0 :: rest)) None).
  - intros s r _. now apply s2_ingest_rec_get.
Qed.

Definition sumq (f : Q * Q -> Q) (l : list (Q * Q)) : Q := Qsum_list (map f l).
Record s2eq (s : s2st) (l : list (Q * Q)) : Prop := {
  e_n : b_n s = Z.of_nat (List.length l);
  e_sx : b_sx s == sumq fst l; e_sy : b_sy s == sumq snd l;
  e_sx2 : b_sx2 s == sumq (fun p => fst p * fst p) l; e_sxy : b_sxy s == sumq (fun p => fst p * snd p) l;
  e_sy2 : b_sy2 s == sumq (fun p => snd p * snd p) l }.

Lemma sumq_snoc f l x : sumq f (l ++ [x]) == sumq f l + f x.
Proof. unfold sumq. rewrite map_app. cbn [map]. apply Qsum_list_snoc. Qed.

Theorem s2_sums_are_definitional l : s2eq (fold_left s2_ingest l s2st0) l.
Proof.
  induction l as [|[x y] l IH] using rev_ind.
  - constructor; cbn; reflexivity.
  - rewrite fold_left_app. cbn [fold_left]. destruct IH as [En Ex Ey Ex2 Exy Ey2].
    set (s := fold_left s2_ingest l s2st0) in *. unfold s2_ingest.
    constructor; cbn [b_n b_sx b_sy b_sx2 b_sxy b_sy2]; rewrite ?sumq_snoc; cbn [fst snd].
    + rewrite En, app_length. cbn [List.length]. lia.
    + now rewrite Ex.
    + now rewrite Ey.
    + now rewrite Ex2.
    + now rewrite Exy.
    + now rewrite Ey2.
Qed.

Definition nq (l : list (Q * Q)) : Q := inject_Z (Z.of_nat (List.length l)).
Definition meanx (l : list (Q * Q)) : Q := sumq fst l / nq l.
Definition meany (l : list (Q * Q)) : Q := sumq snd l / nq l.
(* centred sums: sum (x - mean_x)(y - mean_y) etc. *)
Definition cxy (l : list (Q * Q)) : Q := sumq (fun p => (fst p - meanx l) * (snd p - meany l)) l.
Definition cxx (l : list (Q * Q)) : Q := sumq (fun p => (fst p - meanx l) * (fst p - meanx l)) l.
Definition cyy (l : list (Q * Q)) : Q := sumq (fun p => (snd p - meany l) * (snd p - meany l)) l.

Lemma sumq_cons f p l : sumq f (p :: l) == f p + sumq f l.
Proof. unfold sumq. cbn [map]. unfold Qsum_list. cbn [fold_right]. reflexivity. Qed.

(* sum (u - a)(v - b) = sum uv - a sum v - b sum u + n a b, for any a, b and any two coordinates u, v *)
Lemma centred_expand (u v : Q * Q -> Q) a b l :
  sumq (fun p => (u p - a) * (v p - b)) l
  == sumq (fun p => u p * v p) l - a * sumq v l - b * sumq u l + nq l * a * b.
Proof.
  unfold nq. induction l as [|p l IH].
  - unfold sumq, Qsum_list. cbn. ring.
  - rewrite !sumq_cons, IH. cbn [List.length]. rewrite Nat2Z.inj_succ, <- Z.add_1_r, inject_Z_plus. ring.
Qed.

Lemma nq_pos l : l <> [] -> ~ nq l == 0.
Proof.
  intros H E. unfold nq in E. destruct l as [|p l]; [congruence|]. cbn [List.length] in E.
  unfold Qeq in E. cbn [inject_Z Qnum Qden] in E. lia.
Qed.

(* cov: GetCov on the streamed sums = sum (x - mean_x)(y - mean_y) / (n - 1) *)
Theorem cov_stream_eq_def l : (2 <= List.length l)%nat ->
  cov_of (fold_left s2_ingest l s2st0) == cxy l / (nq l - 1).
Proof.
  intros H2. destruct (s2_sums_are_definitional l) as [En Ex Ey Ex2 Exy Ey2].
  assert (Hn : ~ nq l == 0) by (apply nq_pos; destruct l; [cbn in H2; lia|discriminate]).
  assert (Hn1 : ~ nq l - 1 == 0).
  { intros E. assert (E1 : nq l == 1) by (setoid_replace (nq l) with ((nq l - 1) + 1) by ring; rewrite E; ring).
    unfold nq, Qeq in E1. cbn [inject_Z Qnum Qden] in E1. lia. }
  unfold cov_of, cxy. rewrite centred_expand. unfold meanx, meany.
  rewrite En, Ex, Ey, Exy. fold (nq l). field. split; assumption.
Qed.

(* OLS: when D = n sum x^2 - (sum x)^2 <> 0 the slope m and intercept b of GetLinearRegressionOLS solve the normal
   equations of min sum (m x + b - y)^2:   m sum x^2 + b sum x = sum xy   and   m sum x + b n = sum y *)
Theorem ols_solves_normal_equations l : let s := fold_left s2_ingest l s2st0 in
  ~ ols_D s == 0 ->
  ols_m s * sumq (fun p => fst p * fst p) l + ols_b s * sumq fst l == sumq (fun p => fst p * snd p) l
  /\ ols_m s * sumq fst l + ols_b s * nq l == sumq snd l.
Proof.
  intros s HD. destruct (s2_sums_are_definitional l) as [En Ex Ey Ex2 Exy Ey2]. fold s in En, Ex, Ey, Ex2, Exy, Ey2.
  unfold ols_m, ols_b. unfold ols_D in *. unfold nq. rewrite <- En, <- Ex, <- Ey, <- Ex2, <- Exy.
  split; field; exact HD.
Qed.
(* and D is n times the centred sum of squares of x: the fit exists exactly when the x are not all equal *)
Theorem ols_D_is_n_cxx l : l <> [] -> ols_D (fold_left s2_ingest l s2st0) == nq l * cxx l.
Proof.
  intros Hne. destruct (s2_sums_are_definitional l) as [En Ex Ey Ex2 Exy Ey2]. pose proof (nq_pos l Hne) as Hn.
  unfold ols_D, cxx. rewrite centred_expand. unfold meanx. rewrite En, Ex, Ex2. fold (nq l). field. exact Hn.
Qed.

(* r2: the streamed form (n sxy - sx sy)^2 / ((n sxx - sx^2)(n syy - sy^2)) = cxy^2 / (cxx cyy) *)
Theorem r2_stream_eq_def l : l <> [] -> let s := fold_left s2_ingest l s2st0 in
  r2_num s == nq l * nq l * (cxy l * cxy l) /\ r2_den s == nq l * nq l * (cxx l * cyy l).
Proof.
  intros Hne s. destruct (s2_sums_are_definitional l) as [En Ex Ey Ex2 Exy Ey2]. fold s in En, Ex, Ey, Ex2, Exy, Ey2.
  pose proof (nq_pos l Hne) as Hn.
  unfold r2_num, r2_den, cxy, cxx, cyy, meanx, meany.
  split; rewrite !centred_expand, En, Ex, Ey, ?Ex2, ?Exy, ?Ey2; fold (nq l); field; exact Hn.
Qed.
