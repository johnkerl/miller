(* C10 property theorems, each followed by Print Assumptions, and non-vacuity Examples.
   All are about the definitions Harness.v and HarnessDsl.v evaluate against the implementation (Model.v, Verbs.v, Verbs2.v,
   Verbs4.v, Verbs5.v, ModelDsl.v). *)
From Miller Require Import C10.Model C10.Verbs C10.Spec C10.ProofsGroup C10.ProofsPctl C10.ProofsAcc C10.Proofs C10.ProofsMode C10.ProofsMinMax C10.Verbs2 C10.ProofsFrac C10.ProofsStep.
From Miller Require C10.ProofsSum.
From Coq Require Import Permutation.
Open Scope char_scope.

(* ---- grouping: the streaming ordered-map bookkeeping IS the partition of the contributing records into groups,
        groups in first-appearance order, each group state = fold over its members in arrival order (any verb) *)
Theorem C10_grouped_fold_equals_partition :
  forall (R S : Type) (key : R -> option bytes) (init : R -> S) (upd : S -> R -> S) (rs : list R),
    gfold key init upd rs = spec_groups key init upd rs.
Proof. exact (@gfold_spec). Qed.
Print Assumptions C10_grouped_fold_equals_partition.

Theorem C10_groups_in_first_appearance_order :
  forall gs rs, okeys (count_groups gs rs) = first_keys (group_key gs) rs /\ NoDup (first_keys (group_key gs) rs).
Proof.
  exact (fun gs rs => conj (eq_trans (f_equal okeys (gfold_spec _ _ _ rs)) (okeys_spec_groups _ _ _ rs)) (first_keys_nodup _ rs)).
Qed.
Print Assumptions C10_groups_in_first_appearance_order.

(* count -g: one entry per group, the number of its members *)
Theorem C10_count_equals_group_sizes :
  forall gs rs,
    map (fun e => (fst e, snd (snd e))) (count_groups gs rs)
    = map (fun k => (k, Z.of_nat (List.length (members (group_key gs) k rs)))) (first_keys (group_key gs) rs).
Proof. exact count_groups_def. Qed.
Print Assumptions C10_count_equals_group_sizes.

(* counts over all groups add up to the number of contributing records *)
Theorem C10_counts_add_up :
  forall gs rs, total (count_groups gs rs) = Z.of_nat (List.length (filter (has_key (group_key gs)) rs)).
Proof. exact counts_add_up. Qed.
Print Assumptions C10_counts_add_up.

(* a record has no grouping key exactly when it lacks one of the group-by fields, and such records change nothing *)
Theorem C10_record_lacking_group_field_is_skipped :
  forall gs, (forall r, group_key gs r = None <-> exists g, In g gs /\ get g r = None)
  /\ forall (S : Type) (init : record -> S) upd rs,
       gfold (group_key gs) init upd rs = gfold (group_key gs) init upd (filter (has_key (group_key gs)) rs).
Proof. exact (fun gs => conj (group_key_none_iff gs) (fun S init upd rs => gfold_skips_keyless (group_key gs) init upd rs)). Qed.
Print Assumptions C10_record_lacking_group_field_is_skipped.

(* groups are formed by the exact text: true for one group-by field ... *)
Theorem C10_group_key_exact_text_partial : forall g r, group_key [g] r = get g r.
Proof. exact group_key_single. Qed.
Print Assumptions C10_group_key_exact_text_partial.
(* ... but FALSE for several fields: the code joins the texts with "," so (x,y | z) and (x | y,z) share a group *)
Theorem C10_group_key_exact_text_refuted :
  exists gs r1 r2, selected gs r1 <> selected gs r2 /\ group_key gs r1 = group_key gs r2 /\ group_key gs r1 <> None.
Proof. exact group_key_collision. Qed.
Print Assumptions C10_group_key_exact_text_refuted.

(* stats1: the state kept for (group, value field f, accumulator a) is accumulator a fed exactly the values of f
   carried by the group's records, in order; a record lacking f is left out of that accumulation only *)
Theorem C10_stats1_groups_are_the_partition :
  forall accs fs gs rs,
    stats1_groups accs fs gs rs
    = spec_groups (group_key gs) (fun r => (match selected gs r with Some vs => vs | None => [] end, []))
                  (fun s r => (fst s, ingest_l2 accs fs r (snd s))) rs.
Proof. exact (fun accs fs gs rs => gfold_spec _ _ _ rs). Qed.
Print Assumptions C10_stats1_groups_are_the_partition.

Theorem C10_stats1_cell_is_accumulator_run :
  forall accs fs ms f a, NoDup fs -> NoDup (map req_text accs) -> In f fs -> In a accs ->
    cell accs fs ms f a = match values_of f ms with [] => None | vs => Some (fold_left (feed (fst a)) vs st0) end.
Proof. exact cell_is_accumulator_run. Qed.
Print Assumptions C10_stats1_cell_is_accumulator_run.

Theorem C10_empty_values_are_not_accumulated :
  forall a vs s, accname_eqb a ANullCount = false ->
    fold_left (feed a) vs s = fold_left (ingest a) (filter (fun v => negb (is_void v)) vs) s.
Proof. exact (fun a vs s H => fold_feed_nonvoid a vs H s). Qed.
Print Assumptions C10_empty_values_are_not_accumulated.

(* ---- accumulators: streaming = definition, exactly, over Q / Z *)
Theorem C10_sum_equals_definition :
  forall vs, exists q, oval_q (run_acc false ASum vs) = Some q /\ (q == Qsum_list (qs_of vs))%Q.
Proof. exact sum_value. Qed.
Print Assumptions C10_sum_equals_definition.

Theorem C10_int_sums_stay_int :
  forall vs, all_int (numerics vs) = true ->
    (Zsum_list (map Z.abs (ints_of (numerics vs))) <= 9223372036854775807)%Z ->
    run_acc false ASum vs = OInt (Zsum_list (ints_of (numerics vs))).
Proof. exact ProofsSum.sum_ints_stay_int. Qed.
Print Assumptions C10_int_sums_stay_int.

Theorem C10_mean_equals_definition :
  forall vs, (qs_of vs <> [] -> exists q, oval_q (run_acc false AMean vs) = Some q /\ (q == mean_def (qs_of vs))%Q)
          /\ (qs_of vs = [] -> run_acc false AMean vs = OVoid).
Proof. exact (fun vs => conj (mean_value vs) (mean_empty vs)). Qed.
Print Assumptions C10_mean_equals_definition.

(* var = sum (x-mean)^2/(n-1): the streaming formula sum2 - mean*(2 sum - n mean) equals it and its clamp never fires *)
Theorem C10_var_equals_definition :
  forall vs, ((2 <= List.length (qs_of vs))%nat -> exists q, run_acc false AVar vs = OFlt q /\ (q == var_def (qs_of vs))%Q)
          /\ ((List.length (qs_of vs) < 2)%nat -> run_acc false AVar vs = OVoid).
Proof. exact (fun vs => conj (var_stream_eq_def vs) (var_too_few vs)). Qed.
Print Assumptions C10_var_equals_definition.

Theorem C10_stddev_equals_definition :
  forall vs, (2 <= List.length (qs_of vs))%nat -> exists q, run_acc false AStddev vs = OSqrt q /\ (q == var_def (qs_of vs))%Q.
Proof. exact stddev_stream_eq_def. Qed.
Print Assumptions C10_stddev_equals_definition.

Theorem C10_meaneb_equals_definition :
  forall vs, (2 <= List.length (qs_of vs))%nat ->
    exists q, run_acc false AMeanEB vs = OSqrt q /\ (q == var_def (qs_of vs) / inject_Z (Z.of_nat (List.length (qs_of vs))))%Q.
Proof. exact meaneb_stream_eq_def. Qed.
Print Assumptions C10_meaneb_equals_definition.

(* min / max of ints stay ints: the exact extreme value, printed as one of the input texts *)
Theorem C10_min_of_ints_stays_int :
  forall vs, vs <> [] -> all_ints vs ->
    exists z t, run_acc false AMin vs = OInt z /\ In t vs /\ classify t = NInt z
      /\ (forall v z', In v vs -> classify v = NInt z' -> (z <= z')%Z).
Proof. exact (fun vs => extreme_ints_stay_int AMin vs (or_introl eq_refl)). Qed.
Print Assumptions C10_min_of_ints_stays_int.

Theorem C10_max_of_ints_stays_int :
  forall vs, vs <> [] -> all_ints vs ->
    exists z t, run_acc false AMax vs = OInt z /\ In t vs /\ classify t = NInt z
      /\ (forall v z', In v vs -> classify v = NInt z' -> (z' <= z)%Z).
Proof. exact (fun vs => extreme_ints_stay_int AMax vs (or_intror eq_refl)). Qed.
Print Assumptions C10_max_of_ints_stays_int.

(* counts by value text (mode, antimode, distinct_count, count-distinct): first-seen order, number of occurrences *)
Theorem C10_counts_by_value_equal_occurrences :
  forall vs, fold_left (fun m v => cm_incr v m) vs []
    = map (fun k => (k, Z.of_nat (List.length (members (fun x : bytes => Some x) k vs)))) (first_keys (fun x : bytes => Some x) vs).
Proof. exact counts_map_entries. Qed.
Print Assumptions C10_counts_by_value_equal_occurrences.

(* mode: a text with the largest number of occurrences; among ties the first seen wins *)
Theorem C10_mode_is_first_seen_of_most_frequent :
  forall vs, vs <> [] ->
    let m := map (fun k => (k, Z.of_nat (List.length (members (fun x : bytes => Some x) k vs)))) (first_keys (fun x : bytes => Some x) vs) in
    exists k c, run_acc false AMode vs = OText k /\ is_first_max m k c.
Proof. exact mode_accumulator_spec. Qed.
Print Assumptions C10_mode_is_first_seen_of_most_frequent.

Theorem C10_antimode_tie_break_first_seen :
  forall m, m <> [] -> exists k c, antimode_of m = OText k /\ is_first_min m k c.
Proof. exact antimode_is_first_of_the_least_frequent. Qed.
Print Assumptions C10_antimode_tie_break_first_seen.

Theorem C10_distinct_count_equals_number_of_distinct_texts :
  forall vs, run_acc false ADistinctCount vs = OInt (Z.of_nat (List.length (first_keys (fun x : bytes => Some x) vs))).
Proof. exact distinct_count_spec. Qed.
Print Assumptions C10_distinct_count_equals_number_of_distinct_texts.

(* ---- percentiles *)
(* non-interpolated: for EVERY p (also outside 0..100) the index is inside the data; inside 0..100 it is
   floor(p*n/100) with p = 100 pulled back to the last element; monotone in p *)
Theorem C10_percentile_index_in_range : forall p n, (0 < n)%Z -> (0 <= pctl_index p n < n)%Z.
Proof. exact pctl_index_range. Qed.
Print Assumptions C10_percentile_index_in_range.

Theorem C10_percentile_index_formula :
  forall p n, (0 <= p)%Q -> (p <= 100)%Q -> (0 < n)%Z ->
    pctl_index p n = Z.min (Qfloor (p * inject_Z n / 100)) (n - 1) /\ (0 <= Qfloor (p * inject_Z n / 100) <= n)%Z.
Proof. exact pctl_index_formula. Qed.
Print Assumptions C10_percentile_index_formula.

Theorem C10_percentile_index_monotone : forall p q n, (p <= q)%Q -> (0 < n)%Z -> (pctl_index p n <= pctl_index q n)%Z.
Proof. exact pctl_index_monotone. Qed.
Print Assumptions C10_percentile_index_monotone.

Theorem C10_percentile_is_an_element :
  forall p sorted, sorted <> [] ->
    exists v, nthZ (pctl_index p (Z.of_nat (List.length sorted))) sorted = Some v /\ pctl_nonint p sorted = oval_of_val v.
Proof. exact pctl_nonint_is_element. Qed.
Print Assumptions C10_percentile_is_an_element.

Theorem C10_sorted_data_is_a_permutation : forall l, Permutation (sort_vals l) l.
Proof. exact sort_vals_perm. Qed.
Print Assumptions C10_sorted_data_is_a_permutation.

(* the data the index is applied to is sorted (non-decreasing in the keeper's collation: numbers by value, before strings) *)
Theorem C10_sorted_data_is_sorted : forall l, Sorted.LocallySorted val_le (sort_vals l).
Proof. exact sort_vals_sorted. Qed.
Print Assumptions C10_sorted_data_is_sorted.

(* interpolated: the indices exist for EVERY p (the DSL percentile functions accept any p): clamped at both ends *)
Theorem C10_interpolated_percentile_never_out_of_range :
  forall p sorted, sorted <> [] -> pctl_interp p sorted <> OPanic.
Proof. exact pctl_interp_never_panics. Qed.
Print Assumptions C10_interpolated_percentile_never_out_of_range.

Theorem C10_interpolated_percentile_clamps_above_instance :
  pctl_interp 200 [B "1"; B "2"] = oval_of_val (B "2").
Proof. exact pctl_interp_clamps_above. Qed.
Print Assumptions C10_interpolated_percentile_clamps_above_instance.

(* ---- non-vacuity: concrete inputs meet the hypotheses and give the expected numbers *)
Example C10_nonvacuous :
  let vs := [B "3"; B ""; B "4.5"; B "pan"; B "-2"] in
  let rs := [[(B "a", B "pan"); (B "x", B "3")]; [(B "x", B "7")]; [(B "a", B "wye"); (B "x", B "5")]; [(B "a", B "pan"); (B "x", B "")]] in
  (2 <= List.length (qs_of vs))%nat
  /\ run_acc false ASum vs = OFlt (Qmake 55 10)
  /\ run_acc false ASum [B "4611686018427387905"; B "-1"; B "7"] = OInt 4611686018427387911
  /\ all_int (numerics [B "4611686018427387905"; B "-1"; B "7"]) = true
  /\ map (fun e => (fst e, snd (snd e))) (count_groups [B "a"] rs) = [(B "pan", 2%Z); (B "wye", 1%Z)]
  /\ filter (has_key (group_key [B "a"])) rs <> rs
  /\ pctl_index (Qmake 25 1) 5 = 1%Z /\ pctl_index (Qmake 100 1) 5 = 4%Z /\ pctl_index (Qmake 250 1) 5 = 4%Z
  /\ pctl_nonint (Qmake 50 1) (sort_vals [B "5"; B "1"; B "3"; B "2"]) = OInt 3
  /\ nodupb (map req_text [(ACount, []); (APctl (Qmake 50 1), B "median")]) = true
  /\ run_acc false AMode [B "3"; B "4"; B "4"; B "3"; B "5"] = OText (B "3")
  /\ run_acc false AMin [B "7"; B "-2"; B "11"] = OInt (-2).
Proof. vm_compute. repeat split; try reflexivity; try discriminate; try lia. Qed.

(* ================================================================== fraction *)
(* per (group, field) cell, on the functions verb_fraction calls (frac_value, sum_step): the fractions add up to 1
   (to 100 with -p) whenever the cell's sum is non-zero; with -c the i-th value is the running sum over the total.
   The tie "the cell sees exactly the group's values of the field" is by correspondence. *)
Theorem C10_fractions_sum_to_one :
  forall mult xs S, frac_cell_sum xs = Some S -> ~ (qof S == 0)%Q ->
    (ovals_sum (frac_cell_run false mult S (I 0) xs) == qof mult)%Q.
Proof. exact fractions_sum_to_one. Qed.
Print Assumptions C10_fractions_sum_to_one.

Theorem C10_cumulative_fractions_are_running_sums :
  forall mult S xs, ~ (qof S == 0)%Q -> forall cum,
    Forall2 (fun o r => exists q, oval_q o = Some q /\ (q == r / qof S * qof mult)%Q)
            (frac_cell_run true mult S cum xs) (running (qof cum) (map qof xs)).
Proof. exact cumulative_fractions_are_running_sums. Qed.
Print Assumptions C10_cumulative_fractions_are_running_sums.

(* ================================================================== histogram *)
Theorem C10_histogram_bin_in_range :
  forall lo hi nbins v, (lo < hi)%Q -> (0 < nbins)%Z -> (lo <= v)%Q -> (v <= hi)%Q ->
    exists i, hist_bin lo hi nbins v = Some i /\ (0 <= i < nbins)%Z.
Proof. exact hist_bin_in_range. Qed.
Print Assumptions C10_histogram_bin_in_range.

Theorem C10_histogram_out_of_range_dropped :
  forall lo hi nbins v, (lo < hi)%Q -> ((v < lo)%Q \/ (hi < v)%Q) -> hist_bin lo hi nbins v = None.
Proof. exact hist_bin_outside_dropped. Qed.
Print Assumptions C10_histogram_out_of_range_dropped.

Theorem C10_histogram_counts_add_up :
  forall lo hi nbins (vs : list Q), (lo < hi)%Q -> (0 < nbins)%Z ->
    let step := fun cs v => match hist_bin lo hi nbins v with
                            | Some i => if (i <? 0)%Z then cs else incr_nth (Z.to_nat i) cs | None => cs end in
    Zsum (fold_left step vs (repeat 0%Z (Z.to_nat nbins))) = Z.of_nat (List.length (filter (in_hist lo hi) vs)).
Proof. exact hist_counts_add_up. Qed.
Print Assumptions C10_histogram_counts_add_up.

(* ================================================================== step (per (group, field) cell run, step_cell) *)
(* counter / rsum / rprod: the operation folded over all contributing (present, non-empty, numeric) values so far *)
Theorem C10_step_running_value :
  forall sp name f pre v x, is_running sp = true -> numeric_or_void pre -> is_void v = false -> numof v = Some x ->
    exists o q, step_cell sp name f (stst0 sp) (pre ++ [Some v]) = step_cell sp name f (stst0 sp) pre ++ [Some o]
      /\ oval_q o = Some q /\ (q == fold_left (run_op sp) (contributing pre ++ [qof x]) (run_init sp))%Q.
Proof. exact running_stepper_value. Qed.
Print Assumptions C10_step_running_value.

Theorem C10_step_running_empty_value :
  forall sp name f pre v, is_running sp = true -> is_void v = true ->
    step_cell sp name f (stst0 sp) (pre ++ [Some v]) = step_cell sp name f (stst0 sp) pre ++ [Some (OText [])].
Proof. exact running_stepper_void. Qed.
Print Assumptions C10_step_running_empty_value.

Theorem C10_step_shift_lag_value :
  forall n name f pre v, (1 <= n)%nat ->
    step_cell (SShiftLag n) name f (stst0 (SShiftLag n)) (pre ++ [Some v])
    = step_cell (SShiftLag n) name f (stst0 (SShiftLag n)) pre ++ [Some (OText (match nback n pre with Some p => p | None => [] end))].
Proof. exact shift_lag_value. Qed.
Print Assumptions C10_step_shift_lag_value.

Theorem C10_step_delta_value :
  forall n name f pre v, (1 <= n)%nat -> is_void v = false ->
    step_cell (SDelta n) name f (stst0 (SDelta n)) (pre ++ [Some v])
    = step_cell (SDelta n) name f (stst0 (SDelta n)) pre
      ++ [Some (match nback_num (SDelta n) n pre with Some p => bin_num (fun x y => Some (nv_minus x y)) v p | None => OInt 0 end)].
Proof. exact (fun n name f pre v => nback_num_value (SDelta n) n name f pre v (or_introl eq_refl)). Qed.
Print Assumptions C10_step_delta_value.

Theorem C10_step_ratio_value :
  forall n name f pre v, (1 <= n)%nat -> is_void v = false ->
    step_cell (SRatio n) name f (stst0 (SRatio n)) (pre ++ [Some v])
    = step_cell (SRatio n) name f (stst0 (SRatio n)) pre
      ++ [Some (match nback_num (SRatio n) n pre with Some p => bin_num nv_div v p | None => OInt 1 end)].
Proof. exact (fun n name f pre v => nback_num_value (SRatio n) n name f pre v (or_intror eq_refl)). Qed.
Print Assumptions C10_step_ratio_value.

Theorem C10_step_delta_is_the_difference :
  forall v p x y, numof v = Some x -> numof p = Some y ->
    exists q, oval_q (bin_num (fun a b => Some (nv_minus a b)) v p) = Some q /\ (q == qof x - qof y)%Q.
Proof. exact delta_is_the_difference. Qed.
Print Assumptions C10_step_delta_is_the_difference.

Theorem C10_step_from_first_value :
  forall name f v0 pre v,
    exists rest, step_cell SFromFirst name f (stst0 SFromFirst) (Some v0 :: pre ++ [Some v])
               = Some (OInt 0) :: rest ++ [Some (bin_num (fun a b => Some (nv_minus a b)) v v0)].
Proof. exact from_first_value. Qed.
Print Assumptions C10_step_from_first_value.

(* every record is emitted exactly once.  PARTIAL: stated on two witnesses whose groups are shorter than the look-ahead
   -- a one-record stream under shift_lead_2, and two interleaved short groups under shift_lead_3 + counter: every record comes
   out once, in arrival order, with an empty look-ahead value.  The statement for ALL streams (length (verb_step ..) = length rs)
   is not proved; the correspondence check and the oracle compare the record counts on every generated stream. *)
Theorem C10_step_emits_records_of_short_groups_partial :
  verb_step [(SShiftLead 2, B "shift_lead_2")] [B "x"] [] [[(B "x", B "1")]]
  = [[(B "x", OText (B "1")); (B "x_shift_lead_2", OText [])]]
  /\ verb_step [(SShiftLead 3, B "shift_lead_3"); (SCounter, B "counter")] [B "x"] [B "g"]
               [[(B "g", B "a"); (B "x", B "1")]; [(B "g", B "b"); (B "x", B "5")]; [(B "g", B "a"); (B "x", B "2")]]
     = [[(B "g", OText (B "a")); (B "x", OText (B "1")); (B "x_shift_lead_3", OText []); (B "x_counter", OInt 1)];
        [(B "g", OText (B "b")); (B "x", OText (B "5")); (B "x_shift_lead_3", OText []); (B "x_counter", OInt 1)];
        [(B "g", OText (B "a")); (B "x", OText (B "2")); (B "x_shift_lead_3", OText []); (B "x_counter", OInt 2)]].
Proof. exact shift_lead_short_group_is_emitted. Qed.
Print Assumptions C10_step_emits_records_of_short_groups_partial.

Example C10_nonvacuous_verbs :
  verb_fraction [B "x"] [] false false [[(B "x", B "1")]; [(B "x", B "3")]]
  = [[(B "x", OText (B "1")); (B "x_fraction", OFlt (Qmake 1 4))]; [(B "x", OText (B "3")); (B "x_fraction", OFlt (Qmake 3 4))]]
  /\ frac_cell_sum [I 1; I 3] = Some (I 4)
  /\ hist_bin 0 10 5 (Qmake 7 2) = Some 1%Z /\ hist_bin 0 10 5 10 = Some 4%Z /\ hist_bin 0 10 5 11 = None
  /\ step_cell SRsum (B "rsum") (B "x") (stst0 SRsum) [Some (B "2"); None; Some []; Some (B "5")]
     = [Some (OInt 2); None; Some (OText []); Some (OInt 7)]
  /\ step_cell (SDelta 2) (B "delta_2") (B "x") (stst0 (SDelta 2)) [Some (B "2"); Some (B "3"); Some (B "7")]
     = [Some (OInt 0); Some (OInt 0); Some (OInt 5)]
  /\ is_running SRprod = true.
Proof. vm_compute. repeat split; reflexivity. Qed.

Example C10_nonvacuous_step_domain : numeric_or_void [Some (B "2"); None; Some []].
Proof.
  intros v [H|[H|[H|[]]]]; [injection H as <-; right; eexists; vm_compute; reflexivity|discriminate H|injection H as <-; left; reflexivity].
Qed.

(* ================================================================== every verb's cell sees exactly its group's values *)
(* (imports for the sections below) *)
From Miller Require Import C10.ProofsCells C10.ProofsCells2 C10.ProofsSum C10.ProofsMoments C10.ProofsWindow.

(* the sum of ints is an int EXACTLY when every partial sum (arrival order) fits int64 -- the code adds with the
   auto-overflowing `+`: one overflow turns the running sum into a float for good; its exact value is still the sum *)
Theorem C10_int_sum_stays_int_iff_partial_sums_fit :
  forall vs, all_int (numerics vs) = true ->
    (partials_fit 0 (ints_of (numerics vs)) = true -> run_acc false ASum vs = OInt (Zsum_list (ints_of (numerics vs))))
    /\ (partials_fit 0 (ints_of (numerics vs)) = false ->
        exists q, run_acc false ASum vs = OFlt q /\ (q == inject_Z (Zsum_list (ints_of (numerics vs))))%Q).
Proof. exact int_sum_stays_int_iff. Qed.
Print Assumptions C10_int_sum_stays_int_iff_partial_sums_fit.

(* ---- fraction: the verb (both passes, every output record) IS the definitional recomputation: record r arriving after
   [pre] gets, per value field it carries, value / (sum over ALL members of its group carrying the field), with -c the
   numerator is the running sum over the members seen so far *)
Theorem C10_fraction_sum_cell_is_group_sum :
  forall fs gs rs k f, NoDup fs -> In f fs ->
    gcell (fold_left (frac_pass1 fs gs) rs []) k f = frac_cell_sum (numerics (values_of f (members (group_key gs) k rs))).
Proof. exact fraction_sum_cell. Qed.
Print Assumptions C10_fraction_sum_cell_is_group_sum.

Theorem C10_fraction_equals_definition :
  forall fs gs pct cumu rs, NoDup fs -> verb_fraction fs gs pct cumu rs = spec_fraction_from fs gs pct cumu rs [] rs.
Proof. exact fraction_equals_definition. Qed.
Print Assumptions C10_fraction_equals_definition.

(* ---- histogram: the counts of value field f are the bin counts of exactly the numeric values of f *)
Theorem C10_histogram_cell_counts_the_fields_values :
  forall lo hi nbins fs rs f, NoDup fs -> In f fs ->
    oget f (hist_counts lo hi nbins fs rs)
    = Some (fold_left (hist_step lo hi nbins) (qs_of (values_of f rs)) (repeat 0%Z (Z.to_nat nbins))).
Proof. exact histogram_cell. Qed.
Print Assumptions C10_histogram_cell_counts_the_fields_values.

(* ---- count-similar: records grouped at the end, groups in first-appearance order, each with its group's size *)
Theorem C10_count_similar_equals_definition :
  forall gs out rs,
    verb_count_similar gs out rs
    = flat_map (fun k => map (fun r => oput out (OInt (Z.of_nat (List.length (members (group_key gs) k rs)))) (otext_rec r))
                             (members (group_key gs) k rs))
               (first_keys (group_key gs) rs).
Proof. exact count_similar_equals_definition. Qed.
Print Assumptions C10_count_similar_equals_definition.

Theorem C10_count_similar_emits_every_contributing_record :
  forall gs out rs, List.length (verb_count_similar gs out rs) = List.length (filter (has_key (group_key gs)) rs).
Proof. exact count_similar_emits_every_contributing_record. Qed.
Print Assumptions C10_count_similar_emits_every_contributing_record.

(* ---- count / uniq -g [-c|-n] / count-distinct -f [-n] / most-frequent share one state: per group (first-appearance
   order) the group-by texts of its first member and the number of its members *)
Theorem C10_count_groups_entries :
  forall gs rs,
    count_groups gs rs
    = map (fun k => (k, (first_sel gs (members (group_key gs) k rs), Z.of_nat (List.length (members (group_key gs) k rs)))))
          (first_keys (group_key gs) rs).
Proof. exact count_groups_entries. Qed.
Print Assumptions C10_count_groups_entries.

Theorem C10_uniq_equals_definition :
  forall gs show_counts only_n out rs,
    verb_uniq gs show_counts only_n out rs
    = if only_n then [[(B "count", OInt (Z.of_nat (List.length (first_keys (group_key gs) rs))))]]
      else map (fun k => put_all (group_fields gs (first_sel gs (members (group_key gs) k rs))
                                  ++ (if show_counts then [(out, OInt (Z.of_nat (List.length (members (group_key gs) k rs))))] else [])) [])
               (first_keys (group_key gs) rs).
Proof. exact uniq_equals_definition. Qed.
Print Assumptions C10_uniq_equals_definition.

(* count-distinct -u: per listed field the counts by value of exactly that field's values (counts map:
   C10_counts_by_value_equal_occurrences) *)
Theorem C10_count_distinct_u_cell :
  forall fs f rs, NoDup fs -> In f fs ->
    dfl_cm (oget f (fold_left (unlashed_step fs) rs [])) = fold_left (fun cm v => cm_incr v cm) (values_of f rs) [].
Proof. exact count_distinct_u_cell. Qed.
Print Assumptions C10_count_distinct_u_cell.

(* ---- top: per (group, value field) the best n of exactly the group's values of that field; the contributing records
   are those carrying every group-by and every value field *)
Theorem C10_top_equals_model_over_named_groups :
  forall n domax out fs gs rs,
    verb_top n domax out fs gs rs
    = flat_map (fun e : bytes * (list bytes * omap (list val)) =>
                map (fun i =>
                       fold_left (fun o fl => oput ((fst fl) ++ B "_top")%list
                                                   (match nth_error (snd fl) i with Some v => oval_of_val v | None => OText [] end)
                                                   (oput out (OInt (Z.of_nat i + 1)) o))
                                 (snd (snd e)) (put_all (group_fields gs (fst (snd e))) []))
                    (seq 0 n)) (top_groups n domax fs gs rs).
Proof. exact verb_top_groups. Qed.
Print Assumptions C10_top_equals_model_over_named_groups.

Theorem C10_top_cell_is_best_n_of_group_values :
  forall n domax fs gs rs k f, NoDup fs -> In f fs ->
    match oget k (top_groups n domax fs gs rs) with Some s => oget f (snd s) | None => None end
    = match values_of f (members (top_key fs gs) k rs) with
      | [] => None
      | vs => Some (firstn n (top_sorted domax vs))
      end.
Proof. exact top_cell. Qed.
Print Assumptions C10_top_cell_is_best_n_of_group_values.

Theorem C10_top_sorted_is_a_permutation : forall domax vs, Permutation (top_sorted domax vs) vs.
Proof. exact top_sorted_perm. Qed.
Print Assumptions C10_top_sorted_is_a_permutation.

(* ---- most-frequent / least-frequent: the (group, size) entries sorted by size (descending for most-frequent), groups
   of equal size in first-appearance order (the model's order: Go's sort.Slice is an insertion sort up to 12 elements;
   beyond 12 the check verifies the sortedness relation on the output instead), then the first maxn *)
Theorem C10_frequent_is_sorted_stable_permutation :
  forall descending maxn show_counts out gs rs,
    verb_frequent descending maxn show_counts out gs rs
    = map (fun e => put_all (group_fields gs (fst (snd e)) ++ (if show_counts then [(out, OInt (snd (snd e)))] else [])) [])
          (firstn maxn (freq_sorted descending gs rs))
    /\ sortedk (freq_key descending) (freq_sorted descending gs rs)
    /\ Permutation (freq_sorted descending gs rs) (count_groups gs rs)
    /\ forall c, filter (has_key_c (freq_key descending) c) (freq_sorted descending gs rs)
                 = filter (has_key_c (freq_key descending) c) (count_groups gs rs).
Proof. exact (fun d m s o gs rs => conj eq_refl (frequent_order d gs rs)). Qed.
Print Assumptions C10_frequent_is_sorted_stable_permutation.

Example C10_nonvacuous_cells :
  NoDup [B "x"; B "y"] /\ In (B "y") [B "x"; B "y"]
  /\ (let rs := [[(B "a", B "p"); (B "x", B "1")]; [(B "x", B "7")]; [(B "a", B "q"); (B "x", B "5"); (B "y", B "2")]; [(B "a", B "p"); (B "x", B "3"); (B "y", B "6")]] in
      verb_fraction [B "x"; B "y"] [B "a"] false true rs = spec_fraction_from [B "x"; B "y"] [B "a"] false true rs [] rs
      /\ nth 3 (verb_fraction [B "x"; B "y"] [B "a"] false true rs) []
         = [(B "a", OText (B "p")); (B "x", OText (B "3")); (B "y", OText (B "6")); (B "x_cumulative_fraction", OInt 1); (B "y_cumulative_fraction", OInt 1)]
      /\ values_of (B "x") (members (group_key [B "a"]) (B "p") rs) = [B "1"; B "3"]
      /\ firstn 1 (top_sorted true [B "1"; B "3"]) = [B "3"]
      /\ map (fun e => fst e) (freq_sorted true [B "a"] rs) = [B "p"; B "q"]).
Proof. vm_compute. repeat split; try reflexivity; repeat constructor; cbn; intuition discriminate. Qed.

(* ================================================================== higher moments, lengths, mad *)
(* skewness = (sum (x-mean)^3 / n) / (sum (x-mean)^2 / (n-1))^(3/2): the 3/2 power is irrational, the theorem is on the
   rational numerator and denominator the model hands to pow (the correspondence compares the float) *)
Theorem C10_skewness_equals_definition :
  forall vs,
    let xs := qs_of vs in let fn := inject_Z (Z.of_nat (List.length xs)) in
    ((List.length xs < 2)%nat -> run_acc false ASkewness vs = OVoid)
    /\ ((2 <= List.length xs)%nat -> (central 2 xs == 0)%Q -> run_acc false ASkewness vs = ONan)
    /\ ((2 <= List.length xs)%nat -> ~ (central 2 xs == 0)%Q ->
        exists nu de, run_acc false ASkewness vs = OPow15 nu de
          /\ (nu == central 3 xs / fn)%Q /\ (de == central 2 xs / (fn - 1))%Q /\ (0 < de)%Q).
Proof. exact skewness_stream_eq_def. Qed.
Print Assumptions C10_skewness_equals_definition.

Theorem C10_kurtosis_equals_definition :
  forall vs,
    let xs := qs_of vs in let fn := inject_Z (Z.of_nat (List.length xs)) in
    ((List.length xs < 2)%nat -> run_acc false AKurtosis vs = OVoid)
    /\ ((2 <= List.length xs)%nat -> (central 2 xs == 0)%Q -> run_acc false AKurtosis vs = ONan)
    /\ ((2 <= List.length xs)%nat -> ~ (central 2 xs == 0)%Q ->
        exists q, run_acc false AKurtosis vs = OFlt q
          /\ (q == (central 4 xs / fn) / ((central 2 xs / fn) * (central 2 xs / fn)) - 3)%Q).
Proof. exact kurtosis_stream_eq_def. Qed.
Print Assumptions C10_kurtosis_equals_definition.

Theorem C10_mad_equals_definition :
  forall vs, qs_of vs <> [] ->
    let xs := qs_of vs in
    exists q, run_acc false AMad vs = OFlt q
      /\ (q == Qsum_list (map (fun x => Qabs (mean_def xs - x)) xs) / inject_Z (Z.of_nat (List.length xs)))%Q.
Proof. exact mad_equals_definition. Qed.
Print Assumptions C10_mad_equals_definition.

Theorem C10_count_and_null_count :
  forall vs, run_acc false ACount vs = OInt (Z.of_nat (List.length vs))
          /\ run_acc false ANullCount vs = OInt (Z.of_nat (List.length (filter is_void vs))).
Proof. exact (fun vs => conj (count_is_number_of_values vs) (null_count_is_number_of_empty_values vs)). Qed.
Print Assumptions C10_count_and_null_count.

(* minlen / maxlen: the extreme number of UTF-8 characters (C15's strlen on well-formed UTF-8) *)
Theorem C10_minlen_maxlen_are_extreme_character_counts :
  forall vs, vs <> [] -> forallb C15.Model.valid_utf8 vs = true ->
    (exists z, run_acc false AMinLen vs = OInt z /\ In z (map C15.Model.strlen vs) /\ (forall v, In v vs -> (z <= C15.Model.strlen v)%Z))
    /\ (exists z, run_acc false AMaxLen vs = OInt z /\ In z (map C15.Model.strlen vs) /\ (forall v, In v vs -> (C15.Model.strlen v <= z)%Z)).
Proof.
  exact (fun vs Hne Hv => conj (len_is_extreme_rune_count AMinLen vs (or_introl eq_refl) Hne Hv)
                              (len_is_extreme_rune_count AMaxLen vs (or_intror eq_refl) Hne Hv)).
Qed.
Print Assumptions C10_minlen_maxlen_are_extreme_character_counts.

(* ================================================================== ewma, sliding windows, interpolation value *)
(* the recurrence next = alpha*x + (1-alpha)*prev equals the closed form (1-alpha)^n x0 + sum_k alpha (1-alpha)^k x_(n-k) *)
Theorem C10_ewma_recurrence_equals_closed_form :
  forall al x0 xs,
    (ewma_rec al x0 xs
     == qpow (1 - al) (List.length xs) * x0
        + Qsum_list (map (fun k => al * qpow (1 - al) k * nth k (rev xs) 0) (seq 0 (List.length xs))))%Q.
Proof. exact ewma_closed_explicit. Qed.
Print Assumptions C10_ewma_recurrence_equals_closed_form.

(* step -a ewma -d alphas [-o suffixes]: for every alpha the value written for a numeric value is the recurrence over
   exactly the numeric values of the cell so far (records lacking the field and non-numeric texts are skipped) *)
Theorem C10_step_ewma_value :
  forall alphas name f pre v x al sfx,
    NoDup (map snd alphas) -> In (al, sfx) alphas -> numof v = Some x ->
    ewma_cell alphas name f sfx (stst0 (SEwma alphas)) (pre ++ [Some v])
    = ewma_cell alphas name f sfx (stst0 (SEwma alphas)) pre
      ++ [Some (match ewma_inputs pre with
                | [] => oval_of_val v
                | x0 :: rest => OFlt (ewma_rec al (qof x0) (map qof rest ++ [qof x]))
                end)].
Proof. exact ewma_stepper_value. Qed.
Print Assumptions C10_step_ewma_value.

(* stats1 -w n: the window kept for a group holds exactly its last n contributing records (eviction invariant), and every
   accumulator printed with a record has been fed exactly the window's values of its field *)
Theorem C10_stats1_window_holds_last_n_of_group :
  forall interp accs fs gs n rs k,
    w_win_of (oget k (w_run interp accs fs gs n rs))
    = last_n (wn n) (map (window_entry fs) (members (group_key gs) k rs))
    /\ (oget k (w_run interp accs fs gs n rs) = None <-> members (group_key gs) k rs = []).
Proof. exact stats1w_window_invariant. Qed.
Print Assumptions C10_stats1_window_holds_last_n_of_group.

Theorem C10_stats1_window_cell_is_accumulator_over_window :
  forall interp accs fs gs n rs r k f a,
    NoDup fs -> NoDup (map req_text accs) -> In f fs -> In a accs -> group_key gs r = Some k ->
    let l2' := w_l2_of (oget k (w_run interp accs fs gs n (rs ++ [r]))) in
    let vs := values_of f (last_n (wn n) (members (group_key gs) k (rs ++ [r]))) in
    dflt (match oget f l2' with Some l3 => oget (req_text a) l3 | None => None end) = fold_left (feed (fst a)) vs st0
    /\ (vs <> [] -> exists l3, oget f l2' = Some l3 /\ oget (req_text a) l3 = Some (fold_left (feed (fst a)) vs st0)).
Proof. exact stats1w_cell_is_window_run. Qed.
Print Assumptions C10_stats1_window_cell_is_accumulator_over_window.

Theorem C10_stats1_window_emits_the_window_statistics :
  forall interp accs fs gs n rs r k, group_key gs r = Some k ->
    exists gv,
      oget k (w_run interp accs fs gs n (rs ++ [r]))
      = Some (gv, w_win_of (oget k (w_run interp accs fs gs n (rs ++ [r]))), w_l2_of (oget k (w_run interp accs fs gs n (rs ++ [r]))))
      /\ verb_stats1_w interp accs fs gs n (rs ++ [r])
         = verb_stats1_w interp accs fs gs n rs
           ++ [put_all (group_fields gs gv ++ emit_l2 interp accs (w_l2_of (oget k (w_run interp accs fs gs n (rs ++ [r]))))) (otext_rec r)].
Proof. exact stats1w_emitted. Qed.
Print Assumptions C10_stats1_window_emits_the_window_statistics.

(* interpolated percentile: the VALUE for 0 <= p <= 100 on numeric data: x_i + (f - i)(x_(i+1) - x_i) with
   f = p/100 (n-1), i = floor f, between the two neighbours; the last element at the top *)
Theorem C10_interpolated_percentile_value :
  forall p sorted, (0 <= p)%Q -> (p <= 100)%Q -> sorted <> [] -> all_numeric sorted ->
    pctl_interp p sorted
    = if (Z.of_nat (List.length sorted) - 1 <=? pidx p sorted)%Z then oval_of_val (last sorted [])
      else OFlt (xq sorted (pidx p sorted)
                 + (pf p sorted - inject_Z (pidx p sorted)) * (xq sorted (pidx p sorted + 1) - xq sorted (pidx p sorted))).
Proof. exact pctl_interp_value. Qed.
Print Assumptions C10_interpolated_percentile_value.

Theorem C10_interpolated_percentile_between_neighbours :
  forall p sorted, (0 <= p)%Q -> (p <= 100)%Q -> sorted <> [] -> all_numeric sorted ->
    Sorted.LocallySorted val_le sorted -> (pidx p sorted < Z.of_nat (List.length sorted) - 1)%Z ->
    let value := (xq sorted (pidx p sorted)
                 + (pf p sorted - inject_Z (pidx p sorted)) * (xq sorted (pidx p sorted + 1) - xq sorted (pidx p sorted)))%Q in
    pctl_interp p sorted = OFlt value /\ (xq sorted (pidx p sorted) <= value)%Q /\ (value <= xq sorted (pidx p sorted + 1))%Q.
Proof. exact pctl_interp_bracket. Qed.
Print Assumptions C10_interpolated_percentile_between_neighbours.

(* step: the window kept for a group holds exactly the group's records centre .. centre+lead that exist, and
   shift_lead_n writes into the centre the field of the record n places ahead (empty when there is none) *)
Theorem C10_step_window_holds_the_groups_records :
  forall sps fs gs lead rs k,
    match oget k (s_run sps fs gs lead rs) with
    | Some g => wkeys (sg_win g) = last_n (S lead) (padded lead (members (group_key gs) k rs))
                /\ members (group_key gs) k rs <> []
    | None => members (group_key gs) k rs = []
    end.
Proof. exact step_window_invariant. Qed.
Print Assumptions C10_step_window_holds_the_groups_records.

Theorem C10_step_shift_lead_reads_n_ahead :
  forall lead n name f st c t (ms : list record),
    wkeys (Some c :: t) = last_n (S lead) (padded lead ms) ->
    exists c', snd (sprocess (SShiftLead n) name f st (Some c :: t)) = Some c' :: t /\ fst c' = fst c
      /\ Some (fst c) = (if (S lead <=? List.length ms + 0)%nat then nth_error ms (List.length ms + 0 - S lead) else None)
      /\ match (if (S lead <=? List.length ms + n)%nat then nth_error ms (List.length ms + n - S lead) else None) with
         | None => oget (out_name f name) (snd c') = Some (OText [])
         | Some r' => match get f r' with
                      | Some v => oget (out_name f name) (snd c') = Some (OText v)
                      | None => c' = c
                      end
         end.
Proof. exact shift_lead_reads_ahead. Qed.
Print Assumptions C10_step_shift_lead_reads_n_ahead.

(* ================================================================== merge-fields, fill-down *)
From Miller Require Import C10.ProofsMerge.

(* merge-fields -r: per record, every requested accumulator is run over exactly the non-empty values of the fields whose
   name contains one of the substrings, in record order; those fields are removed unless -k *)
Theorem C10_merge_fields_r_equals_definition :
  forall interp keep accs subs base r,
    verb_merge_fields_one interp keep accs (MFSubs subs) base r
    = fold_left (fun o e => oput (base ++ "_" :: fst e)%list (run_acc interp (fst (snd e)) (mf_subs_values subs r)) o)
                (mf_accs accs) (mf_subs_rest keep subs r).
Proof. exact merge_fields_subs. Qed.
Print Assumptions C10_merge_fields_r_equals_definition.

(* merge-fields -f: the non-empty values of the listed fields present in the record, in the order of -f (a name listed
   twice without -k is gone the second time: the statement needs NoDup then, see merge_fields_names_dup_refuted) *)
Theorem C10_merge_fields_f_equals_definition :
  forall interp keep accs fs base r, keep = true \/ NoDup fs ->
    verb_merge_fields_one interp keep accs (MFNames fs) base r
    = fold_left (fun o e => oput (base ++ "_" :: fst e)%list (run_acc interp (fst (snd e)) (mf_names_values fs r)) o)
                (mf_accs accs) (mf_names_rest keep fs r).
Proof. exact merge_fields_names. Qed.
Print Assumptions C10_merge_fields_f_equals_definition.

(* merge-fields -c: the fields are partitioned by their short name (field name minus the first matching substring), short
   names in first-appearance order, each short name's accumulators run over exactly its fields' non-empty values *)
Theorem C10_merge_fields_c_equals_definition :
  forall interp keep accs subs base r,
    verb_merge_fields_one interp keep accs (MFCollapse subs) base r
    = fold_left (fun o sh => fold_left (fun o e => oput (sh ++ "_" :: fst e)%list (run_acc interp (fst (snd e)) (mf_collapse_values subs sh r)) o)
                                       (mf_accs accs) o)
                (first_keys (mf_ckey subs) r) (mf_subs_rest keep subs r).
Proof. exact merge_fields_collapse. Qed.
Print Assumptions C10_merge_fields_c_equals_definition.

(* fill-down -f [-a | --only-if-blank]: the i-th output is the i-th input with every listed field that is not present
   (absent; or, without -a, empty) set to its value in the LAST earlier record where it was present, if any *)
Theorem C10_fill_down_equals_definition :
  forall oia fs rs, NoDup fs -> verb_fill_down false oia fs rs = spec_fill_down_from oia fs [] rs.
Proof. exact fill_down_equals_definition. Qed.
Print Assumptions C10_fill_down_equals_definition.

Theorem C10_fill_down_all_equals_definition :
  forall oia fs rs, forallb wf_record rs = true -> verb_fill_down true oia fs rs = spec_fill_all_from oia [] rs.
Proof. exact fill_down_all_equals_definition. Qed.
Print Assumptions C10_fill_down_all_equals_definition.

Example C10_nonvacuous_merge_fill :
  NoDup [B "x"; B "y"]
  /\ forallb wf_record [[(B "x", B "1"); (B "y", B "")]; [(B "y", B "2")]] = true
  /\ verb_fill_down false false [B "x"; B "y"] [[(B "x", B "1"); (B "y", B "")]; [(B "y", B "2")]; [(B "x", B ""); (B "z", B "3")]]
     = [[(B "x", OText (B "1")); (B "y", OText [])]; [(B "y", OText (B "2")); (B "x", OText (B "1"))];
        [(B "x", OText (B "1")); (B "z", OText (B "3")); (B "y", OText (B "2"))]]
  /\ mf_subs_values [B "in_"] [(B "a_in_x", B "3"); (B "k", B "9"); (B "b_in_y", B ""); (B "c_in_z", B "4")] = [B "3"; B "4"].
Proof. vm_compute. repeat split; try reflexivity; repeat constructor; cbn; intuition discriminate. Qed.

(* ================================================================== step: the verb's own per-(group, field, stepper) state *)
From Miller Require Import C10.ProofsStepCell.
(* backward-looking steppers (window of one record): the state kept inside verb_step for (group k, value field f,
   stepper `name`) is the per-cell run (the step_state / step_cell of the C10_step_* theorems above) over exactly the
   events of f over the group's records, starting at the first record that carries f; other groups' records, other
   fields and other steppers do not touch it *)
Theorem C10_step_cell_sees_exactly_its_groups_events :
  forall sps fs gs f sp name rs k,
    NoDup fs -> In f fs -> NoDup (map snd sps) -> In (sp, name) sps ->
    match oget k (s_run sps fs gs 0 rs) with Some g => cellst g f name | None => None end
    = match drop_absent (map (get f) (members (group_key gs) k rs)) with
      | [] => None
      | evs => Some (step_state sp name f (stst0 sp) evs)
      end.
Proof. exact step_cell_state_is_step_state. Qed.
Print Assumptions C10_step_cell_sees_exactly_its_groups_events.

(* ================================================================== DSL statistics functions (pkg/bifs/stats.go) *)
From Miller Require Import C10.ModelDsl C10.ProofsDsl.
(* the DSL function applied to the collection of a group's values IS the stats1 accumulator over the group's records
   (ModelDsl.dsl_stat transliterates the BIFs; run_acc is the accumulator the verbs use).  Unconditional for the counting
   / order functions; for the moment functions on all-numeric collections (the BIFs count empty values in n and turn a
   string into an error, the verb skips empties before feeding: dsl_mean_counts_voids, dsl_sum_string_is_error) *)
Theorem C10_dsl_counting_functions_are_the_accumulators :
  forall xs, dsl_stat DCount xs = run_acc false ACount xs
          /\ dsl_stat DNullCount xs = run_acc false ANullCount xs
          /\ dsl_stat DDistinctCount xs = run_acc false ADistinctCount xs
          /\ dsl_stat DMode xs = run_acc false AMode xs
          /\ dsl_stat DAntimode xs = run_acc false AAntimode xs
          /\ dsl_stat DMinLen xs = run_acc false AMinLen xs
          /\ dsl_stat DMaxLen xs = run_acc false AMaxLen xs.
Proof.
  exact (fun xs => conj (dsl_count_is_accumulator xs) (conj (dsl_null_count_is_accumulator xs) (conj (dsl_distinct_count_is_accumulator xs)
          (conj (dsl_mode_is_accumulator xs) (conj (dsl_antimode_is_accumulator xs)
          (conj (dsl_len_is_accumulator AMinLen _ (or_introl (conj eq_refl eq_refl)) xs)
                (dsl_len_is_accumulator AMaxLen _ (or_intror (conj eq_refl eq_refl)) xs))))))).
Qed.
Print Assumptions C10_dsl_counting_functions_are_the_accumulators.

Theorem C10_dsl_percentile_functions_are_the_accumulators :
  forall il p xs, dsl_stat (DPercentile il p) xs = run_acc il (APctl p) xs /\ dsl_stat (DMedian il) xs = run_acc il (APctl 50) xs.
Proof. exact (fun il p xs => conj (dsl_percentile_is_accumulator il p xs) (dsl_percentile_is_accumulator il 50 xs)). Qed.
Print Assumptions C10_dsl_percentile_functions_are_the_accumulators.

Theorem C10_dsl_moment_functions_are_the_accumulators :
  forall xs, (no_strings xs = true -> dsl_stat DSum xs = run_acc false ASum xs)
          /\ (all_num xs = true ->
              dsl_stat DMean xs = run_acc false AMean xs /\ dsl_stat DVariance xs = run_acc false AVar xs
              /\ dsl_stat DStddev xs = run_acc false AStddev xs /\ dsl_stat DMeanEB xs = run_acc false AMeanEB xs
              /\ dsl_stat DSkewness xs = run_acc false ASkewness xs).
Proof.
  exact (fun xs => conj (dsl_sum_is_accumulator xs)
          (fun H => conj (dsl_mean_is_accumulator xs H) (conj (dsl_moment_is_accumulator AVar xs eq_refl H)
                    (conj (dsl_moment_is_accumulator AStddev xs eq_refl H) (conj (dsl_moment_is_accumulator AMeanEB xs eq_refl H)
                    (dsl_moment_is_accumulator ASkewness xs eq_refl H)))))).
Qed.
Print Assumptions C10_dsl_moment_functions_are_the_accumulators.

(* sum, sum2, sum3, sum4 = the power sums of the numeric elements, exactly over Q *)
Theorem C10_dsl_power_sums_equal_definition :
  forall k xs, (1 <= k <= 4)%nat -> no_strings xs = true ->
    exists r, dsl_sumk k xs = SNum r /\ (qof r == pow_sum k (qs_of xs))%Q.
Proof. exact dsl_sumk_is_pow_sum. Qed.
Print Assumptions C10_dsl_power_sums_equal_definition.

Example C10_nonvacuous_dsl :
  all_num [B "4"; B "5"; B "9.5"] = true /\ no_strings [B "4"; B ""; B "9.5"] = true
  /\ dsl_stat DMean [B "4"; B "5"; B "9"] = OInt 6 /\ dsl_stat DCount [B "4"; B ""; B "x"] = OInt 3.
Proof. vm_compute. repeat split; reflexivity. Qed.

(* ================================================================== stats1 as a whole (Verbs4.v) *)
From Miller Require Import C10.Verbs4 C10.ProofsStats1G.
(* names given twice in -a / -f are kept once (NewTransformerStats1: stats1UniqueNames): the NoDup hypotheses of C10_stats1_cell_is_accumulator_run
   hold for what the verb runs on, for ANY -a and -f lists; every requested name survives *)
Theorem C10_stats1_names_given_twice_are_kept_once :
  forall accs fs, NoDup (uniq_names fs) /\ NoDup (map req_text (uniq_accs accs))
    /\ (forall f, In f (uniq_names fs) <-> In f fs)
    /\ (forall a, In a accs -> In (req_text a) (map req_text (uniq_accs accs)))
    /\ (forall a, In a (uniq_accs accs) -> In a accs).
Proof.
  exact (fun accs fs =>
           conj (uniq_names_nodup fs)
          (conj (uniq_accs_nodup accs)
          (conj (fun f => uniq_names_in f fs)
          (conj (fun a => uniq_accs_texts a accs)
                (fun a => uniq_accs_sub a accs))))).
Qed.
Print Assumptions C10_stats1_names_given_twice_are_kept_once.

(* stats1 with value fields by name (-f) or by regex (--fr/--fx) and group-by fields by name (-g) or by regex (--gr/--gx):
   the accumulator state of (group k, value field f selected by the option, accumulator a) is that accumulator fed exactly the
   values of f over the members of group k (the partition by the grouping key), in arrival order -- nothing from other groups or
   fields, every contributing record once; no hypothesis on the -a/-f lists; regex selection needs records with distinct names *)
Theorem C10_stats1_any_selection_cell_sees_exactly_its_group :
  forall accs fsl gsl rs k f a,
    sel_wf fsl rs -> fsel_selects fsl f = true -> In a (uniq_accs accs) ->
    (match oget k (stats1g_groups accs fsl gsl rs) with
     | Some pl => match oget f (snd pl) with Some l3 => oget (req_text a) l3 | None => None end
     | None => None
     end
     = match values_of f (members (gkey_sel gsl) k rs) with
       | [] => None
       | vs => Some (fold_left (feed (fst a)) vs st0)
       end)
    /\ match oget k (stats1g_groups accs fsl gsl rs), members (gkey_sel gsl) k rs with
       | Some pl, r0 :: _ => fst pl = dflt_pairs (gpairs gsl r0)
       | None, [] => True
       | _, _ => False
       end.
Proof. exact stats1g_cell_sees_exactly_its_group. Qed.
Print Assumptions C10_stats1_any_selection_cell_sees_exactly_its_group.

Theorem C10_stats1_any_selection_groups_are_the_partition :
  forall accs fsl gsl rs,
    stats1g_groups accs fsl gsl rs
    = spec_groups (gkey_sel gsl) (fun r => (dflt_pairs (gpairs gsl r), [])) (fun s r => (fst s, ingest_sel accs fsl r (snd s))) rs.
Proof. exact (fun accs fsl gsl rs => gfold_spec _ _ _ rs). Qed.
Print Assumptions C10_stats1_any_selection_groups_are_the_partition.

(* --gr/--gx: the matched field names are part of the group.  Records with one matched group-by field each
   are in the same group exactly when the field name AND the text are the same (names without "="): a=1 and b=1 are two
   groups.  PARTIAL for several matched fields: name=value pairs are joined with ",", so texts holding ",name="
   can collide (the comma-joined key of finding group-key-comma-collision) *)
Theorem C10_stats1_regex_group_key_exact_name_and_text_partial :
  forall inv ps r1 r2 n1 v1 n2 v2,
    gmatched inv ps r1 = [(n1, v1)] -> gmatched inv ps r2 = [(n2, v2)] -> ~ In "="%char n1 -> ~ In "="%char n2 ->
    (gkey_sel (GRegex inv ps) r1 = gkey_sel (GRegex inv ps) r2 <-> n1 = n2 /\ v1 = v2).
Proof. exact regex_group_key_single_field. Qed.
Print Assumptions C10_stats1_regex_group_key_exact_name_and_text_partial.

Example C10_nonvacuous_stats1_selection :
  let rs := [[(B "a", B "1"); (B "x", B "3"); (B "xy", B "7")]; [(B "b", B "1"); (B "x", B "4")]; [(B "a", B "1"); (B "x", B "5")]] in
  let gsl := GRegex false [mkpat true true (B "a"); mkpat true true (B "b")] in
  let fsl := FRegex false [mkpat true false (B "x")] in
  sel_wf fsl rs /\ fsel_selects fsl (B "xy") = true /\ In (ASum, []) (uniq_accs [(ASum, []); (ACount, []); (ASum, [])])
  /\ gkey_sel gsl (nth 0 rs []) <> gkey_sel gsl (nth 1 rs [])
  /\ verb_stats1g false [(ASum, []); (ACount, []); (ASum, [])] fsl gsl rs
     = [[(B "a", OText (B "1")); (B "x_sum", OInt 8); (B "x_count", OInt 2); (B "xy_sum", OInt 7); (B "xy_count", OInt 1)];
        [(B "b", OText (B "1")); (B "x_sum", OInt 4); (B "x_count", OInt 1)]]
  /\ gmatched false [mkpat true true (B "a"); mkpat true true (B "b")] (nth 1 rs []) = [(B "b", B "1")].
Proof. vm_compute. repeat split; try reflexivity; try discriminate; try (repeat constructor); auto. Qed.

(* ================================================================== stats2 (Verbs5.v) *)
From Miller Require Import C10.Verbs5 C10.ProofsStats2.
(* the sums kept for (group k, pair p of value fields) are the sums over exactly the numeric (x, y) pairs of the members of
   group k that carry both fields non-empty, in arrival order; no entry (no output fields) before the first such record *)
Theorem C10_stats2_cell_sees_exactly_its_group :
  forall ps gs rs k p, NoDup (map pair_key ps) -> In p ps ->
    match oget k (stats2_groups ps gs rs) with Some e => oget (pair_key p) (snd e) | None => None end
    = match pair_values p (members (group_key gs) k rs) with [] => None | xys => Some (fold_left s2_ingest xys s2st0) end.
Proof. exact stats2_cell_sees_exactly_its_group. Qed.
Print Assumptions C10_stats2_cell_sees_exactly_its_group.

(* streaming = definition: count, sum x, sum y, sum x^2, sum xy, sum y^2 are the definitional sums, for every order of arrival *)
Theorem C10_stats2_sums_are_the_definitional_sums : forall l, s2eq (fold_left s2_ingest l s2st0) l.
Proof. exact s2_sums_are_definitional. Qed.
Print Assumptions C10_stats2_sums_are_the_definitional_sums.

(* cov: the streamed formula = sum (x - mean_x)(y - mean_y) / (n - 1) *)
Theorem C10_stats2_cov_equals_definition :
  forall l, (2 <= List.length l)%nat -> (cov_of (fold_left s2_ingest l s2st0) == cxy l / (nq l - 1))%Q.
Proof. exact cov_stream_eq_def. Qed.
Print Assumptions C10_stats2_cov_equals_definition.

(* linreg-ols: m and b solve the normal equations of the least-squares fit whenever D <> 0, and D = n sum (x - mean_x)^2 *)
Theorem C10_stats2_ols_solves_the_normal_equations :
  forall l, let s := fold_left s2_ingest l s2st0 in
    (~ (ols_D s == 0)%Q ->
     (ols_m s * sumq (fun p => fst p * fst p) l + ols_b s * sumq fst l == sumq (fun p => fst p * snd p) l)%Q
     /\ (ols_m s * sumq fst l + ols_b s * nq l == sumq snd l)%Q)
    /\ (l <> [] -> (ols_D s == nq l * cxx l)%Q).
Proof. exact (fun l => conj (ols_solves_normal_equations l) (ols_D_is_n_cxx l)). Qed.
Print Assumptions C10_stats2_ols_solves_the_normal_equations.

(* r2: numerator and denominator of the streamed quotient are n^2 cxy^2 and n^2 cxx cyy: r2 = cxy^2 / (cxx cyy) *)
Theorem C10_stats2_r2_equals_definition :
  forall l, l <> [] -> let s := fold_left s2_ingest l s2st0 in
    (r2_num s == nq l * nq l * (cxy l * cxy l))%Q /\ (r2_den s == nq l * nq l * (cxx l * cyy l))%Q.
Proof. exact r2_stream_eq_def. Qed.
Print Assumptions C10_stats2_r2_equals_definition.

Example C10_nonvacuous_stats2 :
  let rs := [[(B "g", B "a"); (B "x", B "1"); (B "y", B "2")]; [(B "g", B "b"); (B "x", B "5"); (B "y", B "5")];
             [(B "g", B "a"); (B "x", B "2"); (B "y", B "")]; [(B "g", B "a"); (B "x", B "3"); (B "y", B "8")]] in
  NoDup (map pair_key (pairs_of_list [B "x"; B "y"])) /\ In (B "x", B "y") (pairs_of_list [B "x"; B "y"])
  /\ pair_values (B "x", B "y") (members (group_key [B "g"]) (B "a") rs) = [(1, 2); (3, 8)]
  /\ verb_stats2 [S2Ols; S2Cov] [B "x"; B "y"] [B "g"] rs
     = [[(B "g", OText (B "a")); (B "x_y_ols_m", OFlt (Qmake 12 4)); (B "x_y_ols_b", OFlt (Qmake (-4) 4)); (B "x_y_ols_n", OInt 2);
         (B "x_y_cov", OFlt (cov_of (mks2 2 4 10 10 26 68)))];
        [(B "g", OText (B "b")); (B "x_y_ols_m", OVoid); (B "x_y_ols_b", OVoid); (B "x_y_ols_n", OInt 1); (B "x_y_cov", OVoid)]].
Proof. vm_compute. repeat split; try reflexivity; repeat constructor; cbn; intuition discriminate. Qed.

(* ================================================================== var / stddev / meaneb of ints (exact integer sums) *)
From Miller Require Import C10.ProofsVarInt.
(* the finalizer of the model (the streaming formula taken exactly over Q) IS the quotient (n sum2 - sum^2) / (n (n-1)) the
   code computes from the exact integer sums with one rounding; C10_var_equals_definition ties it to sum (x-mean)^2/(n-1) *)
Theorem C10_var_finalizer_is_the_exact_integer_quotient :
  forall n s1 s2, (2 <= n)%Z -> (0 <= inject_Z n * s2 - s1 * s1)%Q ->
    exists q, finalize_var n s1 s2 = Some q /\ (q == (inject_Z n * s2 - s1 * s1) / (inject_Z n * inject_Z (n - 1)))%Q.
Proof. exact var_finalizer_is_exact_quotient. Qed.
Print Assumptions C10_var_finalizer_is_the_exact_integer_quotient.

(* an instance at timestamp scale: the exact variance of 1700000001, 1700000004, 1700000002 is 7/3 *)
Theorem C10_var_of_timestamp_scale_ints_instance :
  exists q, run_acc false AVar [B "1700000001"; B "1700000004"; B "1700000002"] = OFlt q /\ (q == 7 # 3)%Q.
Proof. exact var_timestamps_instance. Qed.
Print Assumptions C10_var_of_timestamp_scale_ints_instance.
