(* step: on the run of one (group, field) cell, the running accumulations and the n-back steppers equal their definitions. *)
From Miller Require Import C10.Model C10.Verbs C10.Verbs2 C10.Spec C10.ProofsAcc.
Open Scope Q_scope.

(* state after a list of events of one (group, field) cell *)
Fixpoint step_state (sp : stepper) (name f : bytes) (st : stst) (evs : list (option val)) : stst :=
  match evs with
  | [] => st
  | None :: t => step_state sp name f (sclear sp st) t
  | Some v :: t => step_state sp name f (fst (sprocess sp name f st [Some ([(f, v)], [])])) t
  end.

Lemma step_cell_app sp name f evs1 : forall st evs2,
  step_cell sp name f st (evs1 ++ evs2) = step_cell sp name f st evs1 ++ step_cell sp name f (step_state sp name f st evs1) evs2.
Proof.
  induction evs1 as [|[v|] t IH]; intros st evs2; cbn [app step_cell step_state]; [reflexivity| |].
  - destruct (sprocess sp name f st [Some ([(f, v)], [])]) as [st' win']. cbn [fst]. now rewrite IH.
  - now rewrite IH.
Qed.
Lemma step_state_app sp name f evs1 : forall st evs2,
  step_state sp name f st (evs1 ++ evs2) = step_state sp name f (step_state sp name f st evs1) evs2.
Proof. induction evs1 as [|[v|] t IH]; intros st evs2; cbn [app step_state]; auto. Qed.

Lemma get_single f v : get f [(f, v)] = Some v.
Proof. cbn [get]. now rewrite beqb_refl. Qed.
Lemma oget_single (k : bytes) (o : oval) : oget k (oput k o []) = Some o.
Proof. cbn [oput oget]. now rewrite beqb_refl. Qed.

Definition is_running (sp : stepper) : bool := match sp with SCounter | SRsum | SRprod => true | _ => false end.
Definition run_op (sp : stepper) (acc x : Q) : Q := match sp with SCounter => acc + 1 | SRsum => x + acc | _ => x * acc end.
Definition run_init (sp : stepper) : Q := match sp with SRprod => 1 | _ => 0 end.
(* the contributing values: present, non-empty, numeric *)
Definition contributing (evs : list (option val)) : list Q :=
  flat_map (fun e => match e with Some v => if is_void v then [] else match numof v with Some x => [qof x] | None => [] end | None => [] end) evs.

Lemma run_fold_compat sp xs : forall a b, a == b -> fold_left (run_op sp) xs a == fold_left (run_op sp) xs b.
Proof.
  induction xs as [|x xs IH]; intros a b H; cbn [fold_left]; [exact H|]. apply IH. destruct sp; cbn [run_op]; rewrite H; reflexivity.
Qed.

Definition cell_out (sp : stepper) (name f : bytes) (st : stst) (v : val) : option oval :=
  match snd (sprocess sp name f st [Some ([(f, v)], [])]) with Some c :: _ => oget (out_name f name) (snd c) | _ => None end.

Lemma step_cell_cons sp name f st v t :
  step_cell sp name f st (Some v :: t)
  = cell_out sp name f st v :: step_cell sp name f (fst (sprocess sp name f st [Some ([(f, v)], [])])) t.
Proof. cbn [step_cell]. unfold cell_out. destruct (sprocess sp name f st [Some ([(f, v)], [])]) as [st' win']. reflexivity. Qed.

Lemma run_step sp name f st v x : is_running sp = true -> is_void v = false -> numof v = Some x ->
  let st' := fst (sprocess sp name f st [Some ([(f, v)], [])]) in
  qof (sx_acc st') == run_op sp (qof (sx_acc st)) (qof x) /\ cell_out sp name f st v = Some (oval_of_nv (sx_acc st')).
Proof.
  intros Hs Hv Hx. destruct sp; try discriminate; unfold cell_out, sprocess; cbv zeta; cbn [fst snd];
    rewrite get_single, Hv, Hx; cbn [fst snd sx_acc set_center put_out run_op]; rewrite oget_single;
    (split; [|reflexivity]); rewrite ?qof_plus, ?qof_times; cbn [qof]; try reflexivity.
Qed.
Lemma run_step_void sp name f st v : is_running sp = true -> is_void v = true ->
  fst (sprocess sp name f st [Some ([(f, v)], [])]) = st /\ cell_out sp name f st v = Some (OText []).
Proof.
  intros Hs Hv. destruct sp; try discriminate; unfold cell_out, sprocess; cbv zeta; cbn [fst snd];
    rewrite get_single, Hv; cbn [fst snd set_center put_out]; rewrite oget_single; split; reflexivity.
Qed.

Definition numeric_or_void (evs : list (option val)) : Prop :=
  forall v, In (Some v) evs -> is_void v = true \/ exists x, numof v = Some x.

Lemma run_state sp name f : is_running sp = true -> forall evs st, numeric_or_void evs ->
  qof (sx_acc (step_state sp name f st evs)) == fold_left (run_op sp) (contributing evs) (qof (sx_acc st)).
Proof.
  intros Hs. induction evs as [|[v|] t IH]; intros st Hd; cbn [step_state contributing flat_map]; [reflexivity| |].
  - assert (Hd' : numeric_or_void t) by (intros w Hw; apply Hd; now right).
    destruct (is_void v) eqn:Hv; cbn [app].
    + destruct (run_step_void sp name f st v Hs Hv) as [-> _]. now apply IH.
    + destruct (Hd v (or_introl eq_refl)) as [Hv'|[x Hx]]; [congruence|]. rewrite Hx. cbn [app fold_left].
      destruct (run_step sp name f st v x Hs Hv Hx) as [E _]. rewrite IH by assumption. now apply run_fold_compat.
  - cbn [app]. destruct sp; try discriminate; apply IH; intros w Hw; apply Hd; now right.
Qed.

(* THE statement for counter / rsum / rprod: after any history [pre] of the cell, a record carrying the number x gets
   the operation folded over all contributing values so far, x included (counter: their number; rsum: their sum;
   rprod: their product); an empty value gets an empty output and contributes nothing *)
Theorem running_stepper_value sp name f pre v x : is_running sp = true -> numeric_or_void pre ->
  is_void v = false -> numof v = Some x ->
  exists o q, step_cell sp name f (stst0 sp) (pre ++ [Some v]) = step_cell sp name f (stst0 sp) pre ++ [Some o]
    /\ oval_q o = Some q /\ q == fold_left (run_op sp) (contributing pre ++ [qof x]) (run_init sp).
Proof.
  intros Hs Hd Hv Hx. rewrite step_cell_app, step_cell_cons. cbn [step_cell].
  destruct (run_step sp name f (step_state sp name f (stst0 sp) pre) v x Hs Hv Hx) as [E1 ->].
  eexists _, _. split; [reflexivity|]. split; [apply oval_q_of_nv|].
  rewrite E1, fold_left_app. apply (run_fold_compat sp [qof x]). rewrite run_state by assumption.
  apply run_fold_compat. destruct sp; try discriminate; reflexivity.
Qed.
Theorem running_stepper_void sp name f pre v : is_running sp = true -> is_void v = true ->
  step_cell sp name f (stst0 sp) (pre ++ [Some v]) = step_cell sp name f (stst0 sp) pre ++ [Some (OText [])].
Proof.
  intros Hs Hv. rewrite step_cell_app, step_cell_cons. cbn [step_cell].
  destruct (run_step_void sp name f (step_state sp name f (stst0 sp) pre) v Hs Hv) as [_ E]. now rewrite E.
Qed.

Definition is_nback (sp : stepper) (n : nat) : Prop := sp = SShiftLag n \/ sp = SDelta n \/ sp = SRatio n.
(* what an event leaves in the ring: shift_lag keeps the text as it is; delta / ratio keep only non-empty values *)
Definition norm (sp : stepper) (e : option val) : option val :=
  match sp, e with
  | SShiftLag _, _ => e
  | _, Some v => if is_void v then None else Some v
  | _, None => None
  end.

Lemma firstn_cons_firstn {A} n (x : A) l : (1 <= n)%nat -> firstn n (x :: firstn n l) = firstn n (x :: l).
Proof. destruct n as [|m]; [lia|]. intros _. rewrite !firstn_cons. f_equal. rewrite firstn_firstn. f_equal. lia. Qed.
Lemma nth_error_firstn_lt {A} (l : list A) : forall n i, (i < n)%nat -> nth_error (firstn n l) i = nth_error l i.
Proof.
  induction l as [|x l IH]; intros n i Hi; [now rewrite firstn_nil|].
  destruct n as [|n]; [lia|]. destruct i as [|i]; cbn [firstn nth_error]; [reflexivity|]. apply IH. lia.
Qed.

Lemma ring_step sp n name f st e : is_nback sp n ->
  sx_ring (match e with
           | Some v => fst (sprocess sp name f st [Some ([(f, v)], [])])
           | None => sclear sp st end) = firstn n (norm sp e :: sx_ring st).
Proof.
  intros [ -> | [ -> | -> ] ]; destruct e as [v|]; cbn [sclear norm sx_ring ring_push snd]; try reflexivity;
    unfold sprocess; cbv zeta; cbn [fst snd]; rewrite get_single; cbn [ring_push]; try reflexivity;
    destruct (is_void v); reflexivity.
Qed.

Lemma ring_state sp n name f pre : is_nback sp n -> (1 <= n)%nat ->
  sx_ring (step_state sp name f (stst0 sp) pre) = firstn n (rev (map (norm sp) pre)).
Proof.
  intros Hs Hn. induction pre as [|e pre IH] using rev_ind; [now rewrite firstn_nil|].
  rewrite step_state_app, map_app, rev_app_distr. cbn [map rev app]. rewrite <- (firstn_cons_firstn n _ _ Hn), <- IH.
  destruct e as [v|]; [exact (ring_step sp n name f _ (Some v) Hs)|exact (ring_step sp n name f _ None Hs)].
Qed.

(* the value n events back, as the ring returns it *)
Definition nback (n : nat) (hist : list (option val)) : option val :=
  match nth_error (rev hist) (n - 1) with Some x => x | None => None end.

Lemma ring_push_back n v ring hist : (1 <= n)%nat -> ring = firstn n (rev hist) ->
  (let '(prev, has, _) := ring_push n v ring in if has then prev else None) = nback n hist.
Proof.
  intros Hn ->. unfold ring_push, nback. rewrite firstn_length.
  destruct (Nat.leb_spec n (Nat.min n (List.length (rev hist)))) as [E|E].
  - rewrite <- (nth_error_firstn_lt (rev hist) n (n - 1)) by lia. symmetry. apply nth_default_eq.
  - assert (N : nth_error (rev hist) (n - 1) = None) by (apply nth_error_None; lia). now rewrite N.
Qed.

(* shift_lag_n: the text of the field n records back in the group, empty when there is none or it lacked the field *)
Theorem shift_lag_value n name f pre v : (1 <= n)%nat ->
  step_cell (SShiftLag n) name f (stst0 (SShiftLag n)) (pre ++ [Some v])
  = step_cell (SShiftLag n) name f (stst0 (SShiftLag n)) pre
    ++ [Some (OText (match nback n pre with Some p => p | None => [] end))].
Proof.
  intros Hn. rewrite step_cell_app, step_cell_cons. cbn [step_cell]. f_equal. f_equal.
  pose proof (ring_state (SShiftLag n) n name f pre (or_introl eq_refl) Hn) as Hr.
  change (norm (SShiftLag n)) with (fun e : option val => e) in Hr. rewrite map_id in Hr.
  set (st := step_state (SShiftLag n) name f (stst0 (SShiftLag n)) pre) in *.
  unfold cell_out, sprocess. cbv zeta. cbn [fst snd]. rewrite get_single.
  match goal with |- context [ring_push n ?a ?r] =>
    pose proof (ring_push_back n a r pre Hn Hr) as Hb; destruct (ring_push n a r) as [[prev has] ring'] end.
  cbn [snd set_center put_out fst]. rewrite oget_single, <- Hb. destruct has, prev; reflexivity.
Qed.

(* delta_n / ratio_n: current value against the non-empty value n records back; 0 / 1 when there is none *)
Definition nback_num (sp : stepper) (n : nat) (pre : list (option val)) : option val := nback n (map (norm sp) pre).

Theorem nback_num_value sp n name f pre v : (sp = SDelta n \/ sp = SRatio n) -> (1 <= n)%nat -> is_void v = false ->
  step_cell sp name f (stst0 sp) (pre ++ [Some v])
  = step_cell sp name f (stst0 sp) pre
    ++ [Some (match nback_num sp n pre with
              | Some p => match sp with SDelta _ => bin_num (fun x y => Some (nv_minus x y)) v p | _ => bin_num nv_div v p end
              | None => OInt (match sp with SDelta _ => 0 | _ => 1 end)
              end)].
Proof.
  intros Hsp Hn Hv. rewrite step_cell_app, step_cell_cons. cbn [step_cell]. f_equal. f_equal.
  set (st := step_state sp name f (stst0 sp) pre).
  assert (Hr : sx_ring st = firstn n (rev (map (norm sp) pre)))
    by (apply ring_state; [destruct Hsp as [ -> | -> ]; unfold is_nback; auto|exact Hn]).
  unfold cell_out, sprocess. cbv zeta. cbn [fst snd]. rewrite get_single. unfold nback_num.
  destruct Hsp as [ -> | -> ]; rewrite Hv;
    match goal with |- context [ring_push n ?a ?r] =>
      rewrite <- (ring_push_back n a r _ Hn Hr); destruct (ring_push n a r) as [[prev has] ring'] end;
    cbn [snd set_center put_out fst]; rewrite oget_single; destruct has, prev; reflexivity.
Qed.

Lemma qof_minus a b : qof (nv_minus a b) == qof a - qof b.
Proof.
  destruct a as [x|p], b as [y|q]; cbn [nv_minus qof]; try reflexivity.
  destruct (in64 (x - y)); cbn [qof]; [|reflexivity]. unfold Z.sub. rewrite inject_Z_plus, inject_Z_opp. reflexivity.
Qed.
Theorem delta_is_the_difference v p x y : numof v = Some x -> numof p = Some y ->
  exists q, oval_q (bin_num (fun a b => Some (nv_minus a b)) v p) = Some q /\ q == qof x - qof y.
Proof.
  intros Hx Hy. unfold bin_num. rewrite Hx, Hy. eexists. split; [apply oval_q_of_nv|apply qof_minus].
Qed.

(* from-first: 0 on the first record carrying the field, afterwards current minus that first value *)
Lemma from_first_step name f st v :
  sx_first (fst (sprocess SFromFirst name f st [Some ([(f, v)], [])])) = Some (match sx_first st with Some v0 => v0 | None => v end)
  /\ cell_out SFromFirst name f st v
     = Some (match sx_first st with Some v0 => bin_num (fun a b => Some (nv_minus a b)) v v0 | None => OInt 0 end).
Proof.
  unfold cell_out, sprocess. cbv zeta. cbn [fst snd]. rewrite !get_single.
  destruct (sx_first st) eqn:E; cbn [fst snd sx_first set_center put_out]; rewrite oget_single; split; (exact E || reflexivity).
Qed.

Theorem from_first_value name f v0 pre v :
  exists rest, step_cell SFromFirst name f (stst0 SFromFirst) (Some v0 :: pre ++ [Some v])
             = Some (OInt 0) :: rest ++ [Some (bin_num (fun a b => Some (nv_minus a b)) v v0)].
Proof.
  set (st1 := fst (sprocess SFromFirst name f (stst0 SFromFirst) [Some ([(f, v0)], [])])).
  assert (Hkeep : forall evs st, sx_first st = Some v0 -> sx_first (step_state SFromFirst name f st evs) = Some v0).
  { induction evs as [|[w|] t IH]; intros st Hs; cbn [step_state sclear]; [exact Hs| |now apply IH].
    apply IH. pose proof (proj1 (from_first_step name f st w)) as H. now rewrite Hs in H. }
  exists (step_cell SFromFirst name f st1 pre). rewrite step_cell_cons, step_cell_app, step_cell_cons. cbn [step_cell]. fold st1.
  rewrite !(proj2 (from_first_step name f _ _)), (Hkeep pre st1); [reflexivity|].
  exact (proj1 (from_first_step name f (stst0 SFromFirst) v0)).
Qed.

(* shift_lead_n, n >= 2, on short groups (fix: 1cf092ed2: the drain keeps shifting until the group's oldest pending record
   is at the window centre; before it these records were lost) *)
Lemma shift_lead_short_group_is_emitted :
  verb_step [(SShiftLead 2, B "shift_lead_2")] [B "x"] [] [[(B "x", B "1")]]
  = [[(B "x", OText (B "1")); (B "x_shift_lead_2", OText [])]]
  /\ verb_step [(SShiftLead 3, B "shift_lead_3"); (SCounter, B "counter")] [B "x"] [B "g"]
               [[(B "g", B "a"); (B "x", B "1")]; [(B "g", B "b"); (B "x", B "5")]; [(B "g", B "a"); (B "x", B "2")]]
     = [[(B "g", OText (B "a")); (B "x", OText (B "1")); (B "x_shift_lead_3", OText []); (B "x_counter", OInt 1)];
        [(B "g", OText (B "b")); (B "x", OText (B "5")); (B "x_shift_lead_3", OText []); (B "x_counter", OInt 1)];
        [(B "g", OText (B "a")); (B "x", OText (B "2")); (B "x_shift_lead_3", OText []); (B "x_counter", OInt 2)]].
Proof. vm_compute. split; reflexivity. Qed.
Lemma shift_lead_1_keeps_this_record :
  verb_step [(SShiftLead 1, B "shift_lead")] [B "x"] [] [[(B "x", B "1")]; [(B "x", B "2")]]
  = [[(B "x", OText (B "1")); (B "x_shift_lead", OText (B "2"))]; [(B "x", OText (B "2")); (B "x_shift_lead", OText [])]].
Proof. vm_compute. reflexivity. Qed.
