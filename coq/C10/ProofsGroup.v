(* General facts about folds and about lib.OrderedMap as modelled by omap; then the fact every grouping verb rests on:
   the grouped streaming fold equals the definitional partition into groups. *)
From Miller Require Import C10.Model C10.Verbs C10.Spec.
From Miller Require Import Base.RecordFacts.
Open Scope char_scope.

Lemma beqb_eq a b : beqb a b = true <-> a = b.
Proof. destruct (beqb_spec a b); split; congruence. Qed.
Lemma beqb_sym a b : beqb a b = beqb b a.
Proof. destruct (beqb_spec a b), (beqb_spec b a); congruence. Qed.

Lemma fold_left_map {A B C} (f : A -> C -> A) (g : B -> C) l : forall a,
  fold_left f (map g l) a = fold_left (fun a x => f a (g x)) l a.
Proof. induction l as [|x l IH]; intros a; cbn [map fold_left]; [reflexivity|apply IH]. Qed.

Lemma fold_left_filter {A B} (f : A -> B -> A) (p : B -> bool) l : forall a,
  fold_left (fun a x => if p x then f a x else a) l a = fold_left f (filter p l) a.
Proof. induction l as [|x l IH]; intros a; cbn [filter fold_left]; [reflexivity|]. rewrite IH. now destruct (p x). Qed.

Lemma fold_left_pair {A B X} (fa : A -> X -> A) (fb : B -> X -> B) l : forall a b,
  fold_left (fun (p : A * B) x => (fa (fst p) x, fb (snd p) x)) l (a, b) = (fold_left fa l a, fold_left fb l b).
Proof. induction l as [|x l IH]; intros a b; cbn [fold_left fst snd]; [reflexivity|apply IH]. Qed.

Lemma fold_left_snd {A B X} (g : B -> X -> B) l : forall (a : A) b,
  fold_left (fun (s : A * B) x => (fst s, g (snd s) x)) l (a, b) = (a, fold_left g l b).
Proof. induction l as [|x l IH]; intros a b; cbn [fold_left fst snd]; [reflexivity|apply IH]. Qed.

Lemma fold_left_somes {A B C} (f : C -> B -> C) (ev : A -> option B) l : forall c,
  fold_left f (flat_map (fun a => match ev a with Some x => [x] | None => [] end) l) c
  = fold_left (fun c a => match ev a with Some x => f c x | None => c end) l c.
Proof. induction l as [|a l IH]; intros c; cbn [flat_map fold_left]; [reflexivity|]. rewrite fold_left_app, IH. now destruct (ev a). Qed.

Lemma fold_left_invariant {A S} (P : S -> Prop) (step : S -> A -> S) l :
  (forall s a, P s -> P (step s a)) -> forall s, P s -> P (fold_left step l s).
Proof. intros H. induction l as [|a l IH]; intros s Hs; cbn [fold_left]; auto. Qed.

Lemma fold_left_proj {A S T} (pr : S -> T) (step : S -> A -> S) (g : T -> A -> T) l :
  (forall s a, In a l -> pr (step s a) = g (pr s) a) -> forall s, pr (fold_left step l s) = fold_left g l (pr s).
Proof.
  induction l as [|a l IH]; intros H s; cbn [fold_left]; [reflexivity|].
  rewrite IH by (intros; apply H; now right). now rewrite H by now left.
Qed.

(* A pass whose steps carry keys, read at key k through [rd]: steps with another key do not change what is read there;
   so when the keys are distinct what is read at the key of a is changed once, by a's own step (P: an invariant of the
   pass under which that step is known). *)
Lemma fold_untouched {A S V} (key : A -> bytes) (rd : bytes -> S -> V) (step : S -> A -> S) k l :
  (forall s b, k <> key b -> rd k (step s b) = rd k s) -> ~ In k (map key l) -> forall s, rd k (fold_left step l s) = rd k s.
Proof.
  intros H. induction l as [|b l IH]; intros Hni s; cbn [fold_left]; [reflexivity|].
  rewrite IH by (intros Hin; apply Hni; now right). apply H. intros ->. apply Hni. now left.
Qed.
Lemma fold_touch_once {A S V} (key : A -> bytes) (rd : bytes -> S -> V) (P : S -> Prop) (step : S -> A -> S) :
  (forall s b, P s -> P (step s b)) ->
  (forall k s b, k <> key b -> rd k (step s b) = rd k s) ->
  forall l a (F : V -> V), NoDup (map key l) -> In a l -> (forall s, P s -> rd (key a) (step s a) = F (rd (key a) s)) ->
  forall s, P s -> rd (key a) (fold_left step l s) = F (rd (key a) s).
Proof.
  intros HP Hother l a F. induction l as [|b l IH]; intros Hnd Hin Ha s Hs; [contradiction|].
  cbn [map] in Hnd. inversion Hnd as [|? ? Hni Hnd']; subst. cbn [fold_left]. destruct Hin as [->|Hin].
  - rewrite (fold_untouched key rd step (key a) l (Hother (key a)) Hni). now apply Ha.
  - rewrite IH by auto. f_equal. apply Hother. intros E. apply Hni. rewrite <- E. now apply in_map.
Qed.

Lemma incr_fold {A} (l : list A) c : fold_left (fun (c : Z) _ => (c + 1)%Z) l c = (c + Z.of_nat (List.length l))%Z.
Proof. revert c; induction l as [|x l IH]; intros c; cbn [fold_left List.length]; [lia|]. rewrite IH. lia. Qed.

Lemma fold_snoc {A} (l : list A) : forall s, fold_left (fun s r => s ++ [r]) l s = s ++ l.
Proof. induction l as [|x l IH]; intros s; cbn [fold_left]; [now rewrite app_nil_r|]. rewrite IH, <- app_assoc. reflexivity. Qed.

Section OMapFacts.
  Context {V : Type}.
  Implicit Types m : omap V.

  Lemma oget_oput k k' (v : V) m : oget k (oput k' v m) = if beqb k k' then Some v else oget k m.
  Proof.
    induction m as [|[k2 v2] m IH]; cbn [oput oget]; [reflexivity|].
    destruct (beqb_spec k' k2) as [->|Hne]; cbn [oget].
    - destruct (beqb k k2); reflexivity.
    - rewrite IH. destruct (beqb_spec k k2) as [->|]; [|reflexivity]. destruct (beqb_spec k2 k'); [congruence|reflexivity].
  Qed.

  Lemma okeys_oput k v m : okeys (oput k v m) = if mem k (okeys m) then okeys m else okeys m ++ [k].
  Proof.
    induction m as [|[k' v'] m IH]; cbn; [reflexivity|].
    destruct (beqb k k'); cbn; [reflexivity|]. unfold okeys in IH. rewrite IH. unfold mem. now destruct (existsb (beqb k) (map fst m)).
  Qed.
  Lemma okeys_oput_in k v m : mem k (okeys m) = true -> okeys (oput k v m) = okeys m.
  Proof. intros H. now rewrite okeys_oput, H. Qed.

  Lemma oget_notin k m : mem k (okeys m) = false -> oget k m = None.
  Proof.
    induction m as [|[k' v] m IH]; cbn; [reflexivity|].
    destruct (beqb k k'); cbn; [discriminate|exact IH].
  Qed.
  Lemma oput_notin k v m : mem k (okeys m) = false -> oput k v m = m ++ [(k, v)].
  Proof.
    induction m as [|[k' v'] m IH]; cbn; [reflexivity|].
    destruct (beqb k k'); cbn; [discriminate|]. intros H. now rewrite IH.
  Qed.

  Lemma oget_map_val {W} (g : V -> W) k m : oget k (map (fun e => (fst e, g (snd e))) m) = option_map g (oget k m).
  Proof. induction m as [|[k' v] m IH]; cbn [map oget fst snd]; [reflexivity|]. now destruct (beqb k k'). Qed.

  Lemma omap_eta m : NoDup (okeys m) ->
    m = flat_map (fun k => match oget k m with Some v => [(k, v)] | None => [] end) (okeys m).
  Proof.
    induction m as [|[k v] m IH]; intros Hnd; [reflexivity|]. apply NoDup_cons_iff in Hnd as [Hk Hnd].
    cbn [okeys map fst flat_map oget]. rewrite beqb_refl. cbn [app]. f_equal.
    etransitivity; [exact (IH Hnd)|]. apply flat_map_ext_in. intros k' Hin.
    destruct (beqb_spec k' k) as [->|_]; [contradiction|reflexivity].
  Qed.
End OMapFacts.

Section GroupFacts.
  Context {R S : Type} (key : R -> option bytes) (init : R -> S) (upd : S -> R -> S).
  Notation members := (members key).
  Notation first_keys := (first_keys key).
  Notation group_state := (group_state key init upd).
  Notation spec_groups := (spec_groups key init upd).
  Notation gfold := (gfold key init upd).

  Lemma first_keys_snoc rs r : first_keys (rs ++ [r]) = see key (first_keys rs) r.
  Proof. unfold Spec.first_keys. now rewrite fold_left_app. Qed.

  Lemma members_snoc k rs r : members k (rs ++ [r]) = members k rs ++ (if keyb key k r then [r] else []).
  Proof. unfold Spec.members. rewrite filter_app. cbn. now destruct (keyb key k r). Qed.

  Lemma first_keys_mem k rs : mem k (first_keys rs) = existsb (keyb key k) rs.
  Proof.
    induction rs as [|r rs IH] using rev_ind; [reflexivity|].
    rewrite first_keys_snoc, existsb_app. cbn [existsb]. rewrite orb_false_r. unfold see, keyb at 2.
    destruct (key r) as [k'|]; [|now rewrite IH, orb_false_r].
    destruct (mem k' (first_keys rs)) eqn:E.
    - rewrite IH. destruct (beqb_spec k k') as [->|Hne]; [|now rewrite orb_false_r].
      rewrite <- IH, E. reflexivity.
    - rewrite <- IH. unfold mem. rewrite existsb_app. cbn [existsb]. now rewrite orb_false_r.
  Qed.

  Lemma members_nil_iff k rs : members k rs = [] <-> existsb (keyb key k) rs = false.
  Proof.
    unfold Spec.members. induction rs as [|r rs IH]; cbn; [tauto|].
    destruct (keyb key k r); cbn; [split; discriminate|exact IH].
  Qed.

  Lemma first_key_has_members k rs : In k (first_keys rs) -> members k rs <> [].
  Proof. intros Hin E. apply mem_In in Hin. rewrite first_keys_mem in Hin. apply members_nil_iff in E. congruence. Qed.

  Lemma first_keys_nodup rs : NoDup (first_keys rs).
  Proof.
    induction rs as [|r rs IH] using rev_ind; [constructor|].
    rewrite first_keys_snoc. unfold see. destruct (key r) as [k|]; [|exact IH].
    destruct (mem k (first_keys rs)) eqn:E; [exact IH|].
    apply NoDup_snoc; [exact IH|]. intros Hin. apply mem_In in Hin. congruence.
  Qed.

  Lemma group_state_snoc k rs r :
    group_state k (rs ++ [r])
    = if keyb key k r then Some (upd (match group_state k rs with Some s => s | None => init r end) r) else group_state k rs.
  Proof.
    unfold Spec.group_state. rewrite members_snoc. destruct (keyb key k r); [|now rewrite app_nil_r].
    destruct (members k rs) as [|r0 rest]; [reflexivity|].
    change ((r0 :: rest) ++ [r]) with (r0 :: rest ++ [r]). cbn [fold_left]. now rewrite fold_left_app.
  Qed.

  Lemma oget_gstep k m r :
    oget k (gstep key init upd m r)
    = if keyb key k r then Some (upd (match oget k m with Some s => s | None => init r end) r) else oget k m.
  Proof.
    unfold gstep, keyb. destruct (key r) as [k'|]; [|reflexivity]. rewrite oget_oput.
    now destruct (beqb_spec k k') as [->|].
  Qed.

  Lemma gfold_snoc rs r : gfold (rs ++ [r]) = gstep key init upd (gfold rs) r.
  Proof. unfold Verbs.gfold. now rewrite fold_left_app. Qed.

  Lemma okeys_gfold rs : okeys (gfold rs) = first_keys rs.
  Proof.
    unfold Verbs.gfold, Spec.first_keys. change (@nil bytes) with (okeys (@nil (bytes * S))). generalize (@nil (bytes * S)).
    induction rs as [|r rs IH]; intros m; [reflexivity|]. cbn [fold_left]. rewrite IH. f_equal.
    unfold gstep, see. destruct (key r); [apply okeys_oput|reflexivity].
  Qed.

  Lemma oget_gfold k rs : oget k (gfold rs) = group_state k rs.
  Proof.
    induction rs as [|r rs IH] using rev_ind; [reflexivity|].
    now rewrite gfold_snoc, oget_gstep, group_state_snoc, IH.
  Qed.

  (* the streaming fold IS the definitional partition: both have distinct keys, the same keys and the same lookups *)
  Theorem gfold_spec rs : gfold rs = spec_groups rs.
  Proof.
    rewrite (omap_eta (gfold rs)); rewrite okeys_gfold; [|apply first_keys_nodup].
    apply flat_map_ext. intros k. unfold entry_of. now rewrite oget_gfold.
  Qed.

  Corollary gfold_step rs r : spec_groups (rs ++ [r]) = gstep key init upd (spec_groups rs) r.
  Proof. rewrite <- !gfold_spec. apply gfold_snoc. Qed.

  Lemma okeys_spec_groups rs : okeys (spec_groups rs) = first_keys rs.
  Proof. rewrite <- gfold_spec. apply okeys_gfold. Qed.
  Lemma oget_spec_groups k rs : oget k (spec_groups rs) = group_state k rs.
  Proof. rewrite <- gfold_spec. apply oget_gfold. Qed.

  (* every key has members, so the partition lists one entry per key: the fold over the key's members *)
  Lemma map_spec_groups {T} (f : bytes * S -> T) (g : bytes -> T) rs :
    (forall k r0 rest, members k rs = r0 :: rest -> f (k, fold_left upd (r0 :: rest) (init r0)) = g k) ->
    map f (spec_groups rs) = map g (first_keys rs).
  Proof.
    intros Hg. unfold Spec.spec_groups.
    assert (H : forall k, In k (first_keys rs) -> map f (entry_of key init upd rs k) = [g k]).
    { intros k Hin. apply first_key_has_members in Hin. unfold entry_of, Spec.group_state.
      destruct (members k rs) eqn:E; [contradiction|]. cbn [map]. now rewrite (Hg k _ _ E). }
    induction (first_keys rs) as [|k ks IH]; [reflexivity|]. cbn [flat_map map].
    rewrite map_app, H by now left. cbn [app]. f_equal. apply IH. intros k' Hk'. apply H. now right.
  Qed.
  Corollary spec_groups_map (g : bytes -> S) rs :
    (forall k r0 rest, members k rs = r0 :: rest -> fold_left upd (r0 :: rest) (init r0) = g k) ->
    spec_groups rs = map (fun k => (k, g k)) (first_keys rs).
  Proof. intros Hg. rewrite <- (map_id (spec_groups rs)). apply map_spec_groups. intros k r0 rest E. now rewrite (Hg k r0 rest E). Qed.
End GroupFacts.
