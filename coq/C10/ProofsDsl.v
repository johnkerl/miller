(* C10, DSL statistics functions: each function of pkg/bifs/stats.go that has a stats1 accumulator counterpart IS that
   accumulator run over the same values ("the DSL function on the array of a group's values = the stats1 accumulator over
   the group's records"), with the precise side condition where the two treat empty values / strings differently;
   sum2/sum3/sum4 are the power sums by definition. *)
From Miller Require Import C10.ProofsGroup C10.ProofsMinMax C10.ProofsMode C10.ProofsMoments C10.ProofsPctl.
From Miller Require Import C10.Model C10.Verbs C10.Spec C10.ProofsAcc C10.ModelDsl.
Open Scope char_scope.

Definition is_num (v : val) : bool := match numof v with Some _ => true | None => false end.
(* no strings: numbers and empty values only *)
Definition no_strings (xs : list val) : bool := forallb (fun v => is_num v || is_void v) xs.
Definition all_num (xs : list val) : bool := forallb is_num xs.

Theorem dsl_count_is_accumulator : forall xs, dsl_stat DCount xs = run_acc false ACount xs.
Proof. intros xs. now rewrite count_is_number_of_values. Qed.
Theorem dsl_null_count_is_accumulator : forall xs, dsl_stat DNullCount xs = run_acc false ANullCount xs.
Proof. intros xs. now rewrite null_count_is_number_of_empty_values. Qed.

Lemma dsl_counts_is_accumulator a xs : (a = AMode \/ a = AAntimode \/ a = ADistinctCount) ->
  st_counts (fold_left (ingest a) xs st0) = dsl_counts xs.
Proof. intros Ha. exact (mode_counts a xs Ha st0). Qed.
Theorem dsl_distinct_count_is_accumulator : forall xs, dsl_stat DDistinctCount xs = run_acc false ADistinctCount xs.
Proof. intros xs. unfold run_acc. cbn [dsl_stat emit]. now rewrite dsl_counts_is_accumulator by auto. Qed.
Theorem dsl_mode_is_accumulator : forall xs, dsl_stat DMode xs = run_acc false AMode xs.
Proof. intros xs. unfold run_acc. cbn [dsl_stat emit]. now rewrite dsl_counts_is_accumulator by auto. Qed.
Theorem dsl_antimode_is_accumulator : forall xs, dsl_stat DAntimode xs = run_acc false AAntimode xs.
Proof. intros xs. unfold run_acc. cbn [dsl_stat emit]. now rewrite dsl_counts_is_accumulator by auto. Qed.

Theorem dsl_percentile_is_accumulator : forall il p xs, dsl_stat (DPercentile il p) xs = run_acc il (APctl p) xs.
Proof.
  intros il p xs. unfold run_acc. cbn [dsl_stat emit]. rewrite (fold_left_proj st_data _ (fun d v => d ++ [v])%list), fold_snoc by reflexivity. cbn [st0 st_data app]. unfold pctl_of.
  destruct xs as [|x xs]; [reflexivity|].
  destruct (sort_vals (x :: xs)) eqn:E; [|reflexivity].
  apply (f_equal (@List.length _)) in E. rewrite sort_vals_length in E. discriminate.
Qed.

(* percentile(xs, p, options) and the first entry of percentiles(xs, [p], options) are that function *)
Theorem dsl_percentile_call : forall q t opts o xs, parse_opts opts = Some o -> po_ais o = false ->
  dsl_call (CPctl (PNum q t) opts) (DArr xs) = ROne (dsl_stat (DPercentile (po_il o) q) xs).
Proof.
  intros q t opts o xs Ho Hs. cbn [dsl_call call_on]. unfold pctls_call. rewrite Ho, Hs. cbn [andb]. unfold pctls_impl.
  cbn [map pctl_one combine ptext fold_left oput fst snd]. destruct (po_oa o); reflexivity.
Qed.

(* the BIF's test "clen < retval" and the accumulator's mv_min differ only on equal lengths, where both keep that length *)
Theorem dsl_len_is_accumulator a better :
  (a = AMinLen /\ better = (fun c r => (c <? r)%Z)) \/ (a = AMaxLen /\ better = (fun c r => (r <? c)%Z)) ->
  forall xs, len_fold better xs = run_acc false a xs.
Proof.
  intros H. assert (Hb : is_best a = true) by (destruct H as [[-> _]|[-> _]]; reflexivity).
  assert (Hstep : forall r v, best_op a (MInt r []) (best_cand a v) = MInt (if better (utf8_len v) r then utf8_len v else r) []).
  { intros r v. destruct H as [[-> ->]|[-> ->]]; cbn [best_op best_cand mv_min mv_max];
      destruct (Z.ltb_spec r (utf8_len v)), (Z.ltb_spec (utf8_len v) r); try lia; try reflexivity; f_equal; lia. }
  intros [|x xs]; [destruct H as [[-> _]|[-> _]]; reflexivity|].
  rewrite run_best by exact Hb. cbn [len_fold map fold_left]. cbv zeta.
  replace (best_op a MAbsent (best_cand a x)) with (MInt (utf8_len x) []) by (destruct H as [[-> _]|[-> _]]; reflexivity).
  replace (if better (utf8_len x) (utf8_len x) then utf8_len x else utf8_len x) with (utf8_len x) by (now destruct (better _ _)).
  generalize (utf8_len x). induction xs as [|y xs IH]; intros r; cbn [map fold_left]; [reflexivity|]. rewrite Hstep. apply IH.
Qed.

(* the difference to the accumulators, stated precisely: an empty value is skipped by every power sum (but counted in n),
   a string turns the sum into an error value (the accumulators skip both) *)
Lemma dsl_sum_skips_voids k xs : forall a, fold_left (sum_step k) xs a = fold_left (sum_step k) (filter (fun v => negb (is_void v)) xs) a.
Proof.
  induction xs as [|x xs IH]; intros a; cbn [fold_left filter]; [reflexivity|].
  destruct x as [|c x']; cbn [is_void negb].
  - rewrite <- IH. f_equal. destruct a; reflexivity.
  - cbn [fold_left]. apply IH.
Qed.
Lemma sum_err_sticky k xs : fold_left (sum_step k) xs SErr = SErr.
Proof. induction xs as [|x xs IH]; cbn [fold_left sum_step]; [reflexivity|exact IH]. Qed.
Theorem dsl_sum_string_is_error : forall k xs, no_strings xs = false -> dsl_sumk k xs = SErr.
Proof.
  intros k xs. unfold dsl_sumk. generalize (I 0). induction xs as [|x xs IH]; intros a H; [discriminate|].
  cbn [no_strings forallb] in H. cbn [fold_left sum_step]. unfold is_num in H.
  destruct (numof x) eqn:En; cbn [orb andb] in H.
  - apply IH. exact H.
  - destruct (is_void x); cbn [andb] in H; [apply IH; exact H|apply sum_err_sticky].
Qed.

Lemma qof_pow_elem k x : (1 <= k <= 4)%nat -> qof (pow_elem k x) == qpow (qof x) k.
Proof.
  intros Hk. destruct k as [|[|[|[|[|k]]]]]; try lia; cbn [pow_elem qpow]; rewrite ?qof_times; ring.
Qed.
Lemma dsl_sumk_value k xs : (1 <= k <= 4)%nat -> no_strings xs = true -> forall a,
  exists r, fold_left (sum_step k) xs (SNum a) = SNum r /\ qof r == qof a + pow_sum k (qs_of xs).
Proof.
  intros Hk. induction xs as [|x xs IH]; intros Hn a; cbn [fold_left].
  - exists a. split; [reflexivity|]. unfold pow_sum, qs_of. cbn. ring.
  - cbn [no_strings forallb] in Hn. apply andb_prop in Hn. destruct Hn as [Hx Hn]. unfold is_num in Hx.
    unfold qs_of. rewrite numerics_cons. cbn [sum_step]. destruct (numof x) as [y|] eqn:En.
    + destruct (IH Hn (nv_plus a (pow_elem k y))) as (r & E & Q). exists r. split; [exact E|].
      rewrite Q. rewrite qof_plus, (qof_pow_elem k y Hk). unfold pow_sum, qs_of. cbn [map]. rewrite Qsum_list_cons. ring.
    + cbn [orb] in Hx. rewrite Hx. destruct (IH Hn a) as (r & E & Q). exists r. split; [exact E|exact Q].
Qed.
(* sum2(xs), sum3(xs), sum4(xs) (and sum) on a collection without strings: a number whose value is the k-th power sum of
   the numeric elements; with a string: the error value (dsl_sum_string_is_error) *)
Theorem dsl_sumk_is_pow_sum : forall k xs, (1 <= k <= 4)%nat -> no_strings xs = true ->
  exists r, dsl_sumk k xs = SNum r /\ qof r == pow_sum k (qs_of xs).
Proof.
  intros k xs Hk Hn. destruct (dsl_sumk_value k xs Hk Hn (I 0)) as (r & E & Q). exists r. split; [exact E|].
  rewrite Q. cbn [qof]. unfold inject_Z. ring.
Qed.

Lemma sums_agree a xs : is_moment a = true -> no_strings xs = true -> forall s,
  fold_left (sum_step 1) xs (SNum (st_s1 s)) = SNum (st_s1 (fold_left (ingest a) xs s))
  /\ fold_left (sum_step 2) xs (SNum (st_s2 s)) = SNum (st_s2 (fold_left (ingest a) xs s))
  /\ fold_left (sum_step 3) xs (SNum (st_s3 s)) = SNum (st_s3 (fold_left (ingest a) xs s)).
Proof.
  intros Ha. induction xs as [|x xs IH]; intros Hn s; cbn [fold_left]; [repeat split|].
  cbn [no_strings forallb] in Hn. apply andb_prop in Hn. destruct Hn as [Hx Hn]. specialize (IH Hn (ingest a s x)).
  rewrite (ingest_moment a s x Ha) in *. cbn [ingest] in *. unfold is_num in Hx. cbn [sum_step]. destruct (numof x) as [y|]; [exact IH|].
  cbn [orb] in Hx. rewrite Hx. exact IH.
Qed.
Theorem dsl_sum_is_accumulator : forall xs, no_strings xs = true -> dsl_stat DSum xs = run_acc false ASum xs.
Proof.
  intros xs Hn. unfold run_acc. cbn [dsl_stat emit]. unfold dsl_sumk.
  destruct (sums_agree ASum xs eq_refl Hn st0) as (E1 & _ & _). cbn [st0 st_s1] in E1. rewrite E1. reflexivity.
Qed.
Lemma count_moment a xs : is_moment a = true -> all_num xs = true -> forall s,
  st_count (fold_left (ingest a) xs s) = (st_count s + Z.of_nat (List.length xs))%Z.
Proof.
  intros Ha. induction xs as [|x xs IH]; intros Hn s; cbn [fold_left List.length]; [lia|].
  cbn [all_num forallb] in Hn. apply andb_prop in Hn. destruct Hn as [Hx Hn]. rewrite (IH Hn), (ingest_moment a s x Ha).
  cbn [ingest]. unfold is_num in Hx. destruct (numof x); [cbn [st_count]; lia|discriminate].
Qed.
Lemma all_num_no_strings xs : all_num xs = true -> no_strings xs = true.
Proof.
  induction xs as [|x xs IH]; [reflexivity|]. cbn [all_num no_strings forallb]. intros H. apply andb_prop in H.
  destruct H as [H1 H2]. rewrite H1. cbn [orb andb]. exact (IH H2).
Qed.
(* mean: n counts every element, so equality with the accumulator needs all values numeric (an empty value is counted
   by the DSL function and not by the accumulator) *)
Theorem dsl_mean_is_accumulator : forall xs, all_num xs = true -> dsl_stat DMean xs = run_acc false AMean xs.
Proof.
  intros xs Hn. unfold run_acc. cbn [dsl_stat emit]. rewrite (count_moment AMean xs eq_refl Hn). cbn [st0 st_count Z.add].
  unfold dsl_sumk, dsl_n. destruct (sums_agree AMean xs eq_refl (all_num_no_strings xs Hn) st0) as (E1 & _ & _).
  cbn [st0 st_s1] in E1. rewrite E1. destruct (Z.of_nat (List.length xs) =? 0)%Z eqn:E0; [reflexivity|].
  unfold finalize. cbn [emit st_count st_s1]. rewrite E0. reflexivity.
Qed.
(* the witness that the side condition is needed: mean([1,"",2]) is 1 (3/3), the accumulator gives 1.5 *)
Example dsl_mean_counts_voids : dsl_stat DMean [B "1"; []; B "2"] = OInt 1 /\ run_acc false AMean [B "1"; []; B "2"] = OFlt (3 # 2).
Proof. split; vm_compute; reflexivity. Qed.


(* variance, stddev, meaneb, skewness use n and the first three power sums *)
Definition uses_s3 (a : accname) : bool := match a with AVar | AStddev | AMeanEB | ASkewness => true | _ => false end.
Theorem dsl_moment_is_accumulator : forall a xs, uses_s3 a = true -> all_num xs = true -> dsl_moment a xs = run_acc false a xs.
Proof.
  intros a xs Ha Hn. assert (Hm : is_moment a = true) by (destruct a; try discriminate; reflexivity).
  pose proof (all_num_no_strings xs Hn) as Hs.
  destruct (sums_agree a xs Hm Hs st0) as (E1 & E2 & E3). cbn [st0 st_s1 st_s2 st_s3] in E1, E2, E3.
  destruct (dsl_sumk_value 4 xs ltac:(lia) Hs (I 0)) as (r & E4 & _).
  pose proof (count_moment a xs Hm Hn st0) as Ec. cbn [st0 st_count Z.add] in Ec.
  unfold run_acc, dsl_moment, dsl_sumk, dsl_n, finalize. rewrite E1, E2, E3, E4.
  destruct a; try discriminate; cbn [emit st_count st_s1 st_s2 st_s3]; rewrite Ec; reflexivity.
Qed.
Example dsl_moment_hypotheses_satisfiable : all_num [B "4"; B "5"; B "9.5"] = true /\ dsl_stat DVariance [B "4"; B "5"; B "9.5"] = run_acc false AVar [B "4"; B "5"; B "9.5"].
Proof. split; vm_compute; reflexivity. Qed.

Example dsl_sum3_example : exists q, dsl_stat DSum3 [B "3"; []; B "1.5"] = OFlt q /\ q == 30375 # 1000.
Proof. eexists. split; [vm_compute; reflexivity|]. vm_compute. reflexivity. Qed.
