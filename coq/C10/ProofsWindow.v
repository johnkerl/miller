(* Closed forms and window invariants.
   step -a ewma: the stepper computes the recurrence, and the recurrence has the textbook closed form.
   Interpolated percentiles: the value is the linear interpolation between the two bracketing order statistics.
   stats1 -w n: the window kept for a group is exactly its last n contributing records; the accumulators are re-fed from
   exactly that window.
   step -a shift_lead: the record window of a group holds exactly the records j..j+lead around the centre. *)
From Miller Require Import C10.Model C10.Verbs C10.Verbs2 C10.Spec C10.ProofsGroup C10.ProofsPctl C10.ProofsAcc
     C10.Proofs C10.ProofsStep.
From Coq Require Import Lqa ZifyBool Sorted FinFun.
Open Scope char_scope.
Open Scope Q_scope.

(* the recurrence of stepperEWMA.process: next = x * alpha + prev * (1 - alpha) *)
Definition ewma_rec (al x0 : Q) (xs : list Q) : Q := fold_left (fun prev x => x * al + prev * (1 - al)) xs x0.
(* sum_{j >= 0} al * (1-al)^(k+j) * rxs[j]   (rxs: newest first) *)
Fixpoint wsum (al : Q) (k : nat) (rxs : list Q) : Q :=
  match rxs with [] => 0 | x :: t => al * qpow (1 - al) k * x + wsum al (S k) t end.
(* (1-al)^n x0 + sum_{k=0}^{n-1} al (1-al)^k x_{n-k} *)
Definition ewma_closed (al x0 : Q) (xs : list Q) : Q := qpow (1 - al) (List.length xs) * x0 + wsum al 0 (rev xs).

Lemma wsum_shift al l : forall k, wsum al (S k) l == (1 - al) * wsum al k l.
Proof.
  induction l as [|x l IH]; intros k; cbn [wsum qpow]; [ring|]. rewrite (IH (S k)). ring.
Qed.

Theorem ewma_closed_form al x0 xs : ewma_rec al x0 xs == ewma_closed al x0 xs.
Proof.
  induction xs as [|x xs IH] using rev_ind.
  - unfold ewma_rec, ewma_closed. cbn [fold_left List.length rev wsum qpow]. ring.
  - unfold ewma_rec. rewrite fold_left_app. cbn [fold_left]. fold (ewma_rec al x0 xs). rewrite IH.
    unfold ewma_closed. rewrite rev_app_distr, app_length. cbn [rev app List.length wsum]. rewrite Nat.add_1_r.
    cbn [qpow]. rewrite wsum_shift. ring.
Qed.

Lemma wsum_explicit al l : forall k,
  wsum al k l == Qsum_list (map (fun j => al * qpow (1 - al) (k + j) * nth j l 0) (seq 0 (List.length l))).
Proof.
  induction l as [|x l IH]; intros k; cbn [wsum List.length seq map]; [reflexivity|].
  rewrite Qsum_list_cons, <- seq_shift, map_map, (IH (S k)). cbn [nth]. rewrite Nat.add_0_r.
  apply Qplus_comp; [reflexivity|]. erewrite map_ext; [reflexivity|].
  intros j. cbn [nth]. now rewrite Nat.add_succ_r.
Qed.

Theorem ewma_closed_explicit al x0 xs :
  ewma_rec al x0 xs
  == qpow (1 - al) (List.length xs) * x0
     + Qsum_list (map (fun k => al * qpow (1 - al) k * nth k (rev xs) 0) (seq 0 (List.length xs))).
Proof.
  rewrite ewma_closed_form. unfold ewma_closed. rewrite (wsum_explicit al (rev xs) 0), rev_length. reflexivity.
Qed.

(* the cell run that reads the ewma output field: the same loop as [step_cell], reading f_ewma_<sfx> *)
Definition ewma_key (f sfx : bytes) : bytes := (f ++ B "_ewma_" ++ sfx)%list.
Fixpoint ewma_cell (alphas : list (Q * bytes)) (name f sfx : bytes) (st : stst) (evs : list (option val)) : list (option oval) :=
  match evs with
  | [] => []
  | None :: t => None :: ewma_cell alphas name f sfx (sclear (SEwma alphas) st) t
  | Some v :: t =>
      let '(st', win') := sprocess (SEwma alphas) name f st [Some ([(f, v)], [])] in
      (match win' with Some c :: _ => oget (ewma_key f sfx) (snd c) | _ => None end) :: ewma_cell alphas name f sfx st' t
  end.

Lemma ewma_cell_app alphas name f sfx evs1 : forall st evs2,
  ewma_cell alphas name f sfx st (evs1 ++ evs2)
  = ewma_cell alphas name f sfx st evs1 ++ ewma_cell alphas name f sfx (step_state (SEwma alphas) name f st evs1) evs2.
Proof.
  induction evs1 as [|[v|] t IH]; intros st evs2; cbn [app ewma_cell step_state]; [reflexivity| |].
  - destruct (sprocess (SEwma alphas) name f st [Some ([(f, v)], [])]) as [st' win']. cbn [fst]. now rewrite IH.
  - now rewrite IH.
Qed.

(* the numbers the stepper ingests: present and numeric (absent fields and non-numeric texts leave the state alone) *)
Definition ewma_inputs (evs : list (option val)) : list nv :=
  flat_map (fun e => match e with Some v => match numof v with Some x => [x] | None => [] end | None => [] end) evs.
(* the previous value kept for one alpha: the first number as it is, then floats *)
Definition ewma_prev (al : Q) (x0 : nv) (rest : list nv) : nv :=
  match rest with [] => x0 | _ => F (ewma_rec al (qof x0) (map qof rest)) end.
Definition ewma_inv (alphas : list (Q * bytes)) (st : stst) (xs : list nv) : Prop :=
  match xs with
  | [] => sx_have st = false /\ sx_prevs st = []
  | x0 :: rest => sx_have st = true /\ sx_prevs st = map (fun ap => ewma_prev (fst ap) x0 rest) alphas
  end.

Lemma qof_ewma_prev al x0 rest : qof (ewma_prev al x0 rest) = ewma_rec al (qof x0) (map qof rest).
Proof. destruct rest; reflexivity. Qed.
Lemma ewma_prev_snoc al x0 rest x :
  F (qof x * al + qof (ewma_prev al x0 rest) * (1 - al)) = ewma_prev al x0 (rest ++ [x]).
Proof.
  rewrite qof_ewma_prev. unfold ewma_prev. destruct (rest ++ [x]) as [|y l] eqn:E; [destruct rest; discriminate|].
  rewrite <- E, map_app. unfold ewma_rec. rewrite fold_left_app. reflexivity.
Qed.
Lemma combine_map_self {A C} (h : A -> C) l : combine l (map h l) = map (fun a => (a, h a)) l.
Proof. induction l as [|a l IH]; cbn [map combine]; [reflexivity|now rewrite IH]. Qed.

Lemma ewma_inv_step alphas name f st xs v : ewma_inv alphas st xs ->
  ewma_inv alphas (fst (sprocess (SEwma alphas) name f st [Some ([(f, v)], [])]))
           (xs ++ match numof v with Some x => [x] | None => [] end).
Proof.
  intros H. unfold sprocess. cbv zeta. cbn [fst snd]. rewrite get_single.
  destruct (numof v) as [x|]; [|rewrite app_nil_r; exact H].
  destruct xs as [|x0 rest]; cbn [ewma_inv] in H.
  - destruct H as [Hh _]. rewrite Hh. cbn [fst sx_have sx_prevs app ewma_inv]. split; reflexivity.
  - destruct H as [Hh Hp]. rewrite Hh, Hp. cbn [fst sx_have sx_prevs app ewma_inv]. split; [reflexivity|].
    rewrite combine_map_self, map_map. apply map_ext. intros [al sfx]. cbn [fst snd]. apply ewma_prev_snoc.
Qed.

Theorem ewma_stepper_state alphas name f evs :
  ewma_inv alphas (step_state (SEwma alphas) name f (stst0 (SEwma alphas)) evs) (ewma_inputs evs).
Proof.
  induction evs as [|e evs IH] using rev_ind; [split; reflexivity|].
  rewrite step_state_app. unfold ewma_inputs. rewrite flat_map_app. fold (ewma_inputs evs). cbn [flat_map]. rewrite app_nil_r.
  destruct e as [v|]; cbn [step_state]; [now apply ewma_inv_step|now rewrite app_nil_r].
Qed.

Lemma put_fold_get {A} (key : A -> bytes) (val : A -> oval) l (c : wrec) a : NoDup (map key l) -> In a l ->
  oget (key a) (snd (fold_left (fun c a => put_out (key a) (val a) c) l c)) = Some (val a).
Proof.
  intros Hnd Hin. rewrite (fold_left_proj (@snd record orec) _ (fun o a => oput (key a) (val a) o)) by reflexivity.
  exact (pass_self key (fun a _ => Some (val a)) l a Hnd Hin (snd c)).
Qed.

Lemma ewma_keys_nodup f (alphas : list (Q * bytes)) : NoDup (map snd alphas) ->
  NoDup (map (fun a : Q * bytes => ewma_key f (snd a)) alphas).
Proof.
  intros Hnd. rewrite <- (map_map snd (ewma_key f)). apply Injective_map_NoDup; [|exact Hnd].
  intros s1 s2 E. unfold ewma_key in E. apply app_inv_head in E. now apply app_inv_head in E.
Qed.

Lemma ewma_out alphas name f sfx al st xs v x :
  NoDup (map snd alphas) -> In (al, sfx) alphas -> ewma_inv alphas st xs -> numof v = Some x ->
  (match snd (sprocess (SEwma alphas) name f st [Some ([(f, v)], [])]) with
   | Some c :: _ => oget (ewma_key f sfx) (snd c) | _ => None end)
  = Some (match xs with
          | [] => oval_of_val v
          | x0 :: rest => OFlt (ewma_rec al (qof x0) (map qof rest ++ [qof x]))
          end).
Proof.
  intros Hnd Hin Hinv Hx. unfold sprocess. cbv zeta. cbn [fst snd]. rewrite get_single, Hx.
  pose proof (ewma_keys_nodup f alphas Hnd) as Hk.
  destruct xs as [|x0 rest]; cbn [ewma_inv] in Hinv.
  - destruct Hinv as [Hh _]. rewrite Hh. cbn [snd set_center].
    exact (put_fold_get (fun a : Q * bytes => ewma_key f (snd a)) (fun _ => oval_of_val v) alphas _ (al, sfx) Hk Hin).
  - destruct Hinv as [Hh Hp]. rewrite Hh, Hp. cbn [snd set_center].
    rewrite (combine_map_self (fun ap : Q * bytes => ewma_prev (fst ap) x0 rest)), map_map. cbn [fst snd].
    rewrite combine_map_self, fold_left_map. cbn [fst snd].
    etransitivity.
    + exact (put_fold_get (fun a : Q * bytes => ewma_key f (snd a))
               (fun a : Q * bytes => oval_of_nv (F (qof x * fst a + qof (ewma_prev (fst a) x0 rest) * (1 - fst a))))
               alphas _ (al, sfx) Hk Hin).
    + cbn [fst oval_of_nv]. rewrite qof_ewma_prev. unfold ewma_rec. rewrite fold_left_app. reflexivity.
Qed.

(* THE statement for ewma (any number of alphas with distinct suffixes, ANY history [pre] of the cell: records
   lacking the field and non-numeric texts are skipped): a record carrying the number x gets, in field
   f_ewma_<sfx>, its own value when it is the first number of the cell, and otherwise the recurrence run from the
   first number x0 over the later numbers, x included. *)
Theorem ewma_stepper_value alphas name f pre v x al sfx :
  NoDup (map snd alphas) -> In (al, sfx) alphas -> numof v = Some x ->
  ewma_cell alphas name f sfx (stst0 (SEwma alphas)) (pre ++ [Some v])
  = ewma_cell alphas name f sfx (stst0 (SEwma alphas)) pre
    ++ [Some (match ewma_inputs pre with
              | [] => oval_of_val v
              | x0 :: rest => OFlt (ewma_rec al (qof x0) (map qof rest ++ [qof x]))
              end)].
Proof.
  intros Hnd Hin Hx. rewrite ewma_cell_app. f_equal. cbn [ewma_cell].
  set (st := step_state (SEwma alphas) name f (stst0 (SEwma alphas)) pre).
  pose proof (ewma_out alphas name f sfx al st (ewma_inputs pre) v x Hnd Hin (ewma_stepper_state alphas name f pre) Hx) as Ho.
  destruct (sprocess (SEwma alphas) name f st [Some ([(f, v)], [])]) as [st' win']. cbn [snd] in Ho.
  now rewrite Ho.
Qed.

Theorem ewma_single_closed al sfx name f pre v x x0 rest :
  numof v = Some x -> ewma_inputs pre = x0 :: rest ->
  exists q,
    ewma_cell [(al, sfx)] name f sfx (stst0 (SEwma [(al, sfx)])) (pre ++ [Some v])
    = ewma_cell [(al, sfx)] name f sfx (stst0 (SEwma [(al, sfx)])) pre ++ [Some (OFlt q)]
    /\ sx_prevs (step_state (SEwma [(al, sfx)]) name f (stst0 (SEwma [(al, sfx)])) (pre ++ [Some v])) = [F q]
    /\ q == ewma_closed al (qof x0) (map qof rest ++ [qof x]).
Proof.
  intros Hx Hpre. exists (ewma_rec al (qof x0) (map qof rest ++ [qof x])). split; [|split].
  - rewrite (ewma_stepper_value [(al, sfx)] name f pre v x al sfx); [now rewrite Hpre| |now left|exact Hx].
    cbn [map snd]. constructor; [intros []|constructor].
  - pose proof (ewma_stepper_state [(al, sfx)] name f (pre ++ [Some v])) as E. revert E.
    unfold ewma_inputs. rewrite flat_map_app. cbn [flat_map]. rewrite Hx. fold (ewma_inputs pre). rewrite Hpre.
    cbn [app ewma_inv map fst]. intros [_ ->]. rewrite <- ewma_prev_snoc, qof_ewma_prev. unfold ewma_rec. now rewrite fold_left_app.
  - apply ewma_closed_form.
Qed.

Theorem ewma_multi_closed alphas name f pre v x x0 rest al sfx :
  NoDup (map snd alphas) -> In (al, sfx) alphas -> numof v = Some x -> ewma_inputs pre = x0 :: rest ->
  exists q,
    ewma_cell alphas name f sfx (stst0 (SEwma alphas)) (pre ++ [Some v])
    = ewma_cell alphas name f sfx (stst0 (SEwma alphas)) pre ++ [Some (OFlt q)]
    /\ q == ewma_closed al (qof x0) (map qof rest ++ [qof x]).
Proof.
  intros Hnd Hin Hx Hpre. exists (ewma_rec al (qof x0) (map qof rest ++ [qof x])). split; [|apply ewma_closed_form].
  rewrite (ewma_stepper_value alphas name f pre v x al sfx Hnd Hin Hx). now rewrite Hpre.
Qed.

Example ewma_example :
  let alphas := [(1 # 10, B "0.1"); (9 # 10, B "0.9")] in
  let pre := [Some (B "1"); None; Some (B "abc"); Some (B "2.5")] in
  NoDup (map snd alphas) /\ In (9 # 10, B "0.9") alphas /\ numof (B "4") = Some (I 4)
  /\ ewma_inputs pre = [I 1; F (25 # 10)]
  /\ exists q, nth_error (ewma_cell alphas (B "ewma") (B "x") (B "0.9") (stst0 (SEwma alphas)) (pre ++ [Some (B "4")])) 4
               = Some (Some (OFlt q)) /\ Qeq_bool q (3835 # 1000) = true.
Proof.
  cbv zeta. repeat split; [apply nodupb_NoDup; vm_compute; reflexivity|vm_compute; auto|vm_compute; reflexivity..|].
  eexists. split; vm_compute; reflexivity.
Qed.

Definition pf (p : Q) (l : list val) : Q := p / 100 * inject_Z (Z.of_nat (List.length l) - 1).
Definition pidx (p : Q) (l : list val) : Z := Qfloor (pf p l).
(* the number at (0-up) position j *)
Definition xq (l : list val) (j : Z) : Q :=
  match nthZ j l with Some v => match numof v with Some x => qof x | None => 0 end | None => 0 end.
Definition all_numeric (l : list val) : Prop := forall v, In v l -> numof v <> None.

Lemma pf_is_findex p l : 0 <= p -> l <> [] -> pctl_findex p (Z.of_nat (List.length l)) = pf p l.
Proof.
  intros Hp Hne. unfold pctl_findex. fold (pf p l). assert (H : 0 <= pf p l).
  { apply Qmult_le_0_compat; [apply Qle_shift_div_l; lra|]. apply inject_Z_nonneg. destruct l; [congruence|cbn [List.length]; lia]. }
  apply Qle_bool_iff in H. now rewrite H.
Qed.
Lemma nthZ_last {A} (l : list A) d : l <> [] -> nthZ (Z.of_nat (List.length l) - 1) l = Some (last l d).
Proof.
  intros Hne. destruct (exists_last Hne) as (l' & a & ->). rewrite last_last, app_length. cbn [List.length].
  unfold nthZ. destruct (Z.of_nat (List.length l' + 1) - 1 <? 0)%Z eqn:E; [lia|].
  replace (Z.to_nat (Z.of_nat (List.length l' + 1) - 1)) with (List.length l') by lia.
  rewrite nth_error_app2 by lia. now rewrite Nat.sub_diag.
Qed.
Lemma pidx_range p l : 0 <= p -> p <= 100 -> l <> [] -> (0 <= pidx p l <= Z.of_nat (List.length l) - 1)%Z.
Proof.
  intros H0 H1 Hne. assert (Hn : (0 < Z.of_nat (List.length l))%Z) by (destruct l; [congruence|cbn [List.length]; lia]).
  destruct (findex_bounds p _ H0 H1 Hn) as [Hlo Hhi]. rewrite pf_is_findex in Hlo, Hhi by assumption.
  unfold pidx. split.
  - change 0%Z with (Qfloor 0). now apply Qfloor_resp_le.
  - apply Qfloor_resp_le in Hhi. now rewrite Qfloor_Z in Hhi.
Qed.

Lemma nthZ_In {A} (l : list A) j a : nthZ j l = Some a -> In a l.
Proof. unfold nthZ. destruct (j <? 0)%Z; [discriminate|apply nth_error_In]. Qed.

Lemma xq_some l j : all_numeric l -> (0 <= j < Z.of_nat (List.length l))%Z ->
  exists a x, nthZ j l = Some a /\ numof a = Some x /\ xq l j = qof x.
Proof.
  intros Hnum Hj. destruct (nthZ_some l j Hj) as [a Ha]. pose proof (Hnum a (nthZ_In l j a Ha)) as Na.
  destruct (numof a) as [x|] eqn:Hx; [|congruence]. exists a, x. unfold xq. now rewrite Ha, Hx.
Qed.

(* THE statement: for 0 <= p <= 100 and non-empty all-numeric sorted data, with f = p/100*(n-1), i = floor f:
   at the top (i >= n-1) the value is the last element; otherwise it is x_i + (f - i) * (x_{i+1} - x_i), exactly *)
Theorem pctl_interp_value p sorted : 0 <= p -> p <= 100 -> sorted <> [] -> all_numeric sorted ->
  pctl_interp p sorted
  = if (Z.of_nat (List.length sorted) - 1 <=? pidx p sorted)%Z then oval_of_val (last sorted [])
    else OFlt (xq sorted (pidx p sorted)
               + (pf p sorted - inject_Z (pidx p sorted)) * (xq sorted (pidx p sorted + 1) - xq sorted (pidx p sorted))).
Proof.
  intros H0 H1 Hne Hnum. pose proof (pidx_range p sorted H0 H1 Hne) as Hr.
  unfold pctl_interp. cbv zeta. rewrite (pf_is_findex p sorted H0 Hne). fold (pidx p sorted).
  destruct (Z.of_nat (List.length sorted) - 1 <=? pidx p sorted)%Z eqn:E.
  - now rewrite (nthZ_last sorted [] Hne).
  - apply Z.leb_gt in E.
    destruct (xq_some sorted (pidx p sorted) Hnum) as (a & x & Ha & Hx & ->); [lia|].
    destruct (xq_some sorted (pidx p sorted + 1) Hnum) as (b & y & Hb & Hy & ->); [lia|].
    now rewrite Ha, Hb, Hx, Hy.
Qed.

Lemma sorted_adjacent {A} (R : A -> A -> Prop) l : LocallySorted R l ->
  forall j a b, nth_error l j = Some a -> nth_error l (S j) = Some b -> R a b.
Proof.
  intros Hs. induction Hs as [|a0|a0 b0 l0 Hs IH Hab]; intros j a b Ha Hb.
  - destruct j; discriminate.
  - destruct j as [|j]; cbn [nth_error] in Hb; [discriminate|destruct j; discriminate].
  - destruct j as [|j]; cbn [nth_error] in Ha, Hb.
    + injection Ha as <-. injection Hb as <-. exact Hab.
    + eapply IH; eassumption.
Qed.

Theorem pctl_interp_bracket p sorted : 0 <= p -> p <= 100 -> sorted <> [] -> all_numeric sorted ->
  LocallySorted val_le sorted -> (pidx p sorted < Z.of_nat (List.length sorted) - 1)%Z ->
  let value := xq sorted (pidx p sorted)
               + (pf p sorted - inject_Z (pidx p sorted)) * (xq sorted (pidx p sorted + 1) - xq sorted (pidx p sorted)) in
  pctl_interp p sorted = OFlt value /\ xq sorted (pidx p sorted) <= value /\ value <= xq sorted (pidx p sorted + 1).
Proof.
  intros H0 H1 Hne Hnum Hs Hlt value. pose proof (pidx_range p sorted H0 H1 Hne) as Hr. split.
  - rewrite (pctl_interp_value p sorted H0 H1 Hne Hnum).
    destruct (Z.of_nat (List.length sorted) - 1 <=? pidx p sorted)%Z eqn:E; [lia|reflexivity].
  - subst value.
    destruct (xq_some sorted (pidx p sorted) Hnum) as (a & x & Ha & Hx & ->); [lia|].
    destruct (xq_some sorted (pidx p sorted + 1) Hnum) as (b & y & Hb & Hy & ->); [lia|].
    unfold nthZ in Ha, Hb. destruct (pidx p sorted <? 0)%Z eqn:E1; [lia|]. destruct (pidx p sorted + 1 <? 0)%Z eqn:E2; [lia|].
    replace (Z.to_nat (pidx p sorted + 1)) with (S (Z.to_nat (pidx p sorted))) in Hb by lia.
    pose proof (sorted_adjacent val_le sorted Hs _ a b Ha Hb) as Hab. unfold val_le, val_lt in Hab. rewrite Hx, Hy in Hab.
    apply negb_false_iff, Qle_bool_iff in Hab.
    pose proof (Qfloor_le (pf p sorted)) as Hfl. pose proof (Qlt_floor (pf p sorted)) as Hfu.
    fold (pidx p sorted) in Hfl, Hfu. rewrite inject_Z_plus in Hfu.
    set (t := pf p sorted - inject_Z (pidx p sorted)) in *. set (qx := qof x) in *. set (qy := qof y) in *.
    assert (Ht0 : 0 <= t) by (unfold t; lra).
    assert (Ht1 : 0 <= 1 - t) by (unfold t; change (inject_Z 1) with 1 in Hfu; lra).
    assert (Hd : 0 <= qy - qx) by lra.
    pose proof (Qmult_le_0_compat _ _ Ht0 Hd) as M1. pose proof (Qmult_le_0_compat _ _ Ht1 Hd) as M2.
    split; [lra|]. assert (E : qy - (qx + t * (qy - qx)) == (1 - t) * (qy - qx)) by ring. lra.
Qed.

Lemma oval_of_val_numeric v x : numof v = Some x -> oval_of_val v = oval_of_nv x.
Proof. unfold numof, oval_of_val. destruct (classify v); intros E; try discriminate; now inversion E. Qed.

Theorem pctl_interp_100 sorted : sorted <> [] -> all_numeric sorted ->
  pctl_interp 100 sorted = oval_of_val (last sorted []).
Proof.
  intros Hne Hnum. rewrite (pctl_interp_value 100 sorted) by (assumption || lra).
  assert (Ef : pf 100 sorted == inject_Z (Z.of_nat (List.length sorted) - 1)) by (unfold pf; field).
  unfold pidx. rewrite Ef, Qfloor_Z, Z.leb_refl. reflexivity.
Qed.

Theorem pctl_interp_0 sorted : sorted <> [] -> all_numeric sorted ->
  exists q, oval_q (pctl_interp 0 sorted) = Some q /\ q == xq sorted 0.
Proof.
  intros Hne Hnum. rewrite (pctl_interp_value 0 sorted) by (assumption || lra).
  assert (Ef : pf 0 sorted == 0) by (unfold pf; field).
  assert (Ei : pidx 0 sorted = 0%Z) by (unfold pidx; rewrite Ef; reflexivity). rewrite Ei.
  destruct (Z.of_nat (List.length sorted) - 1 <=? 0)%Z eqn:E.
  - destruct sorted as [|v [|w l]]; [congruence| |cbn [List.length] in E; lia].
    destruct (xq_some [v] 0 Hnum) as (a & x & Ha & Hx & ->); [cbn [List.length]; lia|]. injection Ha as <-.
    cbn [last]. rewrite (oval_of_val_numeric v x Hx). exists (qof x). split; [apply oval_q_of_nv|reflexivity].
  - eexists. split; [reflexivity|]. rewrite Ef. change (inject_Z 0) with 0. ring.
Qed.

Example pctl_interp_example :
  let sorted := [B "1"; B "2.5"; B "4"; B "10"] in
  0 <= 30 /\ 30 <= 100 /\ sorted <> [] /\ all_numeric sorted /\ LocallySorted val_le sorted
  /\ (pidx 30 sorted < Z.of_nat (List.length sorted) - 1)%Z
  /\ exists q, pctl_interp 30 sorted = OFlt q /\ Qeq_bool q (235 # 100) = true.
Proof.
  cbv zeta. split; [lra|]. split; [lra|]. split; [discriminate|]. split; [|split; [|split]].
  - intros v [<-|[<-|[<-|[<-|[]]]]]; vm_compute; discriminate.
  - repeat constructor.
  - vm_compute. reflexivity.
  - eexists. split; vm_compute; reflexivity.
Qed.

(* the effective window length: the code tests `n <= len(window)` before shifting, so -w 0 keeps one entry, as -w 1 *)
Definition wn (n : nat) : nat := Nat.max n 1.

Lemma wn_pos n : (1 <= n)%nat -> wn n = n.
Proof. unfold wn. lia. Qed.

Lemma tl_skipn {A} (l : list A) : forall k, tl (skipn k l) = skipn (S k) l.
Proof.
  induction l as [|x l IH]; intros k; [now destruct k|]. destruct k as [|k]; [reflexivity|]. exact (IH k).
Qed.

Lemma last_n_snoc {A} n (L : list A) e : last_n (S n) (L ++ [e]) = last_n n L ++ [e].
Proof.
  unfold last_n. rewrite app_length, skipn_app. cbn [List.length].
  replace (List.length L + 1 - S n)%nat with (List.length L - n)%nat by lia.
  now replace (List.length L - n - List.length L)%nat with 0%nat by lia.
Qed.
Lemma tl_last_n {A} n (L : list A) : (S n <= List.length L)%nat -> tl (last_n (S n) L) = last_n n L.
Proof. intros H. unfold last_n. rewrite tl_skipn. f_equal. lia. Qed.
Lemma last_n_short {A} n (L : list A) : (List.length L <= n)%nat -> last_n n L = L.
Proof. intros H. unfold last_n. now replace (List.length L - n)%nat with 0%nat by lia. Qed.

(* window eviction, one step: shift when full, then append *)
Lemma last_n_step {A} n (L : list A) e :
  (if (n <=? List.length (last_n (wn n) L))%nat then tl (last_n (wn n) L) else last_n (wn n) L) ++ [e]
  = last_n (wn n) (L ++ [e]).
Proof.
  replace (wn n) with (S (n - 1)) by (unfold wn; lia). rewrite last_n_snoc. f_equal.
  destruct (le_lt_dec (S (n - 1)) (List.length L)) as [H|H].
  - rewrite tl_last_n by exact H. unfold last_n. rewrite skipn_length. now replace (n <=? _)%nat with true by lia.
  - rewrite !last_n_short by lia. destruct (Nat.leb_spec n (List.length L)); [|reflexivity].
    destruct L; [reflexivity|cbn [List.length] in *; lia].
Qed.
Lemma last_n_full_step {A} n (L : list A) e : (1 <= n <= List.length L)%nat ->
  tl (last_n n L) ++ [e] = last_n n (L ++ [e]).
Proof. intros Hn. destruct n; [lia|]. now rewrite last_n_snoc, tl_last_n by lia. Qed.
Lemma last_n_map {A C} (g : A -> C) n l : last_n n (map g l) = map g (last_n n l).
Proof. unfold last_n. now rewrite map_length, skipn_map. Qed.

Definition w_run (interp : bool) (accs : list accreq) (fs gs : list bytes) (n : nat) (rs : list record) :=
  w_groups (fold_left (stats1w_step interp accs fs gs n) rs (mkw [] [])).
Definition w_l2_of (o : option (list bytes * list record * level2)) : level2 :=
  match o with Some s => snd s | None => [] end.
Definition w_win_of (o : option (list bytes * list record * level2)) : list record :=
  match o with Some s => snd (fst s) | None => [] end.

(* the groups of stats1 -w are a grouped fold: a group's entry is made by its own records alone *)
Definition w_init (gs : list bytes) (r : record) : list bytes * list record * level2 :=
  (match selected gs r with Some vs => vs | None => [] end, [], []).
Definition w_upd (accs : list accreq) (fs : list bytes) (n : nat) (s : list bytes * list record * level2) (r : record) :=
  let win' := (if (n <=? List.length (snd (fst s)))%nat then tl (snd (fst s)) else snd (fst s)) ++ [window_entry fs r] in
  (fst (fst s), win', fold_left (fun l2 e => ingest_l2 accs fs e l2) win' (reset_l2 (snd s))).

Lemma w_run_gfold interp accs fs gs n rs :
  w_run interp accs fs gs n rs = gfold (group_key gs) (w_init gs) (w_upd accs fs n) rs.
Proof.
  apply (fold_left_proj w_groups). intros st r _. unfold stats1w_step, gstep.
  destruct (group_key gs r) as [k|]; [|reflexivity]. destruct (oget k (w_groups st)) as [[[gv win] l2]|]; reflexivity.
Qed.

Lemma w_upd_win accs fs n ms : forall s L, snd (fst s) = last_n (wn n) L ->
  snd (fst (fold_left (w_upd accs fs n) ms s)) = last_n (wn n) (L ++ map (window_entry fs) ms).
Proof.
  induction ms as [|r ms IH]; intros s L H; cbn [fold_left map]; [now rewrite app_nil_r|].
  rewrite (IH _ (L ++ [window_entry fs r])); [now rewrite <- app_assoc|]. cbn [w_upd fst snd]. rewrite H. apply last_n_step.
Qed.

(* WINDOW EVICTION INVARIANT: over an arbitrary heterogeneous stream (other groups interleaved, records lacking a
   group-by field skipped), the window stored for key k is exactly the last (max n 1) window entries of the group's
   members, and the key has an entry iff the group has a member *)
Theorem stats1w_window_invariant interp accs fs gs n rs k :
  w_win_of (oget k (w_run interp accs fs gs n rs))
  = last_n (wn n) (map (window_entry fs) (members (group_key gs) k rs))
  /\ (oget k (w_run interp accs fs gs n rs) = None <-> members (group_key gs) k rs = []).
Proof.
  rewrite w_run_gfold, oget_gfold. unfold group_state.
  destruct (members (group_key gs) k rs) as [|r0 ms]; [split; [reflexivity|split; reflexivity]|].
  split; [|split; discriminate]. exact (w_upd_win accs fs n (r0 :: ms) (w_init gs r0) [] eq_refl).
Qed.

(* the level-2 state stored after a record of group k: the previous maps reset, then re-fed from exactly the window *)
Theorem stats1w_l2_refed interp accs fs gs n rs r k : group_key gs r = Some k ->
  let win := last_n (wn n) (map (window_entry fs) (members (group_key gs) k (rs ++ [r]))) in
  w_win_of (oget k (w_run interp accs fs gs n (rs ++ [r]))) = win
  /\ w_l2_of (oget k (w_run interp accs fs gs n (rs ++ [r])))
     = fold_left (fun l2 e => ingest_l2 accs fs e l2) win (reset_l2 (w_l2_of (oget k (w_run interp accs fs gs n rs)))).
Proof.
  intros Hk win. pose proof (proj1 (stats1w_window_invariant interp accs fs gs n (rs ++ [r]) k)) as Ew. fold win in Ew.
  split; [exact Ew|]. rewrite <- Ew, !w_run_gfold, gfold_snoc, oget_gstep. unfold keyb. rewrite Hk, beqb_refl.
  destruct (oget k (gfold (group_key gs) (w_init gs) (w_upd accs fs n) rs)); reflexivity.
Qed.

(* what Reset leaves: every accumulator state present is the initial one *)
Lemma l2cell_reset f a l2 : dflt (l2cell f a (reset_l2 l2)) = st0.
Proof.
  unfold l2cell, reset_l2. rewrite (oget_map_val (map (fun ae : bytes * accst => (fst ae, st0)))).
  destruct (oget f _) as [l3|]; cbn [option_map]; [|reflexivity]. rewrite (oget_map_val (fun _ => st0)).
  now destruct (oget (req_text a) l3).
Qed.

(* the variant of [cell_is_accumulator_run] that starts from a reset map: entries may exist, holding st0 *)
Theorem cell_from_reset_run accs fs ms l2 f a :
  NoDup fs -> NoDup (map req_text accs) -> In f fs -> In a accs -> dflt (l2cell f a l2) = st0 ->
  l2cell f a (fold_left (fun l2 r => ingest_l2 accs fs r l2) ms l2)
  = match values_of f ms with
    | [] => l2cell f a l2
    | vs => Some (fold_left (feed (fst a)) vs st0)
    end.
Proof.
  intros Hf Ha Hinf Hina Hres.
  rewrite (fold_cell (l2cell f a) (get f) _ (fun o v => Some (feed (fst a) (dflt o) v))) by (intros; now apply l2cell_step).
  fold (values_of f ms). rewrite (fold_some (feed (fst a)) st0). fold (dflt (l2cell f a l2)). now rewrite Hres.
Qed.

Lemma get_window_entry fs r f : get f (window_entry fs r) = if mem f fs then get f r else None.
Proof.
  unfold window_entry. induction fs as [|f0 fs IH]; [reflexivity|]. cbn [flat_map].
  change (mem f (f0 :: fs)) with (beqb f f0 || mem f fs).
  destruct (get f0 r) as [v|] eqn:E; cbn [app get].
  - destruct (beqb_spec f f0) as [->|Hne]; cbn [orb]; [now rewrite E|exact IH].
  - rewrite IH. destruct (beqb_spec f f0) as [->|Hne]; cbn [orb]; [|reflexivity]. rewrite E. now destruct (mem f0 fs).
Qed.
Lemma values_of_window_entries fs f ms : In f fs -> values_of f (map (window_entry fs) ms) = values_of f ms.
Proof.
  intros Hin. apply mem_In in Hin. unfold values_of. induction ms as [|r ms IH]; [reflexivity|].
  cbn [map flat_map]. rewrite IH, get_window_entry, Hin. reflexivity.
Qed.

(* THE statement for the windowed accumulators: after a record r of group k, the state held for (value field f,
   accumulator a) -- the one [emit_l2] turns into the statistic appended to r -- is the accumulator fed, in order,
   exactly the values of f carried by the last (max n 1) members of the group, r included *)
Theorem stats1w_cell_is_window_run interp accs fs gs n rs r k f a :
  NoDup fs -> NoDup (map req_text accs) -> In f fs -> In a accs -> group_key gs r = Some k ->
  let l2' := w_l2_of (oget k (w_run interp accs fs gs n (rs ++ [r]))) in
  let vs := values_of f (last_n (wn n) (members (group_key gs) k (rs ++ [r]))) in
  dflt (match oget f l2' with Some l3 => oget (req_text a) l3 | None => None end) = fold_left (feed (fst a)) vs st0
  /\ (vs <> [] -> exists l3, oget f l2' = Some l3 /\ oget (req_text a) l3 = Some (fold_left (feed (fst a)) vs st0)).
Proof.
  intros Hf Ha Hinf Hina Hk l2' vs.
  destruct (stats1w_l2_refed interp accs fs gs n rs r k Hk) as [_ El2]. cbv zeta in El2.
  set (win := last_n (wn n) (map (window_entry fs) (members (group_key gs) k (rs ++ [r])))) in El2.
  set (prev := reset_l2 (w_l2_of (oget k (w_run interp accs fs gs n rs)))) in El2.
  assert (Evs : values_of f win = vs).
  { unfold win, vs. rewrite last_n_map. now apply values_of_window_entries. }
  pose proof (cell_from_reset_run accs fs win prev f a Hf Ha Hinf Hina (l2cell_reset f a _)) as G.
  fold l2' in El2. rewrite <- El2, Evs in G. fold (l2cell f a l2'). rewrite G. split.
  - destruct vs; [apply l2cell_reset|reflexivity].
  - intros Hne. destruct vs as [|v0 vs0]; [congruence|]. unfold l2cell in G.
    destruct (oget f l2') as [l3|]; [|discriminate G]. exists l3. split; [reflexivity|exact G].
Qed.

Example stats1w_example :
  let fs := [B "x"; B "y"] in let gs := [B "g"] in let accs := [(ASum, B "sum"); (ACount, B "count")] in
  let rs := [[(B "g", B "a"); (B "x", B "1")]; [(B "g", B "b"); (B "x", B "7")]; [(B "x", B "9")];
             [(B "g", B "a"); (B "y", B "5")]; [(B "g", B "a"); (B "x", B "3"); (B "y", B "2")]] in
  let r := [(B "g", B "a"); (B "x", B "4")] in
  NoDup fs /\ NoDup (map req_text accs) /\ In (B "x") fs /\ In (ASum, B "sum") accs /\ group_key gs r = Some (B "a")
  /\ values_of (B "x") (last_n (wn 2) (members (group_key gs) (B "a") (rs ++ [r]))) = [B "3"; B "4"]
  /\ w_win_of (oget (B "a") (w_run false accs fs gs 2 (rs ++ [r]))) = [[(B "x", B "3"); (B "y", B "2")]; [(B "x", B "4")]].
Proof.
  cbv zeta. repeat split; try apply nodupb_NoDup; vm_compute; auto.
Qed.

(* the record emitted for r carries exactly the statistics of that level-2 state *)
Theorem stats1w_emitted interp accs fs gs n rs r k : group_key gs r = Some k ->
  exists gv,
    oget k (w_run interp accs fs gs n (rs ++ [r]))
    = Some (gv, w_win_of (oget k (w_run interp accs fs gs n (rs ++ [r]))), w_l2_of (oget k (w_run interp accs fs gs n (rs ++ [r]))))
    /\ verb_stats1_w interp accs fs gs n (rs ++ [r])
       = verb_stats1_w interp accs fs gs n rs
         ++ [put_all (group_fields gs gv ++ emit_l2 interp accs (w_l2_of (oget k (w_run interp accs fs gs n (rs ++ [r]))))) (otext_rec r)].
Proof.
  intros Hk. unfold verb_stats1_w, w_run. rewrite fold_left_app. cbn [fold_left].
  set (st := fold_left (stats1w_step interp accs fs gs n) rs (mkw [] [])).
  unfold stats1w_step. rewrite Hk.
  destruct (oget k (w_groups st)) as [[[gv win] l2]|]; cbn [w_groups w_out]; rewrite oget_oput, beqb_refl;
    cbn [w_win_of w_l2_of fst snd]; eexists; split; reflexivity.
Qed.

(* the input records in a window (the outputs under construction projected away) *)
Definition wkeys (win : list (option wrec)) : list (option record) := map (option_map fst) win.

Lemma sprocess_keys sp name f st win : wkeys (snd (sprocess sp name f st win)) = wkeys win.
Proof.
  destruct win as [|[c|] t]; [reflexivity| |reflexivity].
  assert (SC : forall c', fst c' = fst c -> wkeys (set_center (Some c :: t) c') = wkeys (Some c :: t)).
  { intros c' E. cbn [set_center wkeys map option_map]. now rewrite E. }
  unfold sprocess. cbv zeta.
  destruct sp; cbv beta iota;
    repeat (match goal with
            | |- context [match ?x with _ => _ end] => destruct x; cbv beta iota
            end);
    cbn [snd]; try reflexivity; try (apply SC; reflexivity); apply SC;
    (apply (fold_left_invariant (fun c' : wrec => fst c' = fst c)); [intros ? ? <-|]; reflexivity).
Qed.

(* the loops of sdispatch: clearing and running the steppers of one field, and one field *)
Definition sclr (m : omap stst) (sp : stepreq) : omap stst :=
  match oget (snd sp) m with Some st => oput (snd sp) (sclear (fst sp) st) m | None => m end.
Definition sproc (f : bytes) (acc : omap stst * list (option wrec)) (sp : stepreq) : omap stst * list (option wrec) :=
  let '(m, win) := acc in
  let st := match oget (snd sp) m with Some st => st | None => stst0 (fst sp) end in
  let '(st', win') := sprocess (fst sp) (snd sp) f st win in
  (oput (snd sp) st' m, win').
Definition sfield (sps : list stepreq) (dr : record) (g : sgroup) (f : bytes) : sgroup :=
  match get f dr with
  | None =>
      match oget f (sg_st g) with
      | None => g
      | Some m => mksg (sg_win g) (oput f (fold_left sclr sps m) (sg_st g))
      end
  | Some _ =>
      let m0 := match oget f (sg_st g) with Some m => m | None => [] end in
      let '(m', win') := fold_left (sproc f) sps (m0, sg_win g) in
      mksg win' (oput f m' (sg_st g))
  end.
Lemma sdispatch_sfield sps fs dr g : sdispatch sps fs dr g = fold_left (sfield sps dr) fs g.
Proof. reflexivity. Qed.

Lemma sproc_keys f sps acc : wkeys (snd (fold_left (sproc f) sps acc)) = wkeys (snd acc).
Proof.
  apply (fold_left_invariant (fun a => wkeys (snd a) = wkeys (snd acc))); [|reflexivity].
  intros [m win] sp <-. unfold sproc.
  pose proof (sprocess_keys (fst sp) (snd sp) f (match oget (snd sp) m with Some st => st | None => stst0 (fst sp) end) win) as K.
  destruct (sprocess (fst sp) (snd sp) f _ win) as [st' win']. exact K.
Qed.
Lemma sfield_keys sps dr g f : wkeys (sg_win (sfield sps dr g f)) = wkeys (sg_win g).
Proof.
  unfold sfield. destruct (get f dr).
  - pose proof (sproc_keys f sps (match oget f (sg_st g) with Some m => m | None => [] end, sg_win g)) as K.
    destruct (fold_left (sproc f) sps _) as [m' win']. exact K.
  - destruct (oget f (sg_st g)); reflexivity.
Qed.
Lemma sdispatch_keys sps fs dr g : wkeys (sg_win (sdispatch sps fs dr g)) = wkeys (sg_win g).
Proof.
  rewrite sdispatch_sfield. apply (fold_left_invariant (fun g' => wkeys (sg_win g') = wkeys (sg_win g))); [|reflexivity].
  intros g' f <-. apply sfield_keys.
Qed.
Lemma sdispatch_length sps fs dr g : List.length (sg_win (sdispatch sps fs dr g)) = List.length (sg_win g).
Proof.
  pose proof (sdispatch_keys sps fs dr g) as H. apply (f_equal (@List.length _)) in H. unfold wkeys in H.
  now rewrite !map_length in H.
Qed.

Definition s_run (sps : list stepreq) (fs gs : list bytes) (lead : nat) (rs : list record) : omap sgroup :=
  s_groups (fold_left (step_record sps fs gs lead) rs (mkst_ [] [] [])).

(* the groups of step are a grouped fold: a record shifts its group's window and runs the steppers on it *)
Definition s_upd (sps : list stepreq) (fs : list bytes) (g : sgroup) (r : record) : sgroup :=
  sdispatch sps fs r (mksg (tl (sg_win g) ++ [Some (r, otext_rec r)]) (sg_st g)).
Lemma s_run_gfold sps fs gs lead rs :
  s_run sps fs gs lead rs = gfold (group_key gs) (fun _ => mksg (repeat None (S lead)) []) (s_upd sps fs) rs.
Proof. apply (fold_left_proj s_groups). intros st r _. unfold step_record, gstep. destruct (group_key gs r); reflexivity. Qed.
Lemma s_run_get sps fs gs lead rs k :
  oget k (s_run sps fs gs lead rs)
  = match members (group_key gs) k rs with
    | [] => None
    | ms => Some (fold_left (s_upd sps fs) ms (mksg (repeat None (S lead)) []))
    end.
Proof. rewrite s_run_gfold, oget_gfold. unfold group_state. now destruct (members (group_key gs) k rs). Qed.

Lemma map_repeat' {A C} (g : A -> C) x n : map g (repeat x n) = repeat (g x) n.
Proof. induction n as [|n IH]; cbn [repeat map]; [reflexivity|now rewrite IH]. Qed.

Lemma wkeys_shift w r o : wkeys (tl w ++ [Some (r, o)]) = tl (wkeys w) ++ [Some r].
Proof. unfold wkeys. rewrite map_app. now destruct w. Qed.

Definition padded (lead : nat) (ms : list record) : list (option record) := repeat None (S lead) ++ map Some ms.

Lemma s_upd_win sps fs lead ms : forall g L, (S lead <= List.length L)%nat -> wkeys (sg_win g) = last_n (S lead) L ->
  wkeys (sg_win (fold_left (s_upd sps fs) ms g)) = last_n (S lead) (L ++ map Some ms).
Proof.
  induction ms as [|r ms IH]; intros g L HL H; cbn [fold_left map]; [now rewrite app_nil_r|].
  rewrite (IH _ (L ++ [Some r])); [now rewrite <- app_assoc|rewrite app_length; lia|].
  unfold s_upd. rewrite sdispatch_keys. cbn [sg_win]. rewrite wkeys_shift, H. apply last_n_full_step. lia.
Qed.

(* WINDOW INVARIANT of step: over an arbitrary stream, the record window kept for group k holds exactly the last
   (lead+1) of: lead+1 empty slots followed by the group's members -- i.e. the members j..j+lead around the centre *)
Theorem step_window_invariant sps fs gs lead rs k :
  match oget k (s_run sps fs gs lead rs) with
  | Some g => wkeys (sg_win g) = last_n (S lead) (padded lead (members (group_key gs) k rs))
              /\ members (group_key gs) k rs <> []
  | None => members (group_key gs) k rs = []
  end.
Proof.
  rewrite s_run_get. destruct (members (group_key gs) k rs) as [|r0 ms]; [reflexivity|]. split; [|discriminate].
  apply (s_upd_win sps fs lead (r0 :: ms)); [now rewrite repeat_length|].
  cbn [sg_win]. unfold wkeys, last_n. now rewrite map_repeat', repeat_length, Nat.sub_diag.
Qed.

(* reading the invariant: position j of the window (0 = centre) is the group's member number |ms| + j - (lead+1),
   when that exists *)
Lemma nth_skipn' {A} (d : A) : forall m j l, nth j (skipn m l) d = nth (m + j) l d.
Proof.
  induction m as [|m IH]; intros j l; [reflexivity|]. destruct l as [|x l]; [now destruct j|]. exact (IH j l).
Qed.
Lemma nth_map_some {A} (l : list A) : forall j, nth j (map Some l) None = nth_error l j.
Proof. induction l as [|x l IH]; intros [|j]; cbn [map nth nth_error]; auto. Qed.

Theorem step_window_slot lead (ms : list record) j :
  nth j (last_n (S lead) (padded lead ms)) None
  = if (S lead <=? List.length ms + j)%nat then nth_error ms (List.length ms + j - S lead) else None.
Proof.
  unfold last_n, padded. rewrite nth_skipn', app_length, repeat_length, map_length.
  replace (S lead + List.length ms - S lead + j)%nat with (List.length ms + j)%nat by lia.
  destruct (S lead <=? List.length ms + j)%nat eqn:E.
  - apply Nat.leb_le in E. rewrite app_nth2 by (rewrite repeat_length; lia). rewrite repeat_length. apply nth_map_some.
  - apply Nat.leb_gt in E. rewrite app_nth1 by (rewrite repeat_length; lia). apply nth_repeat.
Qed.

(* shift_lead_n acts on the centre: it writes the text of field f of the record n places ahead in the window, the
   empty text when there is no such record, and nothing when that record lacks f *)
Theorem shift_lead_writes n name f st c t :
  sprocess (SShiftLead n) name f st (Some c :: t)
  = (st, match nth n (Some c :: t) None with
         | None => Some (put_out (out_name f name) (OText []) c) :: t
         | Some nx => match get f (fst nx) with
                      | Some v => Some (put_out (out_name f name) (OText v) c) :: t
                      | None => Some c :: t
                      end
         end).
Proof.
  unfold sprocess. cbv zeta. destruct (nth n (Some c :: t) None) as [nx|]; [destruct (get f (fst nx))|]; reflexivity.
Qed.

(* invariant + stepper: with the window of a group whose members so far are ms, shift_lead_n writes into the centre
   (member number |ms| - (lead+1)) the text of field f of member number |ms| + n - (lead+1) -- the record n places
   after the centre -- or the empty text when the group has no such member (yet) *)
Theorem shift_lead_reads_ahead lead n name f st c t (ms : list record) :
  wkeys (Some c :: t) = last_n (S lead) (padded lead ms) ->
  exists c', snd (sprocess (SShiftLead n) name f st (Some c :: t)) = Some c' :: t /\ fst c' = fst c
    /\ Some (fst c) = (if (S lead <=? List.length ms + 0)%nat then nth_error ms (List.length ms + 0 - S lead) else None)
    /\ match (if (S lead <=? List.length ms + n)%nat then nth_error ms (List.length ms + n - S lead) else None) with
       | None => oget (out_name f name) (snd c') = Some (OText [])
       | Some r' => match get f r' with
                    | Some v => oget (out_name f name) (snd c') = Some (OText v)
                    | None => c' = c
                    end
       end.
Proof.
  intros Hw. rewrite <- !step_window_slot, <- Hw, shift_lead_writes. cbn [snd].
  replace (nth n (wkeys (Some c :: t)) None) with (option_map fst (nth n (Some c :: t) None))
    by (unfold wkeys; change (@None record) with (option_map (@fst record orec) None); now rewrite map_nth).
  destruct (nth n (Some c :: t) None) as [nx|]; cbn [option_map]; [destruct (get f (fst nx)) as [v|]|];
    eexists; (split; [reflexivity|split; [reflexivity|split; [reflexivity|]]]); try reflexivity;
    unfold put_out; cbn [snd]; now rewrite oget_oput, beqb_refl.
Qed.

Example step_window_example :
  let sps := [(SShiftLead 2, B "shift_lead_2"); (SCounter, B "counter")] in
  let rs := [[(B "g", B "a"); (B "x", B "1")]; [(B "g", B "b"); (B "x", B "7")]; [(B "x", B "9")];
             [(B "g", B "a"); (B "x", B "2")]; [(B "g", B "a"); (B "y", B "5")]; [(B "g", B "a"); (B "x", B "4")]] in
  option_map (fun g => wkeys (sg_win g)) (oget (B "a") (s_run sps [B "x"] [B "g"] 2 rs))
  = Some [Some [(B "g", B "a"); (B "x", B "2")]; Some [(B "g", B "a"); (B "y", B "5")]; Some [(B "g", B "a"); (B "x", B "4")]]
  /\ last_n 3 (padded 2 (members (group_key [B "g"]) (B "a") rs))
     = [Some [(B "g", B "a"); (B "x", B "2")]; Some [(B "g", B "a"); (B "y", B "5")]; Some [(B "g", B "a"); (B "x", B "4")]].
Proof. cbv zeta. split; vm_compute; reflexivity. Qed.

Example shift_lead_reads_ahead_example :
  let ms := [[(B "x", B "1")]; [(B "x", B "2")]; [(B "y", B "5")]; [(B "x", B "4")]] in
  let win := [Some ([(B "x", B "2")], []); Some ([(B "y", B "5")], []); Some ([(B "x", B "4")], [])] in
  wkeys win = last_n 3 (padded 2 ms)
  /\ snd (sprocess (SShiftLead 2) (B "shift_lead_2") (B "x") (stst0 (SShiftLead 2)) win)
     = Some ([(B "x", B "2")], [(B "x_shift_lead_2", OText (B "4"))]) :: tl win.
Proof. cbv zeta. split; vm_compute; reflexivity. Qed.

Print Assumptions ewma_closed_form.
Print Assumptions ewma_closed_explicit.
Print Assumptions ewma_stepper_value.
Print Assumptions ewma_stepper_state.
Print Assumptions ewma_single_closed.
Print Assumptions ewma_multi_closed.
Print Assumptions pctl_interp_value.
Print Assumptions pctl_interp_bracket.
Print Assumptions pctl_interp_100.
Print Assumptions pctl_interp_0.
Print Assumptions stats1w_window_invariant.
Print Assumptions stats1w_l2_refed.
Print Assumptions cell_from_reset_run.
Print Assumptions stats1w_cell_is_window_run.
Print Assumptions stats1w_emitted.
Print Assumptions sdispatch_keys.
Print Assumptions step_window_invariant.
Print Assumptions step_window_slot.
Print Assumptions shift_lead_writes.
Print Assumptions shift_lead_reads_ahead.
