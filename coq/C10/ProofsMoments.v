(* skewness / kurtosis = the central-moment definitions over Q; mad, count, null_count,
   minlen / maxlen against their definitions; utf8_len against C15's character count on well-formed UTF-8. *)
From Miller Require Import C10.ProofsGroup C10.ProofsMinMax.
From Miller Require Import C10.Model C10.Verbs C10.Spec C10.ProofsAcc.
From Miller Require C15.Model.
From Coq Require Import Lqa ZifyBool.
Open Scope Q_scope.

(* a sum of squares of deviations from m vanishes exactly when every value is m *)
Lemma sumsq_zero_iff xs m : Qsum_list (map (fun x => qpow (x - m) 2) xs) == 0 <-> (forall x, In x xs -> x == m).
Proof.
  induction xs as [|y xs IH]; cbn [map]; [split; [intros _ x []|reflexivity]|].
  rewrite Qsum_list_cons. pose proof (sumsq_nonneg xs m) as Hr. pose proof (sumsq_nonneg [y] m) as Hy.
  cbn [map] in Hy. rewrite Qsum_list_cons in Hy. cbn [Qsum_list fold_right] in Hy.
  assert (Ey : qpow (y - m) 2 == 0 <-> y == m).
  { cbn [qpow]. split; [|intros ->; ring]. intros H. destruct (Q_dec y m) as [[L|L]|E]; [exfalso; nra|exfalso; nra|exact E]. }
  split.
  - intros Hz x [<-|Hin]; [apply Ey; lra|apply IH; [lra|exact Hin]].
  - intros Hall. assert (H1 : qpow (y - m) 2 == 0) by (apply Ey, Hall; now left).
    assert (H2 : Qsum_list (map (fun x => qpow (x - m) 2) xs) == 0) by (apply IH; intros x Hx; apply Hall; now right).
    lra.
Qed.

Lemma central2_zero_iff_all_equal xs : central 2 xs == 0 <-> (forall x, In x xs -> x == mean_def xs).
Proof. apply sumsq_zero_iff. Qed.

(* a quotient central 2 xs / c with c > 0, as the finalizers test it: not positive exactly when all values are equal *)
Lemma central2_quotient_sign xs c d : 0 < c -> d == central 2 xs / c ->
  (central 2 xs == 0 -> Qle_bool d 0 = true) /\ (~ central 2 xs == 0 -> Qle_bool d 0 = false /\ 0 < d).
Proof.
  intros Hc Hd. split.
  - intros Hz. apply Qle_bool_iff. rewrite Hd, Hz. unfold Qdiv. rewrite Qmult_0_l. apply Qle_refl.
  - intros Hnz. assert (Hpos : 0 < d).
    { rewrite Hd. apply Qlt_shift_div_l; [exact Hc|]. rewrite Qmult_0_l.
      destruct (Qlt_le_dec 0 (central 2 xs)) as [H|H]; [exact H|]. exfalso. apply Hnz.
      apply Qle_antisym; [exact H|apply sumsq_nonneg]. }
    split; [|exact Hpos]. destruct (Qle_bool d 0) eqn:B; [|reflexivity]. apply Qle_bool_iff in B. lra.
Qed.

Lemma fn_gt_1 (n : nat) : (2 <= n)%nat -> 1 < inject_Z (Z.of_nat n).
Proof. intros Hn. change 1 with (inject_Z 1). rewrite <- Zlt_Qlt. lia. Qed.

Lemma qs_nonempty_of_len (xs : list Q) : (2 <= List.length xs)%nat -> xs <> [].
Proof. intros H E. rewrite E in H. cbn [List.length] in H. lia. Qed.

(* the finalizers of pkg/bifs/stats.go on the streamed count and power sums, in the central moment sums *)
Lemma finalizers_central a vs : is_moment a = true -> (2 <= List.length (qs_of vs))%nat ->
  let xs := qs_of vs in let fn := inject_Z (Z.of_nat (List.length xs)) in
  let s := fold_left (ingest a) vs st0 in
  fst (skew_parts (st_count s) (qof (st_s1 s)) (qof (st_s2 s)) (qof (st_s3 s))) == central 3 xs / fn
  /\ snd (skew_parts (st_count s) (qof (st_s1 s)) (qof (st_s2 s)) (qof (st_s3 s))) == central 2 xs / (fn - 1)
  /\ kurt_den (st_count s) (qof (st_s1 s)) (qof (st_s2 s)) == central 2 xs / fn
  /\ finalize_kurt (st_count s) (qof (st_s1 s)) (qof (st_s2 s)) (qof (st_s3 s)) (qof (st_s4 s))
     == (central 4 xs / fn) / ((central 2 xs / fn) * (central 2 xs / fn)) - 3.
Proof.
  intros Ha Hlen. destruct (moments a vs Ha) as (I0 & I1 & I2 & I3 & I4). cbv zeta in *.
  destruct (central_eqs _ (qs_nonempty_of_len _ Hlen)) as (C2 & C3 & C4). cbv zeta in C2, C3, C4.
  unfold skew_parts, kurt_den, finalize_kurt. cbn [fst snd]. rewrite I0, C2, C3, C4.
  repeat split; rewrite I1, I2, ?I3, ?I4; reflexivity.
Qed.

Theorem skewness_stream_eq_def vs :
  let xs := qs_of vs in let fn := inject_Z (Z.of_nat (List.length xs)) in
  ((List.length xs < 2)%nat -> run_acc false ASkewness vs = OVoid)
  /\ ((2 <= List.length xs)%nat -> central 2 xs == 0 -> run_acc false ASkewness vs = ONan)
  /\ ((2 <= List.length xs)%nat -> ~ central 2 xs == 0 ->
      exists nu de, run_acc false ASkewness vs = OPow15 nu de
        /\ nu == central 3 xs / fn /\ de == central 2 xs / (fn - 1) /\ 0 < de).
Proof.
  intros xs fn. destruct (moments ASkewness vs eq_refl) as (I0 & _). cbv zeta in I0. fold xs in I0.
  unfold run_acc. cbn [emit]. rewrite I0.
  destruct (Z.ltb_spec (Z.of_nat (List.length xs)) 2) as [Hlt|Hge]; [repeat split; (reflexivity || lia)|].
  assert (Hlen : (2 <= List.length xs)%nat) by lia.
  destruct (finalizers_central ASkewness vs eq_refl Hlen) as (Hnu & Hde & _). cbv zeta in Hnu, Hde. fold xs fn in Hnu, Hde.
  rewrite I0 in Hnu, Hde. destruct (skew_parts _ _ _ _) as [nu de]. cbn [fst snd] in Hnu, Hde.
  destruct (central2_quotient_sign xs (fn - 1) de) as [Hz Hnz]; [pose proof (fn_gt_1 _ Hlen); unfold fn; lra|exact Hde|].
  split; [lia|]. split; intros _ H.
  - now rewrite (Hz H).
  - destruct (Hnz H) as [-> Hpos]. exists nu, de. repeat split; assumption.
Qed.

Theorem kurtosis_stream_eq_def vs :
  let xs := qs_of vs in let fn := inject_Z (Z.of_nat (List.length xs)) in
  ((List.length xs < 2)%nat -> run_acc false AKurtosis vs = OVoid)
  /\ ((2 <= List.length xs)%nat -> central 2 xs == 0 -> run_acc false AKurtosis vs = ONan)
  /\ ((2 <= List.length xs)%nat -> ~ central 2 xs == 0 ->
      exists q, run_acc false AKurtosis vs = OFlt q
        /\ q == (central 4 xs / fn) / ((central 2 xs / fn) * (central 2 xs / fn)) - 3).
Proof.
  intros xs fn. destruct (moments AKurtosis vs eq_refl) as (I0 & _). cbv zeta in I0. fold xs in I0.
  unfold run_acc. cbn [emit]. rewrite I0.
  destruct (Z.ltb_spec (Z.of_nat (List.length xs)) 2) as [Hlt|Hge]; [repeat split; (reflexivity || lia)|].
  assert (Hlen : (2 <= List.length xs)%nat) by lia.
  destruct (finalizers_central AKurtosis vs eq_refl Hlen) as (_ & _ & Hde & Hq). cbv zeta in Hde, Hq. fold xs fn in Hde, Hq.
  rewrite I0 in Hde, Hq.
  destruct (central2_quotient_sign xs fn _ ltac:(pose proof (fn_gt_1 _ Hlen); unfold fn; lra) Hde) as [Hz Hnz].
  split; [lia|]. split; intros _ H.
  - now rewrite (Hz H).
  - destruct (Hnz H) as [-> _]. eexists. split; [reflexivity|exact Hq].
Qed.

Theorem count_is_number_of_values vs : run_acc false ACount vs = OInt (Z.of_nat (List.length vs)).
Proof. unfold run_acc. cbn [emit]. now rewrite (fold_left_proj st_count _ (fun c _ => (c + 1)%Z)), incr_fold by reflexivity. Qed.

Theorem null_count_is_number_of_empty_values vs :
  run_acc false ANullCount vs = OInt (Z.of_nat (List.length (filter is_void vs))).
Proof.
  unfold run_acc. cbn [emit].
  rewrite (fold_left_proj st_count _ (fun c v => if is_void v then (c + 1)%Z else c)) by (intros; cbn [ingest]; now destruct (is_void _)).
  now rewrite (fold_left_filter (fun c _ => (c + 1)%Z) is_void), incr_fold.
Qed.

Definition isnum (v : val) : bool := match numof v with Some _ => true | None => false end.

Lemma flat_filter vs :
  flat_map (fun v => match numof v with Some x => [qof x] | None => [] end) (filter isnum vs) = qs_of vs.
Proof.
  unfold qs_of. induction vs as [|v vs IH]; [reflexivity|]. rewrite numerics_cons. cbn [filter]. unfold isnum at 1.
  destruct (numof v) as [x|] eqn:E; [|exact IH].
  cbn [flat_map map]. rewrite E, IH. reflexivity.
Qed.

Lemma fold_left_Qplus l : forall a, fold_left Qplus l a == a + Qsum_list l.
Proof.
  induction l as [|x l IH]; intros a; cbn [fold_left].
  - unfold Qsum_list. cbn [fold_right]. ring.
  - rewrite IH, Qsum_list_cons. ring.
Qed.
Lemma Qsum_eq l : Qsum l == Qsum_list l.
Proof. unfold Qsum. rewrite fold_left_Qplus. ring. Qed.

(* the samples kept are the numeric values; there are none exactly when qs_of vs is empty *)
Lemma mad_emit vs :
  run_acc false AMad vs
  = match filter isnum vs with
    | [] => OVoid
    | _ => let xs := qs_of vs in let n := inject_Z (Z.of_nat (List.length xs)) in
           OFlt (Qsum (map (fun x => Qabs (Qsum xs / n - x)) xs) / n)
    end.
Proof.
  unfold run_acc. cbn [emit]. rewrite (fold_left_proj st_data _ (fun d v => if isnum v then d ++ [v] else d)%list)
    by (intros; unfold isnum; cbn [ingest]; now destruct (numof _)).
  rewrite (fold_left_filter (fun d v => d ++ [v])%list isnum), fold_snoc. cbn [st0 st_data app]. rewrite <- flat_filter.
  destruct (filter isnum vs); reflexivity.
Qed.

Theorem mad_equals_definition vs : qs_of vs <> [] ->
  let xs := qs_of vs in
  exists q, run_acc false AMad vs = OFlt q
    /\ q == Qsum_list (map (fun x => Qabs (mean_def xs - x)) xs) / inject_Z (Z.of_nat (List.length xs)).
Proof.
  intros Hne xs. rewrite mad_emit. destruct (filter isnum vs) eqn:E.
  - exfalso. apply Hne. rewrite <- flat_filter, E. reflexivity.
  - fold xs. cbv zeta. eexists. split; [reflexivity|].
    rewrite Qsum_eq. apply Qdiv_comp; [|reflexivity].
    apply Qsum_list_map_ext. intros x. rewrite Qsum_eq. unfold mean_def. reflexivity.
Qed.

Theorem mad_empty vs : qs_of vs = [] -> run_acc false AMad vs = OVoid.
Proof.
  intros He. rewrite mad_emit. destruct (filter isnum vs) as [|d0 dt] eqn:E; [reflexivity|]. exfalso.
  assert (Hin : In d0 (filter isnum vs)) by (rewrite E; now left).
  apply filter_In in Hin. destruct Hin as [Hin Hn]. unfold isnum in Hn. destruct (numof d0) as [x|] eqn:Hx; [|discriminate].
  assert (H : In (qof x) (qs_of vs)); [|now rewrite He in H].
  unfold qs_of, numerics. apply in_map, in_flat_map. exists d0. split; [exact Hin|]. rewrite Hx. now left.
Qed.

Theorem len_is_extreme a vs : (a = AMinLen \/ a = AMaxLen) -> vs <> [] ->
  exists z, run_acc false a vs = OInt z /\ In z (map utf8_len vs) /\ (forall v, In v vs -> best_le a z (utf8_len v)).
Proof.
  intros Ha Hne. assert (Hb : is_best a = true) by (destruct Ha as [ -> | -> ]; reflexivity).
  assert (Hc : best_cand a = fun v => MInt (utf8_len v) []) by (destruct Ha as [ -> | -> ]; reflexivity).
  rewrite run_best, Hc by exact Hb.
  destruct (best_of_ints a (map (fun v => MInt (utf8_len v) []) vs) Hb) as (z & t & -> & Hin & Hle).
  - intros m Hm. apply in_map_iff in Hm. destruct Hm as (v & <- & _). eauto.
  - destruct vs; [congruence|discriminate].
  - exists z. split; [reflexivity|]. apply in_map_iff in Hin. destruct Hin as (w & E & Hw). injection E as <- _.
    split; [now apply in_map|]. intros v Hv. apply (Hle _ []). now apply (in_map (fun v => MInt (utf8_len v) [])).
Qed.

Theorem minlen_empty interp : run_acc interp AMinLen [] = OVoid.
Proof. reflexivity. Qed.
Theorem maxlen_empty interp : run_acc interp AMaxLen [] = OVoid.
Proof. reflexivity. Qed.

(* utf8_len counts the bytes that are not continuation bytes (10xxxxxx); C15.Model.strlen is the length of the Go
   decoding []rune(s) (utf8.RuneCountInString).  They agree on every well-formed UTF-8 string (C15.Model.valid_utf8);
   on ill-formed input they differ (a stray continuation byte is one rune for Go, zero for utf8_len). *)
Definition nc (c : ascii) : bool := negb ((128 <=? code c)%N && (code c <? 192)%N).

Lemma utf8_len_cons c t : utf8_len (c :: t) = ((if nc c then 1 else 0) + utf8_len t)%Z.
Proof.
  unfold utf8_len. cbn [filter]. fold (nc c). destruct (nc c); cbn [List.length]; lia.
Qed.

Lemma nc_ascii c : (C15.Model.bn c <? 128)%N = true -> nc c = true.
Proof. unfold nc, C15.Model.bn. lia. Qed.
Lemma nc_lead lo hi c : (192 <=? lo)%N = true -> C15.Model.inr lo hi c = true -> nc c = true.
Proof. unfold nc, C15.Model.inr, C15.Model.bn. lia. Qed.
Lemma nc_cont c : C15.Model.cont c = true -> nc c = false.
Proof. unfold nc, C15.Model.cont, C15.Model.bn. lia. Qed.
Lemma ok3_cont x b1 :
  (if (x =? 224)%N then C15.Model.inr 160 191 b1 else if (x =? 237)%N then C15.Model.inr 128 159 b1 else C15.Model.cont b1) = true
  -> C15.Model.cont b1 = true.
Proof. unfold C15.Model.inr, C15.Model.cont. destruct (x =? 224)%N, (x =? 237)%N; lia. Qed.
Lemma ok4_cont x b1 :
  (if (x =? 240)%N then C15.Model.inr 144 191 b1 else if (x =? 244)%N then C15.Model.inr 128 143 b1 else C15.Model.cont b1) = true
  -> C15.Model.cont b1 = true.
Proof. unfold C15.Model.inr, C15.Model.cont. destruct (x =? 240)%N, (x =? 244)%N; lia. Qed.

(* a well-formed string starts with a byte that is not a continuation byte, then the continuation bytes of its sequence,
   then a well-formed string; Go decodes the sequence to one rune *)
Lemma valid_utf8_head b0 t : C15.Model.valid_utf8 (b0 :: t) = true ->
  exists cs t' r, t = (cs ++ t')%list /\ nc b0 = true /\ forallb C15.Model.cont cs = true
    /\ C15.Model.valid_utf8 t' = true /\ C15.Model.runes (b0 :: t) = r :: C15.Model.runes t'.
Proof.
  cbn [C15.Model.valid_utf8 C15.Model.runes]. cbv zeta. intros Hv.
  destruct (N.ltb (C15.Model.bn b0) 128) eqn:E0.
  { exists [], t. eexists. repeat split; [now apply nc_ascii|exact Hv]. }
  destruct (C15.Model.inr 194 223 b0) eqn:E1.
  { destruct t as [|b1 t1]; [discriminate|]. apply andb_true_iff in Hv. destruct Hv as [H1 H2]. rewrite H1.
    exists [b1], t1. eexists. repeat split; [exact (nc_lead 194 223 b0 eq_refl E1)|cbn [forallb]; now rewrite H1|exact H2]. }
  destruct (C15.Model.inr 224 239 b0) eqn:E2.
  { destruct t as [|b1 [|b2 t2]]; try discriminate. apply andb_true_iff in Hv. destruct Hv as [H12 H3]. rewrite H12.
    apply andb_true_iff in H12. destruct H12 as [Hk1 Hk2]. apply ok3_cont in Hk1.
    exists [b1; b2], t2. eexists. repeat split; [exact (nc_lead 224 239 b0 eq_refl E2)|cbn [forallb]; now rewrite Hk1, Hk2|exact H3]. }
  destruct (C15.Model.inr 240 244 b0) eqn:E3; [|discriminate].
  destruct t as [|b1 [|b2 [|b3 t3]]]; try discriminate. apply andb_true_iff in Hv. destruct Hv as [H123 H4]. rewrite H123.
  apply andb_true_iff in H123. destruct H123 as [H12 Hk3]. apply andb_true_iff in H12. destruct H12 as [Hk1 Hk2].
  apply ok4_cont in Hk1.
  exists [b1; b2; b3], t3. eexists. repeat split; [exact (nc_lead 240 244 b0 eq_refl E3)|cbn [forallb]; now rewrite Hk1, Hk2, Hk3|exact H4].
Qed.

Lemma utf8_len_seq b0 cs t : nc b0 = true -> forallb C15.Model.cont cs = true ->
  utf8_len (b0 :: cs ++ t) = (1 + utf8_len t)%Z.
Proof.
  intros H0 Hcs. rewrite utf8_len_cons, H0. f_equal. induction cs as [|c cs IH]; [reflexivity|].
  cbn [forallb] in Hcs. apply andb_true_iff in Hcs. destruct Hcs as [Hc Hcs]. cbn [app].
  now rewrite utf8_len_cons, (nc_cont c Hc), IH.
Qed.

Lemma utf8_len_strlen_n : forall n v, (List.length v <= n)%nat -> C15.Model.valid_utf8 v = true ->
  utf8_len v = C15.Model.strlen v.
Proof.
  induction n as [|n IH]; intros [|b0 t] Hlen Hv; try reflexivity; [cbn [List.length] in Hlen; lia|].
  destruct (valid_utf8_head b0 t Hv) as (cs & t' & r & -> & H0 & Hcs & Hv' & Hr).
  unfold C15.Model.strlen. rewrite Hr, (utf8_len_seq b0 cs t' H0 Hcs), (IH t'); [|clear - Hlen|exact Hv'].
  - unfold C15.Model.strlen. cbn [List.length]. clear. lia.
  - cbn [List.length] in Hlen. rewrite app_length in Hlen. lia.
Qed.

Theorem utf8_len_is_rune_count v : C15.Model.valid_utf8 v = true -> utf8_len v = C15.Model.strlen v.
Proof. intros H. exact (utf8_len_strlen_n (List.length v) v (le_n _) H). Qed.

Lemma ascii_valid s : forallb (fun c => (code c <? 128)%N) s = true -> C15.Model.valid_utf8 s = true.
Proof.
  induction s as [|c t IH]; intros H; [reflexivity|]. cbn [forallb] in H. apply andb_true_iff in H. destruct H as [H1 H2].
  cbn [C15.Model.valid_utf8]. cbv zeta. unfold C15.Model.bn. rewrite H1. now apply IH.
Qed.

Theorem utf8_len_ascii v : forallb (fun c => (code c <? 128)%N) v = true -> utf8_len v = Z.of_nat (List.length v).
Proof.
  induction v as [|c t IH]; intros H; [reflexivity|]. cbn [forallb] in H. apply andb_true_iff in H. destruct H as [H1 H2].
  rewrite utf8_len_cons, (IH H2). assert (Hc : nc c = true) by (unfold nc; lia). rewrite Hc. cbn [List.length]. lia.
Qed.

Corollary len_is_extreme_rune_count a vs : (a = AMinLen \/ a = AMaxLen) -> vs <> [] ->
  forallb C15.Model.valid_utf8 vs = true ->
  exists z, run_acc false a vs = OInt z /\ In z (map C15.Model.strlen vs)
    /\ (forall v, In v vs -> best_le a z (C15.Model.strlen v)).
Proof.
  intros Ha Hne Hval. destruct (len_is_extreme a vs Ha Hne) as (z & Hr & Hin & Hext).
  assert (Hv : forall v, In v vs -> utf8_len v = C15.Model.strlen v)
    by (intros v Hv; apply utf8_len_is_rune_count; rewrite forallb_forall in Hval; now apply Hval).
  exists z. split; [exact Hr|]. rewrite <- (map_ext_in _ _ vs Hv). split; [exact Hin|].
  intros v Hin'. rewrite <- (Hv v Hin'). now apply Hext.
Qed.

Definition ex_vs : list val := [B "4"; B "x"; B "5"; B ""; B "9.5"; B "10"; B "11"].
Definition ex_same : list val := [B "3"; B "x"; B "3"; B "3.0"].
Definition ex_strs : list val := [bs [104; 195; 169; 108; 108; 111]%N; B "ab"; bs [226; 130; 172]%N; B "wxyz"].

(* five numeric values (a non-numeric and an empty one are skipped), not all equal *)
Example moments_hyp_sat : (2 <= List.length (qs_of ex_vs))%nat /\ ~ central 2 (qs_of ex_vs) == 0.
Proof. split; [vm_compute; lia|]. vm_compute. discriminate. Qed.
Example moments_hyp_sat_values :
  match run_acc false ASkewness ex_vs with OPow15 nu de => Qeq_bool nu (-8112 # 1000) && Qeq_bool de (1005 # 100) | _ => false end = true
  /\ match run_acc false AKurtosis ex_vs with
     | OFlt q => Qeq_bool q (-5363261718750000000000000000000 # 3156328125000000000000000000000) | _ => false end = true.
Proof. split; vm_compute; reflexivity. Qed.
(* three equal numeric values written differently: NaN *)
Example moments_nan_hyp_sat : (2 <= List.length (qs_of ex_same))%nat /\ central 2 (qs_of ex_same) == 0
  /\ run_acc false ASkewness ex_same = ONan /\ run_acc false AKurtosis ex_same = ONan.
Proof. split; [vm_compute; lia|]. split; [vm_compute; reflexivity|]. split; vm_compute; reflexivity. Qed.
Example moments_too_few_sat : (List.length (qs_of [B "x"; B "7"; B ""]) < 2)%nat
  /\ run_acc false ASkewness [B "x"; B "7"; B ""] = OVoid /\ run_acc false AKurtosis [B "x"; B "7"; B ""] = OVoid.
Proof. split; [vm_compute; lia|]. split; vm_compute; reflexivity. Qed.

Example mad_hyp_sat : qs_of ex_vs <> []
  /\ match run_acc false AMad ex_vs with OFlt q => Qeq_bool q (272 # 100) | _ => false end = true.
Proof. split; [vm_compute; discriminate|vm_compute; reflexivity]. Qed.
Example mad_empty_sat : qs_of [B "x"; B ""] = [] /\ [B "x"; B ""] <> [].
Proof. split; [vm_compute; reflexivity|discriminate]. Qed.

Example count_examples : run_acc false ACount ex_vs = OInt 7 /\ run_acc false ANullCount ex_vs = OInt 1
  /\ run_acc false ANullCount ex_same = OInt 0.
Proof. repeat split; vm_compute; reflexivity. Qed.

(* "héllo" (6 bytes, 5 characters), "ab", the euro sign (3 bytes, 1 character), "wxyz" *)
Example lens_hyp_sat : ex_strs <> [] /\ forallb C15.Model.valid_utf8 ex_strs = true
  /\ map utf8_len ex_strs = [5; 2; 1; 4]%Z
  /\ run_acc false AMinLen ex_strs = OInt 1 /\ run_acc false AMaxLen ex_strs = OInt 5.
Proof. split; [discriminate|]. repeat split; vm_compute; reflexivity. Qed.
Example utf8_valid_hyp_sat : C15.Model.valid_utf8 (bs [104; 195; 169; 108; 108; 111]%N) = true
  /\ forallb (fun c => (code c <? 128)%N) (bs [104; 195; 169; 108; 108; 111]%N) = false
  /\ forallb (fun c => (code c <? 128)%N) (B "wxyz") = true.
Proof. repeat split; vm_compute; reflexivity. Qed.
(* the well-formedness premise of utf8_len_is_rune_count is needed: a stray continuation byte is one character
   for Go's decoder and none for utf8_len *)
Example utf8_len_differs_on_ill_formed :
  C15.Model.valid_utf8 (bs [128]%N) = false /\ utf8_len (bs [128]%N) = 0%Z /\ C15.Model.strlen (bs [128]%N) = 1%Z.
Proof. repeat split; vm_compute; reflexivity. Qed.

Print Assumptions skewness_stream_eq_def.
Print Assumptions kurtosis_stream_eq_def.
Print Assumptions central2_zero_iff_all_equal.
Print Assumptions count_is_number_of_values.
Print Assumptions null_count_is_number_of_empty_values.
Print Assumptions mad_equals_definition.
Print Assumptions mad_empty.
Print Assumptions utf8_len_is_rune_count.
Print Assumptions utf8_len_ascii.
