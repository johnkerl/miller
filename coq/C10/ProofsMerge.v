(* merge-fields (-f, -r, -c) and fill-down: the accumulators of merge-fields are fed exactly the
   non-empty values of the selected fields of ONE record (per short name with -c), in order; fill-down writes the value
   of the last earlier record in which the field was present. *)
From Miller Require Import C10.Model C10.Verbs C10.Verbs2 C10.Spec C10.ProofsGroup C10.Proofs.
From Miller Require Import Base.ListFacts.
Open Scope char_scope.

Lemma Forall_oput {V} (P : bytes * V -> Prop) k v m : (forall k', P (k', v)) -> Forall P m -> Forall P (oput k v m).
Proof.
  intros Hv. induction 1 as [|[k' v'] m Hx Hm IH]; cbn [oput]; [now constructor|].
  destruct (beqb k k'); constructor; auto.
Qed.

(* putting items under keys that are new and distinct appends them *)
Lemma fold_oput_fresh {X V} (kf : X -> bytes) (vf : X -> V) xs : forall m, NoDup (okeys m ++ map kf xs) ->
  fold_left (fun m x => oput (kf x) (vf x) m) xs m = m ++ map (fun x => (kf x, vf x)) xs.
Proof.
  induction xs as [|x xs IH]; intros m Hnd; cbn [fold_left map] in *; [now rewrite app_nil_r|].
  rewrite oput_notin.
  - rewrite IH, <- app_assoc; [reflexivity|]. unfold okeys. now rewrite map_app, <- app_assoc.
  - apply NoDup_remove_2 in Hnd. destruct (mem (kf x) (okeys m)) eqn:M; [|reflexivity].
    exfalso. apply Hnd, in_or_app. left. now apply mem_In.
Qed.

Definition nonvoid (v : val) : bool := negb (is_void v).

Theorem mf_feed_all vs : forall m : omap (accname * accst),
  fold_left (fun m v => mf_feed v m) vs m
  = map (fun e => (fst e, (fst (snd e), fold_left (ingest (fst (snd e))) vs (snd (snd e))))) m.
Proof.
  induction vs as [|v vs IH]; intros m; cbn [fold_left].
  - induction m as [|[k [a s]] m IH]; cbn [map fst snd]; [reflexivity|now rewrite <- IH].
  - rewrite IH. unfold mf_feed. rewrite map_map. apply map_ext. intros [k [a s]]. reflexivity.
Qed.

Lemma mf_accs_st0 accs : Forall (fun e => snd (snd e) = st0) (mf_accs accs).
Proof.
  unfold mf_accs. apply (fold_left_invariant (Forall (fun e => snd (snd e) = st0))); [|constructor].
  intros m a Hm. now apply Forall_oput.
Qed.

Theorem mf_emit_run interp base accs vs o :
  mf_emit interp base (fold_left (fun m v => mf_feed v m) vs (mf_accs accs)) o
  = fold_left (fun o e => oput (base ++ "_" :: fst e)%list (run_acc interp (fst (snd e)) vs) o) (mf_accs accs) o.
Proof.
  rewrite mf_feed_all. unfold mf_emit. rewrite fold_left_map. apply fold_left_ext_in. intros e He o'.
  cbn [fst snd]. unfold run_acc. now rewrite (proj1 (Forall_forall _ _) (mf_accs_st0 accs) e He).
Qed.

(* the same with the requests themselves, when their texts are distinct: the accumulator map lists them in order *)
Corollary mf_emit_run_reqs interp base accs vs o : NoDup (map req_text accs) ->
  mf_emit interp base (fold_left (fun m v => mf_feed v m) vs (mf_accs accs)) o
  = fold_left (fun o a => oput (base ++ "_" :: req_text a)%list (run_acc interp (fst a) vs) o) accs o.
Proof.
  intros Hnd. rewrite mf_emit_run. unfold mf_accs.
  rewrite (fold_oput_fresh req_text (fun a => (fst a, st0))) by exact Hnd. cbn [app]. now rewrite fold_left_map.
Qed.

Example mf_emit_run_reqs_sat : NoDup (map req_text [(ASum, []); (ACount, []); (APctl 50, B "p50")]).
Proof. apply nodupb_NoDup. vm_compute. reflexivity. Qed.

Definition mf_matched (subs : list bytes) (kv : field) : bool :=
  match first_match subs (fst kv) with Some _ => true | None => false end.
Definition mf_cupd (m : omap (accname * accst)) (kv : field) : omap (accname * accst) :=
  if is_void (snd kv) then m else mf_feed (snd kv) m.

(* the values merged from one record: the non-empty values of exactly the fields whose name contains one of the
   substrings, in record order *)
Definition mf_subs_values (subs : list bytes) (r : record) : list val :=
  filter (fun v => negb (is_void v)) (map snd (filter (mf_matched subs) r)).
Definition mf_subs_rest (keep : bool) (subs : list bytes) (r : record) : orec :=
  if keep then otext_rec r
  else fold_left (fun o kv => orec_remove (fst kv) o) (filter (mf_matched subs) r) (otext_rec r).

Lemma mf_cupd_fold ms : forall m,
  fold_left mf_cupd ms m = fold_left (fun m v => mf_feed v m) (filter nonvoid (map snd ms)) m.
Proof.
  intros m. rewrite <- fold_left_filter, fold_left_map. apply fold_left_ext. intros m' kv.
  unfold mf_cupd, nonvoid. now destruct (is_void (snd kv)).
Qed.

(* what -r and -c do to the output record: the matched fields go unless -k *)
Definition mf_rm (keep : bool) (subs : list bytes) (o : orec) (kv : field) : orec :=
  if mf_matched subs kv then (if keep then o else orec_remove (fst kv) o) else o.
Lemma mf_rm_fold keep subs r : fold_left (mf_rm keep subs) r (otext_rec r) = mf_subs_rest keep subs r.
Proof.
  unfold mf_subs_rest. rewrite <- fold_left_filter. generalize (otext_rec r). unfold mf_rm.
  induction r as [|kv l IH]; intros o; cbn [fold_left]; [now destruct keep|].
  rewrite IH. destruct (mf_matched subs kv), keep; reflexivity.
Qed.

Theorem merge_fields_subs interp keep accs subs base r :
  verb_merge_fields_one interp keep accs (MFSubs subs) base r
  = fold_left (fun o e => oput (base ++ "_" :: fst e)%list (run_acc interp (fst (snd e)) (mf_subs_values subs r)) o)
              (mf_accs accs) (mf_subs_rest keep subs r).
Proof.
  unfold verb_merge_fields_one.
  rewrite (fold_left_ext _ (fun p kv => (if mf_matched subs kv then mf_cupd (fst p) kv else fst p, mf_rm keep subs (snd p) kv)))
    by (intros [m o] [n v]; unfold mf_rm, mf_matched, mf_cupd; cbn [fst snd]; now destruct (first_match subs n)).
  rewrite (fold_left_pair (fun m kv => if mf_matched subs kv then mf_cupd m kv else m) (mf_rm keep subs)).
  rewrite fold_left_filter, mf_cupd_fold, mf_rm_fold. apply mf_emit_run.
Qed.

Definition mf_ckey (subs : list bytes) (kv : field) : option bytes :=
  match first_match subs (fst kv) with Some s => Some (remove_first_sub s (fst kv)) | None => None end.

(* the collapse map IS the grouped fold of the record's fields keyed by short name *)
Theorem merge_fields_collapse_gfold interp keep accs subs base r :
  verb_merge_fields_one interp keep accs (MFCollapse subs) base r
  = fold_left (fun o e => mf_emit interp (fst e) (snd e) o)
              (gfold (mf_ckey subs) (fun _ => mf_accs accs) mf_cupd r) (mf_subs_rest keep subs r).
Proof.
  unfold verb_merge_fields_one.
  rewrite (fold_left_ext _ (fun p kv => (gstep (mf_ckey subs) (fun _ => mf_accs accs) mf_cupd (fst p) kv, mf_rm keep subs (snd p) kv)))
    by (intros [cm o] [n v]; unfold gstep, mf_rm, mf_ckey, mf_matched, mf_cupd; cbn [fst snd]; now destruct (first_match subs n)).
  now rewrite (fold_left_pair (gstep (mf_ckey subs) (fun _ => mf_accs accs) mf_cupd) (mf_rm keep subs)), mf_rm_fold.
Qed.

(* the values collapsed under short name sh: the non-empty values of the fields with that short name, in record order *)
Definition mf_collapse_values (subs : list bytes) (sh : bytes) (r : record) : list val :=
  filter (fun v => negb (is_void v)) (map snd (members (mf_ckey subs) sh r)).

Theorem mf_collapse_get accs subs sh r :
  oget sh (gfold (mf_ckey subs) (fun _ => mf_accs accs) mf_cupd r)
  = match members (mf_ckey subs) sh r with
    | [] => None
    | _ => Some (fold_left (fun m v => mf_feed v m) (mf_collapse_values subs sh r) (mf_accs accs))
    end.
Proof.
  rewrite oget_gfold. unfold group_state, mf_collapse_values. destruct (members (mf_ckey subs) sh r) as [|kv0 rest]; [reflexivity|].
  now rewrite mf_cupd_fold.
Qed.

Theorem mf_collapse_keys accs subs r :
  okeys (gfold (mf_ckey subs) (fun _ => mf_accs accs) mf_cupd r) = first_keys (mf_ckey subs) r.
Proof. apply okeys_gfold. Qed.

(* the whole output of -c: for every short name in order of first appearance, every accumulator run on exactly the
   non-empty values of the fields of that short name *)
Theorem merge_fields_collapse interp keep accs subs base r :
  verb_merge_fields_one interp keep accs (MFCollapse subs) base r
  = fold_left (fun o sh =>
                 fold_left (fun o e => oput (sh ++ "_" :: fst e)%list (run_acc interp (fst (snd e)) (mf_collapse_values subs sh r)) o)
                           (mf_accs accs) o)
              (first_keys (mf_ckey subs) r) (mf_subs_rest keep subs r).
Proof.
  rewrite merge_fields_collapse_gfold, gfold_spec.
  rewrite (spec_groups_map _ _ _ (fun sh => fold_left (fun m v => mf_feed v m) (mf_collapse_values subs sh r) (mf_accs accs))).
  - rewrite fold_left_map. apply fold_left_ext. intros o sh. apply mf_emit_run.
  - intros sh kv0 rest E. unfold mf_collapse_values. rewrite E. apply mf_cupd_fold.
Qed.

Definition fd_present (oia : bool) (f : bytes) (r : record) : bool :=
  match get f r with Some v => if oia then true else negb (is_void v) | None => false end.
(* the value of f in the LAST record of pre in which f is present *)
Definition last_present (oia : bool) (f : bytes) (pre : list record) : option bytes :=
  match find (fd_present oia f) (rev pre) with Some r => get f r | None => None end.

Lemma last_present_snoc oia f pre r :
  last_present oia f (pre ++ [r]) = if fd_present oia f r then get f r else last_present oia f pre.
Proof. unfold last_present. rewrite rev_app_distr. cbn [rev app find]. destruct (fd_present oia f r); reflexivity. Qed.

(* the record r arriving after pre: every listed field that is not present is set to its last present value, if any *)
Definition spec_fill_rec (oia : bool) (fs : list bytes) (pre : list record) (r : record) : record :=
  fold_left (fun r' f => if fd_present oia f r then r'
                         else match last_present oia f pre with Some p => put f p r' | None => r' end) fs r.
Fixpoint spec_fill_down_from (oia : bool) (fs : list bytes) (pre rest : list record) : list orec :=
  match rest with
  | [] => []
  | r :: t => otext_rec (spec_fill_rec oia fs pre r) :: spec_fill_down_from oia fs (pre ++ [r]) t
  end.

Definition fd_inner_fn (oia : bool) (acc : omap bytes * record) (f : bytes) : omap bytes * record :=
  let '(last, r) := acc in
  if fd_present oia f r then (match get f r with Some v => oput f v last | None => last end, r)
  else match oget f last with Some p => (last, put f p r) | None => (last, r) end.

Lemma fd_step_names all oia fs last out r :
  fd_step all oia fs (last, out) r
  = let '(last', r') := fold_left (fd_inner_fn oia) (if all then keys r else fs) (last, r) in (last', out ++ [otext_rec r']).
Proof. reflexivity. Qed.

(* what the step does to its two components, r being the record as it arrived and last the values remembered before it:
   a present field is remembered, an absent one is filled in *)
Definition fd_keep (oia : bool) (r : record) (f : bytes) (_ : option bytes) : option bytes :=
  if fd_present oia f r then get f r else None.
Definition fd_rec_step (oia : bool) (r : record) (last : omap bytes) (r' : record) (f : bytes) : record :=
  if fd_present oia f r then r' else match oget f last with Some p => put f p r' | None => r' end.

(* the steps do not interfere: each reads and writes only its own field, in the record and in the remembered values *)
Lemma fd_inner oia r last0 fs : NoDup fs -> forall last r',
  (forall f, In f fs -> get f r' = get f r /\ oget f last = oget f last0) ->
  fold_left (fd_inner_fn oia) fs (last, r')
  = (fold_left (ostep (fd_keep oia r)) fs last, fold_left (fd_rec_step oia r last0) fs r').
Proof.
  induction fs as [|f0 fs IH]; intros Hnd last r' H; cbn [fold_left]; [reflexivity|].
  apply NoDup_cons_iff in Hnd as [Hni Hnd]. destruct (H f0 (or_introl eq_refl)) as [Hg Ho].
  assert (E : fd_inner_fn oia (last, r') f0 = (ostep (fd_keep oia r) last f0, fd_rec_step oia r last0 r' f0)).
  { unfold fd_inner_fn, ostep, fd_keep, fd_rec_step, fd_present. rewrite Hg, <- Ho.
    destruct (get f0 r) as [v|]; [destruct (if oia then true else negb (is_void v))|]; destruct (oget f0 last); reflexivity. }
  rewrite E. apply IH; [exact Hnd|]. intros f Hf. destruct (H f (or_intror Hf)) as [Hg' Ho'].
  assert (Hne : f <> f0) by (intros ->; contradiction). split.
  - rewrite <- Hg'. unfold fd_rec_step. destruct (fd_present oia f0 r); [reflexivity|].
    destruct (oget f0 last0); [apply get_put_other; congruence|reflexivity].
  - rewrite <- Ho'. unfold ostep. destruct (fd_keep oia r f0 (oget f0 last)); [|reflexivity]. rewrite oget_oput.
    now destruct (beqb_spec f f0).
Qed.

(* one record, after [pre]: if the remembered values of the listed fields are the last present ones of [pre], the record
   comes out filled as the definition says, and the remembered values of those fields are then those of [pre ++ [r]] *)
Lemma fd_step_spec (all : bool) oia fs last out r pre : let names := if all then keys r else fs in
  NoDup names -> (forall f, In f names -> oget f last = last_present oia f pre) ->
  exists last', fd_step all oia fs (last, out) r = (last', out ++ [otext_rec (spec_fill_rec oia names pre r)])
    /\ forall f, oget f last' = if mem f names then last_present oia f (pre ++ [r]) else oget f last.
Proof.
  intros names Hnd Hinv. rewrite fd_step_names. fold names. rewrite (fd_inner oia r last) by auto. eexists. split.
  - do 4 f_equal. unfold spec_fill_rec. apply fold_left_ext_in. intros f Hf a.
    unfold fd_rec_step. now rewrite (Hinv f Hf).
  - intros f. rewrite fold_oput_get by exact Hnd. destruct (mem f names) eqn:M; [|reflexivity].
    rewrite last_present_snoc, <- (Hinv f) by now apply mem_In. unfold fd_keep, fd_present.
    destruct (get f r) as [v|]; [destruct oia, (is_void v)|]; reflexivity.
Qed.

Lemma fd_outer oia fs : NoDup fs -> forall rest pre last out,
  (forall f, In f fs -> oget f last = last_present oia f pre) ->
  snd (fold_left (fd_step false oia fs) rest (last, out)) = out ++ spec_fill_down_from oia fs pre rest.
Proof.
  intros Hnd. induction rest as [|r rest IH]; intros pre last out Hinv; cbn [fold_left spec_fill_down_from snd];
    [now rewrite app_nil_r|].
  destruct (fd_step_spec false oia fs last out r pre Hnd Hinv) as (last' & E & Hl).
  rewrite E, (IH (pre ++ [r])), <- app_assoc; [reflexivity|].
  intros f Hf. rewrite Hl. apply mem_In in Hf. now rewrite Hf.
Qed.

Theorem fill_down_equals_definition oia fs rs : NoDup fs ->
  verb_fill_down false oia fs rs = spec_fill_down_from oia fs [] rs.
Proof.
  intros Hnd. unfold verb_fill_down. apply (fd_outer oia fs Hnd rs [] [] []).
  intros f Hf. reflexivity.
Qed.

Lemma spec_fill_down_nth oia fs rest : forall pre i r,
  nth_error rest i = Some r ->
  nth_error (spec_fill_down_from oia fs pre rest) i = Some (otext_rec (spec_fill_rec oia fs (pre ++ firstn i rest) r)).
Proof.
  induction rest as [|r0 rest IH]; intros pre i r H; [destruct i; discriminate|].
  destruct i as [|i]; cbn [nth_error spec_fill_down_from firstn] in *.
  - injection H as ->. now rewrite app_nil_r.
  - rewrite (IH (pre ++ [r0]) i r H), <- app_assoc. reflexivity.
Qed.

Theorem fill_down_nth oia fs rs i r : NoDup fs -> nth_error rs i = Some r ->
  nth_error (verb_fill_down false oia fs rs) i = Some (otext_rec (spec_fill_rec oia fs (firstn i rs) r)).
Proof. intros Hnd H. rewrite fill_down_equals_definition by exact Hnd. now rewrite (spec_fill_down_nth oia fs rs [] i r H). Qed.

Example fill_down_sat :
  NoDup [B "a"; B "b"] /\
  verb_fill_down false false [B "a"; B "b"] [[(B "a", B "1"); (B "b", B "x")]; [(B "a", B ""); (B "c", B "3")]; [(B "c", B "4")]]
  = [[(B "a", OText (B "1")); (B "b", OText (B "x"))];
     [(B "a", OText (B "1")); (B "c", OText (B "3")); (B "b", OText (B "x"))];
     [(B "c", OText (B "4")); (B "a", OText (B "1")); (B "b", OText (B "x"))]].
Proof. split; [apply nodupb_NoDup; vm_compute; reflexivity|vm_compute; reflexivity]. Qed.

Lemma fd_inner_all_present r names : forall last,
  (forall f, In f names -> get f r <> None) -> snd (fold_left (fd_inner_fn true) names (last, r)) = r.
Proof.
  induction names as [|f0 names IH]; intros last H; cbn [fold_left]; [reflexivity|].
  unfold fd_inner_fn at 2, fd_present. destruct (get f0 r) eqn:G; [|exfalso; apply (H f0); [now left|exact G]].
  apply IH. intros f Hf. apply H. now right.
Qed.

(* all = true, only_if_absent = true: every field of the record's own key list is present (it has the key): records pass
   through unchanged *)
Theorem fill_down_all_absent_identity fs rs : verb_fill_down true true fs rs = map otext_rec rs.
Proof.
  unfold verb_fill_down.
  assert (G : forall rest last out, snd (fold_left (fd_step true true fs) rest (last, out)) = out ++ map otext_rec rest).
  { induction rest as [|r rest IH]; intros last out; cbn [fold_left map snd]; [now rewrite app_nil_r|].
    rewrite fd_step_names.
    assert (E : snd (fold_left (fd_inner_fn true) (keys r) (last, r)) = r).
    { apply fd_inner_all_present. intros f Hf E. apply get_none_mem in E. apply mem_In in Hf. congruence. }
    destruct (fold_left (fd_inner_fn true) (keys r) (last, r)) as [last' r']. cbn [snd] in E. subst r'.
    rewrite IH, <- app_assoc. reflexivity. }
  apply (G rs [] []).
Qed.

(* all = true, either only_if_absent, records with distinct keys (wf_record: always so for records read by Miller): the
   field list is the record's own key list; whether the statement survives duplicate keys was not examined *)
Fixpoint spec_fill_all_from (oia : bool) (pre rest : list record) : list orec :=
  match rest with
  | [] => []
  | r :: t => otext_rec (spec_fill_rec oia (keys r) pre r) :: spec_fill_all_from oia (pre ++ [r]) t
  end.

(* here every field is remembered: one the record does not name is not present in it *)
Lemma fd_outer_all oia fs : forall rest pre last out,
  forallb wf_record rest = true ->
  (forall f, oget f last = last_present oia f pre) ->
  snd (fold_left (fd_step true oia fs) rest (last, out)) = out ++ spec_fill_all_from oia pre rest.
Proof.
  induction rest as [|r rest IH]; intros pre last out Hwf Hinv; cbn [fold_left spec_fill_all_from snd];
    [now rewrite app_nil_r|].
  cbn [forallb] in Hwf. apply andb_true_iff in Hwf as [Hr Hrest]. apply nodupb_NoDup in Hr.
  destruct (fd_step_spec true oia fs last out r pre Hr (fun f _ => Hinv f)) as (last' & E & Hl).
  rewrite E, (IH (pre ++ [r])), <- app_assoc; [reflexivity|exact Hrest|].
  intros f. rewrite Hl. destruct (mem f (keys r)) eqn:M; [reflexivity|].
  rewrite Hinv, last_present_snoc. unfold fd_present. now rewrite (proj2 (get_none_mem f r) M).
Qed.

Theorem fill_down_all_equals_definition oia fs rs : forallb wf_record rs = true ->
  verb_fill_down true oia fs rs = spec_fill_all_from oia [] rs.
Proof.
  intros Hwf. unfold verb_fill_down. apply (fd_outer_all oia fs rs [] [] [] Hwf). intros f. reflexivity.
Qed.

Example fill_down_all_sat :
  forallb wf_record [[(B "a", B "1"); (B "b", B "x")]; [(B "a", B ""); (B "c", B "3")]; [(B "b", B ""); (B "a", B "")]] = true /\
  verb_fill_down true false [] [[(B "a", B "1"); (B "b", B "x")]; [(B "a", B ""); (B "c", B "3")]; [(B "b", B ""); (B "a", B "")]]
  = [[(B "a", OText (B "1")); (B "b", OText (B "x"))];
     [(B "a", OText (B "1")); (B "c", OText (B "3"))];
     [(B "b", OText (B "x")); (B "a", OText (B "1"))]].
Proof. split; vm_compute; reflexivity. Qed.

Definition mf_names_fn (keep : bool) (r : record) (acc : omap (accname * accst) * orec) (f : bytes) : omap (accname * accst) * orec :=
  let '(m, o) := acc in
  match get f r with
  | None => acc
  | Some v =>
      match oget f o with
      | None => acc
      | Some _ => (if is_void v then m else mf_feed v m, if keep then o else orec_remove f o)
      end
  end.

Lemma mf_names_unfold interp keep accs fs base r :
  verb_merge_fields_one interp keep accs (MFNames fs) base r
  = let '(m, o) := fold_left (mf_names_fn keep r) fs (mf_accs accs, otext_rec r) in mf_emit interp base m o.
Proof. reflexivity. Qed.

Lemma oget_otext_rec f r : oget f (otext_rec r) = option_map OText (get f r).
Proof.
  induction r as [|[k v] r IH]; cbn [otext_rec map oget get fst snd option_map]; [reflexivity|].
  destruct (beqb f k); [reflexivity|exact IH].
Qed.

Lemma oget_orec_remove_other g f (o : orec) : g <> f -> oget f (orec_remove g o) = oget f o.
Proof.
  intros Hne. induction o as [|[k v] o IH]; cbn [orec_remove oget]; [reflexivity|].
  destruct (beqb_spec g k) as [->|Hgk]; cbn [oget].
  - destruct (beqb_spec f k); [congruence|reflexivity].
  - destruct (beqb f k); [reflexivity|exact IH].
Qed.

(* the values merged from one record: the non-empty values of the listed fields the record carries, in the order of fs *)
Definition mf_names_values (fs : list bytes) (r : record) : list val :=
  filter (fun v => negb (is_void v)) (flat_map (fun f => match get f r with Some v => [v] | None => [] end) fs).
Definition mf_names_rest (keep : bool) (fs : list bytes) (r : record) : orec :=
  if keep then otext_rec r else fold_left (fun o f => orec_remove f o) (filter (fun f => has f r) fs) (otext_rec r).

(* the listed fields the record carries are still in the output record when their turn comes: always with -k, and
   without it because no name comes twice *)
Lemma mf_names_fold keep r fs : keep = true \/ NoDup fs -> forall m (o : orec),
  (forall f, In f fs -> get f r <> None -> oget f o <> None) ->
  fold_left (mf_names_fn keep r) fs (m, o)
  = (fold_left (fun m v => mf_feed v m) (filter nonvoid (flat_map (fun f => match get f r with Some v => [v] | None => [] end) fs)) m,
     if keep then o else fold_left (fun o f => orec_remove f o) (filter (fun f => has f r) fs) o).
Proof.
  induction fs as [|f0 fs IH]; intros Hk m o Ho; cbn [fold_left flat_map filter]; [now destruct keep|].
  assert (Hk' : keep = true \/ NoDup fs) by (destruct Hk as [|H]; [now left|right; now inversion H]).
  unfold mf_names_fn at 2. unfold has at 1. destruct (get f0 r) as [v|] eqn:G.
  - destruct (oget f0 o) eqn:O; [|exfalso; apply (Ho f0); [now left|congruence|exact O]].
    rewrite IH; [|exact Hk'|].
    + cbn [app filter fold_left]. unfold nonvoid at 2. destruct (is_void v), keep; reflexivity.
    + intros f Hf Hg. destruct keep; [apply Ho; [now right|exact Hg]|].
      rewrite oget_orec_remove_other; [apply Ho; [now right|exact Hg]|].
      destruct Hk as [|H]; [discriminate|]. inversion H; subst. intros ->. contradiction.
  - apply IH; [exact Hk'|]. intros f Hf Hg. apply Ho; [now right|exact Hg].
Qed.

Theorem merge_fields_names interp keep accs fs base r : keep = true \/ NoDup fs ->
  verb_merge_fields_one interp keep accs (MFNames fs) base r
  = fold_left (fun o e => oput (base ++ "_" :: fst e)%list (run_acc interp (fst (snd e)) (mf_names_values fs r)) o)
              (mf_accs accs) (mf_names_rest keep fs r).
Proof.
  intros H. rewrite mf_names_unfold, mf_names_fold; [apply mf_emit_run|exact H|].
  intros f _ Hg. rewrite oget_otext_rec. now destruct (get f r).
Qed.

Example merge_fields_names_sat :
  (false = true \/ NoDup [B "x"; B "y"]) /\
  verb_merge_fields_one false false [(ASum, []); (ACount, [])] (MFNames [B "x"; B "y"]) (B "out")
                        [(B "x", B "1"); (B "z", B "7"); (B "y", B "2")]
  = [(B "z", OText (B "7")); (B "out_sum", OInt 3); (B "out_count", OInt 2)].
Proof. split; [right; apply nodupb_NoDup; vm_compute; reflexivity|vm_compute; reflexivity]. Qed.

(* a name listed twice: with -k it is read twice (the formula above says so too: no NoDup needed) ... *)
Example merge_fields_names_dup_keep :
  verb_merge_fields_one false true [(ASum, [])] (MFNames [B "x"; B "x"]) (B "out") [(B "x", B "1")]
  = [(B "x", OText (B "1")); (B "out_sum", OInt 2)].
Proof. vm_compute. reflexivity. Qed.
(* ... without -k it is gone the second time: the statement is false without NoDup fs *)
Example merge_fields_names_dup_refuted :
  exists fs r, verb_merge_fields_one false false [(ASum, [])] (MFNames fs) (B "out") r
               <> fold_left (fun o e => oput (B "out" ++ "_" :: fst e)%list (run_acc false (fst (snd e)) (mf_names_values fs r)) o)
                            (mf_accs [(ASum, [])]) (mf_names_rest false fs r).
Proof. exists [B "x"; B "x"], [(B "x", B "1")]. vm_compute. discriminate. Qed.

Example merge_fields_subs_run :
  verb_merge_fields_one false false [(ASum, [])] (MFSubs [B "in_"; B "out_"]) (B "bar")
                        [(B "a_in_x", B "1"); (B "k", B "v"); (B "a_out_x", B ""); (B "b_out_y", B "4")]
  = [(B "k", OText (B "v")); (B "bar_sum", OInt 5)]
  /\ mf_subs_values [B "in_"; B "out_"] [(B "a_in_x", B "1"); (B "k", B "v"); (B "a_out_x", B ""); (B "b_out_y", B "4")] = [B "1"; B "4"].
Proof. split; vm_compute; reflexivity. Qed.

Example merge_fields_collapse_run :
  verb_merge_fields_one false false [(ASum, [])] (MFCollapse [B "in_"; B "out_"]) (B "bar")
                        [(B "a_in_x", B "1"); (B "k", B "v"); (B "b_out_y", B "4"); (B "a_out_x", B "2")]
  = [(B "k", OText (B "v")); (B "a_x_sum", OInt 3); (B "b_y_sum", OInt 4)]
  /\ first_keys (mf_ckey [B "in_"; B "out_"]) [(B "a_in_x", B "1"); (B "k", B "v"); (B "b_out_y", B "4"); (B "a_out_x", B "2")] = [B "a_x"; B "b_y"]
  /\ mf_collapse_values [B "in_"; B "out_"] (B "a_x") [(B "a_in_x", B "1"); (B "k", B "v"); (B "b_out_y", B "4"); (B "a_out_x", B "2")] = [B "1"; B "2"].
Proof. repeat split; vm_compute; reflexivity. Qed.

Print Assumptions mf_feed_all.
Print Assumptions mf_emit_run.
Print Assumptions mf_emit_run_reqs.
Print Assumptions merge_fields_subs.
Print Assumptions merge_fields_names.
Print Assumptions merge_fields_collapse_gfold.
Print Assumptions mf_collapse_get.
Print Assumptions mf_collapse_keys.
Print Assumptions merge_fields_collapse.
Print Assumptions fill_down_equals_definition.
Print Assumptions fill_down_nth.
Print Assumptions fill_down_all_absent_identity.
Print Assumptions fill_down_all_equals_definition.
