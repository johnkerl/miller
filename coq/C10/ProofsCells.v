(* "The cell sees exactly its group's values" for the verbs other than stats1/count:
   a generic lemma for per-(group, field) cells kept in nested insertion-ordered maps, then fraction (both passes,
   the whole output). *)
From Miller Require Import C10.Model C10.Verbs C10.Verbs2 C10.Spec C10.ProofsGroup C10.ProofsAcc C10.Proofs.
From Miller Require Import Base.ListFacts.
Open Scope char_scope.

Lemma values_of_app f a b : values_of f (a ++ b) = values_of f a ++ values_of f b.
Proof. unfold values_of. apply flat_map_app. Qed.

Section Cells.
  Context {V : Type}.
  Variable cu : option V -> val -> option V.        (* None: the cell is left as it is *)
  (* one record: walk the field list, update the cell of every field the record carries *)
  Definition cell_rec (fs : list bytes) (m : omap V) (r : record) : omap V :=
    fold_left (ostep (fun f o => match get f r with Some v => cu o v | None => None end)) fs m.
  Definition cell_upd (o : option V) (v : val) : option V := match cu o v with Some x => Some x | None => o end.

  Lemma cell_rec_get fs m r f : NoDup fs ->
    oget f (cell_rec fs m r)
    = if mem f fs then match get f r with Some v => cell_upd (oget f m) v | None => oget f m end else oget f m.
  Proof.
    intros Hnd. unfold cell_rec. rewrite fold_oput_get by exact Hnd.
    destruct (mem f fs); [|reflexivity]. unfold cell_upd. destruct (get f r); reflexivity.
  Qed.

  Lemma cells_get fs f : NoDup fs -> In f fs -> forall ms m,
    oget f (fold_left (cell_rec fs) ms m) = fold_left cell_upd (values_of f ms) (oget f m).
  Proof.
    intros Hnd Hin ms. apply (fold_cell (oget f) (get f)). intros m r _.
    rewrite cell_rec_get by exact Hnd. apply mem_In in Hin. now rewrite Hin.
  Qed.
End Cells.

(* the cell of (group k, field f) of a grouped cell map *)
Definition gcell {V} (m : omap (omap V)) (k f : bytes) : option V :=
  oget f (match oget k m with Some c => c | None => [] end).

Lemma gcells_get {V} (cu : option V -> val -> option V) key fs f rs k : NoDup fs -> In f fs ->
  gcell (gfold key (fun _ : record => []) (fun c r => cell_rec cu fs c r) rs) k f
  = fold_left (cell_upd cu) (values_of f (members key k rs)) None.
Proof.
  intros Hnd Hin. unfold gcell. rewrite oget_gfold. unfold group_state.
  destruct (members key k rs) as [|r0 rest]; [reflexivity|].
  now rewrite (cells_get cu fs f Hnd Hin).
Qed.

Definition frac_cu (o : option nv) (v : val) : option nv := match numof v with Some x => Some (sum_step o x) | None => None end.

Lemma frac_pass1_gfold fs gs rs :
  fold_left (frac_pass1 fs gs) rs [] = gfold (group_key gs) (fun _ : record => []) (fun c r => cell_rec frac_cu fs c r) rs.
Proof.
  unfold gfold. apply fold_left_ext. intros sums r. unfold frac_pass1, gstep.
  destruct (group_key gs r) as [k|]; [|reflexivity]. f_equal. unfold cell_rec.
  apply fold_left_ext. intros m f. unfold ostep, frac_cu. destruct (get f r) as [v|]; [|reflexivity].
  destruct (numof v); reflexivity.
Qed.

Lemma frac_fold_numerics vs : forall o,
  fold_left (cell_upd frac_cu) vs o = fold_left (fun o x => Some (sum_step o x)) (numerics vs) o.
Proof.
  induction vs as [|v vs IH]; intros o; [reflexivity|]. cbn [fold_left]. rewrite numerics_cons.
  unfold cell_upd at 2, frac_cu. destruct (numof v); cbn [fold_left]; apply IH.
Qed.

(* pass 1: the sum kept for (group k, field f) is the sum of exactly the numeric values of f carried by the members of k *)
Theorem fraction_sum_cell fs gs rs k f : NoDup fs -> In f fs ->
  gcell (fold_left (frac_pass1 fs gs) rs []) k f = frac_cell_sum (numerics (values_of f (members (group_key gs) k rs))).
Proof.
  intros Hnd Hin. rewrite frac_pass1_gfold, gcells_get by assumption. unfold frac_cell_sum. apply frac_fold_numerics.
Qed.

Definition cum_cu (cumu : bool) (o : option nv) (v : val) : option nv :=
  if cumu then match numof v with Some x => Some (nv_plus (dflt_nv o (I 0)) x) | None => None end else None.

(* what pass 2 writes for field f of record r, given the running sum and the total of every field *)
Definition frac_out_step (pct cumu : bool) (cum sum : bytes -> nv) (r : record) (o : orec) (f : bytes) : orec :=
  match get f r with
  | Some v => match numof v with
              | Some x => oput (f ++ frac_suffix pct cumu)%list (frac_value cumu (if pct then I 100 else I 1) x (cum f) (sum f)) o
              | None => o end
  | None => o end.

(* a pass that also writes an output from the cell it is about to rewrite: every step reads the cell as it was before
   the pass, since each key is visited once and a step writes only its own *)
Lemma fold_read_own {V O} (F : omap V * O -> bytes -> omap V * O) (h : bytes -> option V -> option V) (w : option V -> O -> bytes -> O) :
  (forall m o f, F (m, o) f = (ostep h m f, w (oget f m) o f)) -> forall fs, NoDup fs -> forall m o,
  fold_left F fs (m, o) = (fold_left (ostep h) fs m, fold_left (fun o f => w (oget f m) o f) fs o).
Proof.
  intros HF. induction fs as [|f0 fs IH]; intros Hnd m o; [reflexivity|]. apply NoDup_cons_iff in Hnd as [Hni Hnd].
  cbn [fold_left]. rewrite HF, IH by exact Hnd. f_equal. apply fold_left_ext_in. intros f Hf o'. f_equal.
  unfold ostep. destruct (h f0 (oget f0 m)); [|reflexivity]. rewrite oget_oput. now destruct (beqb_spec f f0) as [->|].
Qed.

Lemma frac_pass2_step fs gs (pct cumu : bool) sums cumus out r : NoDup fs ->
  frac_pass2 fs gs pct cumu sums (cumus, out) r
  = (gstep (group_key gs) (fun _ : record => []) (fun c r => cell_rec (cum_cu cumu) fs c r) cumus r,
     out ++ [match group_key gs r with
             | None => otext_rec r
             | Some k => fold_left (frac_out_step pct cumu (fun f => dflt_nv (gcell cumus k f) (I 0)) (fun f => dflt_nv (gcell sums k f) (I 0)) r)
                                   fs (otext_rec r)
             end]).
Proof.
  intros Hnd. unfold frac_pass2, gstep. destruct (group_key gs r) as [k|]; [|reflexivity].
  rewrite (fold_read_own _ (fun f o => match get f r with Some v => cum_cu cumu o v | None => None end)
             (fun c => frac_out_step pct cumu (fun _ => dflt_nv c (I 0)) (fun f => dflt_nv (gcell sums k f) (I 0)) r)); [reflexivity| |exact Hnd].
  intros cg o f. unfold ostep, cum_cu, frac_out_step, gcell. destruct (get f r) as [v|]; [|reflexivity].
  destruct (numof v), cumu; reflexivity.
Qed.

(* ---- the definitional side of fraction: for the record r arriving after [pre], out of the whole input [all] *)
Definition frac_cum_def (cumu : bool) (gs : list bytes) (k f : bytes) (pre : list record) : nv :=
  if cumu then fold_left nv_plus (numerics (values_of f (members (group_key gs) k pre))) (I 0) else I 0.
Definition frac_sum_def (gs : list bytes) (k f : bytes) (all : list record) : nv :=
  dflt_nv (frac_cell_sum (numerics (values_of f (members (group_key gs) k all)))) (I 0).
Definition spec_fraction_rec (fs gs : list bytes) (pct cumu : bool) (all pre : list record) (r : record) : orec :=
  match group_key gs r with
  | None => otext_rec r
  | Some k =>
      fold_left (fun o f => match get f r with
                            | Some v => match numof v with
                                        | Some x => oput (f ++ frac_suffix pct cumu)%list
                                                         (frac_value cumu (if pct then I 100 else I 1) x
                                                                     (frac_cum_def cumu gs k f pre) (frac_sum_def gs k f all)) o
                                        | None => o end
                            | None => o end) fs (otext_rec r)
  end.
Fixpoint spec_fraction_from (fs gs : list bytes) (pct cumu : bool) (all pre rest : list record) : list orec :=
  match rest with
  | [] => []
  | r :: t => spec_fraction_rec fs gs pct cumu all pre r :: spec_fraction_from fs gs pct cumu all (pre ++ [r]) t
  end.

Lemma cum_fold_numerics cumu vs : forall o,
  dflt_nv (fold_left (cell_upd (cum_cu cumu)) vs o) (I 0)
  = if cumu then fold_left nv_plus (numerics vs) (dflt_nv o (I 0)) else dflt_nv o (I 0).
Proof.
  induction vs as [|v vs IH]; intros o; [now destruct cumu|]. cbn [fold_left]. rewrite IH, numerics_cons.
  unfold cell_upd, cum_cu. destruct cumu; [|reflexivity]. destruct (numof v); reflexivity.
Qed.

Theorem fraction_equals_definition fs gs pct cumu rs : NoDup fs ->
  verb_fraction fs gs pct cumu rs = spec_fraction_from fs gs pct cumu rs [] rs.
Proof.
  intros Hnd. unfold verb_fraction. set (sums := fold_left (frac_pass1 fs gs) rs []).
  set (cums := gfold (group_key gs) (fun _ : record => []) (fun c r => cell_rec (cum_cu cumu) fs c r)).
  (* the state before the record that follows [pre]: the running sums of [pre]; the totals are those of the whole input *)
  assert (G : forall rest pre out,
             snd (fold_left (frac_pass2 fs gs pct cumu sums) rest (cums pre, out))
             = out ++ spec_fraction_from fs gs pct cumu rs pre rest).
  { induction rest as [|r rest IH]; intros pre out; cbn [fold_left spec_fraction_from]; [now rewrite app_nil_r|].
    rewrite frac_pass2_step by exact Hnd. unfold cums at 1. rewrite <- gfold_snoc. fold cums.
    rewrite IH, <- app_assoc. f_equal. cbn [app]. f_equal.
    unfold spec_fraction_rec. destruct (group_key gs r) as [k|]; [|reflexivity].
    apply fold_left_ext_in. intros f Hf o. unfold frac_out_step, frac_cum_def, frac_sum_def, cums, sums.
    now rewrite gcells_get, cum_fold_numerics, fraction_sum_cell. }
  exact (G rs [] []).
Qed.
