(* step: the stepper state kept inside the verb for (group k, value field f, stepper `name`)
   sees exactly the events of f over the group's records (backward-looking steppers: window of one record, lead = 0).
   This ties the per-cell theorems of ProofsStep.v (step_state / step_cell) to verb_step's own state. *)
From Miller Require Import C10.Model C10.Verbs C10.Verbs2 C10.Spec C10.ProofsGroup C10.ProofsStep C10.ProofsWindow.
From Miller Require Import Base.RecordFacts.
Open Scope char_scope.

(* the cell, as a function of the group's events of f (None: the record lacks f): nothing exists before the first record
   carrying f; then an absent field clears the previous-value caches (sclear), a present one runs the stepper *)
Definition cell_ev (sp : stepper) (name f : bytes) (o : option stst) (e : option val) : option stst :=
  match e with
  | None => option_map (sclear sp) o
  | Some v => Some (fst (sprocess sp name f (match o with Some st => st | None => stst0 sp end) [Some ([(f, v)], [])]))
  end.
Definition cellst (g : sgroup) (f name : bytes) : option stst :=
  match oget f (sg_st g) with Some m => oget name m | None => None end.

(* with a one-record window the new state depends only on the old state and the value of f *)
Lemma sprocess_state_local sp name f st win r v : wkeys win = [Some r] -> get f r = Some v ->
  fst (sprocess sp name f st win) = fst (sprocess sp name f st [Some ([(f, v)], [])]).
Proof.
  intros Hw Hg. destruct win as [|[c|] [|x t]]; try discriminate Hw. cbn in Hw. injection Hw as Hc. subst r.
  destruct sp; cbn [sprocess fst]; rewrite ?Hg, ?get_single; cbn [fst snd nth];
    repeat match goal with
           | |- context [match ?x with _ => _ end] => destruct x eqn:?; cbn [fst snd]
           | |- context [if ?x then _ else _] => destruct x eqn:?; cbn [fst snd]
           end; try reflexivity; try congruence.
Qed.

Lemma sclr_get sp name sps : NoDup (map snd sps) -> In (sp, name) sps -> forall m,
  oget name (fold_left sclr sps m) = option_map (sclear sp) (oget name m).
Proof.
  intros Hnd Hin m.
  apply (fold_touch_once snd (fun k (m : omap stst) => oget k m) (fun _ => True) sclr) with (a := (sp, name)) (F := option_map (sclear sp));
    [exact (fun _ _ _ => Logic.I)| |exact Hnd|exact Hin| |exact Logic.I].
  - intros k m' b Hne. unfold sclr. destruct (oget (snd b) m'); [|reflexivity]. rewrite oget_oput. apply beqb_false in Hne. now rewrite Hne.
  - intros m' _. unfold sclr. cbn [fst snd]. destruct (oget name m') eqn:E; cbn [option_map]; [|exact E].
    now rewrite oget_oput, beqb_refl.
Qed.

Lemma sproc_get f sp name sps r v : NoDup (map snd sps) -> In (sp, name) sps -> get f r = Some v -> forall m win,
  wkeys win = [Some r] ->
  oget name (fst (fold_left (sproc f) sps (m, win))) = cell_ev sp name f (oget name m) (Some v).
Proof.
  intros Hnd Hin Hg m win Hw.
  apply (fold_touch_once snd (fun k (acc : omap stst * list (option wrec)) => oget k (fst acc))
           (fun acc => wkeys (snd acc) = [Some r]) (sproc f)) with (a := (sp, name)) (F := fun o => cell_ev sp name f o (Some v));
    [| |exact Hnd|exact Hin| |exact Hw].
  - intros acc b H. rewrite <- H. exact (sproc_keys f [b] acc).
  - intros k [m' win'] b Hne. unfold sproc. destruct (sprocess (fst b) (snd b) f _ win') as [st' win'']. cbn [fst].
    rewrite oget_oput. apply beqb_false in Hne. now rewrite Hne.
  - intros [m' win'] H. unfold sproc. cbn [fst snd cell_ev] in *.
    pose proof (sprocess_state_local sp name f (match oget name m' with Some st => st | None => stst0 sp end) win' r v H Hg) as L.
    destruct (sprocess sp name f _ win') as [st' win'']. cbn [fst] in *. now rewrite oget_oput, beqb_refl, L.
Qed.

Lemma sfield_other sps dr g f f' name : f' <> f -> cellst (sfield sps dr g f) f' name = cellst g f' name.
Proof.
  intros Hne. apply beqb_false in Hne. unfold sfield, cellst. destruct (get f dr).
  - destruct (fold_left (sproc f) sps _) as [m' win']. cbn [sg_st]. now rewrite oget_oput, Hne.
  - destruct (oget f (sg_st g)); [|reflexivity]. cbn [sg_st]. now rewrite oget_oput, Hne.
Qed.
Lemma sfield_get sps r g f sp name : NoDup (map snd sps) -> In (sp, name) sps -> wkeys (sg_win g) = [Some r] ->
  cellst (sfield sps r g f) f name = cell_ev sp name f (cellst g f name) (get f r).
Proof.
  intros Hnd Hin Hw. unfold sfield, cellst. destruct (get f r) as [v|] eqn:Hg.
  - pose proof (sproc_get f sp name sps r v Hnd Hin Hg (match oget f (sg_st g) with Some m => m | None => [] end) (sg_win g) Hw) as G.
    destruct (fold_left (sproc f) sps _) as [m' win']. cbn [fst sg_st] in *. rewrite oget_oput, beqb_refl. rewrite G.
    destruct (oget f (sg_st g)); reflexivity.
  - destruct (oget f (sg_st g)) as [m|] eqn:Em; cbn [sg_st].
    + rewrite oget_oput, beqb_refl. rewrite (sclr_get sp name sps Hnd Hin). reflexivity.
    + rewrite Em. reflexivity.
Qed.

Lemma sdispatch_cell sps fs r f sp name : NoDup fs -> In f fs -> NoDup (map snd sps) -> In (sp, name) sps -> forall g,
  wkeys (sg_win g) = [Some r] ->
  cellst (sdispatch sps fs r g) f name = cell_ev sp name f (cellst g f name) (get f r).
Proof.
  intros Hndf Hinf Hnd Hin g Hw. rewrite sdispatch_sfield.
  apply (fold_touch_once (fun f' : bytes => f') (fun f' g' => cellst g' f' name) (fun g' => wkeys (sg_win g') = [Some r])
           (sfield sps r)) with (a := f) (F := fun o => cell_ev sp name f o (get f r));
    [| |now rewrite map_id|exact Hinf| |exact Hw].
  - intros g' f' H. now rewrite sfield_keys.
  - intros f' g' f0 Hne. now apply sfield_other.
  - intros g' H. now apply sfield_get.
Qed.

Theorem step_cell_state sps fs gs f sp name : NoDup fs -> In f fs -> NoDup (map snd sps) -> In (sp, name) sps -> forall rs k,
  match oget k (s_run sps fs gs 0 rs) with Some g => cellst g f name | None => None end
  = fold_left (cell_ev sp name f) (map (get f) (members (group_key gs) k rs)) None.
Proof.
  intros Hndf Hinf Hnd Hin rs k. rewrite s_run_get.
  (* over the records of one group the window is one record long *)
  assert (G : forall ms g, List.length (sg_win g) = 1%nat ->
            cellst (fold_left (s_upd sps fs) ms g) f name = fold_left (cell_ev sp name f) (map (get f) ms) (cellst g f name)).
  { induction ms as [|r ms IH]; intros g Hl; cbn [fold_left map]; [reflexivity|].
    destruct (sg_win g) as [|x [|y t]] eqn:W; try discriminate Hl. rewrite IH; unfold s_upd.
    - f_equal. rewrite (sdispatch_cell sps fs r f sp name Hndf Hinf Hnd Hin); [reflexivity|]. cbn [sg_win]. now rewrite W.
    - rewrite sdispatch_length. cbn [sg_win]. now rewrite W. }
  destruct (members (group_key gs) k rs) as [|r0 ms]; [reflexivity|]. now rewrite G.
Qed.

(* in terms of ProofsStep.step_state: drop the events before the first record carrying f *)
Fixpoint drop_absent (evs : list (option val)) : list (option val) :=
  match evs with None :: t => drop_absent t | _ => evs end.

Lemma cell_ev_fold sp name f evs : forall st,
  fold_left (cell_ev sp name f) evs (Some st) = Some (step_state sp name f st evs).
Proof.
  induction evs as [|[v|] evs IH]; intros st; cbn [fold_left step_state cell_ev option_map]; [reflexivity|apply IH|apply IH].
Qed.

Theorem step_cell_state_is_step_state sps fs gs f sp name rs k :
  NoDup fs -> In f fs -> NoDup (map snd sps) -> In (sp, name) sps ->
  match oget k (s_run sps fs gs 0 rs) with Some g => cellst g f name | None => None end
  = match drop_absent (map (get f) (members (group_key gs) k rs)) with
    | [] => None
    | evs => Some (step_state sp name f (stst0 sp) evs)
    end.
Proof.
  intros Hndf Hinf Hnd Hin. rewrite (step_cell_state sps fs gs f sp name Hndf Hinf Hnd Hin).
  induction (map (get f) (members (group_key gs) k rs)) as [|[v|] evs IH]; [reflexivity| |exact IH].
  cbn [drop_absent fold_left cell_ev]. rewrite cell_ev_fold. reflexivity.
Qed.

Example step_cell_state_example :
  let sps := [(SRsum, B "rsum"); (SDelta 1, B "delta")] in
  let rs := [[(B "a", B "p"); (B "y", B "0")]; [(B "a", B "q"); (B "x", B "5")]; [(B "a", B "p"); (B "x", B "2")];
             [(B "a", B "p"); (B "y", B "1")]; [(B "a", B "p"); (B "x", B "7")]] in
  NoDup [B "x"; B "y"] /\ NoDup (map snd sps)
  /\ map (get (B "x")) (members (group_key [B "a"]) (B "p") rs) = [None; Some (B "2"); None; Some (B "7")]
  /\ sx_acc (step_state SRsum (B "rsum") (B "x") (stst0 SRsum) [Some (B "2"); None; Some (B "7")]) = I 9.
Proof. vm_compute. repeat split; try reflexivity; repeat constructor; cbn; intuition discriminate. Qed.

Print Assumptions step_cell_state.
Print Assumptions step_cell_state_is_step_state.
