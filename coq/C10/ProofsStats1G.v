(* stats1 as a whole (Verbs4.v): names given twice, field selection by regex, the grouping key of
   --gr/--gx, and "the cell sees exactly its group's values" for every selection form. *)
From Miller Require Import C10.Model C10.Verbs C10.Verbs4 C10.Spec C10.ProofsGroup C10.Proofs.
Open Scope char_scope.

Lemma uniq_names_in x l : In x (uniq_names l) <-> In x l.
Proof.
  induction l as [|y l IH]; [tauto|]. cbn [uniq_names In]. rewrite filter_In, IH.
  destruct (beqb_spec y x) as [->|N]; cbn [negb]; [tauto|]. split; [tauto|]. intros [H|H]; [tauto|]. right. split; [assumption|reflexivity].
Qed.
Lemma uniq_names_nodup l : NoDup (uniq_names l).
Proof.
  induction l as [|y l IH]; [constructor|]. cbn [uniq_names]. constructor.
  - rewrite filter_In. intros [_ H]. now rewrite beqb_refl in H.
  - now apply NoDup_filter.
Qed.
Lemma uniq_accs_sub a l : In a (uniq_accs l) -> In a l.
Proof.
  induction l as [|b l IH]; [tauto|]. cbn [uniq_accs In]. rewrite filter_In. intros [H|[H _]]; [now left|right; now apply IH].
Qed.
Lemma map_uniq_accs l : map req_text (uniq_accs l) = uniq_names (map req_text l).
Proof.
  induction l as [|a l IH]; [reflexivity|]. cbn [uniq_accs uniq_names map]. f_equal. rewrite <- IH. clear IH.
  induction (uniq_accs l) as [|b t IHt]; [reflexivity|]. cbn [filter map].
  destruct (negb (beqb (req_text a) (req_text b))); cbn [map]; now rewrite IHt.
Qed.
Lemma uniq_accs_nodup l : NoDup (map req_text (uniq_accs l)).
Proof. rewrite map_uniq_accs. apply uniq_names_nodup. Qed.
(* every requested name survives: the first request under that name *)
Lemma uniq_accs_texts a l : In a l -> In (req_text a) (map req_text (uniq_accs l)).
Proof. intros H. rewrite map_uniq_accs. apply uniq_names_in. now apply in_map. Qed.

Definition fsel_selects (fsl : fsel) (f : bytes) : bool :=
  match fsl with FNames fs => mem f fs | FRegex inv ps => pats_match inv ps f end.

Lemma vfields_nodup fsl r : wf_record r = true -> NoDup (vfields fsl r).
Proof.
  intros W. destruct fsl as [fs|inv ps]; cbn [vfields]; [apply uniq_names_nodup|]. apply NoDup_filter. now apply nodupb_NoDup.
Qed.
Lemma vfields_nodup_names fs r : NoDup (vfields (FNames fs) r).
Proof. apply uniq_names_nodup. Qed.

(* the record's own value of a selected field is always fed *)
Lemma vfields_in fsl r f v : fsel_selects fsl f = true -> get f r = Some v -> In f (vfields fsl r).
Proof.
  intros S G. destruct fsl as [fs|inv ps]; cbn [vfields fsel_selects] in *.
  - now apply uniq_names_in, mem_In.
  - apply filter_In. split; [|exact S]. apply mem_In. destruct (mem f (keys r)) eqn:M; [reflexivity|].
    apply get_none_mem in M. congruence.
Qed.

Definition sel_wf (fsl : fsel) (ms : list record) : Prop :=
  match fsl with FNames _ => True | FRegex _ _ => Forall (fun r => wf_record r = true) ms end.

(* stats1 with any selection form: the accumulator state of (group k, value field f, accumulator a) is that accumulator
   fed exactly the values of f over the members of group k, in arrival order; the group also keeps the group-by
   (name, value) pairs of its first member *)
Theorem stats1g_cell_sees_exactly_its_group accs fsl gsl rs k f a :
  sel_wf fsl rs -> fsel_selects fsl f = true -> In a (uniq_accs accs) ->
  (match oget k (stats1g_groups accs fsl gsl rs) with
   | Some pl => match oget f (snd pl) with Some l3 => oget (req_text a) l3 | None => None end
   | None => None
   end
   = match values_of f (members (gkey_sel gsl) k rs) with
     | [] => None
     | vs => Some (fold_left (feed (fst a)) vs st0)
     end)
  /\ match oget k (stats1g_groups accs fsl gsl rs), members (gkey_sel gsl) k rs with
     | Some pl, r0 :: _ => fst pl = dflt_pairs (gpairs gsl r0)
     | None, [] => True
     | _, _ => False
     end.
Proof.
  intros W S Ha. unfold stats1g_groups. rewrite oget_gfold. unfold group_state.
  destruct (members (gkey_sel gsl) k rs) as [|r0 rest] eqn:E; [split; [reflexivity|exact Logic.I]|].
  rewrite (fold_left_snd (fun l2 r => ingest_sel accs fsl r l2)). cbn [fst snd]. split; [|reflexivity].
  (* the field list of a record is duplicate-free and holds f whenever the record carries f *)
  apply (l2cell_run (uniq_accs accs) (vfields fsl)); [apply uniq_accs_nodup|exact Ha|]. intros r Hr. split.
  - destruct fsl; [apply uniq_names_nodup|]. apply vfields_nodup. rewrite <- E in Hr. apply filter_In in Hr.
    exact (proj1 (Forall_forall _ _) W r (proj1 Hr)).
  - destruct (get f r) eqn:G; [|congruence]. intros _. now apply (vfields_in fsl r f b).
Qed.

(* the grouping key of --gr/--gx (fix: 06ddd9e93): name=value determines the name and the value when the name holds no "=" *)
Lemma name_eq_value_inj n1 v1 n2 v2 :
  ~ In "="%char n1 -> ~ In "="%char n2 -> name_eq_value (n1, v1) = name_eq_value (n2, v2) -> n1 = n2 /\ v1 = v2.
Proof.
  unfold name_eq_value. cbn [fst snd]. revert n2. induction n1 as [|c n1 IH]; intros [|d n2] H1 H2 E; cbn [app] in E.
  - injection E as E. now split.
  - injection E as Ec E. exfalso. apply H2. left. now symmetry.
  - injection E as Ec E. exfalso. apply H1. now left.
  - injection E as Ec E. subst d. destruct (IH n2) as [-> ->]; [intros H; apply H1; now right|intros H; apply H2; now right|exact E|now split].
Qed.
(* records with ONE matched group-by field each: same group iff same field name and same text (names without "=") *)
Theorem regex_group_key_single_field inv ps r1 r2 n1 v1 n2 v2 :
  gmatched inv ps r1 = [(n1, v1)] -> gmatched inv ps r2 = [(n2, v2)] -> ~ In "="%char n1 -> ~ In "="%char n2 ->
  (gkey_sel (GRegex inv ps) r1 = gkey_sel (GRegex inv ps) r2 <-> n1 = n2 /\ v1 = v2).
Proof.
  intros E1 E2 H1 H2. cbn [gkey_sel]. rewrite E1, E2. cbn [map join_comma fold_left]. split.
  - intros E. injection E as E. now apply name_eq_value_inj.
  - intros [-> ->]. reflexivity.
Qed.
(* the witness of the repaired defect: a=1 and b=1 are different groups *)
Lemma regex_group_key_regression :
  gkey_sel (GRegex false [mkpat true true (B "a"); mkpat true true (B "b")]) [(B "a", B "1"); (B "x", B "3")]
  <> gkey_sel (GRegex false [mkpat true true (B "a"); mkpat true true (B "b")]) [(B "b", B "1"); (B "x", B "4")].
Proof. vm_compute. discriminate. Qed.

Lemma pat_match_anchored_both l name : pat_match (mkpat true true l) name = beqb l name.
Proof. reflexivity. Qed.
Lemma vfields_regex inv ps r f : In f (vfields (FRegex inv ps) r) <-> In f (keys r) /\ pats_match inv ps f = true.
Proof. cbn [vfields]. apply filter_In. Qed.
