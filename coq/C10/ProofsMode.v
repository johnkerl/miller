(* Counts-by-value maps (mode, antimode, distinct_count, count-distinct) and the tie-break. *)
From Miller Require Import C10.Model C10.Verbs C10.Spec C10.ProofsGroup.
Open Scope Z_scope.

(* the counts map is the grouped fold with the value text itself as key: counts, in first-seen order of the distinct
   texts, each with its number of occurrences *)
Theorem counts_map_spec vs :
  fold_left (fun m v => cm_incr v m) vs [] = spec_groups (fun x : bytes => Some x) (fun _ => 0) (fun c _ => c + 1) vs.
Proof.
  rewrite <- gfold_spec. unfold gfold. generalize (@nil (bytes * Z)).
  induction vs as [|v vs IH]; intros m; cbn [fold_left]; [reflexivity|]. rewrite <- IH. f_equal.
  unfold cm_incr, gstep. destruct (oget v m); reflexivity.
Qed.

Theorem counts_map_entries vs :
  fold_left (fun m v => cm_incr v m) vs []
  = map (fun k => (k, Z.of_nat (List.length (members (fun x : bytes => Some x) k vs)))) (first_keys (fun x : bytes => Some x) vs).
Proof.
  rewrite counts_map_spec. apply spec_groups_map. intros k r0 rest E. now rewrite E, incr_fold.
Qed.

Lemma mode_counts a vs : (a = AMode \/ a = AAntimode \/ a = ADistinctCount) -> forall s,
  st_counts (fold_left (ingest a) vs s) = fold_left (fun m v => cm_incr v m) vs (st_counts s).
Proof.
  intros Ha. apply (fold_left_proj st_counts). intros s v _. destruct Ha as [ -> | [ -> | -> ] ]; reflexivity.
Qed.

Definition is_first_max (m : omap Z) (k : bytes) (c : Z) : Prop :=
  exists pre post, m = pre ++ (k, c) :: post /\ (forall e, In e pre -> snd e < c) /\ (forall e, In e post -> snd e <= c).
Definition is_first_min (m : omap Z) (k : bytes) (c : Z) : Prop :=
  exists pre post, m = pre ++ (k, c) :: post /\ (forall e, In e pre -> c < snd e) /\ (forall e, In e post -> c <= snd e).

(* scan_best keeps its choice until a later count is strictly better: when [better c bc] decides bc < c in a strict order
   [lt] with large order [le], the choice is the first entry that none beats *)
Section Scan.
  Variables (better : Z -> Z -> bool) (lt le : Z -> Z -> Prop).
  Hypothesis better_lt : forall c bc, better c bc = true -> lt bc c.
  Hypothesis better_le : forall c bc, better c bc = false -> le c bc.
  Hypothesis lt_trans : forall x y z, lt x y -> lt y z -> lt x z.
  Hypothesis le_lt_trans : forall x y z, le x y -> lt y z -> lt x z.

  Definition is_first (m : omap Z) (k : bytes) (c : Z) : Prop :=
    exists pre post, m = pre ++ (k, c) :: post /\ (forall e, In e pre -> lt (snd e) c) /\ (forall e, In e post -> le (snd e) c).

  Lemma is_first_cons k1 c1 m k c : lt c1 c -> is_first m k c -> is_first ((k1, c1) :: m) k c.
  Proof.
    intros Hlt (pre & post & -> & Hpre & Hpost). exists ((k1, c1) :: pre), post. split; [reflexivity|].
    split; [|exact Hpost]. intros e [<-|Hin]; [exact Hlt|now apply Hpre].
  Qed.

  Lemma scan_from m : forall k0 c0,
    (scan_best better (Some (k0, c0)) m = Some (k0, c0) /\ forall e, In e m -> le (snd e) c0)
    \/ exists k c, scan_best better (Some (k0, c0)) m = Some (k, c) /\ lt c0 c /\ is_first m k c.
  Proof.
    induction m as [|[k1 c1] t IH]; intros k0 c0; cbn [scan_best]; [left; split; [reflexivity|intros e []]|].
    destruct (better c1 c0) eqn:E.
    - apply better_lt in E. right. destruct (IH k1 c1) as [[Hr Hall]|(k & c & Hr & Hlt & Hf)].
      + exists k1, c1. split; [exact Hr|]. split; [exact E|]. exists [], t. split; [reflexivity|]. split; [intros e []|exact Hall].
      + exists k, c. split; [exact Hr|]. split; [exact (lt_trans _ _ _ E Hlt)|now apply is_first_cons].
    - apply better_le in E. destruct (IH k0 c0) as [[Hr Hall]|(k & c & Hr & Hlt & Hf)].
      + left. split; [exact Hr|]. intros e [<-|Hin]; [exact E|now apply Hall].
      + right. exists k, c. split; [exact Hr|]. split; [exact Hlt|]. apply is_first_cons; [exact (le_lt_trans _ _ _ E Hlt)|exact Hf].
  Qed.

  Lemma scan_first m : m <> [] -> exists k c, scan_best better None m = Some (k, c) /\ is_first m k c.
  Proof.
    destruct m as [|[k1 c1] t]; [congruence|]. intros _. cbn [scan_best].
    destruct (scan_from t k1 c1) as [[Hr Hall]|(k & c & Hr & Hlt & Hf)]; rewrite Hr.
    - exists k1, c1. split; [reflexivity|]. exists [], t. split; [reflexivity|]. split; [intros e []|exact Hall].
    - exists k, c. split; [reflexivity|now apply is_first_cons].
  Qed.
End Scan.

Theorem mode_is_first_of_the_most_frequent m : m <> [] ->
  exists k c, mode_of m = OText k /\ is_first_max m k c.
Proof.
  intros Hne. unfold mode_of.
  destruct (scan_first (fun c bc => bc <? c) Z.lt Z.le (fun c bc => proj1 (Z.ltb_lt bc c)) (fun c bc => proj1 (Z.ltb_ge bc c))
                       Z.lt_trans Z.le_lt_trans m Hne) as (k & c & -> & Hf).
  exists k, c. split; [reflexivity|exact Hf].
Qed.

Theorem antimode_is_first_of_the_least_frequent m : m <> [] ->
  exists k c, antimode_of m = OText k /\ is_first_min m k c.
Proof.
  intros Hne. unfold antimode_of.
  destruct (scan_first (fun c bc => c <? bc) (fun x y => y < x) (fun x y => y <= x)
                       (fun c bc => proj1 (Z.ltb_lt c bc)) (fun c bc => proj1 (Z.ltb_ge c bc))
                       (fun x y z H1 H2 => Z.lt_trans z y x H2 H1) (fun x y z H1 H2 => Z.lt_le_trans z y x H2 H1) m Hne)
    as (k & c & -> & Hf).
  exists k, c. split; [reflexivity|exact Hf].
Qed.

(* the whole accumulator: mode of the values = first-seen text among those with the largest number of occurrences *)
Theorem mode_accumulator_spec vs : vs <> [] ->
  let m := map (fun k => (k, Z.of_nat (List.length (members (fun x : bytes => Some x) k vs)))) (first_keys (fun x : bytes => Some x) vs) in
  exists k c, run_acc false AMode vs = OText k /\ is_first_max m k c.
Proof.
  intros Hne m. unfold run_acc. cbn [emit]. rewrite (mode_counts AMode vs (or_introl eq_refl) st0). cbn [st0 st_counts].
  rewrite counts_map_entries. fold m. apply mode_is_first_of_the_most_frequent.
  subst m. destruct vs as [|v vs]; [congruence|]. intros E. apply (f_equal (@List.length _)) in E. rewrite map_length in E.
  assert (Hm : mem v (first_keys (fun x : bytes => Some x) (v :: vs)) = true).
  { rewrite first_keys_mem. cbn [existsb]. unfold keyb at 1. now rewrite beqb_refl. }
  destruct (first_keys (fun x : bytes => Some x) (v :: vs)); [discriminate Hm|discriminate E].
Qed.

Theorem distinct_count_spec vs :
  run_acc false ADistinctCount vs = OInt (Z.of_nat (List.length (first_keys (fun x : bytes => Some x) vs))).
Proof.
  unfold run_acc. cbn [emit]. rewrite (mode_counts ADistinctCount vs (or_intror (or_intror eq_refl)) st0). cbn [st0 st_counts].
  rewrite counts_map_entries, map_length. reflexivity.
Qed.
