(* Passes over an ordered map and the cell lemmas that every verb's "the cell sees exactly its values" rests on; then
   count (counts add up, records lacking a group-by field are skipped) and the stats1 cells. *)
From Miller Require Import C10.Model C10.Verbs C10.Spec C10.ProofsGroup.
From Miller Require Import Base.RecordFacts.
Open Scope char_scope.

Section OMap2.
  Context {V : Type}.

  (* a pass over a duplicate-free key list, each step rewriting (or leaving) its own key *)
  Definition ostep (h : bytes -> option V -> option V) (m : omap V) (k' : bytes) : omap V :=
    match h k' (oget k' m) with Some v => oput k' v m | None => m end.

  Lemma oget_ostep h m k' k :
    oget k (ostep h m k') = if beqb k k' then match h k' (oget k' m) with Some v => Some v | None => oget k' m end else oget k m.
  Proof. unfold ostep. destruct (h k' (oget k' m)); [rewrite oget_oput|]; now destruct (beqb_spec k k') as [->|]. Qed.
End OMap2.

(* the same for items that carry their key: only the item of a key touches its entry *)
Section Keyed.
  Context {V X : Type} (kf : X -> bytes) (h : X -> option V -> option V).
  Let pass := fold_left (fun m x => ostep (fun _ => h x) m (kf x)).

  Lemma pass_other xs k : ~ In k (map kf xs) -> forall m, oget k (pass xs m) = oget k m.
  Proof. apply (fold_untouched kf (@oget V)). intros m x Hne. rewrite oget_ostep. apply beqb_false in Hne. now rewrite Hne. Qed.

  Lemma pass_self xs x : NoDup (map kf xs) -> In x xs -> forall m,
    oget (kf x) (pass xs m) = match h x (oget (kf x) m) with Some v => Some v | None => oget (kf x) m end.
  Proof.
    intros Hnd Hin m.
    apply (fold_touch_once kf (@oget V) (fun _ => True)) with (F := fun o => match h x o with Some v => Some v | None => o end); auto.
    - intros k m' y Hne. rewrite oget_ostep. apply beqb_false in Hne. now rewrite Hne.
    - intros m' _. now rewrite oget_ostep, beqb_refl.
  Qed.
End Keyed.

Lemma fold_oput_get {V} (h : bytes -> option V -> option V) ks : NoDup ks -> forall m k,
  oget k (fold_left (ostep h) ks m)
  = if mem k ks then (match h k (oget k m) with Some v => Some v | None => oget k m end) else oget k m.
Proof.
  intros Hnd m k. rewrite <- (map_id ks) in Hnd. destruct (mem k ks) eqn:M.
  - apply mem_In in M. exact (pass_self (fun k => k) h ks k Hnd M m).
  - apply (pass_other (fun k => k) h). rewrite map_id. intros H. apply mem_In in H. congruence.
Qed.

(* c reads one cell of a state; if a record moves the cell by U when it carries a value (ev) and leaves it otherwise,
   the cell after any list of records is U folded over exactly the values those records carry *)
Lemma fold_cell {M R X C} (c : M -> C) (ev : R -> option X) (step : M -> R -> M) (U : C -> X -> C) ms :
  (forall m r, In r ms -> c (step m r) = match ev r with Some x => U (c m) x | None => c m end) ->
  forall m, c (fold_left step ms m) = fold_left U (flat_map (fun r => match ev r with Some x => [x] | None => [] end) ms) (c m).
Proof. intros H m. rewrite fold_left_somes. now apply fold_left_proj. Qed.

(* a cell that is created by its first value *)
Lemma fold_some {A B} (F : A -> B -> A) d vs : forall o,
  fold_left (fun o v => Some (F (match o with Some s => s | None => d end) v)) vs o
  = match vs with [] => o | v :: l => Some (fold_left F (v :: l) (match o with Some s => s | None => d end)) end.
Proof. induction vs as [|v vs IH]; intros o; [reflexivity|]. cbn [fold_left]. rewrite IH. now destruct vs. Qed.

Lemma get_none_mem f r : get f r = None <-> mem f (keys r) = false.
Proof.
  induction r as [|[k v] r IH]; cbn [get keys map fst mem existsb]; [tauto|].
  destruct (beqb f k); cbn [orb]; [split; discriminate|exact IH].
Qed.

Lemma selected_none_iff gs r : selected gs r = None <-> exists g, In g gs /\ get g r = None.
Proof.
  induction gs as [|g gs IH]; cbn [selected]; [split; [discriminate|intros (g & [] & _)]|]. split.
  - destruct (get g r) eqn:E; [|exists g; split; [now left|exact E]]. destruct (selected gs r); [discriminate|].
    intros _. destruct (proj1 IH eq_refl) as (g' & Hin & Hn). exists g'. split; [now right|exact Hn].
  - intros (g' & [<-|Hin] & Hn); [now rewrite Hn|]. rewrite (proj2 IH) by eauto. now destruct (get g r).
Qed.

Lemma group_key_none_iff gs r : group_key gs r = None <-> exists g, In g gs /\ get g r = None.
Proof. unfold group_key. rewrite <- selected_none_iff. destruct (selected gs r); cbn; split; congruence. Qed.

Section Skip.
  Context {R S : Type} (key : R -> option bytes) (init : R -> S) (upd : S -> R -> S).
  Lemma gfold_skips_keyless rs : gfold key init upd rs = gfold key init upd (filter (has_key key) rs).
  Proof.
    unfold gfold. generalize (@nil (bytes * S)). induction rs as [|r rs IH]; intros m; [reflexivity|].
    cbn [fold_left filter]. unfold has_key at 1, gstep at 2. destruct (key r) eqn:E.
    - cbn [fold_left]. unfold gstep at 3. rewrite E. apply IH.
    - apply IH.
  Qed.
End Skip.

(* a weight on the group states that every contributing record raises by one adds up to their number *)
Section Weights.
  Context {R S : Type} (key : R -> option bytes) (init : R -> S) (upd : S -> R -> S) (w : S -> Z).
  Definition wtotal (m : omap S) : Z := fold_right (fun e acc => (w (snd e) + acc)%Z) 0%Z m.
  Lemma wtotal_oput k v m : wtotal (oput k v m) = (wtotal m - match oget k m with Some x => w x | None => 0 end + w v)%Z.
  Proof.
    induction m as [|[k' v'] m IH]; cbn [oput oget wtotal fold_right snd]; [lia|].
    destruct (beqb k k'); cbn [wtotal fold_right snd].
    - fold (wtotal m). lia.
    - fold (wtotal (oput k v m)). fold (wtotal m). rewrite IH. lia.
  Qed.
  Lemma gfold_weight rs : (forall r, w (init r) = 0%Z) -> (forall s r, w (upd s r) = (w s + 1)%Z) ->
    wtotal (gfold key init upd rs) = Z.of_nat (List.length (filter (has_key key) rs)).
  Proof.
    intros Hi Hu. unfold gfold. change (Z.of_nat _) with (wtotal [] + Z.of_nat (List.length (filter (has_key key) rs)))%Z.
    generalize (@nil (bytes * S)). induction rs as [|r rs IH]; intros m; cbn [fold_left filter]; [cbn; lia|].
    rewrite IH. unfold gstep, has_key. destruct (key r) as [k|]; [|lia].
    rewrite wtotal_oput, Hu. cbn [List.length]. destruct (oget k m); rewrite ?Hi; lia.
  Qed.
End Weights.

Definition total (m : omap (list bytes * Z)) : Z := fold_right (fun e acc => (snd (snd e) + acc)%Z) 0%Z m.

Theorem counts_add_up gs rs :
  total (count_groups gs rs) = Z.of_nat (List.length (filter (has_key (group_key gs)) rs)).
Proof. apply (gfold_weight (group_key gs) _ _ snd); reflexivity. Qed.

Lemma count_fold (ms : list record) vs c :
  fold_left (fun (s : list bytes * Z) (_ : record) => (fst s, (snd s + 1)%Z)) ms (vs, c) = (vs, (c + Z.of_nat (List.length ms))%Z).
Proof. now rewrite (fold_left_snd (fun (c : Z) (_ : record) => (c + 1)%Z)), incr_fold. Qed.

Theorem count_groups_def gs rs :
  map (fun e => (fst e, snd (snd e))) (count_groups gs rs)
  = map (fun k => (k, Z.of_nat (List.length (members (group_key gs) k rs)))) (first_keys (group_key gs) rs).
Proof.
  unfold count_groups. rewrite gfold_spec. apply map_spec_groups. intros k r0 rest E. now rewrite E, count_fold.
Qed.

Definition values_of (f : bytes) (ms : list record) : list val :=
  flat_map (fun r => match get f r with Some v => [v] | None => [] end) ms.
Definition cell (accs : list accreq) (fs : list bytes) (ms : list record) (f : bytes) (a : accreq) : option accst :=
  match oget f (fold_left (fun l2 r => ingest_l2 accs fs r l2) ms []) with
  | Some l3 => oget (req_text a) l3
  | None => None
  end.
Definition dflt (o : option accst) : accst := match o with Some s => s | None => st0 end.
(* the accumulator state kept for (value field f, accumulator a) *)
Definition l2cell (f : bytes) (a : accreq) (l2 : level2) : option accst :=
  match oget f l2 with Some l3 => oget (req_text a) l3 | None => None end.

Lemma ingest_l3_get accs v l3 a : NoDup (map req_text accs) -> In a accs ->
  oget (req_text a) (ingest_l3 accs v l3) = Some (feed (fst a) (dflt (oget (req_text a) l3)) v).
Proof. intros Hnd Hin. exact (pass_self req_text (fun a o => Some (feed (fst a) (dflt o) v)) accs a Hnd Hin l3). Qed.

Lemma ingest_l2_get accs fs r l2 f : NoDup fs ->
  oget f (ingest_l2 accs fs r l2)
  = if mem f fs then match get f r with
                     | Some v => Some (ingest_l3 accs v (match oget f l2 with Some l3 => l3 | None => [] end))
                     | None => oget f l2 end
    else oget f l2.
Proof.
  intros Hnd. unfold ingest_l2.
  rewrite (fold_left_ext _ (ostep (fun f0 o => match get f0 r with
                                     | Some v => Some (ingest_l3 accs v (match o with Some l3 => l3 | None => [] end))
                                     | None => None end))).
  - rewrite fold_oput_get by exact Hnd. destruct (mem f fs); [|reflexivity]. destruct (get f r); reflexivity.
  - intros l f0. unfold ostep. destruct (get f0 r); reflexivity.
Qed.

Lemma l2cell_step accs fs r l2 f a : NoDup fs -> NoDup (map req_text accs) -> In a accs -> (get f r <> None -> In f fs) ->
  l2cell f a (ingest_l2 accs fs r l2)
  = match get f r with Some v => Some (feed (fst a) (dflt (l2cell f a l2)) v) | None => l2cell f a l2 end.
Proof.
  intros Hf Ha Hina Hinf. unfold l2cell. rewrite ingest_l2_get by exact Hf. destruct (get f r) as [v|].
  - assert (M : mem f fs = true) by (apply mem_In, Hinf; discriminate). rewrite M, ingest_l3_get by assumption.
    destruct (oget f l2); reflexivity.
  - destruct (mem f fs); reflexivity.
Qed.

(* THE link between the verb and the accumulators: after any list of records of one group, the accumulator state kept
   for (value field f, accumulator a) is that accumulator fed, in order, exactly the values of f carried by those records
   (records lacking f are left out of THIS accumulation only); the field list may vary from record to record *)
Lemma l2cell_run accs (flds : record -> list bytes) ms f a : NoDup (map req_text accs) -> In a accs ->
  (forall r, In r ms -> NoDup (flds r) /\ (get f r <> None -> In f (flds r))) ->
  l2cell f a (fold_left (fun l2 r => ingest_l2 accs (flds r) r l2) ms [])
  = match values_of f ms with [] => None | vs => Some (fold_left (feed (fst a)) vs st0) end.
Proof.
  intros Ha Hina Hms.
  rewrite (fold_cell (l2cell f a) (get f) _ (fun o v => Some (feed (fst a) (dflt o) v))).
  - exact (fold_some (feed (fst a)) st0 (values_of f ms) None).
  - intros l2 r Hr. destruct (Hms r Hr). now apply l2cell_step.
Qed.

Theorem cell_is_accumulator_run accs fs ms f a : NoDup fs -> NoDup (map req_text accs) -> In f fs -> In a accs ->
  cell accs fs ms f a = match values_of f ms with
                        | [] => None
                        | vs => Some (fold_left (feed (fst a)) vs st0)
                        end.
Proof. intros Hf Ha Hinf Hina. apply (l2cell_run accs (fun _ => fs)); auto. Qed.

Lemma stats1_group_fold accs fs (ms : list record) vs l2 :
  fold_left (fun (s : list bytes * level2) r => (fst s, ingest_l2 accs fs r (snd s))) ms (vs, l2)
  = (vs, fold_left (fun l2 r => ingest_l2 accs fs r l2) ms l2).
Proof. apply (fold_left_snd (fun l2 r => ingest_l2 accs fs r l2)). Qed.

(* void values are not fed to any accumulator except null_count *)
Lemma feed_void a s : accname_eqb a ANullCount = false -> feed a s [] = s.
Proof. intros H. unfold feed. cbn [is_void]. now rewrite H. Qed.
Lemma feed_nonvoid a s v : v <> [] -> feed a s v = ingest a s v.
Proof. intros H. unfold feed. destruct v; [congruence|reflexivity]. Qed.
Lemma fold_feed_nonvoid a vs : accname_eqb a ANullCount = false -> forall s,
  fold_left (feed a) vs s = fold_left (ingest a) (filter (fun v => negb (is_void v)) vs) s.
Proof.
  intros H. induction vs as [|v vs IH]; intros s; [reflexivity|]. cbn [fold_left filter].
  destruct v as [|c v]; cbn [is_void negb].
  - rewrite feed_void by assumption. apply IH.
  - cbn [fold_left]. rewrite feed_nonvoid by discriminate. apply IH.
Qed.

Lemma group_key_single g r : group_key [g] r = get g r.
Proof. unfold group_key. cbn [selected]. destruct (get g r); reflexivity. Qed.

Lemma group_key_collision :
  exists gs r1 r2, selected gs r1 <> selected gs r2 /\ group_key gs r1 = group_key gs r2 /\ group_key gs r1 <> None.
Proof.
  exists [B "a"; B "b"], [(B "a", B "x,y"); (B "b", B "z")], [(B "a", B "x"); (B "b", B "y,z")].
  vm_compute. repeat split; discriminate.
Qed.
