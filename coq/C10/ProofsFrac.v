(* fraction (sums to one / running sums) and histogram (bin index, dropping, counts add up). *)
From Miller Require Import C10.Model C10.Verbs C10.Verbs2 C10.Spec C10.ProofsPctl C10.ProofsAcc.
From Coq Require Import Lqa.
Open Scope Q_scope.

Lemma Qeq_bool_false a b : Qeq_bool a b = false -> ~ a == b.
Proof. intros H E. apply Qeq_eq_bool in E. congruence. Qed.

(* apart from int / int the quotient is a float whenever the divisor is not zero *)
Lemma nv_div_spec a b q : nv_div a b = Some q -> ~ qof b == 0 /\ qof q == qof a / qof b.
Proof.
  destruct a as [x|p], b as [y|r]; cbn [nv_div qof];
    try (destruct (Qeq_bool _ 0) eqn:E; [discriminate|]; intros H; injection H as <-;
         split; [now apply Qeq_bool_false|reflexivity]).
  destruct (y =? 0)%Z eqn:E0; [discriminate|]. apply Z.eqb_neq in E0.
  pose proof (inject_Z_nonzero y E0) as Hy.
  destruct (x mod y =? 0)%Z eqn:E; intros H; injection H as <-; cbn [qof]; (split; [exact Hy|]); [|reflexivity].
  apply Z.eqb_eq in E. pose proof (Z.div_mod x y E0) as D. rewrite E, Z.add_0_r in D.
  rewrite D at 2. rewrite inject_Z_mult. field. exact Hy.
Qed.

Lemma nv_div_some a b : ~ qof b == 0 -> exists q, nv_div a b = Some q.
Proof.
  intros Hb. destruct a as [x|p], b as [y|r]; cbn [nv_div qof] in *;
    try (destruct (Qeq_bool _ 0) eqn:E; [apply Qeq_bool_iff in E; contradiction|eauto]).
  destruct (y =? 0)%Z eqn:E0; [apply Z.eqb_eq in E0; subst; exfalso; apply Hb; reflexivity|].
  destruct (x mod y =? 0)%Z; eauto.
Qed.

Definition frac_num (cumu : bool) (x cum : nv) : Q := if cumu then qof x + qof cum else qof x.

(* one output value is numerator / sum * multiplier, exactly (the "0 for a zero numerator" shortcut agrees) *)
Lemma frac_value_q cumu mult x cum S : ~ qof S == 0 ->
  exists q, oval_q (frac_value cumu mult x cum S) = Some q /\ q == frac_num cumu x cum / qof S * qof mult.
Proof.
  intros HS. unfold frac_value. set (num := if cumu then nv_plus x cum else x).
  assert (Hnum : qof num == frac_num cumu x cum) by (unfold num, frac_num; destruct cumu; [apply qof_plus|reflexivity]).
  unfold nv_is_zero. destruct (Qeq_bool (qof num) 0) eqn:E.
  - apply Qeq_bool_iff in E. exists (inject_Z 0). split; [reflexivity|]. rewrite <- Hnum, E. unfold inject_Z. field. exact HS.
  - destruct (nv_div_some num S HS) as [q Hq]. rewrite Hq. destruct (nv_div_spec _ _ _ Hq) as [_ Hv].
    eexists. split; [apply oval_q_of_nv|]. now rewrite qof_times, Hv, Hnum.
Qed.

Definition ovals_sum (l : list oval) : Q :=
  fold_right (fun o acc => match oval_q o with Some q => q + acc | None => acc end) 0 l.

Lemma frac_run_sum mult S xs : ~ qof S == 0 -> forall cum,
  ovals_sum (frac_cell_run false mult S cum xs) == Qsum_list (map qof xs) / qof S * qof mult.
Proof.
  intros HS. induction xs as [|x xs IH]; intros cum; cbn [frac_cell_run map ovals_sum fold_right].
  - cbn. field. exact HS.
  - destruct (frac_value_q false mult x cum S HS) as (q & Eq & Hq). rewrite Eq. fold (ovals_sum (frac_cell_run false mult S cum xs)).
    rewrite IH, Hq. unfold frac_num. rewrite Qsum_list_cons. field. exact HS.
Qed.

Lemma frac_sum_from xs : forall o S, fold_left (fun o x => Some (sum_step o x)) xs o = Some S ->
  qof S == match o with Some s => qof s | None => 0 end + Qsum_list (map qof xs).
Proof.
  induction xs as [|x xs IH]; intros o S H; cbn [fold_left map] in *.
  - subst o. cbn. ring.
  - rewrite (IH _ _ H), Qsum_list_cons. destruct o as [s|]; cbn [sum_step]; rewrite ?qof_plus; ring.
Qed.

Lemma frac_cell_sum_spec xs S : frac_cell_sum xs = Some S -> qof S == Qsum_list (map qof xs).
Proof. intros H. rewrite (frac_sum_from xs None S H). ring. Qed.

(* the fractions of a (group, field) cell add up to 1 (to 100 with -p) whenever the sum is non-zero *)
Theorem fractions_sum_to_one mult xs S : frac_cell_sum xs = Some S -> ~ qof S == 0 ->
  ovals_sum (frac_cell_run false mult S (I 0) xs) == qof mult.
Proof.
  intros HS Hnz. rewrite frac_run_sum by exact Hnz. rewrite <- (frac_cell_sum_spec xs S HS). field. exact Hnz.
Qed.

(* -c: the i-th output is the running sum up to and including i, over the total *)
Fixpoint running (acc : Q) (xs : list Q) : list Q := match xs with [] => [] | x :: t => (acc + x) :: running (acc + x) t end.

Theorem cumulative_fractions_are_running_sums mult S xs : ~ qof S == 0 -> forall cum,
  Forall2 (fun o r => exists q, oval_q o = Some q /\ q == r / qof S * qof mult)
          (frac_cell_run true mult S cum xs) (running (qof cum) (map qof xs)).
Proof.
  intros HS.
  (* the running sum of the code is a number whose value is the running sum over Q *)
  assert (G : forall cum a, a == qof cum ->
            Forall2 (fun o r => exists q, oval_q o = Some q /\ q == r / qof S * qof mult)
                    (frac_cell_run true mult S cum xs) (running a (map qof xs))).
  { induction xs as [|x xs IH]; intros cum a Ha; cbn [frac_cell_run map running]; constructor.
    - destruct (frac_value_q true mult x cum S HS) as (q & Eq & Hq). exists q. split; [exact Eq|].
      rewrite Hq, Ha. unfold frac_num. field. exact HS.
    - apply IH. rewrite qof_plus, Ha. reflexivity. }
  intros cum. now apply G.
Qed.

(* a value inside [lo, hi] lands in a bin 0 .. nbins-1; a value outside is dropped *)
Theorem hist_bin_in_range lo hi nbins v : lo < hi -> (0 < nbins)%Z -> lo <= v -> v <= hi ->
  exists i, hist_bin lo hi nbins v = Some i /\ (0 <= i < nbins)%Z.
Proof.
  intros Hlh Hn Hlo Hhi. unfold hist_bin.
  assert (Hlo' : Qle_bool lo v = true) by now apply Qle_bool_iff. rewrite Hlo'. cbn [andb].
  destruct (Qle_bool hi v) eqn:E; cbn [negb].
  - apply Qle_bool_iff in E. assert (Ev : v == hi) by (apply Qle_antisym; assumption).
    apply Qeq_eq_bool in Ev. rewrite Ev. exists (nbins - 1)%Z. split; [reflexivity|lia].
  - apply Qle_bool_false in E. eexists. split; [reflexivity|].
    assert (Hd : 0 < hi - lo) by lra.
    assert (Hq : 0 < inject_Z nbins) by (unfold Qlt, inject_Z; cbn; lia).
    set (t := (v - lo) * (inject_Z nbins / (hi - lo))).
    assert (Ht0 : 0 <= t).
    { unfold t. apply Qmult_le_0_compat; [lra|]. apply Qle_shift_div_l; [exact Hd|]. lra. }
    assert (Ht1 : t < inject_Z nbins).
    { unfold t. setoid_replace ((v - lo) * (inject_Z nbins / (hi - lo))) with ((v - lo) * inject_Z nbins / (hi - lo)) by (field; lra).
      apply Qlt_shift_div_r; [exact Hd|]. nra. }
    clearbody t. split.
    + change 0%Z with (Qfloor 0). now apply Qfloor_resp_le.
    + rewrite Zlt_Qlt. eapply Qle_lt_trans; [apply Qfloor_le|exact Ht1].
Qed.

Theorem hist_bin_outside_dropped lo hi nbins v : lo < hi -> (v < lo \/ hi < v) -> hist_bin lo hi nbins v = None.
Proof.
  intros Hlh Hout. unfold hist_bin. destruct Hout as [H|H].
  - assert (E : Qle_bool lo v = false) by (destruct (Qle_bool lo v) eqn:E; [apply Qle_bool_iff in E; lra|reflexivity]).
    rewrite E. cbn [andb]. destruct (Qeq_bool v hi) eqn:E2; [apply Qeq_bool_iff in E2; lra|reflexivity].
  - assert (E : Qle_bool hi v = true) by (apply Qle_bool_iff; lra). rewrite E. rewrite andb_false_r.
    destruct (Qeq_bool v hi) eqn:E2; [apply Qeq_bool_iff in E2; lra|reflexivity].
Qed.

Definition Zsum (l : list Z) : Z := fold_right Z.add 0%Z l.
Lemma incr_nth_sum i l : (i < List.length l)%nat -> Zsum (incr_nth i l) = (Zsum l + 1)%Z.
Proof.
  revert i; induction l as [|c t IH]; intros i Hi; [cbn in Hi; lia|]. destruct i; cbn [incr_nth Zsum fold_right].
  - lia.
  - fold (Zsum (incr_nth i t)). fold (Zsum t). rewrite IH by (cbn in Hi; lia). lia.
Qed.
Lemma incr_nth_length i l : List.length (incr_nth i l) = List.length l.
Proof. revert i; induction l as [|c t IH]; intros i; [destruct i; reflexivity|]. destruct i; cbn [incr_nth List.length]; [reflexivity|now rewrite IH]. Qed.

(* counts of one field add up to the number of its values inside [lo, hi] *)
Definition in_hist (lo hi : Q) (v : Q) : bool := Qle_bool lo v && Qle_bool v hi.
Theorem hist_counts_add_up lo hi nbins (vs : list Q) : lo < hi -> (0 < nbins)%Z ->
  let step := fun cs v => match hist_bin lo hi nbins v with
                          | Some i => if (i <? 0)%Z then cs else incr_nth (Z.to_nat i) cs | None => cs end in
  Zsum (fold_left step vs (repeat 0%Z (Z.to_nat nbins))) = Z.of_nat (List.length (filter (in_hist lo hi) vs)).
Proof.
  intros Hlh Hn step.
  assert (G : forall cs, List.length cs = Z.to_nat nbins ->
            Zsum (fold_left step vs cs) = (Zsum cs + Z.of_nat (List.length (filter (in_hist lo hi) vs)))%Z).
  { induction vs as [|v vs IH]; intros cs Hlen; cbn [fold_left filter]; [cbn; lia|].
    destruct (in_hist lo hi v) eqn:Ein.
    - apply andb_true_iff in Ein as [E1 E2]. apply Qle_bool_iff in E1, E2.
      destruct (hist_bin_in_range lo hi nbins v Hlh Hn E1 E2) as (i & Hi & Hr).
      unfold step at 2. rewrite Hi. destruct (i <? 0)%Z eqn:E; [lia|].
      rewrite IH by (rewrite incr_nth_length; exact Hlen). rewrite incr_nth_sum by lia. cbn [List.length]. lia.
    - assert (Hout : v < lo \/ hi < v) by (apply andb_false_iff in Ein as [E|E]; apply Qle_bool_false in E; auto).
      unfold step at 2. rewrite (hist_bin_outside_dropped lo hi nbins v Hlh Hout). now apply IH. }
  rewrite G by apply repeat_length.
  assert (Z0 : forall n, Zsum (repeat 0%Z n) = 0%Z) by (induction n; cbn; [reflexivity|assumption]). rewrite Z0. lia.
Qed.
