(* C13 property theorems, each followed by Print Assumptions, and non-vacuity Examples.
   All are about the definitions of C13/Model.v that the correspondence harness (C13/Harness.v) runs:
   join_unsorted is the half-streaming (default) mode, join_sorted the bucket-keeper (-s) mode.
   Vocabulary (C13/Proofs.v): lefts o left = the left records after --lk; lkey/rkey = the join-field values of a
   record when it has them all (and, under --ignore-empty, none is empty); lefts_for o k L = the left records whose
   comma-joined join values are k, in left-file order; right_out o L r = what the nested-loop reading of the property
   statement prescribes for right record r: its pairs (compose l r, left-file order), or nothing under --np, or, when
   it matches nothing / has no key, its unpaired form under --ur. *)
From Miller Require Import Base.Bytes Base.Record C13.Model C13.Proofs C13.ProofsSorted C13.Order C13.ProofsMerge C13.ProofsKeyless C13.ProofsCompose C13.ProofsOnce C13.ProofsGenuine C13.ProofsOrder.
From Coq Require Import Sorted.
From Coq Require Import Permutation.

(* unsorted join = nested loop, in right-stream order then left-file order, for every flag combination;
   whatever follows is the left-unpaired part and it is empty without --ul *)
Theorem C13_join_refines_nested_loop :
  forall o left right, exists tail,
    join_unsorted o left right = flat_map (right_out o (lefts o left)) right ++ tail
    /\ (ul o = false -> tail = []).
Proof. exact join_unsorted_in_order. Qed.
Print Assumptions C13_join_refines_nested_loop.

(* --np removes exactly the paired records (what remains of a right record's contribution is its unpaired form under --ur) *)
Theorem C13_np_removes_exactly_paired :
  forall o L r, np o = true ->
    right_out o L r = if ur o then (match rkey o r with
                                    | Some vs => match lefts_for o (joinc vs) L with [] => [unpaired_right o r] | _ => [] end
                                    | None => [unpaired_right o r] end) else [].
Proof. exact right_out_np. Qed.
Print Assumptions C13_np_removes_exactly_paired.

(* --ignore-empty never pairs empty keys, on either side *)
Theorem C13_ignore_empty_right_never_pairs :
  forall o L r vs, ie o = true -> selected (rj o) r = Some vs -> any_empty vs = true ->
    right_out o L r = if ur o then [unpaired_right o r] else [].
Proof. exact ignore_empty_right_never_pairs. Qed.
Print Assumptions C13_ignore_empty_right_never_pairs.

Theorem C13_ignore_empty_left_never_pairs :
  forall o k L l vs, ie o = true -> selected (lj o) l = Some vs -> any_empty vs = true -> ~ In l (lefts_for o k L).
Proof. exact ignore_empty_left_never_pairs. Qed.
Print Assumptions C13_ignore_empty_left_never_pairs.

(* with one join field the bucket key is the value itself: records pair iff the join values are equal as text.
   (with several join fields the code compares the values joined by ",": see finding join-key-comma-collision) *)
Theorem C13_single_field_key_is_text_equality :
  forall o a l v, lj o = [a] -> ie o = false -> get a l = Some v -> forall k, keys_match o k l = beqb k v.
Proof. exact keys_match_single. Qed.
Print Assumptions C13_single_field_key_is_text_equality.

(* every left record is accounted for exactly once by the --ul part: the records emitted after the right stream are the
   unpaired forms of a permutation of exactly those left records that no right record matched *)
Theorem C13_left_unpaired_exactly_the_unmatched :
  forall o left right, ul o = true -> exists tail_src,
    join_unsorted o left right = flat_map (right_out o (lefts o left)) right ++ map (unpaired_left o) tail_src
    /\ Permutation tail_src (filter (fun l => negb (matched o right l)) (lefts o left)).
Proof. exact join_unsorted_left_tail. Qed.
Print Assumptions C13_left_unpaired_exactly_the_unmatched.

(* ... and their exact ORDER (all eight --np/--ul/--ur combinations; for --ul false the part is empty, theorem 1): after the
   right stream's output come the left records of every bucket that no right record hit, bucket by bucket in
   first-appearance order of the bucket keys in the left file and in left-file order within a bucket, then the key-less
   left records in left-file order.  (Not plain left-file order: leftBucketsByJoinFieldValues is an ordered map.) *)
Theorem C13_unsorted_exact_emit_order :
  forall o left right, ul o = true ->
    join_unsorted o left right =
      flat_map (right_out o (lefts o left)) right
      ++ map (unpaired_left o)
           (flat_map (fun k => if hit o right k then [] else lefts_for o k (lefts o left)) (bucket_keys o (lefts o left))
            ++ filter (lacks_key o) (lefts o left)).
Proof. exact join_unsorted_exact_order. Qed.
Print Assumptions C13_unsorted_exact_emit_order.

(* unpaired records (--ul / --ur) are the input record unchanged apart from the renaming of its join fields to the output
   names and the side prefix on the other fields: same values, same order (when the renamed names stay distinct) *)
Theorem C13_unpaired_is_renaming_only :
  forall o names prefix r,
    NoDup (map (out_name o names prefix) (keys r)) ->
    unpaired o names prefix r = map (fun kv => (out_name o names prefix (fst kv), snd kv)) r.
Proof. exact unpaired_spec. Qed.
Print Assumptions C13_unpaired_is_renaming_only.

(* composition layout: the paired record starts with the join fields under their output names carrying the left values
   (all present, output names distinct); every other name comes from a non-join field with its side's prefix *)
Theorem C13_composition_join_fields_first :
  forall ln on l out,
    List.length ln = List.length on -> (forall a, In a ln -> has a l = true) -> NoDup on ->
    (forall b, In b on -> ~ In b (keys out)) ->
    put_join_fields ln on l out
    = out ++ map (fun ab => (snd ab, match get (fst ab) l with Some v => v | None => [] end)) (combine ln on).
Proof. exact put_join_fields_prefix. Qed.
Print Assumptions C13_composition_join_fields_first.

Theorem C13_composition_other_names :
  forall skip prefix r out k,
    In k (keys (put_others skip prefix r out)) ->
    In k (keys out) \/ exists k0, In k0 (keys r) /\ mem k0 skip = false /\ k = prefix ++ k0.
Proof. exact put_others_keys_incl. Qed.
Print Assumptions C13_composition_other_names.

(* sorted-input mode (-s), ALL inputs, sorted or NOT: every record is accounted for exactly once.
   The output is, right record by right record, [the left records flushed as unpaired at that point] followed by
   EITHER the right record's unpaired form (under --ur) OR its pairs with one whole non-empty bucket (unless --np)
   -- emit; then the final flush.  The left file is, as a multiset, the disjoint union of everything flushed as unpaired
   and of the buckets Bs; every bucket of Bs is non-empty and was paired with at least one right record, and every
   bucket a right record was paired with is in Bs.  Hence no left record is lost, none is flushed twice, none is both
   paired and flushed; a right record is never both unpaired and paired.  On unsorted input -s pairs fewer records than
   the default mode ("else not all records will be paired", mlr join --help) -- but this accounting still holds.
   genuine: the pairs are real matches -- every left record of the bucket a right record is paired with has exactly
   that right record's join values, field by field (one step per right record: Forall2).
   (Buckets are compared as lists of records: two buckets with identical contents are not told apart.) *)
Theorem C13_sorted_mode_exactly_once_on_all_inputs :
  forall o left right, ul o = true -> List.length (lj o) = List.length (rj o) ->
  exists (steps : list (list record * list record)) (final : list record) (Bs : list (list record)),
    join_sorted o left right = emit_all o steps right ++ map (unpaired_left o) final
    /\ Forall2 (genuine o) steps right
    /\ Permutation (lefts o left) (List.concat (map fst steps) ++ final ++ List.concat Bs)
    /\ (forall B, In B Bs -> B <> [] /\ In B (map snd steps))
    /\ (forall s, In s steps -> snd s <> [] -> In (snd s) Bs).
Proof. exact join_sorted_exactly_once_genuine. Qed.
Print Assumptions C13_sorted_mode_exactly_once_on_all_inputs.

(* non-vacuity on an UNSORTED input: the left key 1 comes back after key 2; the second run of key 1 is never paired, the
   default mode would pair it; all 4 left and 3 right records appear exactly once as paired or unpaired *)
Example C13_exactly_once_unsorted_nonvacuous :
  let o := mkOpts [B "id"] [B "id"] [B "id"] [] [] None false true true false in
  let left := [[(B "id", B "1"); (B "l", B "a")]; [(B "id", B "2"); (B "l", B "b")]; [(B "id", B "1"); (B "l", B "c")]; [(B "l", B "d")]] in
  let right := [[(B "id", B "1"); (B "r", B "p")]; [(B "id", B "2"); (B "r", B "q")]; [(B "id", B "1"); (B "r", B "s")]] in
  join_sorted o left right
  = [[(B "id", B "1"); (B "l", B "a"); (B "r", B "p")];
     [(B "id", B "2"); (B "l", B "b"); (B "r", B "q")];
     [(B "id", B "1"); (B "r", B "s")];
     [(B "id", B "1"); (B "l", B "c")]; [(B "l", B "d")]]
  /\ List.length (join_unsorted o left right) = 6%nat.
Proof. vm_compute. split; reflexivity. Qed.

(* sorted-input mode (-s) = default mode as multisets of records, on key-sorted inputs, for every flag combination
   (--np/--ul/--ur/--ignore-empty/--lk/--lp/--rp/-l/-r/-j), duplicate keys on both sides, and key-less records ANYWHERE
   on both sides (records lacking a join field, or holding an empty one under --ignore-empty: -s honours it).
   keyed o L: the left records (after --lk) that have all join fields; left_sorted: in non-decreasing order of their join
   values compared field by field as bytes (what -s documents); ROK: the same for the keyed right records, plus
   "the comma-joined key text identifies the key" among the records at hand -- the default mode buckets by that text
   (finding join-key-comma-collision), and without it the two modes DO differ: C13_sorted_equals_unsorted_needs_key_identification_refuted. *)
Theorem C13_sorted_equals_unsorted :
  forall o left right,
    List.length (lj o) = List.length (rj o) ->
    left_sorted o (keyed o (lefts o left)) ->
    ROK o (keyed o (lefts o left)) right ->
    Permutation (join_sorted o left right) (join_unsorted o left right).
Proof. exact join_sorted_perm_unsorted_full. Qed.
Print Assumptions C13_sorted_equals_unsorted.

(* with ONE join field the identification condition is automatic: sorted inputs suffice *)
Theorem C13_sorted_equals_unsorted_single_field :
  forall o left right,
    List.length (lj o) = 1%nat -> List.length (rj o) = 1%nat ->
    left_sorted o (keyed o (lefts o left)) ->
    StronglySorted (rle o) right ->
    Permutation (join_sorted o left right) (join_unsorted o left right).
Proof. exact join_sorted_perm_unsorted_full_single. Qed.
Print Assumptions C13_sorted_equals_unsorted_single_field.

(* the mechanism: the -s output on a left file is, as a multiset, the -s output on its keyed records plus (under --ul)
   the unpaired forms of its key-less records, for ALL inputs sorted or not (the same holds of the default mode, as an
   equation of lists) *)
Theorem C13_sorted_mode_keyless_left_records_only_add_unpaired :
  forall o left right,
    Permutation (join_sorted o left right) (join_sorted o (keyed_left o left) right ++ ulmap o (keyless o (lefts o left)))
    /\ join_unsorted o left right = join_unsorted o (keyed_left o left) right ++ ulmap o (keyless o (lefts o left)).
Proof. exact keyless_both_modes. Qed.
Print Assumptions C13_sorted_mode_keyless_left_records_only_add_unpaired.

(* without the identification condition the statement is false of the code: two join fields whose values contain the
   internal "," joiner (sorted trivially: one record a side); the default mode pairs them, -s does not *)
Theorem C13_sorted_equals_unsorted_needs_key_identification_refuted :
  exists o left right,
    List.length (lj o) = List.length (rj o) /\ left_sorted o (keyed o (lefts o left)) /\ StronglySorted (rle o) right
    /\ ~ Permutation (join_sorted o left right) (join_unsorted o left right).
Proof. exact sorted_vs_unsorted_comma_witness. Qed.
Print Assumptions C13_sorted_equals_unsorted_needs_key_identification_refuted.

(* composition layout as a list equation, ALL options and records: the paired record is the candidate list
   (join fields under the -j names with the left values) ++ (left non-join fields, left order, --lp prefixed)
   ++ (right non-join fields, right order, --rp prefixed) written field by field into an empty record (PutCopy) *)
Theorem C13_composition_layout :
  forall o l r, compose o l r = put_all (cands o l r) [].
Proof. exact compose_layout. Qed.
Print Assumptions C13_composition_layout.

(* ... which IS the candidate list when its names are distinct ... *)
Theorem C13_composition_layout_distinct_names :
  forall o l r, NoDup (map fst (cands o l r)) -> compose o l r = cands o l r.
Proof. exact compose_layout_distinct. Qed.
Print Assumptions C13_composition_layout_distinct_names.

(* ... and in general has the candidates' names in first-occurrence order, each with its LAST candidate value (a colliding
   right field overwrites the value at the left field's position) *)
Theorem C13_composition_layout_collisions :
  forall o l r,
    keys (compose o l r) = fresh_keys [] (cands o l r)
    /\ forall k, get k (compose o l r) = get k (rev (cands o l r)).
Proof. exact compose_names_and_values. Qed.
Print Assumptions C13_composition_layout_collisions.

(* the join part is the -j names zipped with the left join values whenever the left record has them all (it has when paired) *)
Theorem C13_composition_join_part :
  forall ln on l vs, List.length ln = List.length on -> selected ln l = Some vs -> join_cands ln on l = combine on vs.
Proof. exact join_cands_all. Qed.
Print Assumptions C13_composition_join_part.

(* non-vacuity: heterogeneous names -l/-r/-j, prefixes, and a collision without prefixes *)
Example C13_composition_nonvacuous :
  let o1 := mkOpts [B "lid"] [B "rid"] [B "id"] (B "L_") (B "R_") None false false false false in
  let o2 := mkOpts [B "lid"] [B "rid"] [B "id"] [] [] None false false false false in
  let l := [(B "a", B "1"); (B "lid", B "7"); (B "b", B "2")] in
  let r := [(B "rid", B "7"); (B "a", B "3"); (B "c", B "4")] in
  NoDup (map fst (cands o1 l r))
  /\ compose o1 l r = [(B "id", B "7"); (B "L_a", B "1"); (B "L_b", B "2"); (B "R_a", B "3"); (B "R_c", B "4")]
  /\ ~ NoDup (map fst (cands o2 l r))
  /\ compose o2 l r = [(B "id", B "7"); (B "a", B "3"); (B "b", B "2"); (B "c", B "4")].
Proof.
  cbv zeta. split; [apply nodupb_NoDup; vm_compute; reflexivity|]. split; [vm_compute; reflexivity|].
  split; [rewrite <- nodupb_NoDup; vm_compute; discriminate|vm_compute; reflexivity].
Qed.

Example C13_nonvacuous :
  let o := mkOpts [B "id"] [B "id"] [B "id"] [] [] None false true true false in
  let left := [[(B "id", B "1"); (B "l", B "x")]; [(B "id", B "1"); (B "l", B "z")]; [(B "id", B "2"); (B "l", B "y")]; [(B "l", B "w")]] in
  let right := [[(B "id", B "1"); (B "r", B "p")]; [(B "id", B "3"); (B "r", B "q")]] in
  ul o = true
  /\ join_unsorted o left right
  = [[(B "id", B "1"); (B "l", B "x"); (B "r", B "p")]; [(B "id", B "1"); (B "l", B "z"); (B "r", B "p")];
     [(B "id", B "3"); (B "r", B "q")];
     [(B "id", B "2"); (B "l", B "y")]; [(B "l", B "w")]]
  /\ join_sorted o left right
  = [[(B "id", B "1"); (B "l", B "x"); (B "r", B "p")]; [(B "id", B "1"); (B "l", B "z"); (B "r", B "p")];
     [(B "id", B "2"); (B "l", B "y")]; [(B "l", B "w")];
     [(B "id", B "3"); (B "r", B "q")]]
  /\ filter (fun l => negb (matched o right l)) (lefts o left) = [[(B "id", B "2"); (B "l", B "y")]; [(B "l", B "w")]].
Proof. vm_compute. repeat split; reflexivity. Qed.

(* the hypotheses of the sorted = unsorted theorem are met by a non-trivial input: duplicate keys on both sides,
   an unmatched key on each side, a key-less right record, a key-less LEFT record in the middle of the file and one whose
   key is empty under --ignore-empty *)
Example C13_nonvacuous_sorted :
  let o := mkOpts [B "id"] [B "id"] [B "id"] [] [] None false true true true in
  let left := [[(B "id", B "1"); (B "l", B "x")]; [(B "l", B "nokey")]; [(B "id", B "1"); (B "l", B "z")]; [(B "id", B ""); (B "l", B "void")];
               [(B "id", B "2"); (B "l", B "y")]] in
  let right := [[(B "id", B "1"); (B "r", B "p")]; [(B "r", B "nokey")]; [(B "id", B "1"); (B "r", B "q")]; [(B "id", B "3"); (B "r", B "s")]] in
  left_sorted o (keyed o (lefts o left)) /\ StronglySorted (rle o) right
  /\ List.length (keyless o (lefts o left)) = 2%nat
  /\ List.length (join_sorted o left right) = 9%nat
  /\ join_sorted o left right <> join_unsorted o left right.
Proof.
  cbv zeta. split.
  { (* the list is evaluated with the order left folded: its normal form on unknown records is large *)
    unfold left_sorted. cbv -[kle kv]. repeat constructor; vm_compute; discriminate. }
  split; [repeat constructor; unfold rle; vm_compute; try exact I; discriminate|].
  split; [vm_compute; reflexivity|]. split; vm_compute; [reflexivity|discriminate].
Qed.
