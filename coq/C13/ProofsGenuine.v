(* C13, sorted-input mode (-s) on ALL inputs, sorted or not: the pairs it emits are genuine matches -- every left record
   of the bucket a right record is paired with has exactly that right record's join values (field by field). *)
From Miller Require Import Base.Bytes Base.Record C13.Model C13.Proofs C13.ProofsSorted C13.Order C13.ProofsKeyless C13.ProofsOnce.
From Coq Require Import Permutation.

Section Genuine.
  Variable o : opts.

  (* the bucket's records all carry the bucket's values, which have one value per join field *)
  Definition VInv (k : keeper) : Prop :=
    match bvals k with
    | Some bv => List.length bv = List.length (lj o) /\ Forall (fun l => cmp_lex bv (vals_of o l) = Eq) (brecs k)
    | None => True
    end.

  Lemma maybe_fill_VInv k : KInv o k -> bvals k = None -> brecs k = [] -> VInv (maybe_fill o k).
  Proof.
    intros [_ Hp] Hbv Hb. unfold maybe_fill. destruct (peek k) as [p|] eqn:Ep; [|unfold VInv; now rewrite Hbv].
    cbn in Hp. unfold fill_next. rewrite Ep, Hb. cbn [app].
    destruct (fill_loop o (vals_of o p) (rem k) [p] (lun k)) as [[[[pk rm] recs] un] eof] eqn:F.
    destruct (fill_loop_adds _ _ _ _ _ _ _ _ _ _ F) as (add & -> & Fa).
    unfold VInv. cbn. split; [exact (key_of_length _ _ _ _ (has_keys_key o p Hp))|].
    constructor; [apply cmp_lex_refl|]. eapply Forall_impl; [|exact Fa]. now intros l [_ E].
  Qed.

  Lemma block_VInv k : Inv k -> BInv k -> KInv o k -> VInv k -> VInv (block o k).
  Proof.
    intros HI HB HK HV. unfold block. destruct (Nat.eqb (kstate k) 0) eqn:E; [|exact HV].
    destruct (state0 k HI E) as [Hbv _]. destruct (proj1 HB Hbv) as [_ Hbr]. destruct (prepare_first_bucket o k) as (A1 & A2 & _).
    apply (maybe_fill_VInv (prepare_first o k)); [apply (prepare_first_comm o k HK)|congruence|congruence].
  Qed.

  Lemma fjb_genuine rv k :
    Inv k -> BInv k -> KInv o k -> VInv k -> List.length rv = List.length (lj o) ->
    VInv (snd (find_join_bucket o (Some rv) k))
    /\ (fst (find_join_bucket o (Some rv) k) = true ->
        forall l, In l (brecs (snd (find_join_bucket o (Some rv) k))) -> key_of (ie o) (lj o) l = Some rv).
  Proof.
    intros HI HB HK HV Hlen. pose proof (fjb_comm o (Some rv) k HI HK) as (_ & [HK' _] & _). revert HK'.
    rewrite fjb_Some by exact HI.
    match goal with |- context [finish rv ?x] => set (k2 := x) end.
    assert (V2 : VInv k2).
    { pose proof (block_VInv k HI HB HK HV) as V1. destruct (block_comm o k HK) as (_ & HK1 & _). unfold k2.
      destruct (bucket_vs rv (block o k)); [exact V1| |exact V1].
      destruct (prepare_new_bucket o rv (block o k)) as (N1 & N2 & _).
      apply maybe_fill_VInv; [apply (prepare_new_comm o rv _ HK1)|exact N1|exact N2]. }
    clearbody k2. unfold finish, paired_with, bucket_vs, VInv in *.
    destruct (bvals k2) as [bv|] eqn:Hbv; [destruct (cmp_lex bv rv) eqn:C|]; cbn [fst snd bvals brecs set_state set_paired];
      rewrite ?Hbv; intros HK'; (split; [exact V2|]); try discriminate.
    (* paired: the bucket's values are rv, and every record of the bucket carries the bucket's values *)
    intros _ l Hl. destruct V2 as [Lb Fb]. rewrite Forall_forall in Fb, HK'. specialize (Fb l Hl). specialize (HK' l Hl).
    pose proof (has_keys_key o l HK') as Ek. rewrite Ek. f_equal.
    apply cmp_lex_eq in Fb; [|now rewrite (key_of_length _ _ _ _ Ek)]. apply cmp_lex_eq in C; congruence.
  Qed.

  Hypothesis Hn : List.length (lj o) = List.length (rj o).

  Definition genuine (s : list record * list record) (r : record) : Prop :=
    snd s <> [] -> exists rv, rkey o r = Some rv /\ forall l, In l (snd s) -> lkey o l = Some rv.

  Theorem steps_genuine right : forall k, Inv k -> BInv k -> KInv o k -> VInv k -> Forall2 genuine (steps_of o k right) right.
  Proof.
    induction right as [|r t IH]; intros k HI HB HK HV; cbn [steps_of]; constructor.
    - unfold genuine, step_paired, step_keeper, rkey, lkey. cbn [snd].
      destruct (key_of (ie o) (rj o) r) as [vs|] eqn:Ek; [|intros H; contradiction].
      destruct (fjb_genuine vs k HI HB HK HV) as [_ G]; [rewrite Hn; exact (key_of_length _ _ _ _ Ek)|].
      destruct (fst (find_join_bucket o (Some vs) k)); [|intros H; contradiction].
      intros _. exists vs. split; [reflexivity|]. apply G. reflexivity.
    - destruct (step_account o k r HI HB) as (D & _ & HB' & _).
      apply IH; [exact (step_keeper_Inv o k r HI)|exact HB'| |]; unfold step_keeper; destruct (key_of (ie o) (rj o) r) as [vs|] eqn:Ek; auto.
      + apply (fjb_comm o (Some vs) k HI HK).
      + apply (fjb_genuine vs k HI HB HK HV). rewrite Hn. exact (key_of_length _ _ _ _ Ek).
  Qed.
End Genuine.

Theorem join_sorted_exactly_once_genuine o left right :
  ul o = true -> List.length (lj o) = List.length (rj o) ->
  exists (steps : list (list record * list record)) (final : list record) (Bs : list (list record)),
    join_sorted o left right = emit_all o steps right ++ map (unpaired_left o) final
    /\ Forall2 (genuine o) steps right
    /\ Permutation (lefts o left) (List.concat (map fst steps) ++ final ++ List.concat Bs)
    /\ (forall B, In B Bs -> B <> [] /\ In B (map snd steps))
    /\ (forall s, In s steps -> snd s <> [] -> In (snd s) Bs).
Proof.
  intros Hul Hn. destruct (join_sorted_account o left right Hul) as (Bs & E & _ & H).
  exists (steps_of o (keeper0 o left) right), (final_of o (keeper0 o left) right), Bs. split; [exact E|]. split; [|exact H].
  apply steps_genuine; [exact Hn|apply keeper0_Inv|apply keeper0_BInv|split; [constructor|exact I]|exact I].
Qed.
