(* C13, formAndEmitPairs: the layout of a paired record as an explicit list equation.
   The paired record is the candidate list
       join fields under their output names (-j) with the LEFT values, in -l order
    ++ left  non-join fields, left-record order,  names prefixed by --lp
    ++ right non-join fields, right-record order, names prefixed by --rp
   written into an empty record by PutCopy (overwrite in place, else append).  In this tree --lp/--rp default to the empty
   string and, when given, are applied to EVERY non-join field of their side (not only to colliding names).
   When the candidate names are distinct the record IS the candidate list; in general its names are the candidates'
   names in first-occurrence order and each name carries its LAST candidate value (a colliding right field overwrites
   the left value at the left field's position). *)
From Miller Require Import Base.Bytes Base.Record C13.Model C13.Proofs.
From Coq Require Import Lia.

Definition put_all (xs : list field) (out : record) : record := fold_left (fun out kv => put (fst kv) (snd kv) out) xs out.

Fixpoint join_cands (ln on : list bytes) (l : record) : list field :=
  match ln, on with
  | a :: ln', b :: on' => (match get a l with Some v => [(b, v)] | None => [] end) ++ join_cands ln' on' l
  | _, _ => []
  end.
Definition other_cands (skip : list bytes) (prefix : bytes) (r : record) : list field :=
  map (fun kv => (prefix ++ fst kv, snd kv)) (filter (fun kv => negb (mem (fst kv) skip)) r).
Definition cands (o : opts) (l r : record) : list field :=
  join_cands (lj o) (oj o) l ++ other_cands (lj o) (lp o) l ++ other_cands (rj o) (rp o) r.

Lemma put_all_app xs ys out : put_all (xs ++ ys) out = put_all ys (put_all xs out).
Proof. unfold put_all. apply fold_left_app. Qed.

Lemma put_join_fields_cands ln : forall on l out, put_join_fields ln on l out = put_all (join_cands ln on l) out.
Proof.
  induction ln as [|a ln IH]; intros [|b on] l out; cbn [put_join_fields join_cands]; try reflexivity.
  rewrite put_all_app, IH. destruct (get a l); reflexivity.
Qed.

Lemma put_others_cands skip prefix r : forall out, put_others skip prefix r out = put_all (other_cands skip prefix r) out.
Proof.
  unfold put_others, other_cands, put_all. induction r as [|[k v] r IH]; intros out; cbn [fold_left filter map fst snd]; [reflexivity|].
  destruct (mem k skip); cbn [negb map fold_left fst snd]; apply IH.
Qed.

Theorem compose_layout o l r : compose o l r = put_all (cands o l r) [].
Proof.
  unfold compose, cands. now rewrite !put_all_app, put_join_fields_cands, !put_others_cands.
Qed.

Lemma put_all_fresh xs out : NoDup (keys out ++ map fst xs) -> put_all xs out = out ++ xs.
Proof.
  intros H. unfold put_all. rewrite (fold_put_renamed _ (fun k => k)); [|reflexivity|now rewrite map_id].
  f_equal. rewrite <- (map_id xs) at 2. apply map_ext. now intros [k v].
Qed.

Corollary compose_layout_distinct o l r : NoDup (map fst (cands o l r)) -> compose o l r = cands o l r.
Proof. intros H. rewrite compose_layout. now rewrite put_all_fresh. Qed.

(* with collisions: names in first-occurrence order, each with its last candidate value *)
Fixpoint fresh_keys (seen : list bytes) (xs : list field) : list bytes :=
  match xs with
  | [] => []
  | (k, _) :: t => if mem k seen then fresh_keys seen t else k :: fresh_keys (seen ++ [k]) t
  end.

Lemma has_mem_keys k (r : record) : has k r = mem k (keys r).
Proof. unfold has. induction r as [|[k' v'] r IH]; cbn; [reflexivity|]. destruct (beqb k k'); [reflexivity|exact IH]. Qed.

Lemma keys_put_all xs : forall out, keys (put_all xs out) = keys out ++ fresh_keys (keys out) xs.
Proof.
  induction xs as [|[k v] xs IH]; intros out; cbn [put_all fold_left fresh_keys fst snd]; [now rewrite app_nil_r|].
  fold (put_all xs (put k v out)). rewrite IH. rewrite <- has_mem_keys. destruct (has k out) eqn:E.
  - now rewrite (keys_put_present k v out E).
  - rewrite (keys_put_absent k v out E). now rewrite <- app_assoc.
Qed.

Lemma get_app_ k (a b : record) : get k (a ++ b) = match get k a with Some v => Some v | None => get k b end.
Proof. induction a as [|[k' v'] a IH]; cbn; [reflexivity|]. destruct (beqb k k'); [reflexivity|exact IH]. Qed.

Lemma get_put_all k xs : forall out,
  get k (put_all xs out) = match get k (rev xs) with Some v => Some v | None => get k out end.
Proof.
  induction xs as [|[k' v'] xs IH]; intros out; cbn [put_all fold_left rev fst snd]; [reflexivity|].
  fold (put_all xs (put k' v' out)). rewrite IH, get_app_. destruct (get k (rev xs)); [reflexivity|].
  cbn [get]. destruct (beqb_spec k k') as [->|Hne]; [apply get_put_same|]. apply get_put_other. congruence.
Qed.

Theorem compose_names_and_values o l r :
  keys (compose o l r) = fresh_keys [] (cands o l r)
  /\ forall k, get k (compose o l r) = get k (rev (cands o l r)).
Proof.
  rewrite compose_layout. split; [apply keys_put_all|]. intros k. rewrite get_put_all. now destruct (get k (rev (cands o l r))).
Qed.

(* when the left record has all its join fields (it always has when it is paired) the join part is the zip of -j names
   with the left values *)
Lemma join_cands_all ln : forall on l vs, List.length ln = List.length on -> selected ln l = Some vs -> join_cands ln on l = combine on vs.
Proof.
  induction ln as [|a ln IH]; intros [|b on] l vs Hlen Hs; cbn in *; try discriminate; [injection Hs as <-; reflexivity|].
  destruct (get a l) as [v|]; [|discriminate]. destruct (selected ln l) as [vs'|] eqn:E; [|discriminate]. injection Hs as <-.
  cbn. f_equal. apply IH; [lia|exact E].
Qed.
