(* C13 -- the exact emit order of the unsorted join, left-unpaired part included: after the right stream's output
   (right-stream order; within one right record the bucket's left-file order) come, under --ul, the unpaired forms of
     the left records of every bucket no right record hit, bucket by bucket in FIRST-APPEARANCE order of the bucket keys
     in the left file, each bucket in left-file order,
     then the key-less left records in left-file order
   (leftBucketsByJoinFieldValues is an ordered map; leftUnpairableRecords a list): NOT plain left-file order. *)
From Miller Require Import Base.Record C13.Model C13.Proofs.
From Coq Require Import Permutation.
From Miller Require Import Base.RecordFacts.
Open Scope Z_scope.

(* distinct bucket keys (comma-joined join values) in first-appearance order *)
Definition bucket_keys_from (o : opts) (L : list record) (acc : list bytes) : list bytes :=
  fold_left (fun acc l => match lkey o l with
                          | Some vs => if mem (joinc vs) acc then acc else acc ++ [joinc vs]
                          | None => acc
                          end) L acc.
Definition bucket_keys (o : opts) (L : list record) : list bytes := bucket_keys_from o L [].
Definition lacks_key (o : opts) (l : record) : bool := match lkey o l with Some _ => false | None => true end.

Lemma ingest_keys o left : forall bs un,
  map bkey (fst (ingest o left bs un)) = bucket_keys_from o (lefts o left) (map bkey bs).
Proof.
  induction left as [|l0 left IH]; intros bs un; cbn [ingest]; [reflexivity|].
  change (lefts o (l0 :: left)) with (keep_left o l0 :: lefts o left). unfold bucket_keys_from. cbn [fold_left].
  change (key_of (ie o) (lj o) (keep_left o l0)) with (lkey o (keep_left o l0)).
  destruct (lkey o (keep_left o l0)) as [vs|].
  - rewrite IH, add_left_keys. reflexivity.
  - apply IH.
Qed.

Theorem join_unsorted_exact_order o left right : ul o = true ->
  join_unsorted o left right =
    flat_map (right_out o (lefts o left)) right
    ++ map (unpaired_left o)
         (flat_map (fun k => if hit o right k then [] else lefts_for o k (lefts o left)) (bucket_keys o (lefts o left))
          ++ filter (lacks_key o) (lefts o left)).
Proof.
  intros Hul. pose proof (ingest_keys o left [] []) as K.
  destruct (ingest o left [] []) as [bs un] eqn:E. cbn [fst map] in K. fold (bucket_keys o (lefts o left)) in K.
  destruct (ingest_buckets o left bs un E) as (_ & Hb & _ & Hun & _).
  rewrite (join_unsorted_shape o left right bs un E), Hul, <- K, Hun. do 2 f_equal. f_equal.
  rewrite (flat_map_concat_map _ (map bkey bs)), map_map, <- flat_map_concat_map.
  apply flat_map_ext_in. intros b Hin. now rewrite (proj2 (Hb b Hin)).
Qed.
