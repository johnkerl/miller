(* C13: on key-sorted inputs the sorted-input mode (-s) yields the same multiset of records as the default mode.
   Proved here under the side conditions (i) every left record (after --lk) has all its join fields (non-empty under
   --ignore-empty), (ii) the comma-joined key text identifies the key among the records at hand (always true for one
   join field).  Duplicate keys on both sides, key-less right records and every flag combination are covered.
   (i) is lifted in C13/ProofsKeyless.v. *)
From Miller Require Import Base.Bytes Base.Record C13.Model C13.Proofs C13.ProofsSorted C13.Order.
From Coq Require Import Permutation Sorted.

Definition isnil {A} (l : list A) : bool := match l with [] => true | _ => false end.

Lemma opt_hd_tl (rest : list record) : opt_list (hd_error rest) ++ tl rest = rest.
Proof. now destruct rest. Qed.

Section Loops.
  Variable o : opts.
  Definition kv (l : record) : list bytes := vals_of o l.

  Lemma skip_keyless_keyed rm un : Forall (fun q => has_keys o q = true) rm -> skip_keyless o rm un = (hd_error rm, tl rm, un).
  Proof. intros H. destruct rm as [|q rm]; [reflexivity|]. cbn. inversion H as [|? ? Hq _]; subst. now rewrite Hq. Qed.

  (* fillNextJoinBucket's read loop on key-complete records: it takes the maximal prefix with the bucket's key *)
  Lemma fill_loop_keyed bv rm : forall recs un,
    Forall (fun q => has_keys o q = true) rm ->
    exists eqs rest,
      rm = eqs ++ rest
      /\ (forall q, In q eqs -> cmp_lex bv (kv q) = Eq)
      /\ (match rest with q :: _ => cmp_lex bv (kv q) <> Eq | [] => True end)
      /\ fill_loop o bv rm recs un = (hd_error rest, tl rest, recs ++ eqs, un, isnil rest).
  Proof.
    induction rm as [|q rm IH]; intros recs un H.
    - exists [], []. cbn. rewrite app_nil_r. repeat split; auto. intros q [].
    - inversion H as [|? ? Hq Hrm]; subst. cbn [fill_loop]. rewrite Hq.
      destruct (cmp_lex bv (vals_of o q)) eqn:E.
      2, 3: exists [], (q :: rm); cbn; rewrite app_nil_r; repeat split; auto; [intros x []|unfold kv; congruence].
      destruct (IH (recs ++ [q]) un Hrm) as (eqs & rest & H1 & H2 & H3 & H4).
      exists (q :: eqs), rest. split; [cbn; now rewrite H1|]. split; [intros x [<-|Hx]; auto|]. split; [exact H3|].
      now rewrite H4, <- app_assoc.
  Qed.

  (* prepareForNewJoinBucket's skipping loop on key-complete records: p and the maximal prefix below rv go to leftUnpaireds *)
  Lemma advance_keyed rv fuel : forall p rm un,
    (List.length rm < fuel)%nat ->
    Forall (fun q => has_keys o q = true) rm ->
    exists sk rest,
      rm = sk ++ rest
      /\ (forall q, In q sk -> cmp_lex (kv q) rv = Lt)
      /\ (match rest with q :: _ => cmp_lex (kv q) rv <> Lt | [] => True end)
      /\ advance fuel o rv p rm un = (hd_error rest, tl rest, un ++ p :: sk, isnil rest).
  Proof.
    induction fuel as [|fuel IH]; intros p rm un Hf H; [lia|].
    cbn [advance]. rewrite skip_keyless_keyed by exact H.
    destruct rm as [|q rm]; [exists [], []; cbn; repeat split; auto; intros q []|].
    cbn [hd_error tl]. inversion H as [|? ? Hq Hrm]; subst.
    destruct (cmp_lex (vals_of o q) rv) eqn:E.
    1, 3: exists [], (q :: rm); cbn; repeat split; auto; [intros x []|unfold kv; congruence].
    destruct (IH q rm (un ++ [p]) ltac:(cbn in Hf; lia) Hrm) as (sk & rest & H1 & H2 & H3 & H4).
    exists (q :: sk), rest. split; [cbn; now rewrite H1|]. split; [intros x [<-|Hx]; auto|]. split; [exact H3|].
    now rewrite H4, <- app_assoc.
  Qed.
End Loops.

Section Merge.
  Variable o : opts.
  Variable L : list record.                    (* the left records as the verb sees them *)
  Hypothesis HK : forall l, In l L -> has_keys o l = true.
  Hypothesis Hn : List.length (lj o) = List.length (rj o).
  Hypothesis HsL : StronglySorted (fun a b => kle (kv o a) (kv o b)) L.

  Notation kvl := (kv o).
  Notation SS := (StronglySorted (fun a b => kle (kvl a) (kvl b))).

  (* right streams we can handle: sorted on the keyed records, and the joined key text identifies the key *)
  Definition rle (a b : record) : Prop :=
    match rkey o a, rkey o b with Some x, Some y => kle x y | _, _ => True end.
  Definition inj_on (Rs : list record) : Prop :=
    forall l r rv, In l L -> In r Rs -> rkey o r = Some rv -> joinc rv = joinc (kvl l) -> rv = kvl l.
  Definition ROK (Rs : list record) : Prop := StronglySorted rle Rs /\ inj_on Rs.

  Lemma ROK_tail r Rs : ROK (r :: Rs) -> ROK Rs.
  Proof. intros [H1 H2]. split; [now inversion H1|]. intros l r' rv Hl Hr. apply H2; auto. right; auto. Qed.

  Lemma in_L_of_app (A B : list record) l : L = A ++ B -> In l B -> In l L.
  Proof. intros -> H. apply in_or_app. right; exact H. Qed.

  Lemma lkey_kv l : In l L -> lkey o l = Some (kvl l) /\ List.length (kvl l) = List.length (lj o).
  Proof. intros Hl. pose proof (has_keys_key o l (HK l Hl)) as E. split; [exact E|exact (key_of_length _ _ _ _ E)]. Qed.

  Lemma rkey_len r rv : rkey o r = Some rv -> List.length rv = List.length (lj o).
  Proof. intros H. rewrite Hn. exact (key_of_length _ _ _ _ H). Qed.

  (* "r pairs with l" as the default mode decides it *)
  Definition km (rv : list bytes) (l : record) : bool := keys_match o (joinc rv) l.
  Definition pairs (r l : record) : bool := match rkey o r with Some rv => km rv l | None => false end.
  Definition unm (Rs : list record) (l : record) : bool := negb (matched o Rs l).

  Lemma matched_cons r Rs l : matched o (r :: Rs) l = pairs r l || matched o Rs l.
  Proof.
    unfold matched, pairs, km, keys_match, hit, rmatch. destruct (lkey o l) as [vl|]; [|now destruct (rkey o r)].
    cbn [existsb]. now destruct (rkey o r).
  Qed.

  Lemma unmatched_all Rs l : (forall r, In r Rs -> pairs r l = false) -> matched o Rs l = false.
  Proof.
    induction Rs as [|r Rs IH]; intros H; [unfold matched; now destruct (lkey o l)|].
    rewrite matched_cons, H, IH; auto using in_eq, in_cons.
  Qed.

  Lemma filter_unm_cons r Rs X b : (forall l, In l X -> pairs r l = b) ->
    filter (unm (r :: Rs)) X = if b then [] else filter (unm Rs) X.
  Proof.
    intros H. destruct b.
    - apply (filter_const _ false). intros l Hl. unfold unm. now rewrite matched_cons, (H l Hl).
    - apply filter_ext_in. intros l Hl. unfold unm. now rewrite matched_cons, (H l Hl).
  Qed.

  (* key identification turns the default mode's test into the field-by-field comparison *)
  Lemma km_cmp Rs r rv l : inj_on Rs -> In r Rs -> rkey o r = Some rv -> In l L ->
    km rv l = match cmp_lex (kvl l) rv with Eq => true | _ => false end.
  Proof.
    intros Hi Hr Hk Hl. destruct (lkey_kv l Hl) as [E Len]. unfold km, keys_match. rewrite E.
    destruct (beqb_spec (joinc rv) (joinc (kvl l))) as [J|J].
    - now rewrite <- (Hi l r rv Hl Hr Hk J), cmp_lex_refl.
    - destruct (cmp_lex (kvl l) rv) eqn:C; try reflexivity.
      apply cmp_lex_eq in C; [now rewrite C in J|]. now rewrite Len, (rkey_len r rv Hk).
  Qed.

  (* a left record strictly below the current right key is below every later one: nothing to come matches it *)
  Lemma lt_unmatched r rv Rs l :
    ROK (r :: Rs) -> rkey o r = Some rv -> In l L -> cmp_lex (kvl l) rv = Lt -> matched o (r :: Rs) l = false.
  Proof.
    intros [Hs Hi] Hk Hl Hc. apply unmatched_all. intros r' Hr'. unfold pairs. destruct (rkey o r') as [rv'|] eqn:Hk'; [|reflexivity].
    rewrite (km_cmp _ r' rv' l Hi Hr' Hk' Hl).
    enough (cmp_lex (kvl l) rv' = Lt) as -> by reflexivity.
    destruct Hr' as [<-|Hr']; [congruence|].
    apply (cmp_lex_lt_le (kvl l) rv rv'); auto.
    - now rewrite (rkey_len r rv Hk), (rkey_len r' rv' Hk').
    - inversion Hs as [|? ? _ Hf]; subst. rewrite Forall_forall in Hf. specialize (Hf r' Hr'). unfold rle in Hf. now rewrite Hk, Hk' in Hf.
  Qed.

  Definition pendl (k : keeper) : list record := opt_list (peek k) ++ rem k.
  Definition pend (k : keeper) : list record := (if bpaired k then [] else brecs k) ++ pendl k.
  (* what remains to be output from state k on, by the nested-loop reading *)
  Definition Spec (k : keeper) (Rs : list record) : list record :=
    flat_map (right_out o L) Rs ++ (if ul o then map (unpaired_left o) (lun k ++ filter (unm Rs) (pend k)) else []).

  (* the left file is Done, then the bucket -- a maximal run of one key -- then what is still to be read, strictly above *)
  Definition Run (Done : list record) (k : keeper) : Prop :=
    L = Done ++ brecs k ++ pendl k
    /\ (peek k = None -> rem k = [] /\ leof k = true)
    /\ match bvals k with
       | Some bv => brecs k <> [] /\ (forall l, In l (brecs k) -> kvl l = bv) /\ (forall l, In l (pendl k) -> cmp_lex bv (kvl l) = Lt)
       | None => brecs k = [] /\ peek k = None
       end.
  (* ... and no right record still to come matches anything in Done *)
  Definition MInv (k : keeper) (Rs : list record) : Prop :=
    Inv k /\ kstate k <> 0%nat /\ exists Done, Run Done k /\ forall l, In l Done -> matched o Rs l = false.

  Lemma Run_MInv Done k Rs : Run Done k -> (forall l, In l Done -> matched o Rs l = false) -> MInv (set_state k) Rs.
  Proof.
    intros HR HD. pose proof HR as (_ & Hpk & Hb). split; [|split; [|exists Done; split; [exact HR|exact HD]]].
    - apply set_state_Inv. intros Hn' _. rewrite Hn' in Hb. apply Hb.
    - cbn. unfold compute_state. destruct (bvals k); [destruct (peek k); discriminate|].
      destruct Hb as [_ Hp]. destruct (Hpk Hp) as [_ ->]. discriminate.
  Qed.

  Lemma MInv_tail k r Rs : MInv k (r :: Rs) -> MInv (clear_lun k) Rs.
  Proof.
    intros (HI & H0 & Done & HR & HD). split; [exact HI|]. split; [exact H0|]. exists Done. split; [exact HR|].
    intros l Hl. specialize (HD l Hl). rewrite matched_cons in HD. now apply orb_false_elim in HD.
  Qed.

  Lemma sorted_suffix (A B : list record) : SS (A ++ B) -> SS B.
  Proof. induction A as [|a A IH]; cbn; intros H; [exact H|]. inversion H; subst. auto. Qed.

  (* everything after a maximal run of q's key, in the sorted left file, is strictly above it *)
  Lemma above_after_run A q mid rest :
    L = A ++ q :: mid ++ rest ->
    (match rest with h :: _ => cmp_lex (kvl q) (kvl h) <> Eq | [] => True end) ->
    forall l, In l rest -> cmp_lex (kvl q) (kvl l) = Lt.
  Proof.
    intros HL Hhd l Hl. destruct rest as [|h rest]; [contradiction|].
    assert (len : forall x, In x (q :: mid ++ h :: rest) -> List.length (kvl x) = List.length (lj o)).
    { intros x Hx. apply lkey_kv, (in_L_of_app _ _ x HL Hx). }
    pose proof HsL as Hs. rewrite HL in Hs. apply sorted_suffix in Hs. inversion Hs as [|? ? Hs' Hq]; subst.
    rewrite Forall_forall in Hq. apply sorted_suffix in Hs'.
    assert (Hh : cmp_lex (kvl q) (kvl h) = Lt).
    { specialize (Hq h (in_elt h mid rest)). unfold kle in Hq. destruct (cmp_lex (kvl q) (kvl h)); congruence. }
    destruct Hl as [<-|Hl]; [exact Hh|].
    apply (cmp_lex_lt_le _ (kvl h)); [|exact Hh|].
    - rewrite !len; auto using in_eq, in_cons, in_elt. right. apply in_or_app. right. now right.
    - inversion Hs' as [|? ? _ Hf]; subst. rewrite Forall_forall in Hf. auto.
  Qed.

  (* reading the next bucket from the peek record on: the maximal run of its key *)
  Lemma maybe_fill_Run Done kp :
    L = Done ++ pendl kp -> bvals kp = None -> brecs kp = [] -> bpaired kp = false ->
    (peek kp = None -> rem kp = [] /\ leof kp = true) ->
    Run Done (maybe_fill o kp) /\ lun (maybe_fill o kp) = lun kp /\ bpaired (maybe_fill o kp) = false
    /\ bvals (maybe_fill o kp) = option_map kvl (peek kp).
  Proof.
    intros HL Hbv Hb Hbp Hpk. unfold maybe_fill. destruct (peek kp) as [q|] eqn:Ep.
    2: { split; [|auto]. unfold Run. rewrite Hb, Hbv. auto. }
    unfold pendl in HL. rewrite Ep in HL. cbn [opt_list app] in HL.
    assert (Hkeyed : Forall (fun x => has_keys o x = true) (rem kp)).
    { apply Forall_forall. intros x Hx. apply HK, (in_L_of_app _ _ x HL). now right. }
    unfold fill_next. rewrite Ep, Hb. cbn [app]. fold (kvl q).
    destruct (fill_loop_keyed o (kvl q) (rem kp) [q] (lun kp) Hkeyed) as (eqs & rest & H1 & H2 & H3 & H4).
    rewrite H4, H1 in *. cbn. split; [|auto]. unfold Run, pendl. cbn. rewrite opt_hd_tl.
    split; [exact HL|]. split; [destruct rest; [auto|discriminate]|]. split; [discriminate|]. split.
    - intros l [<-|Hl]; [reflexivity|]. symmetry. apply cmp_lex_eq; [|apply H2, Hl].
      assert (len : forall x, In x (q :: eqs ++ rest) -> List.length (kvl x) = List.length (lj o)).
      { intros x Hx. apply lkey_kv, (in_L_of_app _ _ x HL Hx). }
      now rewrite (len q (in_eq _ _)), (len l (in_cons _ _ _ (in_or_app _ _ _ (or_introl Hl)))).
    - now apply (above_after_run Done q eqs rest).
  Qed.

  Lemma prepare_new_spec k rv :
    (forall l, In l (rem k) -> In l L) -> (peek k = None -> rem k = [] /\ leof k = true) ->
    exists skipped rest,
      pendl k = skipped ++ rest
      /\ (forall l, In l skipped -> cmp_lex (kvl l) rv = Lt)
      /\ (match rest with q :: _ => cmp_lex (kvl q) rv <> Lt | [] => True end)
      /\ prepare_new o rv k
         = mkKeeper (hd_error rest) None [] false ((if bpaired k then lun k else lun k ++ brecs k) ++ skipped) (tl rest)
                    (if isnil rest then true else leof k) (kstate k).
  Proof.
    intros HinL Hpk. unfold prepare_new, pendl. destruct (peek k) as [p|].
    - destruct (cmp_lex (vals_of o p) rv) eqn:Hc.
      1, 3: exists [], (p :: rem k); cbn; rewrite app_nil_r; repeat split; auto; [intros l []|unfold kv; congruence].
      destruct (advance_keyed o rv (S (List.length (rem k))) p (rem k) (if bpaired k then lun k else lun k ++ brecs k))
        as (sk & rest & H1 & H2 & H3 & H4); [apply PeanoNat.Nat.lt_succ_diag_r|apply Forall_forall; intros x Hx; apply HK, HinL, Hx|].
      rewrite H4. exists (p :: sk), rest. cbn. rewrite H1. repeat split; auto.
      intros l [<-|Hl]; [exact Hc|auto].
    - destruct (Hpk eq_refl) as [-> ->]. exists [], []. cbn. rewrite app_nil_r. repeat split; auto. intros l [].
  Qed.

  (* the bucket is behind the right key rv: it is released, the left file read up to the first key not below rv,
     and the next bucket filled from there *)
  Lemma advance_spec Done k rv bv :
    Run Done k -> bvals k = Some bv -> cmp_lex bv rv = Lt ->
    let k2 := maybe_fill o (prepare_new o rv k) in
    exists rel,
      Run (Done ++ brecs k ++ rel) k2
      /\ (forall l, In l (brecs k ++ rel) -> In l L /\ cmp_lex (kvl l) rv = Lt)
      /\ bucket_vs rv k2 <> Lt
      /\ lun k2 = lun k ++ (if bpaired k then [] else brecs k) ++ rel
      /\ pend k = ((if bpaired k then [] else brecs k) ++ rel) ++ pend k2.
  Proof.
    intros (HL & Hpk & Hb) Hbv Hc. rewrite Hbv in Hb. destruct Hb as (_ & Hbk & _).
    assert (inL : forall l, In l (brecs k ++ pendl k) -> In l L) by (intros l; apply (in_L_of_app _ _ l HL)).
    destruct (prepare_new_spec k rv) as (sk & rest & Hsplit & Hsk & Hhd & Hpn); [|exact Hpk|].
    { intros l Hl. apply inL. unfold pendl. auto using in_or_app. }
    cbv zeta. rewrite Hpn, Hsplit in *.
    match goal with |- context [maybe_fill o ?x] => set (kp := x) end.
    destruct (maybe_fill_Run (Done ++ brecs k ++ sk) kp) as (HR & Hlun & Hbp & Hbv2); try reflexivity.
    { unfold kp, pendl. cbn. now rewrite opt_hd_tl, HL, <- !app_assoc. }
    { unfold kp. cbn. destruct rest; [auto|discriminate]. }
    exists sk. split; [exact HR|]. split; [|split; [|split]].
    - intros l Hl. split; [apply inL; rewrite app_assoc; apply in_or_app; now left|].
      apply in_app_or in Hl. destruct Hl as [Hl|Hl]; [now rewrite (Hbk l Hl)|auto].
    - unfold bucket_vs. rewrite Hbv2. unfold kp. cbn. destruct rest; [discriminate|exact Hhd].
    - rewrite Hlun. unfold kp. cbn. destruct (bpaired k); now rewrite <- ?app_assoc.
    - destruct HR as (HL2 & _). rewrite HL, <- !app_assoc in HL2. do 3 apply app_inv_head in HL2.
      unfold pend. now rewrite Hbp, Hsplit, HL2, <- !app_assoc.
  Qed.

  (* before the first right record with a key the keeper is untouched *)
  Definition Init (k : keeper) : Prop :=
    kstate k = 0%nat /\ bvals k = None /\ brecs k = [] /\ peek k = None /\ lun k = [] /\ leof k = false /\ rem k = L /\ bpaired k = false.
  Definition GInv (k : keeper) (Rs : list record) : Prop := Init k \/ MInv k Rs.
  (* what right record r must achieve, from k, with verdict b; k1 is the keeper before its leftUnpaireds are flushed:
     r contributes what the nested loop prescribes, and what is flushed now or kept for later loses exactly r's matches *)
  Definition StepOK (k : keeper) (r : record) (Rs : list record) (b : bool) (k1 : keeper) : Prop :=
    GInv (clear_lun k1) Rs
    /\ right_out o L r = (if negb b && ur o then [unpaired_right o r] else [])
                          ++ (if b && negb (np o) then map (fun l => compose o l r) (brecs k1) else [])
    /\ lun k1 ++ filter (unm Rs) (pend k1) = lun k ++ filter (unm (r :: Rs)) (pend k).

  Lemma Init_Inv k : Init k -> Inv k.
  Proof. intros (A1 & A2 & A3 & A4 & A5 & A6 & A7 & A8). split; [unfold compute_state; now rewrite A1, A2, A6|intros _ _; exact A4]. Qed.

  (* the verdict, once the bucket is not behind r's key: r pairs with the whole bucket or with nothing in L *)
  Lemma finish_spec Done k r rv Rs :
    ROK (r :: Rs) -> rkey o r = Some rv -> Run Done k -> (forall l, In l Done -> matched o (r :: Rs) l = false) ->
    bucket_vs rv k <> Lt -> StepOK k r Rs (fst (finish rv k)) (snd (finish rv k)).
  Proof.
    intros HROK Hk HR HD Hvs. pose proof HR as (HL & Hpk & Hb).
    unfold finish. cbn [fst snd]. set (b := paired_with rv k).
    assert (inL : forall l, In l (brecs k ++ pendl k) -> In l L) by (intros l; apply (in_L_of_app _ _ l HL)).
    assert (Hrm : forall l, In l L -> pairs r l = match cmp_lex (kvl l) rv with Eq => true | _ => false end).
    { intros l Hl. unfold pairs. rewrite Hk. apply (km_cmp (r :: Rs) r); auto using in_eq. apply HROK. }
    assert (HmD : forall l, In l Done -> pairs r l = false /\ matched o Rs l = false).
    { intros l Hl. apply orb_false_elim. rewrite <- matched_cons. auto. }
    assert (HmB : forall l, In l (brecs k) -> pairs r l = b).
    { intros l Hl. rewrite Hrm by auto using in_or_app. unfold b, paired_with, bucket_vs. destruct (bvals k) as [bv|].
      - destruct Hb as (_ & Hbk & _). now rewrite (Hbk l Hl).
      - destruct Hb as [Hb _]. now rewrite Hb in Hl. }
    assert (HmP : forall l, In l (pendl k) -> pairs r l = false).
    { intros l Hl. assert (HlL : In l L) by auto using in_or_app. rewrite (Hrm l HlL).
      destruct (cmp_lex (kvl l) rv) eqn:C; try reflexivity. exfalso.
      apply cmp_lex_eq in C; [|now rewrite (proj2 (lkey_kv l HlL)), (rkey_len r rv Hk)].
      unfold bucket_vs in Hvs. destruct (bvals k) as [bv|].
      - destruct Hb as (_ & _ & Hab). apply Hvs. rewrite <- C. auto.
      - destruct Hb as [_ Hp]. unfold pendl in Hl. now rewrite Hp, (proj1 (Hpk Hp)) in Hl. }
    split; [|split].
    - right. apply (Run_MInv Done); [now destruct b|apply HmD].
    - assert (E : lefts_for o (joinc rv) L = if b then brecs k else []).
      { unfold lefts_for. rewrite (filter_ext _ (pairs r)) by (intros l; unfold pairs; now rewrite Hk).
        rewrite HL, !filter_app, (filter_const _ false Done), (filter_const _ b (brecs k)), (filter_const _ false (pendl k)); auto.
        - now rewrite app_nil_r.
        - intros l Hl. apply HmD, Hl. }
      unfold right_out. rewrite Hk, E. destruct b eqn:Eb.
      + cbn. destruct (brecs k) eqn:Ebr; [|now destruct (np o)].
        exfalso. unfold b, paired_with, bucket_vs in Eb. destruct (bvals k); [now destruct Hb|discriminate].
      + now destruct (ur o).
    - unfold pend. rewrite !filter_app, (filter_unm_cons r Rs (pendl k) false HmP), (filter_unm_cons r Rs _ b).
      + now destruct b.
      + destruct (bpaired k); [intros l []|exact HmB].
  Qed.

  Lemma block_spec k Rs : GInv k Rs -> MInv (block o k) Rs /\ lun (block o k) = lun k /\ pend (block o k) = pend k.
  Proof.
    unfold block. intros [(A1 & A2 & A3 & A4 & A5 & A6 & A7 & A8)|HM].
    - rewrite A1. cbn [Nat.eqb]. unfold prepare_first.
      rewrite A7, A5, skip_keyless_keyed, A2, A3, A8, A6, A1 by (apply Forall_forall; exact HK).
      match goal with |- context [maybe_fill o ?x] => set (kp := x) end.
      destruct (maybe_fill_Run [] kp) as (HR & Hl & Hbp & _); try reflexivity.
      { unfold kp, pendl. cbn. now rewrite opt_hd_tl. }
      { unfold kp. cbn. destruct L; [auto|discriminate]. }
      split; [apply (Run_MInv []); [exact HR|intros l []]|]. split; [exact Hl|].
      unfold pend, pendl at 2. cbn [bpaired set_state]. rewrite A8, A3, A4, A7, Hbp. symmetry. exact (proj1 HR).
    - destruct (Nat.eqb (kstate k) 0) eqn:E; [|auto]. apply PeanoNat.Nat.eqb_eq in E. now destruct HM as (_ & H0 & _).
  Qed.

  Lemma keyed_step k r rv Rs :
    GInv k (r :: Rs) -> ROK (r :: Rs) -> rkey o r = Some rv ->
    StepOK k r Rs (fst (find_join_bucket o (Some rv) k)) (snd (find_join_bucket o (Some rv) k)).
  Proof.
    intros HG HROK Hk. rewrite fjb_Some by (destruct HG as [HI|HM]; [exact (Init_Inv k HI)|apply HM]).
    unfold StepOK. destruct (block_spec k (r :: Rs) HG) as ((_ & _ & Done & HR & HD) & <- & <-).
    set (k1 := block o k) in *. destruct (bucket_vs rv k1) eqn:C.
    1, 3: apply (finish_spec Done); auto; congruence.
    unfold bucket_vs in C. destruct (bvals k1) as [bv|] eqn:Hbv; [|discriminate].
    destruct (advance_spec Done k1 rv bv HR Hbv C) as (rel & HR2 & Hlt & Hvs & Hlun & Hpend).
    set (k2 := maybe_fill o (prepare_new o rv k1)) in *.
    assert (Hrel : forall l, In l (brecs k1 ++ rel) -> matched o (r :: Rs) l = false).
    { intros l Hl. destruct (Hlt l Hl). now apply (lt_unmatched r rv). }
    destruct (finish_spec (Done ++ brecs k1 ++ rel) k2 r rv Rs HROK Hk HR2) as (F1 & F2 & F3); [|exact Hvs|].
    { intros l Hl. apply in_app_or in Hl. destruct Hl; auto. }
    split; [exact F1|]. split; [exact F2|]. rewrite F3, Hlun, Hpend, filter_app, <- !app_assoc. f_equal.
    rewrite (filter_const _ true (_ ++ rel)); [cbv iota; now rewrite <- app_assoc|].
    intros l Hl. unfold unm. rewrite Hrel; [reflexivity|]. destruct (bpaired k1); [apply in_or_app; now right|exact Hl].
  Qed.

  Lemma sorted_step_spec k r Rs : GInv k (r :: Rs) -> ROK (r :: Rs) ->
    GInv (snd (sorted_step o k r)) Rs /\ Permutation (fst (sorted_step o k r) ++ Spec (snd (sorted_step o k r)) Rs) (Spec k (r :: Rs)).
  Proof.
    intros HG HROK.
    assert (S : StepOK k r Rs (step_paired o k r) (step_keeper o k r)).
    { unfold step_paired, step_keeper. fold (rkey o r). destruct (rkey o r) as [rv|] eqn:Hk; [now apply keyed_step|].
      split; [|split].
      - destruct HG as [(A1 & A2 & A3 & A4 & A5 & A6 & A7 & A8)|HM]; [left; repeat split; auto|right; now apply (MInv_tail k r)].
      - unfold right_out. rewrite Hk. now destruct (ur o).
      - rewrite (filter_unm_cons r Rs (pend k) false); [reflexivity|]. intros l _. unfold pairs. now rewrite Hk. }
    rewrite sorted_step_shape. cbn [fst snd]. destruct S as (HG' & HX & HP). split; [exact HG'|].
    unfold Spec, step_rest. cbn [flat_map]. rewrite <- HX, <- HP. cbn [lun pend clear_lun app].
    destruct (ul o); [|now rewrite !app_nil_r].
    rewrite map_app, <- !app_assoc, Permutation_app_swap_app. apply Permutation_app_head, Permutation_app_swap_app.
  Qed.

  Lemma final_flush k : GInv k [] -> lun (snd (find_join_bucket o None k)) = lun k ++ pend k.
  Proof.
    intros HG. destruct (block_spec k [] HG) as (_ & <- & <-). rewrite fjb_None. unfold mark_remaining, pend, pendl. cbn [snd lun set_state].
    destruct (bpaired (block o k)), (peek (block o k)); cbn [opt_list app]; now rewrite <- ?app_assoc.
  Qed.

  Theorem sorted_total_spec Rs : forall k, GInv k Rs -> ROK Rs -> Permutation (sorted_total o k Rs) (Spec k Rs).
  Proof.
    induction Rs as [|r Rs IH]; intros k HG HR; cbn [sorted_total].
    - unfold Spec. rewrite (final_flush k HG), (filter_const _ true); [reflexivity|].
      intros l _. unfold unm, matched. now destruct (lkey o l).
    - destruct (sorted_step_spec k r Rs HG HR) as [HG' HP]. rewrite <- HP. apply Permutation_app_head, IH; [exact HG'|exact (ROK_tail r Rs HR)].
  Qed.
End Merge.

Definition left_sorted (o : opts) (L : list record) : Prop := StronglySorted (fun a b => kle (kv o a) (kv o b)) L.

Theorem join_sorted_perm_unsorted o left right :
  (forall l, In l (lefts o left) -> has_keys o l = true) ->
  List.length (lj o) = List.length (rj o) ->
  left_sorted o (lefts o left) ->
  ROK o (lefts o left) right ->
  Permutation (join_sorted o left right) (join_unsorted o left right).
Proof.
  intros HK Hn HsL HR. rewrite join_sorted_total.
  rewrite (sorted_total_spec o _ HK Hn HsL right (keeper0 o left)); [|left; repeat split; reflexivity|exact HR].
  unfold Spec. change (lun (keeper0 o left) ++ filter ?p (pend (keeper0 o left))) with (filter p (lefts o left)).
  destruct (ul o) eqn:Hul.
  - destruct (join_unsorted_left_tail o left right Hul) as (src & -> & P). apply Permutation_app_head, Permutation_map. now symmetry.
  - destruct (join_unsorted_in_order o left right) as (tail & -> & T). now rewrite (T Hul).
Qed.

(* one join field: the joined key text is the key, so the identification hypothesis is automatic *)
Lemma inj_on_single o L Rs : List.length (lj o) = 1%nat -> List.length (rj o) = 1%nat ->
  (forall l, In l L -> has_keys o l = true) -> inj_on o L Rs.
Proof.
  intros H1 H2 HK l r rv Hl Hr Hk E.
  pose proof (key_of_length _ _ _ _ Hk) as Lr. pose proof (key_of_length _ _ _ _ (has_keys_key o l (HK l Hl))) as Ll.
  rewrite H2 in Lr. rewrite H1 in Ll. fold (kv o l) in Ll.
  destruct rv as [|x [|? ?]]; try discriminate. destruct (kv o l) as [|y [|? ?]]; try discriminate. cbn in E. now subst.
Qed.

Corollary join_sorted_perm_unsorted_single o left right :
  List.length (lj o) = 1%nat -> List.length (rj o) = 1%nat ->
  (forall l, In l (lefts o left) -> has_keys o l = true) ->
  left_sorted o (lefts o left) ->
  StronglySorted (rle o) right ->
  Permutation (join_sorted o left right) (join_unsorted o left right).
Proof.
  intros H1 H2 HK HsL HsR. apply join_sorted_perm_unsorted; auto; [congruence|].
  split; [exact HsR|apply inj_on_single; auto].
Qed.
