From Miller Require Import Base.Bytes Base.Record C13.Model.
From Coq Require Import Permutation.
From Miller Require Import Base.RecordFacts.

Lemma joinc_single x : joinc [x] = x.
Proof. reflexivity. Qed.

Lemma filter_const {A} (p : A -> bool) b l : (forall x, In x l -> p x = b) -> filter p l = if b then l else [].
Proof.
  induction l as [|x l IH]; intros H; cbn; [now destruct b|].
  rewrite (H x), IH by auto using in_eq, in_cons. now destruct b.
Qed.

(* the left records as the verb sees them (after --lk) *)
Definition lefts (o : opts) (left : list record) : list record := map (keep_left o) left.
Definition lkey (o : opts) (l : record) : option (list bytes) := key_of (ie o) (lj o) l.
Definition rkey (o : opts) (r : record) : option (list bytes) := key_of (ie o) (rj o) r.
(* "join-field values equal as text": the code compares the comma-joined values *)
Definition keys_match (o : opts) (k : bytes) (l : record) : bool :=
  match lkey o l with Some vl => beqb k (joinc vl) | None => false end.
Definition lefts_for (o : opts) (k : bytes) (L : list record) : list record := filter (keys_match o k) L.

(* what one right record contributes, by the nested-loop reading of the property statement *)
Definition right_out (o : opts) (L : list record) (r : record) : list record :=
  match rkey o r with
  | Some vs =>
    match lefts_for o (joinc vs) L with
    | [] => if ur o then [unpaired_right o r] else []
    | ls => if np o then [] else map (fun l => compose o l r) ls
    end
  | None => if ur o then [unpaired_right o r] else []
  end.

(* a right record matching a bucket key, some right record matching it, a left record matched by some right record *)
Definition rmatch (o : opts) (r : record) (k : bytes) : bool :=
  match rkey o r with Some vr => beqb (joinc vr) k | None => false end.
Definition hit (o : opts) (right : list record) (k : bytes) : bool := existsb (fun r => rmatch o r k) right.
Definition matched (o : opts) (right : list record) (l : record) : bool :=
  match lkey o l with Some vl => hit o right (joinc vl) | None => false end.

Definition bkey (b : lbucket) : bytes := fst (fst b).
Definition brecs_ (b : lbucket) : list record := snd (fst b).
Definition bl (k : bytes) (bs : list lbucket) : list record := match find_bucket k bs with Some ls => ls | None => [] end.
(* what ingestLeftFile maintains: distinct keys, no empty bucket, nothing paired yet *)
Definition fresh_buckets (bs : list lbucket) : Prop :=
  NoDup (map bkey bs) /\ Forall (fun b : lbucket => brecs_ b <> [] /\ snd b = false) bs.

Lemma find_bucket_add k k' l bs :
  find_bucket k (add_left k' l bs) = if beqb k k' then Some (bl k bs ++ [l]) else find_bucket k bs.
Proof.
  unfold bl. induction bs as [|[[k'' ls] p] bs IH]; cbn.
  - destruct (beqb k k'); reflexivity.
  - destruct (beqb_spec k' k'') as [->|Hne]; cbn.
    + destruct (beqb_spec k k'') as [->|Hne']; reflexivity.
    + destruct (beqb_spec k k'') as [->|Hne'].
      * destruct (beqb_spec k'' k'); [congruence|reflexivity].
      * exact IH.
Qed.

Lemma add_left_keys k l bs :
  map bkey (add_left k l bs) = if mem k (map bkey bs) then map bkey bs else map bkey bs ++ [k].
Proof.
  induction bs as [|[[k' ls] p] bs IH]; cbn; [reflexivity|].
  destruct (beqb k k') eqn:E; cbn; [reflexivity|]. rewrite IH. unfold mem. destruct (existsb (beqb k) (map bkey bs)); reflexivity.
Qed.

Lemma add_left_fresh k l bs : fresh_buckets bs -> fresh_buckets (add_left k l bs).
Proof.
  intros [Hnd Hf]. split.
  - rewrite add_left_keys. destruct (mem k (map bkey bs)) eqn:E; [exact Hnd|].
    apply (Permutation_NoDup (Permutation_cons_append _ k)). constructor; [|exact Hnd]. rewrite <- mem_In. congruence.
  - clear Hnd. induction Hf as [|[[k' ls] p] bs [H1 H2] Hf IH]; cbn; [repeat constructor; discriminate|].
    destruct (beqb k k'); constructor; auto. split; [now destruct ls|exact H2].
Qed.

Lemma add_left_recs_perm k l bs : Permutation (flat_map brecs_ (add_left k l bs)) (l :: flat_map brecs_ bs).
Proof.
  induction bs as [|[[k' ls] p] bs IH]; [apply Permutation_refl|]. cbn [add_left].
  destruct (beqb k k'); cbn [flat_map brecs_ fst snd].
  - rewrite <- app_assoc. symmetry. apply Permutation_middle.
  - rewrite IH. symmetry. apply Permutation_middle.
Qed.

Lemma find_bucket_in bs b : NoDup (map bkey bs) -> In b bs -> find_bucket (bkey b) bs = Some (brecs_ b).
Proof.
  induction bs as [|[[k' ls] p] bs IH]; cbn; intros Hnd Hin; [contradiction|].
  inversion Hnd as [|? ? Hni Hnd']; subst. destruct Hin as [<-|Hin].
  - unfold bkey, brecs_. cbn. now rewrite beqb_refl.
  - destruct (beqb_spec (bkey b) k') as [E|Hne]; [|auto].
    exfalso. apply Hni. rewrite <- E. apply in_map. exact Hin.
Qed.

(* ingest: bucket k holds the left records with key k, in left-file order;
   the key-less records are set aside, in left-file order; nothing else *)
Lemma ingest_spec o left : forall bs un,
  fresh_buckets bs ->
  let '(bs', un') := ingest o left bs un in
  fresh_buckets bs'
  /\ (forall k, bl k bs' = bl k bs ++ lefts_for o k (lefts o left))
  /\ un' = un ++ filter (fun l => match lkey o l with Some _ => false | None => true end) (lefts o left)
  /\ Permutation (flat_map brecs_ bs' ++ un') (flat_map brecs_ bs ++ un ++ lefts o left).
Proof.
  induction left as [|l0 left IH]; intros bs un Hf; cbn [ingest].
  - unfold lefts, lefts_for. cbn. rewrite !app_nil_r. split; [exact Hf|]. split; [intros k; now rewrite app_nil_r|auto].
  - change (lefts o (l0 :: left)) with (keep_left o l0 :: lefts o left). unfold lefts_for. cbn [filter]. unfold keys_match at 1 3.
    change (key_of (ie o) (lj o) (keep_left o l0)) with (lkey o (keep_left o l0)).
    destruct (lkey o (keep_left o l0)) as [vs|].
    + specialize (IH (add_left (joinc vs) (keep_left o l0) bs) un (add_left_fresh _ _ _ Hf)).
      destruct (ingest o left (add_left (joinc vs) (keep_left o l0) bs) un) as [bs' un'].
      destruct IH as (H1 & H2 & H3 & H4). split; [exact H1|]. split; [|split; [exact H3|]].
      * intros k. rewrite H2. unfold bl at 1. rewrite find_bucket_add.
        destruct (beqb k (joinc vs)); [now rewrite <- app_assoc|reflexivity].
      * rewrite H4, add_left_recs_perm. cbn [app]. now rewrite <- !Permutation_middle.
    + specialize (IH bs (un ++ [keep_left o l0]) Hf).
      destruct (ingest o left bs (un ++ [keep_left o l0])) as [bs' un'].
      destruct IH as (H1 & H2 & H3 & H4). split; [exact H1|]. split; [exact H2|].
      split; [now rewrite H3, <- app_assoc|now rewrite H4, <- app_assoc].
Qed.

(* the buckets as the right stream finds them *)
Lemma ingest_buckets o left bs un : ingest o left [] [] = (bs, un) ->
  NoDup (map bkey bs)
  /\ (forall b, In b bs -> snd b = false /\ brecs_ b = lefts_for o (bkey b) (lefts o left))
  /\ (forall k, match find_bucket k bs with Some ls => ls <> [] /\ ls = lefts_for o k (lefts o left) | None => lefts_for o k (lefts o left) = [] end)
  /\ un = filter (fun l => match lkey o l with Some _ => false | None => true end) (lefts o left)
  /\ Permutation (flat_map brecs_ bs ++ un) (lefts o left).
Proof.
  intros E. pose proof (ingest_spec o left [] [] (conj (NoDup_nil _) (Forall_nil _))) as S. rewrite E in S.
  destruct S as ([Hnd Hf] & Hbl & Hun & Hp). rewrite Forall_forall in Hf. unfold bl in Hbl. cbn in Hbl.
  split; [exact Hnd|]. split; [|split; [|auto]].
  - intros b Hb. split; [apply Hf, Hb|]. now rewrite <- Hbl, (find_bucket_in bs b Hnd Hb).
  - intros k. rewrite <- Hbl. destruct (find_bucket k bs) as [ls|] eqn:F; [|reflexivity]. split; [|reflexivity].
    clear - F Hf. induction bs as [|[[k' ls'] p] bs IH]; cbn in F; [discriminate|].
    destruct (beqb k k'); [injection F as <-; apply (Hf (k', ls', p)); now left|apply IH; auto using in_cons].
Qed.

Lemma find_bucket_flags k (f : lbucket -> bool) bs : find_bucket k (map (fun b => (fst b, f b)) bs) = find_bucket k bs.
Proof. induction bs as [|[[k' ls] p] bs IH]; cbn; [reflexivity|]. now rewrite IH. Qed.

Lemma mark_paired_map k bs : NoDup (map bkey bs) ->
  mark_paired k bs = map (fun b : lbucket => (fst b, snd b || beqb k (bkey b))) bs.
Proof.
  induction bs as [|[[k' ls] p] bs IH]; cbn; intros Hnd; [reflexivity|].
  inversion Hnd as [|? ? Hni Hnd']; subst. unfold bkey at 1. cbn.
  destruct (beqb_spec k k') as [->|Hne]; cbn.
  - rewrite orb_true_r. f_equal. symmetry. rewrite <- (map_id bs) at 2. apply map_ext_in. intros [[k2 l2] p2] Hin.
    unfold bkey. cbn. destruct (beqb_spec k' k2) as [->|]; [|now rewrite orb_false_r].
    exfalso. apply Hni. change k2 with (bkey (k2, l2, p2)). apply in_map. exact Hin.
  - rewrite orb_false_r. f_equal. apply IH. auto.
Qed.

Lemma step_right_snd o bs r : NoDup (map bkey bs) ->
  snd (step_right o bs r) = map (fun b : lbucket => (fst b, snd b || rmatch o r (bkey b))) bs.
Proof.
  intros Hnd. unfold step_right, rmatch, rkey. destruct (key_of (ie o) (rj o) r) as [vs|].
  - rewrite <- mark_paired_map by exact Hnd. destruct (find_bucket (joinc vs) bs) eqn:F; [reflexivity|]. cbn.
    clear - F. induction bs as [|[[k' ls] p] bs IH]; cbn in *; [reflexivity|].
    destruct (beqb (joinc vs) k'); [discriminate|]. f_equal. auto.
  - rewrite <- (map_id bs) at 1. apply map_ext. intros [[k l] p]. cbn. now rewrite orb_false_r.
Qed.

(* the marks do not influence what later right records emit *)
Lemma run_right_spec o right : forall bs, NoDup (map bkey bs) ->
  run_right o bs right
  = (flat_map (fun r => fst (step_right o bs r)) right, map (fun b : lbucket => (fst b, snd b || hit o right (bkey b))) bs).
Proof.
  induction right as [|r right IH]; intros bs Hnd; cbn [run_right flat_map].
  - f_equal. rewrite <- (map_id bs) at 1. apply map_ext. intros [[k l] p]. cbn. now rewrite orb_false_r.
  - pose proof (step_right_snd o bs r Hnd) as S. destruct (step_right o bs r) as [e bs']. cbn [fst snd] in *. subst bs'.
    rewrite IH by (now rewrite map_map). f_equal.
    + f_equal. apply flat_map_ext. intros r'. unfold step_right. destruct (key_of (ie o) (rj o) r'); [|reflexivity].
      rewrite find_bucket_flags. now destruct (find_bucket _ bs).
    + rewrite map_map. apply map_ext. intros [[k l] p]. unfold bkey, hit. cbn. now rewrite orb_assoc.
Qed.

(* the output: the nested loop over the right stream, then under --ul the buckets no right record hit, then the key-less *)
Lemma join_unsorted_shape o left right bs un : ingest o left [] [] = (bs, un) ->
  join_unsorted o left right
  = flat_map (right_out o (lefts o left)) right
    ++ (if ul o then map (unpaired_left o) (flat_map (fun b => if hit o right (bkey b) then [] else brecs_ b) bs ++ un) else []).
Proof.
  intros E. destruct (ingest_buckets o left bs un E) as (Hnd & Hb & Hf & _). unfold join_unsorted. rewrite E, (run_right_spec o right bs Hnd).
  f_equal; [|destruct (ul o); [|reflexivity]; unfold left_unpaired_out; do 2 f_equal].
  - apply flat_map_ext. intros r. unfold step_right, right_out, rkey. destruct (key_of (ie o) (rj o) r) as [vs|]; [|reflexivity].
    specialize (Hf (joinc vs)). destruct (find_bucket (joinc vs) bs) as [ls|]; cbn [fst].
    + destruct Hf as [Hne <-]. now destruct ls.
    + now rewrite Hf.
  - rewrite flat_map_concat_map, map_map, <- flat_map_concat_map. apply flat_map_ext_in. intros b Hin. cbn [fst snd].
    now rewrite (proj1 (Hb b Hin)).
Qed.

Theorem join_unsorted_in_order o left right :
  exists tail,
    join_unsorted o left right = flat_map (right_out o (lefts o left)) right ++ tail
    /\ (ul o = false -> tail = []).
Proof.
  destruct (ingest o left [] []) as [bs un] eqn:E. rewrite (join_unsorted_shape o left right bs un E).
  eexists. split; [reflexivity|]. now intros ->.
Qed.


(* --np removes exactly the paired records, --ur adds exactly the unmatched / key-less right records *)
Lemma right_out_np o L r : np o = true ->
  right_out o L r = if ur o then (match rkey o r with
                                  | Some vs => match lefts_for o (joinc vs) L with [] => [unpaired_right o r] | _ => [] end
                                  | None => [unpaired_right o r] end) else [].
Proof.
  intros H. unfold right_out. rewrite H. destruct (rkey o r) as [vs|]; [|destruct (ur o); reflexivity].
  destruct (lefts_for o (joinc vs) L); destruct (ur o); reflexivity.
Qed.

(* --ignore-empty: a record with an empty join value has no key, so it never pairs (either side) *)
Lemma ignore_empty_no_key names r vs : selected names r = Some vs -> any_empty vs = true -> key_of true names r = None.
Proof. intros H1 H2. unfold key_of. now rewrite H1, H2. Qed.

Lemma ignore_empty_right_never_pairs o L r vs :
  ie o = true -> selected (rj o) r = Some vs -> any_empty vs = true ->
  right_out o L r = if ur o then [unpaired_right o r] else [].
Proof. intros H1 H2 H3. unfold right_out, rkey. rewrite H1. now rewrite (ignore_empty_no_key _ _ _ H2 H3). Qed.

Lemma ignore_empty_left_never_pairs o k L l vs :
  ie o = true -> selected (lj o) l = Some vs -> any_empty vs = true -> ~ In l (lefts_for o k L).
Proof.
  intros H1 H2 H3 Hin. unfold lefts_for in Hin. apply filter_In in Hin. destruct Hin as [_ Hm].
  unfold keys_match, lkey in Hm. rewrite H1 in Hm. rewrite (ignore_empty_no_key _ _ _ H2 H3) in Hm. discriminate.
Qed.

(* a single join field: the bucket key IS the value, so "matches" is equality of the join values as text *)
Lemma keys_match_single o a l v :
  lj o = [a] -> ie o = false -> get a l = Some v -> forall k, keys_match o k l = beqb k v.
Proof. intros H1 H2 H3 k. unfold keys_match, lkey, key_of. rewrite H1, H2. cbn. now rewrite H3. Qed.

Lemma put_others_keys_incl skip prefix r : forall out k,
  In k (keys (put_others skip prefix r out)) ->
  In k (keys out) \/ exists k0, In k0 (keys r) /\ mem k0 skip = false /\ k = prefix ++ k0.
Proof.
  unfold put_others. induction r as [|[k0 v0] r IH]; intros out k; cbn [fold_left]; [auto|].
  intros H. apply IH in H. destruct H as [H|(k1 & H1 & H2 & H3)].
  - cbn [fst snd] in H. destruct (mem k0 skip) eqn:M; [auto|].
    destruct (has (prefix ++ k0) out) eqn:Hh.
    + rewrite keys_put_present in H by auto. auto.
    + rewrite keys_put_absent in H by auto. apply in_app_or in H. destruct H as [H|[<-|[]]]; [auto|].
      right. exists k0. cbn. auto.
  - right. exists k1. cbn. auto.
Qed.

Lemma put_fresh k v (r : record) : ~ In k (keys r) -> put k v r = r ++ [(k, v)].
Proof.
  induction r as [|[k' v'] r IH]; cbn; intros H; [reflexivity|].
  destruct (beqb_spec k k') as [->|Hne]; [exfalso; apply H; left; reflexivity|]. f_equal. apply IH. tauto.
Qed.

(* the paired record starts with the join fields under their output names (left values), when the left record has them all
   and the output names are distinct *)
Lemma put_join_fields_prefix ln on l : forall out,
  List.length ln = List.length on ->
  (forall a, In a ln -> has a l = true) ->
  NoDup on -> (forall b, In b on -> ~ In b (keys out)) ->
  put_join_fields ln on l out = out ++ map (fun ab => (snd ab, match get (fst ab) l with Some v => v | None => [] end)) (combine ln on).
Proof.
  revert on. induction ln as [|a ln IH]; intros [|b on] out Hlen Hhas Hnd Hfresh; cbn in *; try discriminate; [now rewrite app_nil_r|].
  inversion Hnd as [|? ? Hb Hnd']; subst.
  assert (Ha : has a l = true) by auto. unfold has in Ha. destruct (get a l) as [v|]; [|discriminate].
  rewrite (put_fresh b v out), IH, <- app_assoc; auto.
  intros b' Hb'. unfold keys. rewrite map_app, in_app_iff. intros [H|[<-|[]]]; [exact (Hfresh b' (or_intror Hb') H)|contradiction].
Qed.

Lemma Permutation_filter {A} (p : A -> bool) l l' : Permutation l l' -> Permutation (filter p l) (filter p l').
Proof.
  induction 1; cbn.
  - constructor.
  - destruct (p x); [constructor|]; auto.
  - destruct (p x), (p y); try constructor; try apply Permutation_refl.
  - eapply Permutation_trans; eauto.
Qed.

Theorem join_unsorted_left_tail o left right : ul o = true -> exists tail_src,
  join_unsorted o left right = flat_map (right_out o (lefts o left)) right ++ map (unpaired_left o) tail_src
  /\ Permutation tail_src (filter (fun l => negb (matched o right l)) (lefts o left)).
Proof.
  intros Hul. destruct (ingest o left [] []) as [bs un] eqn:E. rewrite (join_unsorted_shape o left right bs un E), Hul.
  destruct (ingest_buckets o left bs un E) as (_ & Hb & _ & Hun & Hperm).
  eexists. split; [reflexivity|]. set (p := fun l => negb (matched o right l)).
  replace (_ ++ un) with (filter p (flat_map brecs_ bs ++ un)); [now apply Permutation_filter|].
  rewrite filter_app. f_equal.
  - (* a whole bucket is matched, or none of it: its records carry the bucket's key *)
    rewrite flat_map_concat_map, <- concat_filter_map, map_map, <- flat_map_concat_map. apply flat_map_ext_in. intros b Hin.
    rewrite (filter_const _ (negb (hit o right (bkey b)))); [now destruct (hit o right (bkey b))|].
    intros l Hl. rewrite (proj2 (Hb b Hin)) in Hl. apply filter_In in Hl. destruct Hl as [_ Hm].
    unfold keys_match in Hm. unfold p, matched. destruct (lkey o l) as [vl|]; [|discriminate]. apply beqb_true in Hm. now rewrite Hm.
  - apply (filter_const _ true). intros l Hl. rewrite Hun in Hl. apply filter_In in Hl. destruct Hl as [_ Hk].
    unfold p, matched. now destruct (lkey o l).
Qed.

Definition out_name (o : opts) (names : list bytes) (prefix : bytes) (k : bytes) : bytes :=
  match rename_lookup names (oj o) k None with Some n => n | None => prefix ++ k end.

(* PutCopy of distinct fresh names appends; f is the writing step, g the renaming *)
Lemma fold_put_renamed (f : record -> field -> record) (g : bytes -> bytes) (r : record) :
  (forall out kv, f out kv = put (g (fst kv)) (snd kv) out) -> forall acc,
  NoDup (keys acc ++ map g (keys r)) ->
  fold_left f r acc = acc ++ map (fun kv => (g (fst kv), snd kv)) r.
Proof.
  intros Hf. induction r as [|[k v] r IH]; intros acc Hnd; cbn [fold_left map]; [now rewrite app_nil_r|].
  cbn [keys map fst snd] in *. rewrite Hf, put_fresh, IH.
  - now rewrite <- app_assoc.
  - unfold keys. now rewrite map_app, <- app_assoc.
  - apply NoDup_remove_2 in Hnd. intros H. apply Hnd, in_or_app. now left.
Qed.

Lemma rename_lookup_same names k : forall acc,
  (acc = None \/ acc = Some k) ->
  rename_lookup names names k acc = None \/ rename_lookup names names k acc = Some k.
Proof.
  induction names as [|n names IH]; intros acc H; cbn; [exact H|].
  apply IH. destruct (beqb_spec k n) as [->|]; auto.
Qed.

Lemma lists_eqb_true a b : lists_eqb a b = true -> a = b.
Proof.
  revert b. induction a as [|x a IH]; intros [|y b]; cbn; try discriminate; [reflexivity|].
  intros H. apply andb_true_iff in H. destruct H as [H1 H2]. apply beqb_true in H1. subst. f_equal. auto.
Qed.

Lemma rename_lookup_firstn names : forall outs k acc,
  rename_lookup names outs k acc = rename_lookup names (firstn (List.length names) outs) k acc.
Proof.
  induction names as [|n names IH]; intros [|b outs] k acc; cbn; try reflexivity. apply IH.
Qed.

Theorem unpaired_spec o names prefix r :
  NoDup (map (out_name o names prefix) (keys r)) ->
  unpaired o names prefix r = map (fun kv => (out_name o names prefix (fst kv), snd kv)) r.
Proof.
  intros Hnd. unfold unpaired.
  destruct (lists_eqb names (firstn (List.length names) (oj o)) && beqb prefix []) eqn:E.
  - (* nothing to rename: every output name is the input name *)
    apply andb_true_iff in E. destruct E as [E1 E2]. apply lists_eqb_true in E1. apply beqb_true in E2. subst prefix.
    rewrite <- (map_id r) at 1. apply map_ext. intros [k v]. cbn. f_equal. unfold out_name.
    rewrite rename_lookup_firstn, <- E1.
    destruct (rename_lookup_same names k None (or_introl eq_refl)) as [H|H]; rewrite H; reflexivity.
  - apply (fold_put_renamed _ (out_name o names prefix)); [|exact Hnd].
    intros out [k v]. unfold out_name. cbn [fst snd]. now destruct (rename_lookup names (oj o) k None).
Qed.
