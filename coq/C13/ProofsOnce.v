(* C13, sorted-input mode (-s) on ALL inputs, sorted or not: every left record is accounted for exactly once.
   The left file is partitioned (as a multiset) into the records flushed as unpaired -- each flushed once -- and the
   buckets Bs that were paired; every bucket of Bs is non-empty and was paired, as a whole, with at least one right
   record; every right record is either unpaired or paired with one whole bucket of Bs.  No sortedness, no key
   completeness assumed: on unsorted input -s pairs fewer records than the default mode (documented), but it never
   loses a record, never emits one twice as unpaired, and never emits a record both as paired and as unpaired. *)
From Miller Require Import Base.Record C13.Model C13.Proofs C13.ProofsSorted.
From Coq Require Import Permutation.

(* per right record: (left records flushed as unpaired, the bucket it is paired with or [] ) *)
Fixpoint steps_of (o : opts) (k : keeper) (right : list record) : list (list record * list record) :=
  match right with
  | [] => []
  | r :: t => (lun (step_keeper o k r), if step_paired o k r then brecs (step_keeper o k r) else [])
              :: steps_of o (clear_lun (step_keeper o k r)) t
  end.
Fixpoint final_of (o : opts) (k : keeper) (right : list record) : list record :=
  match right with
  | [] => lun (snd (find_join_bucket o None k))
  | r :: t => final_of o (clear_lun (step_keeper o k r)) t
  end.

Definition emit (o : opts) (s : list record * list record) (r : record) : list record :=
  map (unpaired_left o) (fst s)
  ++ match snd s with
     | [] => if ur o then [unpaired_right o r] else []
     | B => if np o then [] else map (fun l => compose o l r) B
     end.
Fixpoint emit_all (o : opts) (ss : list (list record * list record)) (right : list record) : list record :=
  match ss, right with
  | s :: ss', r :: t => emit o s r ++ emit_all o ss' t
  | _, _ => []
  end.

Lemma run_emit o right : forall k, Inv k -> BInv k -> ul o = true ->
  sorted_total o k right = emit_all o (steps_of o k right) right ++ map (unpaired_left o) (final_of o k right)
  /\ List.length (steps_of o k right) = List.length right.
Proof.
  induction right as [|r t IH]; intros k HI HB Hul; cbn [sorted_total steps_of final_of emit_all]; [now rewrite Hul|].
  destruct (step_account o k r HI HB) as (D & _ & HB' & Hne & _).
  destruct (IH (clear_lun (step_keeper o k r)) (step_keeper_Inv o k r HI) HB' Hul) as [A B].
  rewrite sorted_step_shape. cbn [fst snd length]. rewrite Hul, A. split; [|cbn; now rewrite B].
  unfold emit, step_rest. cbn [fst snd]. rewrite <- !app_assoc. f_equal. rewrite app_assoc. f_equal.
  destruct (step_paired o k r); cbn [negb andb].
  - destruct (brecs (step_keeper o k r)); [now destruct Hne|]. now destruct (np o).
  - now destruct (ur o).
Qed.

(* Bs collects what the calls drop: the non-empty paired parts.  A bucket that is paired now is dropped later, and a
   bucket dropped later is the one paired now or was paired at some step *)
Definition nonempty_part (B : list record) : list (list record) := match B with [] => [] | _ => [B] end.

Lemma concat_nonempty_part B : List.concat (nonempty_part B) = B.
Proof. destruct B; cbn; now rewrite ?app_nil_r. Qed.

Lemma In_nonempty_part X B : In X (nonempty_part B) <-> X <> [] /\ X = B.
Proof. destruct B; cbn; intuition congruence. Qed.

Theorem run_account o right : forall k, Inv k -> BInv k ->
  exists Bs : list (list record),
    Permutation (pool k) (List.concat (map fst (steps_of o k right)) ++ final_of o k right ++ List.concat Bs)
    /\ forall B, In B Bs <-> B <> [] /\ (B = paired_part k \/ In B (map snd (steps_of o k right))).
Proof.
  induction right as [|r t IH]; intros k HI HB; cbn [steps_of final_of map List.concat app].
  - exists (nonempty_part (paired_part k)). rewrite concat_nonempty_part. split; [now apply final_account|].
    intros B. rewrite In_nonempty_part. cbn. tauto.
  - destruct (step_account o k r HI HB) as (D & HP & HB1 & _ & T).
    set (k1 := step_keeper o k r) in *. set (b := step_paired o k r) in *.
    destruct (IH (clear_lun k1) (step_keeper_Inv o k r HI) HB1) as (Bs & Q1 & Q2).
    change (pool k1) with (lun k1 ++ pool (clear_lun k1)) in HP. change (paired_part (clear_lun k1)) with (paired_part k1) in Q2.
    exists (nonempty_part D ++ Bs). split.
    + rewrite HP, Q1, concat_app, concat_nonempty_part, <- !app_assoc. do 3 apply Permutation_app_head. apply Permutation_app_comm.
    + intros B. rewrite in_app_iff, In_nonempty_part, Q2. cbn [fst snd In]. unfold paired_part in *.
      destruct T as [(-> & E1 & E2)|[-> E2]]; rewrite E2, ?E1; destruct (bpaired k), b; cbn; intuition congruence.
Qed.

Lemma join_sorted_account o left right : ul o = true ->
  exists Bs : list (list record),
    let steps := steps_of o (keeper0 o left) right in
    join_sorted o left right = emit_all o steps right ++ map (unpaired_left o) (final_of o (keeper0 o left) right)
    /\ List.length steps = List.length right
    /\ Permutation (lefts o left) (List.concat (map fst steps) ++ final_of o (keeper0 o left) right ++ List.concat Bs)
    /\ (forall B, In B Bs -> B <> [] /\ In B (map snd steps))
    /\ (forall s, In s steps -> snd s <> [] -> In (snd s) Bs).
Proof.
  intros Hul. destruct (run_emit o right _ (keeper0_Inv o left) (keeper0_BInv o left) Hul) as [E1 E2].
  destruct (run_account o right _ (keeper0_Inv o left) (keeper0_BInv o left)) as (Bs & Q1 & Q2).
  exists Bs. rewrite join_sorted_total. split; [exact E1|]. split; [exact E2|]. split; [exact Q1|]. split.
  - intros B HB. apply Q2 in HB. destruct HB as [Hne [->|Hin]]; [now destruct Hne|auto].
  - intros s Hs Hne. apply Q2. auto using in_map.
Qed.

Theorem join_sorted_exactly_once o left right :
  ul o = true ->
  exists (steps : list (list record * list record)) (final : list record) (Bs : list (list record)),
    join_sorted o left right = emit_all o steps right ++ map (unpaired_left o) final
    /\ List.length steps = List.length right
    /\ Permutation (lefts o left) (List.concat (map fst steps) ++ final ++ List.concat Bs)
    /\ (forall B, In B Bs -> B <> [] /\ In B (map snd steps))
    /\ (forall s, In s steps -> snd s <> [] -> In (snd s) Bs).
Proof. intros Hul. destruct (join_sorted_account o left right Hul) as [Bs H]. eauto. Qed.
