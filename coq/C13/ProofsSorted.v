(* C13, sorted-input mode: the bucket keeper, for ALL inputs (sorted or not).  FindJoinBucket is brought into the form
   prefill; release-and-advance when the bucket is behind the right key; verdict -- and one call of it is accounted
   for: no left record is lost or duplicated, and only a bucket that was paired is ever dropped.  First consequence:
   conservation of the left file over a whole run.  Equality with the default mode on sorted inputs: C13/ProofsMerge.v. *)
From Miller Require Import Base.Record C13.Model C13.Proofs.
From Coq Require Import Permutation.

Definition opt_list (p : option record) : list record := match p with Some x => [x] | None => [] end.
(* every left record the keeper still holds *)
Definition pool (k : keeper) : list record := lun k ++ brecs k ++ opt_list (peek k) ++ rem k.
(* what a bucket change throws away: the records of a bucket that was paired *)
Definition paired_part (k : keeper) : list record := if bpaired k then brecs k else [].

Lemma skip_keyless_perm o rm : forall un p rm' un',
  skip_keyless o rm un = (p, rm', un') -> Permutation (un' ++ opt_list p ++ rm') (un ++ rm).
Proof.
  induction rm as [|q rm IH]; intros un p rm' un' H; cbn [skip_keyless] in H.
  - injection H as <- <- <-. apply Permutation_refl.
  - destruct (has_keys o q).
    + injection H as <- <- <-. apply Permutation_refl.
    + apply IH in H. now rewrite <- app_assoc in H.
Qed.

Lemma fill_loop_perm o bv rm : forall recs un pk rm' recs' un' eof,
  fill_loop o bv rm recs un = (pk, rm', recs', un', eof) ->
  Permutation (un' ++ recs' ++ opt_list pk ++ rm') (un ++ recs ++ rm).
Proof.
  induction rm as [|q rm IH]; intros recs un pk rm' recs' un' eof H; cbn [fill_loop] in H.
  - injection H as <- <- <- <- <-. apply Permutation_refl.
  - destruct (has_keys o q); [destruct (cmp_lex bv (vals_of o q))|].
    + apply IH in H. now rewrite <- app_assoc in H.
    + injection H as <- <- <- <- <-. apply Permutation_refl.
    + injection H as <- <- <- <- <-. apply Permutation_refl.
    + apply IH in H. rewrite H, <- app_assoc. apply Permutation_app_head, (Permutation_middle recs rm q).
Qed.

Lemma advance_perm fuel o rv : forall p rm un p' rm' un' eof,
  advance fuel o rv p rm un = (p', rm', un', eof) ->
  Permutation (un' ++ opt_list p' ++ rm') (un ++ p :: rm).
Proof.
  induction fuel as [|fuel IH]; intros p rm un p' rm' un' eof H; cbn [advance] in H.
  - injection H as <- <- <- <-. apply Permutation_refl.
  - destruct (skip_keyless o rm (un ++ [p])) as [[q rm1] un1] eqn:S. apply skip_keyless_perm in S.
    rewrite <- app_assoc in S. destruct q as [q|]; [destruct (cmp_lex (vals_of o q) rv)|].
    + injection H as <- <- <- <-. exact S.
    + apply IH in H. now rewrite H.
    + injection H as <- <- <- <-. exact S.
    + injection H as <- <- <- <-. exact S.
Qed.

Lemma prepare_first_perm o k : peek k = None -> Permutation (pool (prepare_first o k)) (pool k).
Proof.
  intros Hp. unfold prepare_first. destruct (skip_keyless o (rem k) (lun k)) as [[p rm] un] eqn:S.
  apply skip_keyless_perm in S. unfold pool. cbn. rewrite Hp. cbn.
  rewrite (Permutation_app_swap_app un), (Permutation_app_swap_app (lun k)). now apply Permutation_app_head.
Qed.

Lemma maybe_fill_perm o k : Permutation (pool (maybe_fill o k)) (pool k).
Proof.
  unfold maybe_fill, fill_next. destruct (peek k) as [p|] eqn:Hp; [|apply Permutation_refl].
  destruct (fill_loop o (vals_of o p) (rem k) (brecs k ++ [p]) (lun k)) as [[[[pk rm] recs] un] eof] eqn:F.
  apply fill_loop_perm in F. unfold pool. cbn. now rewrite F, Hp, <- !app_assoc.
Qed.

Lemma release_perm k tl :
  Permutation (lun k ++ brecs k ++ tl) (((if bpaired k then lun k else lun k ++ brecs k) ++ tl) ++ paired_part k).
Proof.
  unfold paired_part. destruct (bpaired k); [|now rewrite app_nil_r, app_assoc].
  rewrite <- app_assoc. apply Permutation_app_head, Permutation_app_comm.
Qed.

Lemma prepare_new_perm o rv k : Permutation (pool k) (pool (prepare_new o rv k) ++ paired_part k).
Proof.
  unfold prepare_new, pool. rewrite release_perm. apply Permutation_app_tail.
  destruct (peek k) as [p|]; [destruct (cmp_lex (vals_of o p) rv)|]; try apply Permutation_refl.
  destruct (advance _ o rv p (rem k) _) as [[[p' rm'] un'] eof] eqn:A. apply advance_perm in A. cbn. now rewrite A.
Qed.

Lemma mark_remaining_perm k : Permutation (pool k) (pool (mark_remaining k) ++ paired_part k).
Proof.
  unfold mark_remaining, pool. cbn [lun brecs peek rem opt_list app]. rewrite release_perm, !app_nil_r.
  destruct (peek k); cbn [opt_list app]; now rewrite <- ?app_assoc.
Qed.

(* the cached state is the computed one, and state 0 (prefill) has no peek record *)
Definition Inv (k : keeper) : Prop :=
  kstate k = compute_state k /\ (bvals k = None -> leof k = false -> peek k = None).
(* its second half: what the operations maintain until set_state recomputes the state *)
Definition Inv2 (k : keeper) : Prop := bvals k = None -> leof k = false -> peek k = None.
(* no bucket values <-> empty, never-paired bucket *)
Definition BInv (k : keeper) : Prop :=
  (bvals k = None -> bpaired k = false /\ brecs k = []) /\ (bvals k <> None -> brecs k <> []).

Lemma set_state_Inv k : Inv2 k -> Inv (set_state k).
Proof. intros H. split; [reflexivity|exact H]. Qed.

(* the bucket only grows, by records that have the join fields and carry the bucket's values *)
Lemma fill_loop_adds o bv rm : forall recs un pk rm' recs' un' eof,
  fill_loop o bv rm recs un = (pk, rm', recs', un', eof) ->
  exists add, recs' = recs ++ add /\ Forall (fun q => has_keys o q = true /\ cmp_lex bv (vals_of o q) = Eq) add.
Proof.
  induction rm as [|q rm IH]; intros recs un pk rm' recs' un' eof H; cbn [fill_loop] in H.
  - injection H as <- <- <- <- <-. exists []. now rewrite app_nil_r.
  - destruct (has_keys o q) eqn:Hq; [destruct (cmp_lex bv (vals_of o q)) eqn:E|].
    + destruct (IH _ _ _ _ _ _ _ H) as (add & -> & F). exists (q :: add). rewrite <- app_assoc. auto.
    + injection H as <- <- <- <- <-. exists []. now rewrite app_nil_r.
    + injection H as <- <- <- <- <-. exists []. now rewrite app_nil_r.
    + exact (IH _ _ _ _ _ _ _ H).
Qed.

Lemma fill_next_bucket o k p : peek k = Some p ->
  bvals (fill_next o k) <> None /\ brecs (fill_next o k) <> [] /\ bpaired (fill_next o k) = false.
Proof.
  intros Hp. unfold fill_next. rewrite Hp.
  destruct (fill_loop o (vals_of o p) (rem k) (brecs k ++ [p]) (lun k)) as [[[[pk rm] recs] un] eof] eqn:F.
  destruct (fill_loop_adds _ _ _ _ _ _ _ _ _ _ F) as (add & -> & _).
  cbn. split; [discriminate|]. split; [|reflexivity]. destruct (brecs k); discriminate.
Qed.

Lemma maybe_fill_inv2 o k : Inv2 (maybe_fill o k).
Proof.
  unfold maybe_fill. destruct (peek k) as [p|] eqn:Hp.
  - intros H. now destruct (fill_next_bucket o k p Hp).
  - intros _ _. exact Hp.
Qed.

Lemma maybe_fill_BInv o k : BInv k -> bpaired k = false -> BInv (maybe_fill o k) /\ bpaired (maybe_fill o k) = false.
Proof.
  intros HB Hp. unfold maybe_fill. destruct (peek k) as [p|] eqn:E; [|split; assumption].
  destruct (fill_next_bucket o k p E) as (A & B & C). split; [|exact C]. split; [intros H; contradiction|intros _; exact B].
Qed.

Lemma prepare_first_bucket o k :
  bvals (prepare_first o k) = bvals k /\ brecs (prepare_first o k) = brecs k /\ bpaired (prepare_first o k) = bpaired k.
Proof. unfold prepare_first. destruct (skip_keyless o (rem k) (lun k)) as [[p rm] un]. cbn. auto. Qed.

Lemma prepare_new_bucket o rv k :
  bvals (prepare_new o rv k) = None /\ brecs (prepare_new o rv k) = [] /\ bpaired (prepare_new o rv k) = false.
Proof.
  unfold prepare_new. destruct (peek k) as [p|]; [|cbn; auto].
  destruct (cmp_lex (vals_of o p) rv); [cbn; auto| |cbn; auto].
  destruct (advance _ o rv p (rem k) _) as [[[p' rm'] un'] eof]. cbn. auto.
Qed.

Lemma advance_bucket o rv k : BInv (maybe_fill o (prepare_new o rv k)) /\ bpaired (maybe_fill o (prepare_new o rv k)) = false.
Proof.
  destruct (prepare_new_bucket o rv k) as (N1 & N2 & N3). apply maybe_fill_BInv; [|exact N3].
  split; [intros _; split; assumption|intros H; contradiction].
Qed.

(* the prefill block of state 0 *)
Definition block (o : opts) (k : keeper) : keeper :=
  if Nat.eqb (kstate k) 0 then set_state (maybe_fill o (prepare_first o k)) else k.
(* the bucket's values against a right record's; an exhausted left file counts as a bucket beyond every key *)
Definition bucket_vs (rv : list bytes) (k : keeper) : comparison :=
  match bvals k with Some bv => cmp_lex bv rv | None => Gt end.
Definition paired_with (rv : list bytes) (k : keeper) : bool := match bucket_vs rv k with Eq => true | _ => false end.
Definition finish (rv : list bytes) (k : keeper) : bool * keeper :=
  (paired_with rv k, set_state (if paired_with rv k then set_paired k else k)).

Lemma state0 k : Inv k -> Nat.eqb (kstate k) 0 = true -> bvals k = None /\ peek k = None.
Proof.
  intros [H1 H2] E. apply PeanoNat.Nat.eqb_eq in E. rewrite H1 in E. unfold compute_state in E.
  destruct (bvals k); [destruct (peek k); discriminate|]. destruct (leof k); [discriminate|]. auto.
Qed.

Lemma block_Inv o k : Inv k -> Inv (block o k) /\ kstate (block o k) <> 0%nat.
Proof.
  intros HI. unfold block. destruct (Nat.eqb (kstate k) 0) eqn:E; [|split; [exact HI|now apply PeanoNat.Nat.eqb_neq]].
  split; [apply set_state_Inv, maybe_fill_inv2|]. cbn [kstate set_state]. unfold compute_state, maybe_fill, prepare_first.
  destruct (skip_keyless o (rem k) (lun k)) as [[[q|] rm] un]; cbn [peek].
  - match goal with |- context [fill_next o ?kp] => destruct (fill_next_bucket o kp q eq_refl) as [Hb _]; destruct (bvals (fill_next o kp)) end;
      [destruct (peek _); discriminate|contradiction].
  - cbn. destruct (bvals k); discriminate.
Qed.

Lemma fjb_Some o rv k : Inv k ->
  find_join_bucket o (Some rv) k
  = finish rv (match bucket_vs rv (block o k) with Lt => maybe_fill o (prepare_new o rv (block o k)) | _ => block o k end).
Proof.
  intros HI. destruct (block_Inv o k HI) as [[HS _] H0]. unfold find_join_bucket. fold (block o k).
  set (k1 := block o k) in *. rewrite HS in *. unfold finish, paired_with, bucket_vs, compute_state in *.
  destruct (bvals k1) as [bv|] eqn:Hbv.
  - replace (Nat.eqb _ 1 || Nat.eqb _ 2) with true by (destruct (peek k1); reflexivity).
    destruct (cmp_lex bv rv) eqn:C; cbv iota; [now rewrite Hbv, C| |now rewrite Hbv, C].
    destruct (advance_bucket o rv k1) as [[B1 B2] _]. set (k2 := maybe_fill o (prepare_new o rv k1)) in *.
    destruct (bvals k2) as [b|].
    + destruct (brecs k2); [exfalso; apply B2; [discriminate|reflexivity]|now destruct (cmp_lex b rv)].
    + destruct (B1 eq_refl) as [_ ->]. reflexivity.
  - cbv iota. rewrite Hbv. destruct (leof k1); [reflexivity|contradiction].
Qed.

Lemma fjb_None o k : find_join_bucket o None k = (false, set_state (mark_remaining (block o k))).
Proof. reflexivity. Qed.

Lemma finish_Inv rv k : Inv2 k -> Inv (snd (finish rv k)).
Proof. intros H. apply set_state_Inv. now destruct (paired_with rv k). Qed.

Lemma fjb_Inv o rv k : Inv k -> Inv (snd (find_join_bucket o rv k)).
Proof.
  intros HI. destruct rv as [rv|]; [|apply set_state_Inv; intros _ _; reflexivity].
  rewrite fjb_Some by exact HI. apply finish_Inv. destruct (block_Inv o k HI) as [[_ I1] _].
  destruct (bucket_vs rv (block o k)); [exact I1|apply maybe_fill_inv2|exact I1].
Qed.

(* from k, with verdict b, to k', dropping D: nothing else is lost; the bucket either stays (and is marked if b) or
   is replaced by a fresh one, and then only its paired part is dropped *)
Definition Acc (k : keeper) (b : bool) (k' : keeper) (D : list record) : Prop :=
  Permutation (pool k) (pool k' ++ D) /\ BInv k'
  /\ (b = true -> brecs k' <> [])
  /\ ((D = [] /\ brecs k' = brecs k /\ bpaired k' = bpaired k || b) \/ (D = paired_part k /\ bpaired k' = b)).

Lemma block_account o k : Inv k -> BInv k -> Acc k false (block o k) [].
Proof.
  intros HI HB. unfold Acc, block. rewrite app_nil_r. destruct (Nat.eqb (kstate k) 0) eqn:E.
  - destruct (state0 k HI E) as [Hbv Hpk]. destruct (proj1 HB Hbv) as [Hbp Hbr].
    destruct (prepare_first_bucket o k) as (A1 & A2 & A3).
    destruct (maybe_fill_BInv o (prepare_first o k)) as [B1 B2]; [unfold BInv; now rewrite A1, A2, A3|congruence|].
    split; [symmetry; change (pool (set_state ?x)) with (pool x); rewrite maybe_fill_perm; now apply prepare_first_perm|].
    split; [exact B1|]. split; [discriminate|].
    right. unfold paired_part. now rewrite Hbp.
  - split; [apply Permutation_refl|]. split; [exact HB|]. split; [discriminate|].
    left. now rewrite orb_false_r.
Qed.

Lemma finish_account rv k : BInv k -> Acc k (fst (finish rv k)) (snd (finish rv k)) [].
Proof.
  intros [HB1 HB2]. unfold Acc, finish. cbn [fst snd]. rewrite app_nil_r. destruct (paired_with rv k) eqn:P.
  - assert (Hb : bvals k <> None) by (unfold paired_with, bucket_vs in P; destruct (bvals k); discriminate).
    split; [apply Permutation_refl|]. split; [split; [intros Hn; now destruct Hb|exact HB2]|].
    split; [intros _; now apply HB2|]. left. now rewrite orb_true_r.
  - split; [apply Permutation_refl|]. split; [split; assumption|]. split; [discriminate|].
    left. now rewrite orb_false_r.
Qed.

(* composing with the prefill: relative to the state before it, the bucket of state 0 counts as replaced *)
Lemma Acc_after_block o k b k' D : Acc k false (block o k) [] -> Acc (block o k) b k' D -> Acc k b k' D.
Proof.
  intros (P1 & _ & _ & T1) (P2 & B2 & N2 & T2). rewrite app_nil_r in P1.
  split; [now rewrite P1|]. split; [exact B2|]. split; [exact N2|]. unfold paired_part in *.
  destruct T1 as [(_ & E1 & E2)|[E1 E2]]; rewrite ?orb_false_r in *.
  - rewrite <- E1, <- E2. exact T2.
  - right. rewrite E2 in T2. destruct T2 as [(-> & _ & ->)|[-> ->]]; auto.
Qed.

Lemma fjb_account o rv k : Inv k -> BInv k ->
  exists D, Acc k (fst (find_join_bucket o (Some rv) k)) (snd (find_join_bucket o (Some rv) k)) D.
Proof.
  intros HI HB. rewrite fjb_Some by exact HI. pose proof (block_account o k HI HB) as A1.
  pose proof A1 as (_ & B1 & _).
  destruct (bucket_vs rv (block o k)).
  - exists []. apply (Acc_after_block o _ _ _ _ A1). now apply finish_account.
  - destruct (advance_bucket o rv (block o k)) as [B2 P2].
    set (k2 := maybe_fill o (prepare_new o rv (block o k))) in *.
    exists (paired_part (block o k)). apply (Acc_after_block o _ _ _ _ A1).
    destruct (finish_account rv k2 B2) as (Q1 & Q3 & Q4 & Q5). rewrite app_nil_r in Q1.
    split; [rewrite <- Q1; unfold k2; now rewrite maybe_fill_perm, <- prepare_new_perm|]. split; [exact Q3|].
    split; [exact Q4|]. right. split; [reflexivity|]. rewrite P2 in Q5. destruct Q5 as [(_ & _ & ->)|[_ ->]]; reflexivity.
  - exists []. apply (Acc_after_block o _ _ _ _ A1). now apply finish_account.
Qed.

Lemma final_account o k : Inv k -> BInv k ->
  Permutation (pool k) (lun (snd (find_join_bucket o None k)) ++ paired_part k).
Proof.
  intros HI HB. destruct (block_account o k HI HB) as (P1 & _ & _ & T1). rewrite app_nil_r in P1. rewrite P1.
  replace (paired_part k) with (paired_part (block o k)).
  - rewrite mark_remaining_perm. unfold pool. cbn. now rewrite app_nil_r.
  - unfold paired_part in *. destruct T1 as [(_ & -> & ->)|[E ->]]; [now rewrite orb_false_r|exact E].
Qed.

(* one right record: the verdict, and the keeper just before its leftUnpaireds are flushed *)
Definition step_paired (o : opts) (k : keeper) (r : record) : bool :=
  match key_of (ie o) (rj o) r with Some vs => fst (find_join_bucket o (Some vs) k) | None => false end.
Definition step_keeper (o : opts) (k : keeper) (r : record) : keeper :=
  match key_of (ie o) (rj o) r with Some vs => snd (find_join_bucket o (Some vs) k) | None => k end.

Lemma step_keeper_Inv o k r : Inv k -> Inv (step_keeper o k r).
Proof. intros HI. unfold step_keeper. destruct (key_of (ie o) (rj o) r); [now apply fjb_Inv|exact HI]. Qed.

Lemma step_account o k r : Inv k -> BInv k -> exists D, Acc k (step_paired o k r) (step_keeper o k r) D.
Proof.
  intros HI HB. unfold step_paired, step_keeper. destruct (key_of (ie o) (rj o) r) as [vs|]; [now apply fjb_account|].
  exists []. unfold Acc. rewrite app_nil_r, orb_false_r.
  split; [apply Permutation_refl|]. split; [exact HB|]. split; [discriminate|auto].
Qed.

Definition step_rest (o : opts) (k : keeper) (r : record) : list record :=
  (if negb (step_paired o k r) && ur o then [unpaired_right o r] else [])
  ++ (if step_paired o k r && negb (np o) then map (fun l => compose o l r) (brecs (step_keeper o k r)) else []).

Lemma sorted_step_shape o k r :
  sorted_step o k r = ((if ul o then map (unpaired_left o) (lun (step_keeper o k r)) else []) ++ step_rest o k r,
                       clear_lun (step_keeper o k r)).
Proof.
  unfold sorted_step, step_rest, step_paired, step_keeper. destruct (key_of (ie o) (rj o) r) as [vs|]; [|reflexivity].
  now destruct (find_join_bucket o (Some vs) k).
Qed.

(* the output from keeper state k on: the run over the right stream, then the final flush *)
Fixpoint sorted_total (o : opts) (k : keeper) (right : list record) : list record :=
  match right with
  | [] => if ul o then map (unpaired_left o) (lun (snd (find_join_bucket o None k))) else []
  | r :: t => fst (sorted_step o k r) ++ sorted_total o (snd (sorted_step o k r)) t
  end.

Lemma sorted_total_run o right : forall k,
  sorted_total o k right
  = fst (sorted_run o k right)
    ++ (if ul o then map (unpaired_left o) (lun (snd (find_join_bucket o None (snd (sorted_run o k right))))) else []).
Proof.
  induction right as [|r t IH]; intros k; cbn [sorted_total sorted_run]; [reflexivity|].
  destruct (sorted_step o k r) as [e k']. cbn [fst snd]. rewrite IH.
  destruct (sorted_run o k' t) as [es k'']. cbn [fst snd]. apply app_assoc.
Qed.

Definition keeper0 (o : opts) (left : list record) : keeper := mkKeeper None None [] false [] (map (keep_left o) left) false 0.

Lemma keeper0_Inv o left : Inv (keeper0 o left).
Proof. split; [reflexivity|intros _ _; reflexivity]. Qed.

Lemma keeper0_BInv o left : BInv (keeper0 o left).
Proof. split; [intros _; split; reflexivity|intros H; contradiction]. Qed.

Lemma join_sorted_total o left right : join_sorted o left right = sorted_total o (keeper0 o left) right.
Proof.
  rewrite sorted_total_run. unfold join_sorted. fold (keeper0 o left).
  destruct (sorted_run o (keeper0 o left) right) as [out k]. cbn [fst snd].
  now destruct (find_join_bucket o None k).
Qed.

(* records built from the right record r only: its unpaired form and/or pairs with some left records *)
Definition from_right (o : opts) (r : record) (x : list record) : Prop :=
  exists a ls, (a = [] \/ a = [unpaired_right o r]) /\ x = a ++ map (fun l => compose o l r) ls.

Lemma step_rest_from_right o k r : from_right o r (step_rest o k r).
Proof.
  unfold step_rest, from_right. destruct (negb _ && ur o); destruct (_ && negb (np o)).
  - exists [unpaired_right o r], (brecs (step_keeper o k r)). auto.
  - exists [unpaired_right o r], []. auto.
  - exists [], (brecs (step_keeper o k r)). auto.
  - exists [], []. auto.
Qed.

Lemma run_conserves o right : forall k, Inv k -> BInv k -> ul o = true ->
  exists (steps : list (list record * list record)) (final D : list record),
    sorted_total o k right
    = flat_map (fun s => map (unpaired_left o) (fst s) ++ snd s) steps ++ map (unpaired_left o) final
    /\ Forall2 (fun s r => from_right o r (snd s)) steps right
    /\ Permutation (pool k) (List.concat (map fst steps) ++ final ++ D).
Proof.
  induction right as [|r t IH]; intros k HI HB Hul; cbn [sorted_total].
  - exists [], (lun (snd (find_join_bucket o None k))), (paired_part k). rewrite Hul.
    split; [reflexivity|]. split; [constructor|]. now apply final_account.
  - rewrite sorted_step_shape, Hul. cbn [fst snd].
    destruct (step_account o k r HI HB) as (D1 & HP & HB1 & _).
    destruct (IH (clear_lun (step_keeper o k r)) (step_keeper_Inv o k r HI) HB1 Hul) as (steps & final & D & E & F & P).
    exists ((lun (step_keeper o k r), step_rest o k r) :: steps), final, (D ++ D1). rewrite E.
    split; [cbn; now rewrite <- !app_assoc|]. split; [constructor; [apply step_rest_from_right|exact F]|].
    change (pool (step_keeper o k r)) with (lun (step_keeper o k r) ++ pool (clear_lun (step_keeper o k r))) in HP.
    rewrite HP, P. cbn [map fst List.concat]. now rewrite <- !app_assoc.
Qed.

Theorem join_sorted_conserves_left o left right :
  ul o = true ->
  exists (steps : list (list record * list record)) (final D : list record),
    join_sorted o left right
    = flat_map (fun s => map (unpaired_left o) (fst s) ++ snd s) steps ++ map (unpaired_left o) final
    /\ Forall2 (fun s r => from_right o r (snd s)) steps right
    /\ Permutation (lefts o left) (List.concat (map fst steps) ++ final ++ D).
Proof. intros Hul. rewrite join_sorted_total. exact (run_conserves o right _ (keeper0_Inv o left) (keeper0_BInv o left) Hul). Qed.
