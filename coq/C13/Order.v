(* C13: order facts about strings.Compare on bytes (bcmp) and the field-by-field comparison (cmp_lex). *)
From Miller Require Import Base.Bytes Base.Record C13.Model.
From Miller Require Import Base.RecordFacts.

Lemma bcmp_refl a : bcmp a a = Eq.
Proof. induction a as [|x a IH]; cbn; [reflexivity|]. now rewrite N.compare_refl. Qed.

Lemma bcmp_eq a : forall b, bcmp a b = Eq -> a = b.
Proof.
  induction a as [|x a IH]; intros [|y b]; cbn; try discriminate; [reflexivity|].
  destruct (code x ?= code y)%N eqn:E; try discriminate. intros H. apply N.compare_eq in E. apply code_inj in E. subst. f_equal. auto.
Qed.

Lemma bcmp_antisym a : forall b, bcmp b a = CompOpp (bcmp a b).
Proof.
  induction a as [|x a IH]; intros [|y b]; cbn; try reflexivity.
  rewrite (N.compare_antisym (code x) (code y)). destruct (code x ?= code y)%N; cbn; auto.
Qed.

Lemma bcmp_trans a : forall b c, bcmp a b = Lt -> bcmp b c = Lt -> bcmp a c = Lt.
Proof.
  induction a as [|x a IH]; intros [|y b] [|z c]; cbn; try discriminate; try reflexivity.
  destruct (code x ?= code y)%N eqn:E1; try discriminate; destruct (code y ?= code z)%N eqn:E2; try discriminate; intros H1 H2.
  - apply N.compare_eq in E1, E2. rewrite E1, E2, N.compare_refl. eauto.
  - apply N.compare_eq in E1. now rewrite E1, E2.
  - apply N.compare_eq in E2. now rewrite <- E2, E1.
  - rewrite N.compare_lt_iff in *. assert (code x < code z)%N by lia. now rewrite (proj2 (N.compare_lt_iff _ _) H).
Qed.

Lemma cmp_lex_refl a : cmp_lex a a = Eq.
Proof. induction a as [|x a IH]; cbn; [reflexivity|]. now rewrite bcmp_refl. Qed.

Lemma cmp_lex_eq a : forall b, List.length a = List.length b -> cmp_lex a b = Eq -> a = b.
Proof.
  induction a as [|x a IH]; intros [|y b]; cbn; try discriminate; [reflexivity|].
  intros L. destruct (bcmp x y) eqn:E; try discriminate. intros H. apply bcmp_eq in E. subst. f_equal. apply IH; [lia|auto].
Qed.

Lemma cmp_lex_antisym a : forall b, cmp_lex b a = CompOpp (cmp_lex a b).
Proof.
  induction a as [|x a IH]; intros [|y b]; cbn; try reflexivity.
  rewrite (bcmp_antisym x y). destruct (bcmp x y); cbn; auto.
Qed.

Lemma cmp_lex_trans a : forall b c, cmp_lex a b = Lt -> cmp_lex b c = Lt -> cmp_lex a c = Lt.
Proof.
  induction a as [|x a IH]; intros [|y b] [|z c]; cbn; try discriminate.
  destruct (bcmp x y) eqn:E1; try discriminate; destruct (bcmp y z) eqn:E2; try discriminate; intros H1 H2.
  - apply bcmp_eq in E1, E2. subst. rewrite bcmp_refl. now apply (IH b c).
  - apply bcmp_eq in E1. subst. now rewrite E2.
  - apply bcmp_eq in E2. subst. now rewrite E1.
  - now rewrite (bcmp_trans _ _ _ E1 E2).
Qed.

Definition kle (a b : list bytes) : Prop := cmp_lex a b <> Gt.

Lemma cmp_lex_lt_le a b c : List.length b = List.length c -> cmp_lex a b = Lt -> kle b c -> cmp_lex a c = Lt.
Proof.
  intros L2 H1 H2. unfold kle in H2. destruct (cmp_lex b c) eqn:E; [|eapply cmp_lex_trans; eauto|congruence].
  apply cmp_lex_eq in E; auto. now subst.
Qed.

Lemma cmp_lex_le_lt a b c : List.length a = List.length b -> List.length b = List.length c ->
  kle a b -> cmp_lex b c = Lt -> cmp_lex a c = Lt.
Proof.
  intros L1 L2 H1 H2. unfold kle in H1. destruct (cmp_lex a b) eqn:E; [|eapply cmp_lex_trans; eauto|congruence].
  apply cmp_lex_eq in E; auto. now subst.
Qed.

Lemma cmp_lex_gt_lt a b : cmp_lex a b = Gt <-> cmp_lex b a = Lt.
Proof. rewrite (cmp_lex_antisym a b). destruct (cmp_lex a b); cbn; split; congruence. Qed.

Lemma selected_length names r : forall vs, selected names r = Some vs -> List.length vs = List.length names.
Proof.
  induction names as [|n names IH]; cbn; intros vs H; [injection H as <-; reflexivity|].
  destruct (get n r); [|discriminate]. destruct (selected names r) as [vs'|]; [|discriminate].
  injection H as <-. cbn. f_equal. auto.
Qed.

Lemma key_of_length ie names r vs : key_of ie names r = Some vs -> List.length vs = List.length names.
Proof.
  unfold key_of. destruct (selected names r) as [ws|] eqn:S; [|discriminate].
  destruct (ie && any_empty ws); [discriminate|]. intros [= <-]. exact (selected_length _ _ _ S).
Qed.

Lemma has_keys_key o l : has_keys o l = true -> key_of (ie o) (lj o) l = Some (vals_of o l).
Proof.
  unfold has_keys, vals_of, key_of. destruct (selected (lj o) l) as [vs|]; [|discriminate].
  now destruct (ie o && any_empty vs).
Qed.
