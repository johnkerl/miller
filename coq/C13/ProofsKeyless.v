(* C13, sorted-input mode with key-less LEFT records (records lacking a join field, or holding an empty one under
   --ignore-empty), anywhere in the left file.  The JoinBucketKeeper routes such records straight to leftUnpaireds in
   each of its read loops (prepareForFirstJoinBucket, fillNextJoinBucket, prepareForNewJoinBucket) and never compares
   them.  Proved here as a commutation: erasing the key-less records from the keeper (from the unread part of the left
   file and from leftUnpaireds) commutes with every keeper operation, and the key-less records are conserved in order.
   Hence the -s output on a left file L is, as a multiset, the -s output on the keyed records of L plus (under --ul)
   the unpaired forms of the key-less ones -- exactly as in the default mode.  With C13/ProofsMerge.v this gives
   sorted = unsorted on every left file whose KEYED records are sorted. *)
From Miller Require Import Base.Bytes Base.Record C13.Model C13.Proofs C13.ProofsSorted C13.ProofsMerge.
From Coq Require Import Permutation Sorted.

Section Keyless.
  Variable o : opts.
  Notation hk := (has_keys o).
  Definition keyed (l : list record) : list record := filter (has_keys o) l.
  Definition keyless (l : list record) : list record := filter (fun q => negb (has_keys o q)) l.

  Lemma keyed_app a b : keyed (a ++ b) = keyed a ++ keyed b. Proof. apply filter_app. Qed.
  Lemma keyless_app a b : keyless (a ++ b) = keyless a ++ keyless b. Proof. apply filter_app. Qed.
  Lemma keyed_id l : Forall (fun q => hk q = true) l -> keyed l = l.
  Proof. intros H. apply (filter_const _ true), Forall_forall, H. Qed.
  Lemma keyless_nil l : Forall (fun q => hk q = true) l -> keyless l = [].
  Proof. intros H. apply (filter_const _ false). rewrite Forall_forall in H. intros q Hq. now rewrite (H q Hq). Qed.
  Lemma keyed_snoc l q : keyed (l ++ [q]) = if hk q then keyed l ++ [q] else keyed l.
  Proof. rewrite keyed_app. cbn. destruct (hk q); now rewrite ?app_nil_r. Qed.
  Lemma keyless_snoc l q : keyless (l ++ [q]) = if hk q then keyless l else keyless l ++ [q].
  Proof. rewrite keyless_app. cbn. destruct (hk q); now rewrite ?app_nil_r. Qed.
  Lemma keyed_length l : (List.length (keyed l) <= List.length l)%nat.
  Proof. unfold keyed. induction l as [|q l IH]; cbn; [lia|]. destruct (hk q); cbn; lia. Qed.
  Lemma keyed_keyless_perm l : Permutation l (keyed l ++ keyless l).
  Proof.
    unfold keyed, keyless. induction l as [|q l IH]; cbn; [constructor|]. destruct (hk q); cbn.
    - now constructor.
    - apply Permutation_cons_app. exact IH.
  Qed.
  Lemma keyed_keyed l : Forall (fun q => hk q = true) (keyed l).
  Proof. apply Forall_forall. intros q H. apply filter_In in H. tauto. Qed.

  Definition okp (p : option record) : Prop := match p with Some q => hk q = true | None => True end.

  Lemma skip_keyless_comm rm : forall un p rm1 un1,
    skip_keyless o rm un = (p, rm1, un1) ->
    skip_keyless o (keyed rm) (keyed un) = (p, keyed rm1, keyed un1)
    /\ okp p /\ keyless un1 ++ keyless rm1 = keyless un ++ keyless rm
    /\ (p <> None -> (List.length rm1 < List.length rm)%nat).
  Proof.
    induction rm as [|q rm IH]; intros un p rm1 un1 H; cbn [skip_keyless] in H.
    - injection H as <- <- <-. cbn. repeat split; auto. congruence.
    - destruct (hk q) eqn:Hq.
      + injection H as <- <- <-. cbn. rewrite Hq. cbn. rewrite Hq. repeat split; auto.
      + destruct (IH _ _ _ _ H) as (A & B & C & D). rewrite keyed_snoc, Hq in A. rewrite keyless_snoc, Hq, <- app_assoc in C.
        cbn. rewrite Hq. repeat split; auto. intros Hp. specialize (D Hp). cbn. lia.
  Qed.

  Lemma fill_loop_comm bv rm : forall recs un pk rm1 recs1 un1 eof,
    fill_loop o bv rm recs un = (pk, rm1, recs1, un1, eof) ->
    fill_loop o bv (keyed rm) recs (keyed un) = (pk, keyed rm1, recs1, keyed un1, eof)
    /\ okp pk /\ keyless un1 ++ keyless rm1 = keyless un ++ keyless rm.
  Proof.
    induction rm as [|q rm IH]; intros recs un pk rm1 recs1 un1 eof H; cbn [fill_loop] in H.
    - injection H as <- <- <- <- <-. cbn. repeat split; auto.
    - destruct (hk q) eqn:Hq.
      + cbn. rewrite Hq. cbn [fill_loop negb]. rewrite Hq.
        destruct (cmp_lex bv (vals_of o q)) eqn:Hc.
        * exact (IH _ _ _ _ _ _ _ H).
        * injection H as <- <- <- <- <-. cbn. repeat split; auto.
        * injection H as <- <- <- <- <-. cbn. repeat split; auto.
      + destruct (IH _ _ _ _ _ _ _ H) as (A & B & D). rewrite keyed_snoc, Hq in A. rewrite keyless_snoc, Hq, <- app_assoc in D.
        cbn. rewrite Hq. repeat split; auto.
  Qed.

  Lemma advance_comm rv fuel : forall fuel' p rm un p' rm' un' eof,
    (List.length rm < fuel)%nat -> (List.length (keyed rm) < fuel')%nat -> hk p = true ->
    advance fuel o rv p rm un = (p', rm', un', eof) ->
    advance fuel' o rv p (keyed rm) (keyed un) = (p', keyed rm', keyed un', eof)
    /\ okp p' /\ keyless un' ++ keyless rm' = keyless un ++ keyless rm.
  Proof.
    induction fuel as [|fuel IH]; intros fuel' p rm un p' rm' un' eof Hf Hf' Hp H; [lia|].
    destruct fuel' as [|fuel']; [lia|]. cbn [advance] in *.
    destruct (skip_keyless o rm (un ++ [p])) as [[q rm1] un1] eqn:S.
    destruct (skip_keyless_comm _ _ _ _ _ S) as (A & B & C & D).
    rewrite keyed_snoc, Hp in A. rewrite A. rewrite keyless_snoc, Hp in C.
    destruct q as [q|].
    - destruct (cmp_lex (vals_of o q) rv).
      + injection H as <- <- <- <-. repeat split; auto.
      + assert (L1 : (List.length rm1 < List.length rm)%nat) by (apply D; discriminate).
        assert (L2 : (List.length (keyed rm1) < List.length (keyed rm))%nat).
        { destruct (skip_keyless_comm _ _ _ _ _ A) as (_ & _ & _ & D'). apply D'. discriminate. }
        destruct (IH fuel' q rm1 un1 p' rm' un' eof ltac:(lia) ltac:(lia) B H) as (E & F & G).
        repeat split; auto. congruence.
      + injection H as <- <- <- <-. repeat split; auto.
    - injection H as <- <- <- <-. repeat split; auto.
  Qed.

  Definition proj (k : keeper) : keeper :=
    mkKeeper (peek k) (bvals k) (brecs k) (bpaired k) (keyed (lun k)) (keyed (rem k)) (leof k) (kstate k).
  (* bucket and peek record always have the join keys *)
  Definition KInv (k : keeper) : Prop := Forall (fun q => hk q = true) (brecs k) /\ okp (peek k).
  (* the key-less records the keeper holds, in file order *)
  Definition KL (k : keeper) : list record := keyless (lun k) ++ keyless (rem k).

  Definition Comm (k k1 : keeper) (f : keeper -> keeper) : Prop :=
    f (proj k) = proj k1 /\ KInv k1 /\ KL k1 = KL k.

  Lemma prepare_first_comm k : KInv k -> Comm k (prepare_first o k) (prepare_first o).
  Proof.
    intros [Hb Hp]. unfold Comm, prepare_first. cbn [rem lun proj].
    destruct (skip_keyless o (rem k) (lun k)) as [[p rm] un] eqn:S.
    destruct (skip_keyless_comm _ _ _ _ _ S) as (A & B & C & _). rewrite A.
    split; [destruct p; reflexivity|]. split; [split; assumption|exact C].
  Qed.

  Lemma fill_next_comm k : KInv k -> Comm k (fill_next o k) (fill_next o).
  Proof.
    intros [Hb Hp]. unfold Comm, fill_next. cbn [peek rem lun brecs proj].
    destruct (peek k) as [p|] eqn:Ep; [|split; [unfold proj; now rewrite Ep|split; [split; [exact Hb|now rewrite Ep]|reflexivity]]].
    destruct (fill_loop o (vals_of o p) (rem k) (brecs k ++ [p]) (lun k)) as [[[[pk rm] recs] un] eof] eqn:F.
    destruct (fill_loop_comm _ _ _ _ _ _ _ _ _ F) as (A & B & D). rewrite A.
    split; [destruct eof; reflexivity|]. split; [|exact D]. split; [|exact B].
    destruct (fill_loop_adds _ _ _ _ _ _ _ _ _ _ F) as (add & -> & Fa). cbn. rewrite !Forall_app.
    split; [split; [exact Hb|constructor; [exact Hp|constructor]]|]. eapply Forall_impl; [|exact Fa]. now intros q [Hq _].
  Qed.

  Lemma maybe_fill_comm k : KInv k -> Comm k (maybe_fill o k) (maybe_fill o).
  Proof.
    intros HK. unfold Comm, maybe_fill. change (peek (proj k)) with (peek k).
    destruct (peek k); [now apply fill_next_comm|repeat split; apply HK].
  Qed.

  Lemma release_keyed k : Forall (fun q => hk q = true) (brecs k) ->
    (if bpaired k then keyed (lun k) else keyed (lun k) ++ brecs k) = keyed (if bpaired k then lun k else lun k ++ brecs k)
    /\ keyless (if bpaired k then lun k else lun k ++ brecs k) = keyless (lun k).
  Proof.
    intros Hb. destruct (bpaired k); [split; reflexivity|].
    now rewrite keyed_app, keyless_app, (keyed_id _ Hb), (keyless_nil _ Hb), app_nil_r.
  Qed.

  Lemma prepare_new_comm rv k : KInv k -> Comm k (prepare_new o rv k) (prepare_new o rv).
  Proof.
    intros [Hb Hp]. unfold Comm, prepare_new. cbn [peek rem lun brecs bpaired leof kstate proj].
    destruct (release_keyed k Hb) as [-> Kun]. unfold KL.
    destruct (peek k) as [p|] eqn:Ep; [cbn in Hp; destruct (cmp_lex (vals_of o p) rv)|].
    2: { destruct (advance _ o rv p (rem k) _) as [[[p' rm'] un'] eof] eqn:A.
         destruct (advance_comm rv _ (S (List.length (keyed (rem k)))) _ _ _ _ _ _ _ (PeanoNat.Nat.lt_succ_diag_r _) (PeanoNat.Nat.lt_succ_diag_r _) Hp A)
           as (B & C & D).
         rewrite B. split; [now destruct eof|]. split; [split; [constructor|exact C]|]. cbn [lun rem]. now rewrite D, Kun. }
    all: split; [reflexivity|]; split; [split; [constructor|now rewrite ?Ep]|]; cbn [lun rem]; now rewrite Kun.
  Qed.

  Lemma mark_remaining_comm k : KInv k -> Comm k (mark_remaining k) mark_remaining.
  Proof.
    intros [Hb Hp]. unfold Comm, mark_remaining, KL, proj. cbn [peek rem lun brecs bpaired leof kstate bvals].
    destruct (release_keyed k Hb) as [-> Kun]. split; [|split; [split; [constructor|exact I]|]].
    - destruct (peek k) as [p|]; cbn in Hp; now rewrite keyed_app, ?keyed_snoc, ?Hp.
    - destruct (peek k) as [p|]; cbn in Hp; rewrite keyless_app, ?keyless_snoc, ?Hp, Kun; cbn; now rewrite !app_nil_r.
  Qed.

  Lemma set_state_proj k : set_state (proj k) = proj (set_state k). Proof. reflexivity. Qed.
  Lemma set_paired_proj k : set_paired (proj k) = proj (set_paired k). Proof. reflexivity. Qed.
  Lemma clear_lun_proj k : clear_lun (proj k) = proj (clear_lun k). Proof. reflexivity. Qed.

  Lemma Comm_trans k k1 k2 f g : Comm k k1 f -> Comm k1 k2 g -> Comm k k2 (fun x => g (f x)).
  Proof. intros (A & B & C) (D & E & F). split; [now rewrite A, D|]. split; [exact E|congruence]. Qed.

  Lemma block_comm k : KInv k -> Comm k (block o k) (block o).
  Proof.
    intros HK. unfold Comm, block. change (kstate (proj k)) with (kstate k).
    destruct (Nat.eqb (kstate k) 0); [|repeat split; apply HK].
    destruct (prepare_first_comm k HK) as (A & B & C). destruct (maybe_fill_comm _ B) as (D & E & F).
    rewrite A, D. split; [reflexivity|]. split; [exact E|]. change (KL (set_state ?x)) with (KL x). congruence.
  Qed.

  Lemma finish_comm rv k : KInv k ->
    finish rv (proj k) = (fst (finish rv k), proj (snd (finish rv k))) /\ KInv (snd (finish rv k)) /\ KL (snd (finish rv k)) = KL k.
  Proof.
    intros HK. unfold finish, paired_with. change (bucket_vs rv (proj k)) with (bucket_vs rv k).
    destruct (bucket_vs rv k); repeat split; apply HK.
  Qed.

  Lemma advance_or_stay_comm rv c k : KInv k ->
    Comm k (match c with Lt => maybe_fill o (prepare_new o rv k) | _ => k end)
           (fun x => match c with Lt => maybe_fill o (prepare_new o rv x) | _ => x end).
  Proof.
    intros HK. destruct c; [repeat split; apply HK| |repeat split; apply HK].
    pose proof (prepare_new_comm rv k HK) as C1. exact (Comm_trans _ _ _ _ _ C1 (maybe_fill_comm _ (proj1 (proj2 C1)))).
  Qed.

  Lemma fjb_comm rv k : Inv k -> KInv k ->
    find_join_bucket o rv (proj k) = (fst (find_join_bucket o rv k), proj (snd (find_join_bucket o rv k)))
    /\ KInv (snd (find_join_bucket o rv k)) /\ KL (snd (find_join_bucket o rv k)) = KL k.
  Proof.
    intros HI HK. destruct (block_comm k HK) as (A & K1 & L1). destruct rv as [rv|].
    - rewrite !fjb_Some, A by exact HI. change (bucket_vs rv (proj ?x)) with (bucket_vs rv x).
      destruct (advance_or_stay_comm rv (bucket_vs rv (block o k)) _ K1) as (B & K2 & L2). cbv beta in B. rewrite B.
      destruct (finish_comm rv _ K2) as (F & K3 & L3). rewrite F. split; [reflexivity|]. split; [exact K3|congruence].
    - rewrite !fjb_None, A. destruct (mark_remaining_comm _ K1) as (B & K2 & L2). rewrite B.
      split; [reflexivity|]. split; [exact K2|]. cbn [snd]. change (KL (set_state ?x)) with (KL x). congruence.
  Qed.

  Definition ulmap (l : list record) : list record := if ul o then map (unpaired_left o) l else [].
  Lemma ulmap_app a b : ulmap (a ++ b) = ulmap a ++ ulmap b.
  Proof. unfold ulmap. destruct (ul o); [apply map_app|reflexivity]. Qed.
  Lemma ulmap_perm a b : Permutation a b -> Permutation (ulmap a) (ulmap b).
  Proof. intros H. unfold ulmap. destruct (ul o); [now apply Permutation_map|constructor]. Qed.

  Lemma step_comm k r : Inv k -> KInv k ->
    exists rest k1,
      sorted_step o k r = (ulmap (lun k1) ++ rest, clear_lun k1)
      /\ sorted_step o (proj k) r = (ulmap (keyed (lun k1)) ++ rest, proj (clear_lun k1))
      /\ Inv k1 /\ KInv (clear_lun k1) /\ KL k1 = KL k.
  Proof.
    intros HI HK. unfold sorted_step, ulmap.
    destruct (key_of (ie o) (rj o) r) as [vs|].
    - destruct (fjb_comm (Some vs) k HI HK) as (A & B & C). rewrite A. pose proof (fjb_Inv o (Some vs) k HI) as HI1.
      destruct (find_join_bucket o (Some vs) k) as [b k1]. eexists _, k1. split; [reflexivity|]. split; [reflexivity|]. auto.
    - eexists _, k. split; [reflexivity|]. split; [reflexivity|]. auto.
  Qed.

  Theorem sorted_total_keyless right : forall k, Inv k -> KInv k ->
    Permutation (sorted_total o k right) (sorted_total o (proj k) right ++ ulmap (KL k)).
  Proof.
    induction right as [|r t IH]; intros k HI HK; cbn [sorted_total].
    - destruct (fjb_comm None k HI HK) as (A & B & C). rewrite A. cbn [snd].
      set (k1 := snd (find_join_bucket o None k)) in *. change (lun (proj k1)) with (keyed (lun k1)).
      fold (ulmap (lun k1)). fold (ulmap (keyed (lun k1))). rewrite <- ulmap_app. apply ulmap_perm.
      rewrite <- C. unfold KL. change (rem k1) with (@nil record). rewrite app_nil_r. apply keyed_keyless_perm.
    - destruct (step_comm k r HI HK) as (rest & k1 & A & B & HI1 & C & D). rewrite A, B. cbn [fst snd].
      rewrite (IH (clear_lun k1) HI1 C), <- D. change (KL k1) with (keyless (lun k1) ++ KL (clear_lun k1)).
      rewrite (ulmap_perm _ _ (keyed_keyless_perm (lun k1))), !ulmap_app, <- !app_assoc. apply Permutation_app_head.
      rewrite !app_assoc. apply Permutation_app_tail. rewrite <- app_assoc. apply Permutation_app_comm.
  Qed.
End Keyless.

Definition keyed_left (o : opts) (left : list record) : list record := filter (fun l => has_keys o (keep_left o l)) left.

Lemma lefts_keyed_left o left : lefts o (keyed_left o left) = keyed o (lefts o left).
Proof.
  unfold lefts, keyed_left, keyed. induction left as [|l left IH]; cbn; [reflexivity|].
  destruct (has_keys o (keep_left o l)); cbn; now rewrite IH.
Qed.

Lemma ingest_keyless o left : forall bs un,
  ingest o left bs un = (fst (ingest o (keyed_left o left) bs []), un ++ keyless o (lefts o left))
  /\ snd (ingest o (keyed_left o left) bs []) = [].
Proof.
  induction left as [|l left IH]; intros bs un; cbn [ingest keyed_left filter lefts map keyless].
  - cbn. now rewrite app_nil_r.
  - unfold has_keys. destruct (key_of (ie o) (lj o) (keep_left o l)) as [vs|] eqn:K; cbn [negb].
    + cbn [ingest]. rewrite K. apply IH.
    + destruct (IH bs (un ++ [keep_left o l])) as [A B]. rewrite A. split; [|exact B]. now rewrite <- app_assoc.
Qed.

Lemma join_unsorted_keyless o left right :
  join_unsorted o left right
  = join_unsorted o (keyed_left o left) right ++ ulmap o (keyless o (lefts o left)).
Proof.
  unfold join_unsorted. destruct (ingest_keyless o left [] []) as [A B]. rewrite A.
  destruct (ingest o (keyed_left o left) [] []) as [bs un] eqn:E. cbn [fst snd] in *. subst un.
  destruct (run_right o bs right) as [out bs']. unfold ulmap, left_unpaired_out. cbn [app].
  destruct (ul o); [|now rewrite !app_nil_r].
  rewrite app_nil_r, <- app_assoc. f_equal. now rewrite map_app.
Qed.

Lemma join_sorted_keyless o left right :
  Permutation (join_sorted o left right) (join_sorted o (keyed_left o left) right ++ ulmap o (keyless o (lefts o left))).
Proof.
  rewrite !join_sorted_total.
  assert (HK : KInv o (keeper0 o left)) by (split; [constructor|exact I]).
  rewrite (sorted_total_keyless o right _ (keeper0_Inv o left) HK).
  assert (E : proj o (keeper0 o left) = keeper0 o (keyed_left o left)).
  { unfold proj, keeper0. cbn. f_equal. symmetry. apply lefts_keyed_left. }
  rewrite E. unfold KL, keeper0. cbn [lun rem]. cbn [keyless filter app]. apply Permutation_refl.
Qed.

Theorem join_sorted_perm_unsorted_full o left right :
  List.length (lj o) = List.length (rj o) ->
  left_sorted o (keyed o (lefts o left)) ->
  ROK o (keyed o (lefts o left)) right ->
  Permutation (join_sorted o left right) (join_unsorted o left right).
Proof.
  intros Hn Hs HR. rewrite join_unsorted_keyless.
  eapply Permutation_trans; [apply join_sorted_keyless|]. apply Permutation_app_tail.
  rewrite <- lefts_keyed_left in Hs, HR.
  apply join_sorted_perm_unsorted; auto.
  intros l Hl. rewrite lefts_keyed_left in Hl. apply filter_In in Hl. tauto.
Qed.

Corollary join_sorted_perm_unsorted_full_single o left right :
  List.length (lj o) = 1%nat -> List.length (rj o) = 1%nat ->
  left_sorted o (keyed o (lefts o left)) ->
  StronglySorted (rle o) right ->
  Permutation (join_sorted o left right) (join_unsorted o left right).
Proof.
  intros H1 H2 Hs HR. apply join_sorted_perm_unsorted_full; auto; [congruence|].
  split; [exact HR|]. apply inj_on_single; auto.
  intros l Hl. apply filter_In in Hl. tauto.
Qed.

(* without the key-identification condition the two modes differ (the default mode buckets by the comma-joined text) *)
Lemma sorted_vs_unsorted_comma_witness :
  exists o left right,
    List.length (lj o) = List.length (rj o) /\ left_sorted o (keyed o (lefts o left)) /\ StronglySorted (rle o) right
    /\ ~ Permutation (join_sorted o left right) (join_unsorted o left right).
Proof.
  exists (mkOpts [B "j"; B "j2"] [B "j"; B "j2"] [B "j"; B "j2"] [] [] None false true true false),
         [[(B "j", B "x,y"); (B "j2", B "z"); (B "l", B "1")]], [[(B "j", B "x"); (B "j2", B "y,z"); (B "r", B "2")]].
  split; [reflexivity|]. split.
  { (* one record is sorted under any relation; taken as a variable, the relation stays out of the evaluation *)
    unfold left_sorted. match goal with |- StronglySorted ?R _ => generalize R end.
    intros R. vm_compute. repeat constructor. }
  split; [repeat constructor|].
  intros H. apply Permutation_length in H. vm_compute in H. discriminate.
Qed.

Lemma keyless_both_modes o left right :
  Permutation (join_sorted o left right) (join_sorted o (keyed_left o left) right ++ ulmap o (keyless o (lefts o left)))
  /\ join_unsorted o left right = join_unsorted o (keyed_left o left) right ++ ulmap o (keyless o (lefts o left)).
Proof. split; [apply join_sorted_keyless|apply join_unsorted_keyless]. Qed.
