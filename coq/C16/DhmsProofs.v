(* C16: dhms2sec (sec2dhms n) = n and hms2sec (sec2hms n) = n for EVERY int64 n (incl. -2^63: the magnitude is split as uint64) *)
From Miller Require Import Base.Bytes C16.Model C16.TextProofs.
Open Scope char_scope.
Open Scope Z_scope.

Lemma int64_lt_BIG v : 0 <= v <= MAX64 -> 0 <= v < BIG.
Proof. assert (MAX64 < BIG) by (vm_compute; reflexivity). lia. Qed.

(* a number text starts with a digit, which Sscanf %d and the parsers do not take for a sign *)
Lemma numtext_head t v : numtext t v -> exists c t', t = c :: t' /\ Ascii.eqb c "-" = false /\ Ascii.eqb c "+" = false.
Proof.
  intros (Hne & Hd & _). destruct t as [|c t']; [congruence|]. cbn [forallb] in Hd. apply andb_true_iff in Hd.
  exists c, t'. split; [reflexivity|].
  split; [destruct (Ascii.eqb_spec c "-") as [->|] | destruct (Ascii.eqb_spec c "+") as [->|]]; (now destruct Hd) || reflexivity.
Qed.

Lemma in64_range v : in64 v = true <-> MIN64 <= v <= MAX64.
Proof. unfold in64. rewrite andb_true_iff, !Z.leb_le. tauto. Qed.

(* Sscanf %d reads a number text up to the end or to the first byte that is not a digit *)
Lemma scan_int_numtext t v rest :
  numtext t v -> MIN64 <= v <= MAX64 -> stops rest -> scan_int (t ++ rest) = Some (v, rest).
Proof.
  intros Hn Hin Hr. destruct (numtext_head t v Hn) as (c & t' & -> & E1 & E2). destruct Hn as (_ & Hd & Hv).
  unfold scan_int. cbn [app]. rewrite E1, E2.
  change (c :: t' ++ rest) with ((c :: t') ++ rest). rewrite (span_digits_app _ _ Hd Hr).
  cbv beta iota zeta. rewrite Hv, (proj2 (in64_range v) Hin). reflexivity.
Qed.

(* the text of sec2dhms: a list of components (number text, its value, unit letter, seconds per unit) *)
Definition units : list (ascii * Z) := [("d", 86400); ("h", 3600); ("m", 60); ("s", 1)].
Definition comp := (bytes * Z * ascii * Z)%type.
Definition good (c : comp) : Prop :=
  let '(t, v, u, k) := c in numtext t v /\ 0 <= v <= MAX64 /\ In (u, k) units.
Fixpoint flat (L : list comp) : bytes :=
  match L with [] => [] | (t, _, u, _) :: r => t ++ u :: flat r end.
Fixpoint total (L : list comp) : Z :=
  match L with [] => 0 | (_, v, _, k) :: r => v * k + total r end.

Lemma wrap64_small z : 0 <= z <= MAX64 -> wrap64 z = z.
Proof. intros H. apply wrap64_id. unfold MIN64, MAX64 in *. lia. Qed.

(* removes every wrap64 whose argument lia can place in 0..MAX64, innermost first *)
Ltac unwrap := repeat match goal with |- context [wrap64 ?z] => rewrite (wrap64_small z) by (unfold MAX64 in *; lia) end.

Lemma total_nonneg L : Forall good L -> 0 <= total L.
Proof.
  induction 1 as [|[[[t v] u] k] r (_ & Hv & Hu) _ IH]; cbn [total]; [lia|].
  destruct Hu as [[= <- <-]|[[= <- <-]|[[= <- <-]|[[= <- <-]|[]]]]]; lia.
Qed.

(* while the running sum stays within int64 the wrapping additions of the parser are exact *)
Lemma dhms_loop_flat L : Forall good L -> forall fuel acc, (List.length L <= fuel)%nat ->
  0 <= acc -> acc + total L <= MAX64 -> dhms_loop fuel (flat L) acc = Some (acc + total L).
Proof.
  induction 1 as [|[[[t v] u] k] r (Hn & Hv & Hu) Hr IH]; intros fuel acc Hf Ha Hs; cbn [flat total] in *.
  - rewrite Z.add_0_r. destruct fuel; reflexivity.
  - destruct fuel as [|f]; [cbn in Hf; lia|]. cbn [List.length] in Hf. pose proof (total_nonneg r Hr) as Hp.
    pose proof Hn as (Hne & _ & _). destruct t as [|c t']; [congruence|].
    cbn [app dhms_loop]. change (c :: t' ++ u :: flat r) with ((c :: t') ++ u :: flat r).
    destruct Hu as [[= <- <-]|[[= <- <-]|[[= <- <-]|[[= <- <-]|[]]]]];
      rewrite (scan_int_numtext _ v) by (exact Hn || reflexivity || (unfold MIN64, MAX64 in *; lia)); eval_eqb; cbv beta iota;
      unwrap; rewrite (IH f) by lia; f_equal; lia.
Qed.

Lemma flat_length L : Forall good L -> (List.length L <= List.length (flat L))%nat.
Proof.
  induction 1 as [|[[[t v] u] k] r _ _ IH]; cbn [flat List.length]; [lia|]. rewrite app_length. cbn [List.length]. lia.
Qed.

Lemma dhms2sec_flat (neg : bool) L : Forall good L -> L <> [] -> total L <= MAX64 ->
  dhms2sec ((if neg then ["-"] else []) ++ flat L) = Some (if neg then - total L else total L).
Proof.
  intros HL Hne Ht. pose proof (flat_length L HL) as Hlen. pose proof (total_nonneg L HL) as Hp. unfold dhms2sec.
  destruct neg; cbn [app].
  - eval_eqb. cbv beta iota. rewrite (dhms_loop_flat L HL) by (cbn [List.length]; lia).
    cbn [Z.add]. f_equal. apply wrap64_id. unfold MIN64, MAX64 in *. lia.
  - destruct L as [|[[[t v] u] k] r]; [congruence|]. pose proof (Forall_inv HL) as (Hn & _).
    destruct (numtext_head t v Hn) as (c & t' & -> & E1 & _). cbn [flat app] in *. rewrite E1.
    change (c :: t' ++ u :: flat r) with (flat ((c :: t', v, u, k) :: r)) in *.
    now rewrite (dhms_loop_flat _ HL) by lia.
Qed.

(* splitIntToDHMS / splitMagnitudeToDHMS on every magnitude up to 2^63 *)
Lemma split_dhms_spec n :
  MIN64 <= n <= MAX64 + 1 ->
  let u := Z.abs n in let sg := if n <? 0 then -1 else 1 in
  let s := u mod 60 in let u1 := u / 60 in let m := u1 mod 60 in let u2 := u1 / 60 in
  let h := u2 mod 24 in let u3 := u2 / 24 in
  split_dhms n = if u1 =? 0 then (0, 0, 0, s * sg) else if u2 =? 0 then (0, 0, m * sg, s)
                 else if u3 =? 0 then (0, h * sg, m, s) else (u3 * sg, h, m, s).
Proof.
  intros Hn u sg s u1 m u2 h u3. unfold split_dhms. cbv zeta. fold u sg.
  assert (Hu : 0 <= u <= MAX64 + 1) by (unfold u, MIN64, MAX64 in *; lia).
  rewrite (Z.rem_mod_nonneg u 60), (Z.quot_div_nonneg u 60) by lia. fold s u1.
  rewrite (Z.rem_mod_nonneg u1 60), (Z.quot_div_nonneg u1 60) by (unfold u1; Z.div_mod_to_equations; lia). fold m u2.
  rewrite (Z.rem_mod_nonneg u2 24), (Z.quot_div_nonneg u2 24) by (unfold u2, u1; Z.div_mod_to_equations; lia). fold h u3.
  assert (W : forall x, 0 <= x <= MAX64 -> wrap64 (x * sg) = x * sg)
    by (intros x Hx; apply wrap64_id; unfold sg, MIN64, MAX64 in *; destruct (n <? 0); lia).
  rewrite !W by (unfold s, m, h, u3, u2, u1, MAX64 in *; Z.div_mod_to_equations; lia). reflexivity.
Qed.

(* the component that carries the sign is the leading one, and it is not zero when the number is negative *)
Lemma dec_signed x (neg : bool) : 0 <= x -> (neg = true -> 0 < x) ->
  dec (x * (if neg then -1 else 1)) = (if neg then ["-"] else []) ++ dec_nn x.
Proof.
  intros Hx Hn. unfold dec. destruct neg.
  - specialize (Hn eq_refl). destruct (Z.ltb_spec (x * -1) 0); [|lia]. cbn [app]. do 2 f_equal. lia.
  - rewrite Z.mul_1_r. destruct (Z.ltb_spec x 0); [lia|reflexivity].
Qed.

Ltac goods :=
  repeat (apply Forall_cons; [split; [first [apply numtext_dec_nn | apply numtext_padnn]; apply int64_lt_BIG|split; [|cbn; auto 6]]; unfold MAX64 in *; lia |]);
  apply Forall_nil.

Lemma sec2dhms_text n : MIN64 < n <= MAX64 ->
  exists L, Forall good L /\ L <> [] /\ total L = Z.abs n /\ sec2dhms n = (if n <? 0 then ["-"] else []) ++ flat L.
Proof.
  intros Hn. unfold sec2dhms. rewrite (split_dhms_spec n ltac:(unfold MIN64, MAX64 in *; lia)). cbv zeta.
  set (u := Z.abs n). set (neg := n <? 0).
  assert (Hu : 0 <= u <= MAX64) by (unfold u, MIN64, MAX64 in *; lia).
  assert (Hneg : neg = false \/ 0 < u) by (unfold neg, u; destruct (Z.ltb_spec n 0); [right; lia|now left]).
  clearbody u neg.
  set (s := u mod 60). set (u1 := u / 60). set (m := u1 mod 60). set (u2 := u1 / 60). set (h := u2 mod 24). set (u3 := u2 / 24).
  assert (R : u = u1 * 60 + s /\ u1 = u2 * 60 + m /\ u2 = u3 * 24 + h /\ 0 <= s < 60 /\ 0 <= m < 60 /\ 0 <= h < 24 /\ 0 <= u3)
    by (unfold s, m, h, u1, u2, u3; Z.div_mod_to_equations; lia).
  clearbody s m h u1 u2 u3.
  assert (Z0 : forall x, x <> 0 -> negb (x * (if neg then -1 else 1) =? 0) = true)
    by (intros x Hx; apply negb_true_iff, Z.eqb_neq; destruct neg; lia).
  exists (if u1 =? 0 then [(dec_nn s, s, "s", 1)]
          else if u2 =? 0 then [(dec_nn m, m, "m", 60); (padnn 2 s, s, "s", 1)]
          else if u3 =? 0 then [(dec_nn h, h, "h", 3600); (padnn 2 m, m, "m", 60); (padnn 2 s, s, "s", 1)]
          else [(dec_nn u3, u3, "d", 86400); (padnn 2 h, h, "h", 3600); (padnn 2 m, m, "m", 60); (padnn 2 s, s, "s", 1)]).
  destruct (Z.eqb_spec u1 0) as [Z1|Z1]; [|destruct (Z.eqb_spec u2 0) as [Z2|Z2]; [|destruct (Z.eqb_spec u3 0) as [Z3|Z3]]];
    cbn [Z.eqb negb]; rewrite ?Z0 by lia; rewrite dec_signed, ?padz_nonneg by (intros; destruct Hneg; (congruence || lia));
    rewrite <- app_assoc; (split; [goods|]); (split; [discriminate|]); (split; [cbn; lia|reflexivity]).
Qed.

Lemma dhms_roundtrip_minint64 : dhms2sec (sec2dhms MIN64) = Some MIN64 /\ hms2sec (sec2hms MIN64) = Some MIN64.
Proof. vm_compute. split; reflexivity. Qed.

Theorem dhms_roundtrip n : MIN64 <= n <= MAX64 -> dhms2sec (sec2dhms n) = Some n.
Proof.
  intros Hn. destruct (Z.eq_dec n MIN64) as [->|Hne]; [exact (proj1 dhms_roundtrip_minint64)|].
  destruct (sec2dhms_text n ltac:(lia)) as (L & HL & Hnil & Ht & ->).
  rewrite (dhms2sec_flat _ L HL Hnil) by (unfold MIN64, MAX64 in *; lia).
  f_equal. destruct (Z.ltb_spec n 0); lia.
Qed.

Lemma scan3_text Th Tm Ts h m s rest :
  numtext Th h -> numtext Tm m -> numtext Ts s ->
  MIN64 <= h <= MAX64 -> MIN64 <= m <= MAX64 -> MIN64 <= s <= MAX64 -> stops rest ->
  scan3 (Th ++ ":" :: Tm ++ ":" :: Ts ++ rest) = Some (h, m, s).
Proof.
  intros Hh Hm Hs Ih Im Is Hr. unfold scan3.
  rewrite (scan_int_numtext _ _ (":" :: _) Hh Ih eq_refl). eval_eqb. cbv beta iota.
  rewrite (scan_int_numtext _ _ (":" :: _) Hm Im eq_refl). eval_eqb. cbv beta iota.
  now rewrite (scan_int_numtext _ _ _ Hs Is Hr).
Qed.

Lemma split_hms u :
  0 <= u <= MAX64 ->
  let '(d, h, m, s) := split_dhms u in
  wrap64 (h + wrap64 (d * 24)) = u / 3600 /\ m = (u / 60) mod 60 /\ s = u mod 60.
Proof.
  intros Hu. rewrite (split_dhms_spec u ltac:(unfold MIN64, MAX64 in *; lia)). cbv zeta. rewrite Z.abs_eq by lia.
  destruct (Z.ltb_spec u 0); [lia|]. rewrite !Z.mul_1_r.
  destruct (Z.eqb_spec (u / 60) 0); [|destruct (Z.eqb_spec (u / 60 / 60) 0); [|destruct (Z.eqb_spec (u / 60 / 60 / 24) 0)]];
    rewrite (wrap64_small (_ * 24)) by (unfold MAX64 in *; Z.div_mod_to_equations; lia);
    rewrite wrap64_small by (unfold MAX64 in *; Z.div_mod_to_equations; lia);
    unfold MAX64 in *; repeat split; Z.div_mod_to_equations; lia.
Qed.

Lemma hms_total_small u :
  0 <= u <= MAX64 -> hms_total (u / 3600) ((u / 60) mod 60) (u mod 60) = u.
Proof.
  intros Hu. unfold hms_total.
  assert (0 <= u / 3600 /\ u / 3600 * 3600 <= u) by (Z.div_mod_to_equations; lia).
  assert (0 <= (u / 60) mod 60 < 60) by (apply Z.mod_pos_bound; lia).
  assert (0 <= u mod 60 < 60) by (apply Z.mod_pos_bound; lia).
  assert (E : u mod 60 + ((u / 60) mod 60 * 60 + u / 3600 * 60 * 60) = u) by (Z.div_mod_to_equations; lia).
  unwrap. exact E.
Qed.

Theorem hms_roundtrip n : MIN64 <= n <= MAX64 -> hms2sec (sec2hms n) = Some n.
Proof.
  intros Hn. destruct (Z.eq_dec n MIN64) as [->|Hne]; [exact (proj2 dhms_roundtrip_minint64)|].
  unfold sec2hms. set (u := Z.abs n).
  assert (Hu : 0 <= u <= MAX64) by (unfold u, MIN64, MAX64 in *; lia).
  assert (Eu : u = Z.abs n) by reflexivity. clearbody u.
  pose proof (split_hms u Hu) as Hs. destruct (split_dhms u) as [[[d h] m] s]. destruct Hs as (-> & -> & ->).
  assert (Rh : 0 <= u / 3600 <= MAX64) by (unfold MAX64 in *; Z.div_mod_to_equations; lia).
  assert (Rm : 0 <= (u / 60) mod 60 < 60) by (apply Z.mod_pos_bound; lia).
  assert (Rs : 0 <= u mod 60 < 60) by (apply Z.mod_pos_bound; lia).
  rewrite !padz_nonneg by lia.
  assert (N : forall x, 0 <= x <= MAX64 -> numtext (padnn 2 x) x /\ MIN64 <= x <= MAX64)
    by (intros x Hx; split; [now apply numtext_padnn, int64_lt_BIG | unfold MIN64, MAX64 in *; lia]).
  destruct (N (u / 3600) Rh) as [N1 I1], (N ((u / 60) mod 60)) as [N2 I2], (N (u mod 60)) as [N3 I3]; try (unfold MAX64; lia).
  pose proof (scan3_text _ _ _ _ _ _ [] N1 N2 N3 I1 I2 I3 I) as S3.
  rewrite app_nil_r in S3. unfold hms2sec.
  destruct (Z.ltb_spec n 0) as [Hneg|Hpos]; cbn [app].
  - eval_eqb. cbv beta iota. rewrite S3, hms_total_small by lia.
    rewrite wrap64_id by (unfold MIN64, MAX64 in *; lia). f_equal. lia.
  - destruct (numtext_head _ _ N1) as (c & t' & E & E1 & _). rewrite E in *.
    cbn [app] in *. rewrite E1, S3, hms_total_small by lia. f_equal. lia.
Qed.
