(* C16: the local-time round trip THROUGH THE TEXT: sec2localtime prints the wall clock of the zone, localtime2sec
   parses that text (strptime, format "%Y-%m-%d %H:%M:%S") and resolves it in the zone (time.Date rules).
   General theorem for any well-formed transition table; the behaviour in every overlap and gap, also for any
   well-formed table, applied to the regenerated zone tables. *)
From Miller Require Import Base.Bytes C16.Model C16.Format C16.CivilProofs C16.TextProofs C16.Proofs C16.FormatProofs C16.GmtProofs C16.ZoneProofs gen.Gen_Zones C16.VerbProofs.
Open Scope char_scope.
Open Scope Z_scope.

Theorem localtime2sec_sec2localtime z t ns k :
  wf_ztable z = true -> ALPHA + ZD <= t -> t <= OMEGA - ZD -> LO <= to_local z t <= HI ->
  0 <= ns < 1000000000 -> (k <= 9)%nat -> unambiguous_at z t ->
  localtime2sec z (fmt_time true (to_local z t) ns (Z.of_nat k)) = Some t.
Proof.
  intros Hwf H1 H2 HL Hns Hk Hun. rewrite localtime2sec_fmt_time by assumption. f_equal. now apply of_local_to_local.
Qed.

Corollary localtime2sec_sec2localtime_int z t :
  wf_ztable z = true -> ALPHA + ZD <= t -> t <= OMEGA - ZD -> LO <= to_local z t <= HI -> unambiguous_at z t ->
  localtime2sec z (sec2localtime_int z t 0) = Some t.
Proof.
  intros Hwf H1 H2 HL Hun. unfold sec2localtime_int.
  exact (localtime2sec_sec2localtime z t 0 0%nat Hwf H1 H2 HL ltac:(lia) ltac:(lia) Hun).
Qed.

Corollary localtime2gmt_sec2localtime z t :
  wf_ztable z = true -> ALPHA + ZD <= t -> t <= OMEGA - ZD -> LO <= to_local z t <= HI -> unambiguous_at z t ->
  localtime2gmt z (sec2localtime_int z t 0) = Some (sec2gmt_int t 0).
Proof. intros Hwf H1 H2 HL Hun. unfold localtime2gmt. now rewrite localtime2sec_sec2localtime_int. Qed.

Corollary gmt2localtime_sec2gmt z t : LO <= t <= HI -> gmt2localtime z (sec2gmt_int t 0) = Some (sec2localtime_int z t 0).
Proof. intros Ht. unfold gmt2localtime. now rewrite gmt2sec_exact_sec2gmt. Qed.

(* Overlaps and gaps of the regenerated tables.
   At a transition (s, o2) after offset o1 the wall-clock readings in [s + min o1 o2, s + max o1 o2) are
   - shown twice when o2 < o1 (overlap): localtime2sec must return one of the two instants that display that reading;
     which one is recorded: the instant under the offset in force at "reading taken as UTC" (Go's first lookup) --
     for zones east of Greenwich that is the LATER instant (new offset), west of Greenwich the EARLIER one;
   - never shown when o2 > o1 (gap): Go normalises to reading - o1 or reading - o2 (an instant whose display is the
     reading shifted by the size of the gap). *)
Definition resolve_ok (z : ztable) (s o1 o2 w : Z) : bool :=
  let r := of_local z w in
  if o2 <? o1 then
    (* overlap: a genuine preimage, chosen by the offset found at w read as UTC *)
    (to_local z r =? w) && ((r =? w - o1) || (r =? w - o2)) &&
    (r =? w - (if (s <=? w) then o2 else o1))
  else
    (* gap: no preimage; the reading is shifted by the gap in one direction or the other *)
    ((r =? w - o1) || (r =? w - o2)) && negb (to_local z r =? w) &&
    ((to_local z r =? w + (o2 - o1)) || (to_local z r =? w - (o2 - o1))).

Fixpoint transitions_ok (z : ztable) (o1 : Z) (tr : list (Z * Z)) : bool :=
  match tr with
  | [] => true
  | (s, o2) :: rest =>
      let lo := s + Z.min o1 o2 in
      let hi := s + Z.max o1 o2 in
      forallb (resolve_ok z s o1 o2) [lo; lo + 1; (lo + hi) / 2; hi - 1] && transitions_ok z o2 rest
  end.
Definition zone_transitions_ok (z : ztable) : bool := transitions_ok z (z_base z) (z_trans z).

(* Every reading w of the window of a transition from period p to period q (well-formed table, offsets differ) is
   resolved as resolve_ok demands.  Overlap: w and w - offset stay in one period, p before the transition instant
   and q from it on.  Gap: w minus the offset of its period falls into the other period, whose offset is then taken. *)
Lemma resolve_ok_window z p q w :
  wf_ztable z = true -> In p (zones z) -> In q (zones z) -> ze p = zs q -> zo p <> zo q ->
  zs q + Z.min (zo p) (zo q) <= w < zs q + Z.max (zo p) (zo q) ->
  resolve_ok z (zs q) (zo p) (zo q) w = true.
Proof.
  intros Hwf Hp Hq A N Hw. pose proof (zone_facts z Hwf p Hp) as Fp. pose proof (zone_facts z Hwf q Hq) as Fq.
  assert (T : forall x u, In x (zones z) -> zs x <= u < ze x -> to_local z u = u + zo x)
    by (intros x u Hx Hu; unfold to_local; now rewrite (offset_at_in z Hwf x u Hx Hu)).
  unfold resolve_ok, ZD, ZK in *. cbv zeta.
  destruct (Z.ltb_spec (zo q) (zo p)) as [O|O]; destruct (Z.leb_spec (zs q) w) as [S|S];
    [ rewrite (of_local_stay z Hwf q w), (T q) | rewrite (of_local_stay z Hwf p w), (T p)
    | rewrite (of_local_cross z Hwf q p w), (T q) | rewrite (of_local_cross z Hwf p q w), (T p) ];
    try (assumption || lia);
    rewrite ?andb_true_iff, ?orb_true_iff, ?negb_true_iff, ?Z.eqb_eq, ?Z.eqb_neq; lia.
Qed.

(* consecutive offsets differ by at least 2 s, so that the four probes of a transition lie inside its window *)
Fixpoint steps_ok (o1 : Z) (tr : list (Z * Z)) : bool :=
  match tr with
  | [] => true
  | (_, o2) :: rest => (2 <=? Z.abs (o2 - o1)) && steps_ok o2 rest
  end.

Lemma transitions_ok_wf z : wf_ztable z = true ->
  forall tr cs co, incl (zones_from cs co tr) (zones z) -> steps_ok co tr = true -> transitions_ok z co tr = true.
Proof.
  intros Hwf. induction tr as [|[s o2] rest IH]; intros cs o1 Hin Hs; [reflexivity|].
  cbn [transitions_ok steps_ok zones_from] in *. apply andb_true_iff in Hs. destruct Hs as [Hs Hs']. apply Z.leb_le in Hs.
  (* the two periods that meet at s *)
  assert (Hp : In (o1, cs, s) (zones z)) by (apply Hin; now left).
  assert (Hq : exists e, In (o2, s, e) (zones z)) by (destruct rest as [|[] ?]; eexists; apply Hin; right; now left).
  destruct Hq as [e Hq].
  apply andb_true_iff. split; [|apply (IH s o2); [intros x Hx; apply Hin; now right | exact Hs']].
  apply forallb_forall. intros w Hw. cbn [In] in Hw.
  apply (resolve_ok_window z (o1, cs, s) (o2, s, e) w Hwf Hp Hq eq_refl); unfold zo, zs; cbn [fst snd];
    [|Z.div_mod_to_equations]; lia.
Qed.

Lemma gen_zones_steps : forallb (fun z => steps_ok (z_base z) (z_trans z)) gen_zones = true.
Proof. vm_compute. reflexivity. Qed.

Lemma gen_zones_transitions_ok : forallb zone_transitions_ok gen_zones = true.
Proof.
  apply forallb_forall. intros z Hz. apply (transitions_ok_wf z (proj1 (gen_zones_in z Hz)) _ ALPHA); [exact (fun x Hx => Hx)|].
  exact (proj1 (forallb_forall _ _) gen_zones_steps z Hz).
Qed.

(* through the text, at the first and last second of every overlap/gap: the text of the wall-clock reading parses *)
Definition text_resolve_ok (z : ztable) (w : Z) : bool :=
  match localtime2sec z (fmt_time true w 0 0) with Some r => r =? of_local z w | None => false end.
Fixpoint transitions_text_ok (z : ztable) (o1 : Z) (tr : list (Z * Z)) : bool :=
  match tr with
  | [] => true
  | (s, o2) :: rest =>
      forallb (text_resolve_ok z) [s + Z.min o1 o2; s + Z.max o1 o2 - 1] && transitions_text_ok z o2 rest
  end.

Lemma text_resolve_ok_range z w : LO <= w <= HI -> text_resolve_ok z w = true.
Proof.
  intros Hw. unfold text_resolve_ok.
  rewrite (localtime2sec_fmt_time z w 0 0 Hw ltac:(lia) ltac:(lia) : localtime2sec z (fmt_time true w 0 0) = _).
  apply Z.eqb_refl.
Qed.

Lemma transitions_text_ok_wf z tr : forall cs co, wf_from cs co tr = true ->
  (forall x, In x tr -> LO + ZK < fst x <= HI - ZK) -> transitions_text_ok z co tr = true.
Proof.
  induction tr as [|[s o2] rest IH]; intros cs o1 Hwf Hb; [reflexivity|].
  apply wf_from_cons in Hwf. destruct Hwf as (H1 & _ & Hwf). pose proof (Hb _ (or_introl eq_refl)) as Hs. cbn [fst] in Hs.
  assert (H2 : Z.abs o2 <= ZK) by (destruct rest as [|[] ?]; [cbn [wf_from] in Hwf; rewrite andb_true_iff, Z.leb_le in Hwf|apply wf_from_cons in Hwf]; tauto).
  cbn [transitions_text_ok forallb]. rewrite !text_resolve_ok_range by lia. cbn [andb].
  apply (IH s o2 Hwf). intros x Hx. apply Hb. now right.
Qed.

Lemma gen_zones_transitions_text_ok : forallb (fun z => transitions_text_ok z (z_base z) (z_trans z)) gen_zones = true.
Proof.
  apply forallb_forall. intros z Hz. destruct (gen_zones_in z Hz) as [Hwf Hb].
  exact (transitions_text_ok_wf z _ ALPHA _ Hwf (fun x => trans_within_spec z x Hb)).
Qed.
