From Miller Require Import Base.Bytes C16.Model C16.CivilProofs C16.Datediff.
Open Scope Z_scope.

Lemma dnorm_civil z : let '(y, m, d) := civil_of_days z in dnorm y m d = z.
Proof.
  pose proof (days_of_civil_of_days z) as H. destruct (civil_of_days z) as [[y m] d]. destruct H as [Hv H].
  unfold dnorm. unfold valid_date in Hv. repeat (apply andb_true_iff in Hv; destruct Hv as [Hv ?]).
  repeat match goal with H : (_ <=? _) = true |- _ => apply Z.leb_le in H end.
  destruct (Z.eqb_spec m 0); [lia|exact H].
Qed.

Lemma datediff_core_d a b : datediff_core a b UD = b / 86400 - a / 86400.
Proof.
  unfold datediff_core, civil_days_between.
  pose proof (dnorm_civil (a / 86400)) as Ha. pose proof (dnorm_civil (b / 86400)) as Hb.
  destruct (civil_of_days (a / 86400)) as [[y1 m1] d1]. destruct (civil_of_days (b / 86400)) as [[y2 m2] d2]. lia.
Qed.

(* datediff(a, b, "d") is the difference of the civil day numbers, whatever the order of a and b *)
Lemma datediff_d a b : datediff a b UD = b / 86400 - a / 86400.
Proof. unfold datediff. destruct (b <? a); rewrite !datediff_core_d; lia. Qed.

Lemma datediff_d_dates y1 m1 d1 y2 m2 d2 s1 s2 :
  valid_date y1 m1 d1 = true -> valid_date y2 m2 d2 = true -> 0 <= s1 < 86400 -> 0 <= s2 < 86400 ->
  datediff (days_of_civil y1 m1 d1 * 86400 + s1) (days_of_civil y2 m2 d2 * 86400 + s2) UD
  = days_of_civil y2 m2 d2 - days_of_civil y1 m1 d1.
Proof.
  intros _ _ H1 H2. rewrite datediff_d.
  replace ((days_of_civil y2 m2 d2 * 86400 + s2) / 86400) with (days_of_civil y2 m2 d2) by (Z.div_mod_to_equations; lia).
  replace ((days_of_civil y1 m1 d1 * 86400 + s1) / 86400) with (days_of_civil y1 m1 d1) by (Z.div_mod_to_equations; lia).
  reflexivity.
Qed.

Lemma datediff_antisym a b u : a < b -> datediff b a u = - datediff a b u.
Proof.
  intros H. unfold datediff. destruct (Z.ltb_spec a b); [|lia]. destruct (Z.ltb_spec b a); [lia|]. reflexivity.
Qed.

Lemma datediff_ym_decomposition a b : datediff a b UM = 12 * datediff a b UY + datediff a b UYM.
Proof.
  unfold datediff. destruct (b <? a); unfold datediff_core;
    destruct (civil_of_days _) as [[y1 m1] d1]; destruct (civil_of_days _) as [[y2 m2] d2]; lia.
Qed.
