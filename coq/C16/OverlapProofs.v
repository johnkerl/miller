(* C16: the local-time round trip at ALL instants, overlap hours included (general lemma over any well-formed
   transition table, every reading -- not per regenerated table).  Go's time.Date resolution (of_local) applied to the
   wall-clock reading of ANY instant t returns an instant r that shows the SAME wall-clock reading; hence r = t
   whenever the reading is unambiguous, and in an overlap r is t or the other instant with that reading:
   r = t + (offset_at t - offset_at r). *)
From Miller Require Import Base.Bytes C16.Model C16.Format C16.CivilProofs C16.TextProofs C16.Proofs C16.FormatProofs C16.GmtProofs C16.ZoneProofs.
Open Scope Z_scope.

Theorem to_local_of_local_to_local z t :
  wf_ztable z = true -> ALPHA + ZD <= t -> t <= OMEGA - ZD ->
  to_local z (of_local z (to_local z t)) = to_local z t.
Proof.
  intros Hwf Hlo Hhi. destruct (of_local_shows z Hwf t Hlo Hhi) as (p & Hp & E & R).
  rewrite E. unfold to_local at 1. rewrite (offset_at_in z Hwf p _ Hp R). lia.
Qed.

Corollary of_local_to_local_all z t :
  wf_ztable z = true -> ALPHA + ZD <= t -> t <= OMEGA - ZD ->
  let r := of_local z (to_local z t) in r = t + (offset_at z t - offset_at z r).
Proof. intros Hwf H1 H2 r. pose proof (to_local_of_local_to_local z t Hwf H1 H2) as E. fold r in E. unfold to_local in E. lia. Qed.

Theorem localtime2sec_sec2localtime_all z t ns k :
  wf_ztable z = true -> ALPHA + ZD <= t -> t <= OMEGA - ZD -> LO <= to_local z t <= HI ->
  0 <= ns < 1000000000 -> (k <= 9)%nat ->
  exists r, localtime2sec z (fmt_time true (to_local z t) ns (Z.of_nat k)) = Some r /\
            to_local z r = to_local z t /\ r = t + (offset_at z t - offset_at z r) /\
            sec2localtime_int z r 0 = sec2localtime_int z t 0.
Proof.
  intros Hwf H1 H2 HL Hns Hk. exists (of_local z (to_local z t)).
  pose proof (to_local_of_local_to_local z t Hwf H1 H2) as E.
  repeat split; [now apply localtime2sec_fmt_time | exact E | exact (of_local_to_local_all z t Hwf H1 H2) |].
  unfold sec2localtime_int. now rewrite E.
Qed.

(* non-vacuity: a table with one overlap hour (offset 7200 -> 3600 at instant 10^6); the instant half an hour before the
   transition is mapped to the instant half an hour after it (same wall clock), the latter is a fixed point *)
Definition overlap_demo : ztable := {| z_base := 7200; z_trans := [(1000000, 3600)] |}.
Example overlap_demo_facts :
  wf_ztable overlap_demo = true /\
  of_local overlap_demo (to_local overlap_demo 998200) = 1001800 /\
  to_local overlap_demo 1001800 = to_local overlap_demo 998200 /\
  of_local overlap_demo (to_local overlap_demo 1001800) = 1001800 /\
  of_local overlap_demo (to_local overlap_demo 990000) = 990000.
Proof. vm_compute. repeat split; reflexivity. Qed.

(* EVERY reading (also readings no instant shows: gaps).
   time.Date's answer r for a wall-clock reading l is always l minus an offset of the table; it is a genuine preimage
   (to_local r = l) whenever ANY instant shows l; otherwise no instant shows l (a gap) and r shows l shifted by the
   difference of two offsets of the table. *)
Theorem of_local_dichotomy z l :
  wf_ztable z = true ->
  let r := of_local z l in
  (exists u, r = l - offset_at z u /\ to_local z r = l + (offset_at z r - offset_at z u)) /\
  (to_local z r = l \/ forall t, ALPHA + ZD <= t -> t <= OMEGA - ZD -> to_local z t <> l).
Proof.
  intros Hwf r. split.
  - assert (X : exists u, r = l - offset_at z u).
    { unfold r. rewrite of_local_zones, <- offset_at_zo. destruct (Z.eqb_spec (offset_at z l) 0) as [Z0|Z0]; [exists l; lia|].
      destruct (_ || _); [exists (l - offset_at z l) | exists l]; reflexivity. }
    destruct X as [u Hu]. exists u. split; [exact Hu|]. unfold to_local. lia.
  - destruct (Z.eq_dec (to_local z r) l) as [E|N]; [now left|right].
    intros t H1 H2 Ht. apply N. unfold r. rewrite <- Ht. now apply to_local_of_local_to_local.
Qed.

(* non-vacuity for the gap side: a table with one skipped hour (offset 3600 -> 7200 at 10^6); the reading 10^6 + 5400 is shown
   by no instant of a window around the transition and is resolved to an instant showing the reading shifted by one hour *)
Definition gap_demo : ztable := {| z_base := 3600; z_trans := [(1000000, 7200)] |}.
Example gap_demo_facts :
  wf_ztable gap_demo = true /\
  of_local gap_demo 1005400 = 1005400 - 3600 /\ to_local gap_demo (of_local gap_demo 1005400) = 1005400 + 3600 /\
  to_local gap_demo 999999 = 1003599 /\ to_local gap_demo 1000000 = 1007200.
Proof. vm_compute. repeat split; reflexivity. Qed.
