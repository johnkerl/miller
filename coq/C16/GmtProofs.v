(* C16: gmt2sec (sec2gmt n) = n for every instant of the years 1..9999, with 0..9 decimals, and the same for the
   local-time text: instances of the general format law (FormatProofs.v) for the ISO-8601 / local formats, once the text
   printed by goTimeToFormattedTime is shown to be the rendering of those formats. *)
From Miller Require Import Base.Bytes C16.Model C16.Format C16.CivilProofs C16.TextProofs C16.Proofs C16.FormatProofs.
Open Scope char_scope.
Open Scope Z_scope.

(* the format of sec2gmt / sec2localtime with k decimals: the ISO or local parts with the seconds code S, 1, .., 9 *)
Definition kcode (k : nat) : ascii := match k with O => "S" | _ => digit (Z.of_nat k) end.
Definition time_parts (loc : bool) (k : nat) : list part :=
  [("Y", ["-"]); ("m", ["-"]); ("d", [if loc then " " else "T"]); ("H", [":"]); ("M", [":"]); (kcode k, if loc then [] else ["Z"])].

Lemma ten_cases k : (k <= 9)%nat -> (k = 0 \/ k = 1 \/ k = 2 \/ k = 3 \/ k = 4 \/ k = 5 \/ k = 6 \/ k = 7 \/ k = 8 \/ k = 9)%nat.
Proof. lia. Qed.

Lemma time_parts_ok loc k : (k <= 9)%nat ->
  format_ok [] (time_parts loc k) = true /\
  flat_parse (time_parts loc k) = (if loc then LOCAL_FMT else ISO_FMT) /\ last_frac (time_parts loc k) 0 = k.
Proof.
  intros Hk. destruct loc; destruct (ten_cases k Hk) as [->|[->|[->|[->|[->|[->|[->|[->|[->| ->]]]]]]]]]; vm_compute; auto.
Qed.

Lemma field_kcode k x ns : (k <= 9)%nat ->
  field (kcode k) x ns = digs 2 (tm_s x) ++ match k with O => [] | _ => "." :: digs k (ns / pow10 (9 - k)) end.
Proof. intros Hk. destruct (ten_cases k Hk) as [->|[->|[->|[->|[->|[->|[->|[->|[->| ->]]]]]]]]]; reflexivity. Qed.

Lemma render_time_parts loc k x ns :
  render (time_parts loc k) x ns =
  digs 4 (tm_y x) ++ "-" :: digs 2 (tm_mo x) ++ "-" :: digs 2 (tm_d x) ++ (if loc then " " else "T") ::
  digs 2 (tm_h x) ++ ":" :: digs 2 (tm_mi x) ++ ":" :: field (kcode k) x ns ++ (if loc then [] else ["Z"]).
Proof. destruct loc; reflexivity. Qed.

Lemma fmt_time_render loc t ns k : LO <= t <= HI -> 0 <= ns < 1000000000 -> (k <= 9)%nat ->
  fmt_time loc t ns (Z.of_nat k) = render (time_parts loc k) (tm_of_sec t) ns.
Proof.
  intros Ht Hns Hk. destruct (good_tm_of_sec t Ht) as [Gy Gv Gh Gmi Gs].
  destruct (valid_date_bounds _ _ _ Gv) as (Hm & Hd & Hd31).
  rewrite render_time_parts, field_kcode by exact Hk. unfold fmt_time. set (x := tm_of_sec t) in *.
  assert (Ec : clamp_nd (Z.of_nat k) = k).
  { unfold clamp_nd. destruct (Z.ltb_spec (Z.of_nat k) 0); [lia|]. destruct (Z.ltb_spec 9 (Z.of_nat k)); [lia|]. apply Nat2Z.id. }
  rewrite Ec. cbv zeta. unfold ymd_text, hms_text.
  rewrite !padz_nonneg by lia.
  rewrite (padnn_small 4) by (try change (10 ^ Z.of_nat 4) with 10000; lia).
  rewrite !(padnn_small 2) by (try change (10 ^ Z.of_nat 2) with 100; lia).
  destruct k as [|k']; [|rewrite (padnn_small (S k')) by (try (apply frac_value_range; lia); lia)];
    destruct loc; repeat (rewrite <- app_assoc; cbn [app]); rewrite ?app_nil_r; reflexivity.
Qed.

(* the text of sec2gmt / sec2localtime with k = 0..9 decimals is parsed back, by the format gmt2sec / localtime2sec use,
   to the instant truncated to k decimals *)
Theorem strp_exact_fmt_time loc t ns k : LO <= t <= HI -> 0 <= ns < 1000000000 -> (k <= 9)%nat ->
  strp_exact (fmt_time loc t ns (Z.of_nat k)) (if loc then LOCAL_FMT else ISO_FMT) = POk (t * 1000000000 + trunc_ns k ns).
Proof.
  intros Ht Hns Hk. rewrite (fmt_time_render loc t ns k Ht Hns Hk).
  destruct (time_parts_ok loc k Hk) as (Hok & E1 & E2).
  pose proof (strptime_render [] (time_parts loc k) t ns Hok Ht Hns) as E. cbn [app] in E. now rewrite E1, E2 in E.
Qed.

Lemma trunc_ns_range k ns : 0 <= ns < 1000000000 -> 0 <= trunc_ns k ns <= ns.
Proof.
  intros H. unfold trunc_ns. pose proof (pow10_pos (9 - k)) as P.
  pose proof (Z.mul_div_le ns (pow10 (9 - k)) P). pose proof (Z.div_pos ns (pow10 (9 - k)) ltac:(lia) P). nia.
Qed.

(* localtime2sec on the printed text of any wall-clock reading l: time.Date's resolution of l *)
Lemma localtime2sec_fmt_time z l ns k : LO <= l <= HI -> 0 <= ns < 1000000000 -> (k <= 9)%nat ->
  localtime2sec z (fmt_time true l ns (Z.of_nat k)) = Some (of_local z l).
Proof.
  intros Hl Hns Hk. unfold localtime2sec. rewrite (strp_exact_fmt_time true l ns k Hl Hns Hk).
  pose proof (trunc_ns_range k ns Hns). rewrite Z.div_add_l, Z.div_small by lia. now rewrite Z.add_0_r.
Qed.

Theorem strp_exact_sec2gmt n : LO <= n <= HI -> strp_exact (sec2gmt_int n 0) ISO_FMT = POk (n * 1000000000).
Proof.
  intros Hn. pose proof (strp_exact_fmt_time false n 0 0 Hn ltac:(lia) ltac:(lia)) as E.
  change (Z.of_nat 0) with 0 in E. unfold sec2gmt_int. rewrite E. f_equal. rewrite trunc_ns_0 by lia. lia.
Qed.

Corollary gmt2sec_exact_sec2gmt n : LO <= n <= HI -> gmt2sec_exact (sec2gmt_int n 0) = Some n.
Proof.
  intros Hn. unfold gmt2sec_exact. rewrite (strp_exact_sec2gmt n Hn). f_equal. apply Z.div_mul. lia.
Qed.

(* gmt2nsec (int64 nanoseconds) is exact inside the nanosecond range; nsec2gmt with k decimals is parsed back to the
   nanoseconds truncated to k decimals *)
Corollary gmt2nsec_sec2gmt n :
  LO <= n <= HI -> MIN64 <= n * 1000000000 <= MAX64 -> gmt2nsec (sec2gmt_int n 0) = POk (n * 1000000000).
Proof.
  intros Hn Hr. unfold gmt2nsec, strpntime. rewrite (strp_exact_sec2gmt n Hn). now rewrite wrap64_id.
Qed.

Theorem gmt2nsec_nsec2gmt t ns k :
  LO <= t <= HI -> 0 <= ns < 1000000000 -> (k <= 9)%nat -> MIN64 <= t * 1000000000 -> t * 1000000000 + ns <= MAX64 ->
  gmt2nsec (nsec2gmt (t * 1000000000 + ns) (Z.of_nat k)) = POk (t * 1000000000 + trunc_ns k ns).
Proof.
  intros Ht Hns Hk H1 H2. unfold nsec2gmt.
  rewrite Z.div_add_l, Z.div_small, Z.add_0_r, Z.add_comm, Z.mod_add, Z.mod_small by lia.
  unfold gmt2nsec, strpntime. rewrite (strp_exact_fmt_time false t ns k Ht Hns Hk).
  pose proof (trunc_ns_range k ns Hns). rewrite wrap64_id by lia. reflexivity.
Qed.
