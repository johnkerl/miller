(* C16 property theorems; the proofs are in the files imported. *)
From Miller Require Import Base.Record C16.Model C16.Format C16.CivilProofs C16.TextProofs C16.Proofs C16.FormatProofs C16.GmtProofs C16.DhmsProofs C16.ZoneProofs C16.LocalProofs C16.OverlapProofs C16.Verb C16.VerbProofs C16.Datediff C16.DatediffProofs gen.Gen_Zones.
Open Scope Z_scope.

(* calendar inverses, ALL integers / all valid dates of all years (proleptic Gregorian) *)
Theorem C16_days_of_civil_of_days :
  forall z, let '(y, m, d) := civil_of_days z in valid_date y m d = true /\ days_of_civil y m d = z.
Proof. exact days_of_civil_of_days. Qed.
Print Assumptions C16_days_of_civil_of_days.

Theorem C16_civil_of_days_of_civil :
  forall y m d, valid_date y m d = true -> civil_of_days (days_of_civil y m d) = (y, m, d).
Proof. exact civil_of_days_of_civil. Qed.
Print Assumptions C16_civil_of_days_of_civil.

(* leap rule: the day count from one Jan 1 to the next is 366 exactly in leap years (4 / 100 / 400 rule), every year;
   and every month has its Gregorian length *)
Theorem C16_leap_rule :
  forall y, days_of_civil (y + 1) 1 1 - days_of_civil y 1 1 = if is_leap y then 366 else 365.
Proof. exact year_length. Qed.
Print Assumptions C16_leap_rule.

Theorem C16_month_lengths :
  forall y m, 1 <= m <= 12 ->
  (if m =? 12 then days_of_civil (y + 1) 1 1 else days_of_civil y (m + 1) 1) - days_of_civil y m 1 = days_in_month y m.
Proof. exact month_length. Qed.
Print Assumptions C16_month_lengths.

(* instants <-> broken-down UTC time, all integers *)
Theorem C16_sec_of_tm_of_sec : forall t, sec_of_tm (tm_of_sec t) = t.
Proof. exact sec_of_tm_of_sec. Qed.
Print Assumptions C16_sec_of_tm_of_sec.

Theorem C16_tm_fields_in_range :
  forall t, let x := tm_of_sec t in
  valid_date (tm_y x) (tm_mo x) (tm_d x) = true /\ 0 <= tm_h x < 24 /\ 0 <= tm_mi x < 60 /\ 0 <= tm_s x < 60.
Proof. exact tm_of_sec_fields. Qed.
Print Assumptions C16_tm_fields_in_range.

Theorem C16_year_1_to_9999 : forall t, LO <= t <= HI -> 1 <= tm_y (tm_of_sec t) <= 9999.
Proof. exact tm_year_range. Qed.
Print Assumptions C16_year_1_to_9999.

(* sec2gmtdate is the date part of sec2gmt *)
Theorem C16_sec2gmtdate_prefix_of_sec2gmt :
  forall n, exists rest, sec2gmt_int n 0 = sec2gmtdate_int n ++ "T"%char :: rest.
Proof. exact sec2gmtdate_is_prefix. Qed.
Print Assumptions C16_sec2gmtdate_prefix_of_sec2gmt.

(* sec2gmt leaves non-numeric values unchanged; the verb equals the function applied to the named fields *)
Theorem C16_sec2gmt_nonnumeric_unchanged : forall orig nd, sec2gmt_unary AOther orig nd = orig.
Proof. exact (fun orig nd => eq_refl). Qed.
Print Assumptions C16_sec2gmt_nonnumeric_unchanged.

Theorem C16_sec2gmt_verb_leaves_nonnumeric_records_unchanged :
  forall classify nd names r,
  (forall k v, In k names -> get k r = Some v -> classify v = AOther) -> sec2gmt_verb classify nd names r = r.
Proof. exact sec2gmt_verb_nonnumeric. Qed.
Print Assumptions C16_sec2gmt_verb_leaves_nonnumeric_records_unchanged.

Theorem C16_sec2gmt_verb_bystanders :
  forall classify nd names r k, ~ In k names -> get k (sec2gmt_verb classify nd names r) = get k r.
Proof. exact sec2gmt_verb_bystander. Qed.
Print Assumptions C16_sec2gmt_verb_bystanders.

(* gmt2sec (sec2gmt n) = n for EVERY instant of the years 1..9999: the text printed by goTimeToFormattedTime is parsed
   back by the strptime model (pbnjay parts loop + time.Parse field rules) to exactly the instant n.
   gmt2sec_exact is t.Unix() of the parsed time; the final conversion float64(t.Unix()) + float64(0)/1e9 is exact for
   |n| < 2^53 (modelled on SpecFloat, tied by correspondence and by the computed instances below). *)
Theorem C16_strptime_of_sec2gmt :
  forall n, LO <= n <= HI -> strp_exact (sec2gmt_int n 0) ISO_FMT = POk (n * 1000000000).
Proof. exact strp_exact_sec2gmt. Qed.
Print Assumptions C16_strptime_of_sec2gmt.

Theorem C16_gmt2sec_sec2gmt : forall n, LO <= n <= HI -> gmt2sec_exact (sec2gmt_int n 0) = Some n.
Proof. exact gmt2sec_exact_sec2gmt. Qed.
Print Assumptions C16_gmt2sec_sec2gmt.

(* ---- THE GENERAL FORMAT LAW.  Format language (Format.v): a literal prefix, then parts (code, literal after it) over the
   numeric codes Y m d H M S j and the Miller fractional-seconds codes %1S..%9S (written as the digit), literals free of
   '%' and not starting with a digit/'.'/',' , only the last literal may be empty; "determines" = has Y, H, M, S and
   (m and d) or j; codes may repeat and come in any order.  For EVERY such format and EVERY instant of the years 1..9999
   (with any nanoseconds) strftime succeeds and strptime maps its output back to the instant, truncated to the decimals of
   the last seconds field.  The printing side has %<k>S where the parsing side has %S (pbnjay's strptime has no %<k>S:
   see C16_format_law_refuted_for_epoch_seconds_and_fractional_codes). *)
Theorem C16_format_law :
  forall pre ps t ns, format_ok pre ps = true -> LO <= t <= HI -> 0 <= ns < 1000000000 ->
  exists txt, strftime (pre ++ flat_print ps) t ns = Some txt /\
              strp_exact txt (pre ++ flat_parse ps) = POk (t * 1000000000 + trunc_ns (last_frac ps 0) ns).
Proof. exact format_law. Qed.
Print Assumptions C16_format_law.

(* the law in its literal form, one format text on both sides: strptime(strftime(t, f), f) = t *)
Theorem C16_strptime_strftime_same_format :
  forall pre ps t ns, format_ok pre ps = true -> frac_free ps = true -> LO <= t <= HI -> 0 <= ns < 1000000000 ->
  let f := pre ++ flat_parse ps in
  exists txt, strftime f t ns = Some txt /\ strp_exact txt f = POk (t * 1000000000).
Proof. exact format_law_same_format. Qed.
Print Assumptions C16_strptime_strftime_same_format.

Example C16_format_law_hypotheses_satisfiable :
  format_ok (B "at ") [("d"%char, B "/"); ("m"%char, B "/"); ("Y"%char, B " day "); ("j"%char, B " -- "); ("H"%char, B "h"); ("M"%char, B "m"); ("6"%char, B "s")] = true
  /\ S_ (B "at " ++ flat_print [("d"%char, B "/"); ("m"%char, B "/"); ("Y"%char, B " day "); ("j"%char, B " -- "); ("H"%char, B "h"); ("M"%char, B "m"); ("6"%char, B "s")])
     = "at %d/%m/%Y day %j -- %Hh%Mm%6Ss"%string
  /\ format_ok [] LOCAL_PARTS = true /\ frac_free LOCAL_PARTS = true /\ flat_parse LOCAL_PARTS = LOCAL_FMT
  /\ format_ok [] [("Y"%char, B "-"); ("m"%char, B "-"); ("d"%char, B " "); ("H"%char, B ":"); ("M"%char, B ":"); ("S"%char, B "")] = true
  /\ format_ok [] [("Y"%char, B "-"); ("m"%char, B ""); ("d"%char, B " "); ("H"%char, B ":"); ("M"%char, B ":"); ("S"%char, B "")] = false.
Proof. vm_compute. repeat split; reflexivity. Qed.

(* FULL statement of the property's law -- "for every format that determines the instant" -- is FALSE for formats with
   %s or %<k>S: strftime prints them, strptime answers ErrFormatUnsupported.  Known finding strptime-no-epoch-seconds-code. *)
Theorem C16_format_law_refuted_for_epoch_seconds_and_fractional_codes :
  (exists f t txt, LO <= t <= HI /\ strftime f t 0 = Some txt /\ strp_exact txt f = PErr)
  /\ (forall txt, strp_exact txt (B "%s") = PErr) /\ (forall txt, strp_exact txt (B "%Y-%m-%d %H:%M:%6S") = PErr).
Proof. exact (conj format_law_refuted_for_epoch_seconds strptime_rejects_epoch_seconds_and_fractional_codes). Qed.
Print Assumptions C16_format_law_refuted_for_epoch_seconds_and_fractional_codes.

(* sec2gmt / sec2localtime / nsec2gmt with k = 0..9 decimals print text that gmt2sec / localtime2sec / gmt2nsec parse back
   to the instant truncated to k decimals: every instant of the years 1..9999, every nanosecond value *)
Theorem C16_strptime_of_time_text_with_decimals :
  forall loc t ns k, LO <= t <= HI -> 0 <= ns < 1000000000 -> (k <= 9)%nat ->
  strp_exact (fmt_time loc t ns (Z.of_nat k)) (if loc then LOCAL_FMT else ISO_FMT) = POk (t * 1000000000 + trunc_ns k ns).
Proof. exact strp_exact_fmt_time. Qed.
Print Assumptions C16_strptime_of_time_text_with_decimals.

Theorem C16_gmt2nsec_nsec2gmt :
  forall t ns k, LO <= t <= HI -> 0 <= ns < 1000000000 -> (k <= 9)%nat -> MIN64 <= t * 1000000000 -> t * 1000000000 + ns <= MAX64 ->
  gmt2nsec (nsec2gmt (t * 1000000000 + ns) (Z.of_nat k)) = POk (t * 1000000000 + trunc_ns k ns).
Proof. exact gmt2nsec_nsec2gmt. Qed.
Print Assumptions C16_gmt2nsec_nsec2gmt.

(* ---- LOCAL TIME THROUGH THE TEXT: localtime2sec(sec2localtime(t, k, zone), zone) = t for any well-formed table at every
   instant with an unambiguous wall-clock reading, k = 0..9 decimals *)
Theorem C16_localtime2sec_sec2localtime :
  forall z t ns k, wf_ztable z = true -> ALPHA + ZD <= t -> t <= OMEGA - ZD -> LO <= to_local z t <= HI ->
  0 <= ns < 1000000000 -> (k <= 9)%nat -> unambiguous_at z t ->
  localtime2sec z (fmt_time true (to_local z t) ns (Z.of_nat k)) = Some t.
Proof. exact localtime2sec_sec2localtime. Qed.
Print Assumptions C16_localtime2sec_sec2localtime.

Theorem C16_localtime2sec_sec2localtime_gen_zones :
  forall z t, In z gen_zones -> ALPHA + ZD <= t -> t <= OMEGA - ZD -> LO <= to_local z t <= HI -> unambiguous_at z t ->
  localtime2sec z (sec2localtime_int z t 0) = Some t.
Proof. exact (fun z t Hin => localtime2sec_sec2localtime_int z t (proj1 (gen_zones_in z Hin))). Qed.
Print Assumptions C16_localtime2sec_sec2localtime_gen_zones.

Theorem C16_localtime2gmt_sec2localtime :
  forall z t, wf_ztable z = true -> ALPHA + ZD <= t -> t <= OMEGA - ZD -> LO <= to_local z t <= HI -> unambiguous_at z t ->
  localtime2gmt z (sec2localtime_int z t 0) = Some (sec2gmt_int t 0).
Proof. exact localtime2gmt_sec2localtime. Qed.
Print Assumptions C16_localtime2gmt_sec2localtime.

Theorem C16_gmt2localtime_sec2gmt :
  forall z t, LO <= t <= HI -> gmt2localtime z (sec2gmt_int t 0) = Some (sec2localtime_int z t 0).
Proof. exact gmt2localtime_sec2gmt. Qed.
Print Assumptions C16_gmt2localtime_sec2gmt.

(* every overlap and gap of every regenerated zone table (bound: the transitions of gen_zones, window 1900..2037; four
   readings per transition: first, second, middle, last): in an overlap localtime2sec returns a genuine preimage, the one
   under the offset in force at "reading taken as UTC"; in a gap the reading shifted by the size of the gap *)
Theorem C16_overlaps_and_gaps_gen_zones : forallb zone_transitions_ok gen_zones = true.
Proof. exact gen_zones_transitions_ok. Qed.
Print Assumptions C16_overlaps_and_gaps_gen_zones.

Theorem C16_overlaps_and_gaps_text_gen_zones :
  forallb (fun z => transitions_text_ok z (z_base z) (z_trans z)) gen_zones = true.
Proof. exact gen_zones_transitions_text_ok. Qed.
Print Assumptions C16_overlaps_and_gaps_text_gen_zones.

(* ---- THE LOCAL ROUND TRIP AT ALL INSTANTS, OVERLAP HOURS INCLUDED (ANY well-formed table, EVERY
   reading).  "localtime2sec(sec2localtime(t)) = t for all t" is FALSE inside an overlap for one of
   the two instants that share a wall-clock reading; what holds for every t: time.Date's resolution of the reading of t is an
   instant r with the SAME reading, so r = t + (offset_at t - offset_at r): r = t when the offsets agree (always outside
   overlaps: C16_localtime2sec_sec2localtime), otherwise r is the other instant of the overlap, |r - t| = size of the overlap. *)
Theorem C16_local_round_trip_all_instants :
  forall z t, wf_ztable z = true -> ALPHA + ZD <= t -> t <= OMEGA - ZD ->
  to_local z (of_local z (to_local z t)) = to_local z t.
Proof. exact to_local_of_local_to_local. Qed.
Print Assumptions C16_local_round_trip_all_instants.

Theorem C16_local_round_trip_all_instants_offset :
  forall z t, wf_ztable z = true -> ALPHA + ZD <= t -> t <= OMEGA - ZD ->
  let r := of_local z (to_local z t) in r = t + (offset_at z t - offset_at z r).
Proof. exact of_local_to_local_all. Qed.
Print Assumptions C16_local_round_trip_all_instants_offset.

(* through the text, k = 0..9 decimals: at EVERY instant localtime2sec(sec2localtime(t, k, zone), zone) succeeds and returns an
   instant that sec2localtime prints as the same text *)
Theorem C16_localtime2sec_sec2localtime_all_instants :
  forall z t ns k, wf_ztable z = true -> ALPHA + ZD <= t -> t <= OMEGA - ZD -> LO <= to_local z t <= HI ->
  0 <= ns < 1000000000 -> (k <= 9)%nat ->
  exists r, localtime2sec z (fmt_time true (to_local z t) ns (Z.of_nat k)) = Some r /\
            to_local z r = to_local z t /\ r = t + (offset_at z t - offset_at z r) /\
            sec2localtime_int z r 0 = sec2localtime_int z t 0.
Proof. exact localtime2sec_sec2localtime_all. Qed.
Print Assumptions C16_localtime2sec_sec2localtime_all_instants.

(* non-vacuity: one overlap hour; an instant of the first pass is sent to the second pass, which is a fixed point *)
Example C16_local_round_trip_all_instants_nonvacuous :
  wf_ztable overlap_demo = true /\
  of_local overlap_demo (to_local overlap_demo 998200) = 1001800 /\
  to_local overlap_demo 1001800 = to_local overlap_demo 998200 /\
  of_local overlap_demo (to_local overlap_demo 1001800) = 1001800 /\
  of_local overlap_demo (to_local overlap_demo 990000) = 990000.
Proof. exact overlap_demo_facts. Qed.

(* EVERY wall-clock reading l, also those no instant shows (gaps), any well-formed table: localtime2sec's zone resolution
   answers l minus an offset of the table; the answer is a genuine preimage whenever ANY instant shows l; otherwise NO instant
   shows l (gap) and the answer shows l shifted by the difference of two offsets of the table *)
Theorem C16_local_resolution_every_reading :
  forall z l, wf_ztable z = true ->
  let r := of_local z l in
  (exists u, r = l - offset_at z u /\ to_local z r = l + (offset_at z r - offset_at z u)) /\
  (to_local z r = l \/ forall t, ALPHA + ZD <= t -> t <= OMEGA - ZD -> to_local z t <> l).
Proof. exact of_local_dichotomy. Qed.
Print Assumptions C16_local_resolution_every_reading.

Example C16_local_resolution_every_reading_nonvacuous :
  wf_ztable gap_demo = true /\
  of_local gap_demo 1005400 = 1005400 - 3600 /\ to_local gap_demo (of_local gap_demo 1005400) = 1005400 + 3600 /\
  to_local gap_demo 999999 = 1003599 /\ to_local gap_demo 1000000 = 1007200.
Proof. exact gap_demo_facts. Qed.

(* gmt2nsec returns int64 nanoseconds: exact whenever n * 10^9 fits in int64 (1677-09-21 .. 2262-04-11) *)
Theorem C16_gmt2nsec_sec2gmt :
  forall n, LO <= n <= HI -> MIN64 <= n * 1000000000 <= MAX64 -> gmt2nsec (sec2gmt_int n 0) = POk (n * 1000000000).
Proof. exact gmt2nsec_sec2gmt. Qed.
Print Assumptions C16_gmt2nsec_sec2gmt.

(* PARTIAL (computed instances, tests): the binary64 value gmt2sec returns is float64(n) *)
Theorem C16_gmt2sec_float_instances_partial :
  forallb gmt_float_ok (boundary_instants ++ [-62135596800; 253402300799; -62135596799; 253402300798]) = true.
Proof. exact gmt_float_instances. Qed.
Print Assumptions C16_gmt2sec_float_instances_partial.

(* d/h/m/s inverses: for EVERY int64 (incl. -2^63) *)
Theorem C16_dhms2sec_sec2dhms : forall n, MIN64 <= n <= MAX64 -> dhms2sec (sec2dhms n) = Some n.
Proof. exact dhms_roundtrip. Qed.
Print Assumptions C16_dhms2sec_sec2dhms.

Theorem C16_hms2sec_sec2hms : forall n, MIN64 <= n <= MAX64 -> hms2sec (sec2hms n) = Some n.
Proof. exact hms_roundtrip. Qed.
Print Assumptions C16_hms2sec_sec2hms.

(* the instance -2^63 (the magnitude is split as uint64), with the texts printed *)
Theorem C16_dhms_roundtrip_at_minint64 :
  dhms_ok MIN64 = true /\ sec2dhms MIN64 = B "-106751991167300d15h30m08s" /\ sec2hms MIN64 = B "-2562047788015215:30:08".
Proof. exact dhms_minint64. Qed.
Print Assumptions C16_dhms_roundtrip_at_minint64.

(* local time: for ANY well-formed transition table (offsets within 16 h, periods at least 64 h), Go's time.Date zone
   resolution inverts the wall-clock display at every instant whose wall-clock reading is unambiguous (outside overlaps) *)
Theorem C16_local_roundtrip :
  forall z t, wf_ztable z = true -> ALPHA + ZD <= t -> t <= OMEGA - ZD -> unambiguous_at z t ->
  of_local z (to_local z t) = t.
Proof. exact of_local_to_local. Qed.
Print Assumptions C16_local_roundtrip.

(* regenerated zone tables (Go tzdata, window 1900..2037) are well-formed, so the theorem applies to each of them *)
Theorem C16_gen_zones_wellformed : forallb wf_ztable gen_zones = true.
Proof. exact gen_zones_wf. Qed.
Print Assumptions C16_gen_zones_wellformed.

Theorem C16_local_roundtrip_gen_zones :
  forall z t, In z gen_zones -> ALPHA + ZD <= t -> t <= OMEGA - ZD -> unambiguous_at z t -> of_local z (to_local z t) = t.
Proof. exact (fun z t Hin => of_local_to_local z t (proj1 (gen_zones_in z Hin))). Qed.
Print Assumptions C16_local_roundtrip_gen_zones.

(* instances: at every transition of every regenerated zone +- {1 s .. 2 h}, an instant that the boolean test
   [unambiguous] accepts (exactly one offset of the table maps its reading back into that offset's period) makes the round trip *)
Theorem C16_zone_roundtrip_near_transitions_instances : forallb zone_roundtrip_ok gen_zones = true.
Proof. exact gen_zones_roundtrip_near_transitions. Qed.
Print Assumptions C16_zone_roundtrip_near_transitions_instances.

(* datediff(a, b, "d") is the difference of the civil day numbers of the two instants: all integers, any distance,
   either order (the result is negative when a is after b) *)
Theorem C16_datediff_days : forall a b, datediff a b UD = b / 86400 - a / 86400.
Proof. exact datediff_d. Qed.
Print Assumptions C16_datediff_days.

Theorem C16_datediff_days_of_dates :
  forall y1 m1 d1 y2 m2 d2 s1 s2,
  valid_date y1 m1 d1 = true -> valid_date y2 m2 d2 = true -> 0 <= s1 < 86400 -> 0 <= s2 < 86400 ->
  datediff (days_of_civil y1 m1 d1 * 86400 + s1) (days_of_civil y2 m2 d2 * 86400 + s2) UD
  = days_of_civil y2 m2 d2 - days_of_civil y1 m1 d1.
Proof. exact datediff_d_dates. Qed.
Print Assumptions C16_datediff_days_of_dates.

Theorem C16_datediff_antisymmetric : forall a b u, a < b -> datediff b a u = - datediff a b u.
Proof. exact datediff_antisym. Qed.
Print Assumptions C16_datediff_antisymmetric.

Theorem C16_datediff_months_decomposition : forall a b, datediff a b UM = 12 * datediff a b UY + datediff a b UYM.
Proof. exact datediff_ym_decomposition. Qed.
Print Assumptions C16_datediff_months_decomposition.

Example C16_nonvacuous :
  valid_date 2024 2 29 = true /\ valid_date 1900 2 29 = false /\ civil_of_days 0 = (1970, 1, 1)
  /\ civil_of_days (-719162) = (1, 1, 1) /\ days_of_civil 9999 12 31 = 2932896
  /\ S_ (sec2gmt_int 951782400 0) = "2000-02-29T00:00:00Z"%string
  /\ datediff (-62135596800) 253402300799 UD = 3652058 /\ datediff 1577836800 1684108800 UYD = 134
  /\ datediff 1577836800 1684108800 UMD = 14 /\ datediff 1684108800 1577836800 UY = -3.
Proof. vm_compute. repeat split; reflexivity. Qed.
