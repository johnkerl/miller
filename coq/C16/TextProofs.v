(* C16: lemmas about decimal rendering / parsing and literal search *)
From Miller Require Import Base.Bytes C16.Model.
From Miller Require Import Base.RecordFacts.
Open Scope char_scope.
Open Scope Z_scope.

(* decides every comparison of two literal bytes in the goal *)
Ltac eval_eqb :=
  repeat match goal with
         | |- context [Ascii.eqb ?a ?b] =>
             let r := eval vm_compute in (Ascii.eqb a b) in change (Ascii.eqb a b) with r
         end.

Lemma wrap64_id z : MIN64 <= z <= MAX64 -> wrap64 z = z.
Proof. unfold wrap64, MIN64, MAX64. intros H. rewrite Z.mod_small by lia. lia. Qed.

Lemma digit_cases k : 0 <= k <= 9 -> k = 0 \/ k = 1 \/ k = 2 \/ k = 3 \/ k = 4 \/ k = 5 \/ k = 6 \/ k = 7 \/ k = 8 \/ k = 9.
Proof. lia. Qed.

Lemma is_digit_digit k : 0 <= k <= 9 -> is_digit (digit k) = true.
Proof. intros H. destruct (digit_cases k H) as [->|[->|[->|[->|[->|[->|[->|[->|[->| ->]]]]]]]]]; reflexivity. Qed.

Lemma dval_digit k : 0 <= k <= 9 -> dval (digit k) = k.
Proof. intros H. destruct (digit_cases k H) as [->|[->|[->|[->|[->|[->|[->|[->|[->| ->]]]]]]]]]; reflexivity. Qed.

Lemma digs_length w n : List.length (digs w n) = w.
Proof. revert n; induction w as [|w IH]; intros n; cbn [digs]; [reflexivity|]. rewrite app_length, IH. cbn. lia. Qed.

Lemma digs_digits w n : forallb is_digit (digs w n) = true.
Proof.
  revert n; induction w as [|w IH]; intros n; cbn [digs]; [reflexivity|].
  rewrite forallb_app, IH. cbn [forallb andb]. rewrite is_digit_digit; [reflexivity|].
  pose proof (Z.mod_pos_bound n 10 ltac:(lia)). lia.
Qed.

Lemma parse_acc_app a x y : parse_acc a (x ++ y) = parse_acc (parse_acc a x) y.
Proof. revert a; induction x as [|c x IH]; intros a; cbn [parse_acc app]; [reflexivity|apply IH]. Qed.

Lemma parse_acc_digs w : forall n a, 0 <= n -> parse_acc a (digs w n) = a * 10 ^ Z.of_nat w + n mod 10 ^ Z.of_nat w.
Proof.
  induction w as [|w IH]; intros n a Hn.
  - cbn [digs parse_acc]. change (Z.of_nat 0) with 0. rewrite Z.pow_0_r, Z.mod_1_r. lia.
  - cbn [digs]. rewrite parse_acc_app. cbn [parse_acc].
    rewrite IH by (apply Z.div_pos; lia).
    rewrite dval_digit by (pose proof (Z.mod_pos_bound n 10 ltac:(lia)); lia).
    rewrite Nat2Z.inj_succ, Z.pow_succ_r by lia.
    set (P := 10 ^ Z.of_nat w). assert (HP : 0 < P) by (apply Z.pow_pos_nonneg; lia).
    assert (E : n mod (10 * P) = 10 * ((n / 10) mod P) + n mod 10).
    { rewrite Z.rem_mul_r by lia. lia. }
    rewrite E. lia.
Qed.

Lemma parse_digs w n : 0 <= n < 10 ^ Z.of_nat w -> parse_acc 0 (digs w n) = n.
Proof. intros H. rewrite parse_acc_digs by lia. rewrite Z.mod_small by lia. lia. Qed.

Lemma ndig_pos fuel n : (1 <= ndig fuel n)%nat.
Proof. destruct fuel; cbn [ndig]; [lia|]. destruct (n <? 10); lia. Qed.

Lemma ndig_bound fuel : forall n, 0 <= n < 10 ^ Z.of_nat fuel -> n < 10 ^ Z.of_nat (ndig fuel n).
Proof.
  induction fuel as [|f IH]; intros n Hn.
  - cbn [ndig]. change (Z.of_nat 0) with 0 in Hn. rewrite Z.pow_0_r in Hn. change (10 ^ Z.of_nat 1) with 10. lia.
  - cbn [ndig]. destruct (n <? 10) eqn:E.
    + apply Z.ltb_lt in E. change (10 ^ Z.of_nat 1) with 10. lia.
    + apply Z.ltb_ge in E. rewrite Nat2Z.inj_succ, Z.pow_succ_r in * by lia.
      assert (H1 : 0 <= n / 10 < 10 ^ Z.of_nat f) by (split; [apply Z.div_pos; lia | apply Z.div_lt_upper_bound; lia]).
      specialize (IH _ H1). pose proof (Z.div_mod n 10 ltac:(lia)). pose proof (Z.mod_pos_bound n 10 ltac:(lia)). lia.
Qed.

Lemma ndig_le fuel : forall n w, 0 <= n < 10 ^ Z.of_nat w -> (1 <= w)%nat -> (ndig fuel n <= w)%nat.
Proof.
  induction fuel as [|f IH]; intros n w Hn Hw; cbn [ndig]; [lia|].
  destruct (n <? 10) eqn:E; [lia|]. apply Z.ltb_ge in E.
  destruct w as [|w]; [lia|]. rewrite Nat2Z.inj_succ, Z.pow_succ_r in Hn by lia.
  destruct w as [|w]; [exfalso; change (Z.of_nat 0) with 0 in Hn; rewrite Z.pow_0_r in Hn; lia|].
  apply le_n_S. apply IH; [|lia].
  split; [apply Z.div_pos; lia | apply Z.div_lt_upper_bound; lia].
Qed.

Definition BIG : Z := 10 ^ Z.of_nat FUEL.

Definition numtext (t : bytes) (v : Z) : Prop := t <> [] /\ forallb is_digit t = true /\ parse_acc 0 t = v.

Lemma numtext_digs w n : (1 <= w)%nat -> 0 <= n < 10 ^ Z.of_nat w -> numtext (digs w n) n.
Proof.
  intros Hw Hn. repeat split; [|apply digs_digits|now apply parse_digs].
  intros E. apply (f_equal (@List.length ascii)) in E. rewrite digs_length in E. cbn [List.length] in E. lia.
Qed.

Lemma numtext_dec_nn n : 0 <= n < BIG -> numtext (dec_nn n) n.
Proof. intros H. apply numtext_digs; [apply ndig_pos|]. split; [lia|now apply ndig_bound]. Qed.

Lemma padnn_small w n : 0 <= n < 10 ^ Z.of_nat w -> (1 <= w)%nat -> padnn w n = digs w n.
Proof.
  intros H Hw. unfold padnn. destruct (Nat.leb w (ndig FUEL n)) eqn:E; [|reflexivity].
  apply Nat.leb_le in E. pose proof (ndig_le FUEL n w H Hw). unfold dec_nn. replace (ndig FUEL n) with w by lia. reflexivity.
Qed.

Lemma numtext_padnn w n : 0 <= n < BIG -> numtext (padnn w n) n.
Proof.
  intros H. unfold padnn. destruct (Nat.leb_spec w (ndig FUEL n)); [now apply numtext_dec_nn|].
  pose proof (ndig_pos FUEL n). apply numtext_digs; [lia|]. split; [lia|].
  eapply Z.lt_le_trans; [apply (ndig_bound FUEL n H)|]. apply Z.pow_le_mono_r; lia.
Qed.

Lemma padz_nonneg w n : 0 <= n -> padz w n = padnn w n.
Proof. intros H. unfold padz. destruct (n <? 0) eqn:E; [apply Z.ltb_lt in E; lia|reflexivity]. Qed.

Lemma skipn_app_length {A} (p s : list A) : skipn (List.length p) (p ++ s) = s.
Proof. induction p; cbn; auto. Qed.

Lemma find_sub_nohead l0 lt comp rest :
  forallb (fun c => negb (Ascii.eqb l0 c)) comp = true ->
  find_sub (l0 :: lt) (comp ++ (l0 :: lt) ++ rest) = Some (comp, rest).
Proof.
  intros Hd. change ((l0 :: lt) ++ rest) with (l0 :: lt ++ rest). induction comp as [|c comp IH]; cbn [app].
  - cbn [find_sub]. change (l0 :: lt ++ rest) with ((l0 :: lt) ++ rest). now rewrite prefixb_app, skipn_app_length.
  - cbn [forallb] in Hd. apply andb_true_iff in Hd. destruct Hd as [Hc Hd]. apply negb_true_iff in Hc.
    cbn [find_sub prefixb]. rewrite Hc. cbn [andb]. now rewrite (IH Hd).
Qed.

Lemma find_sub_digits l0 lt ds rest :
  forallb is_digit ds = true -> is_digit l0 = false ->
  find_sub (l0 :: lt) (ds ++ (l0 :: lt) ++ rest) = Some (ds, rest).
Proof.
  intros Hd Hl. apply find_sub_nohead. revert Hd. apply forallb_impl. intros c Hc.
  destruct (Ascii.eqb_spec l0 c) as [->|]; [congruence|reflexivity].
Qed.

(* where Sscanf %d stops reading digits: at the end of the text or at a byte that is not a digit *)
Definition stops (rest : bytes) : Prop := match rest with [] => True | u :: _ => is_digit u = false end.

Lemma span_digits_app ds rest : forallb is_digit ds = true -> stops rest -> span_digits (ds ++ rest) = (ds, rest).
Proof.
  intros Hd Hr. induction ds as [|c ds IH]; cbn [app].
  - destruct rest as [|u r]; cbn [span_digits]; [reflexivity|]. now rewrite Hr.
  - cbn [forallb] in Hd. apply andb_true_iff in Hd. destruct Hd as [Hc Hd]. cbn [span_digits]. now rewrite Hc, (IH Hd).
Qed.
