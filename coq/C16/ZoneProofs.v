(* C16: local time round trip.  For any well-formed transition table (offsets bounded by ZK, periods at least ZD = 4 ZK
   long), Go's time.Date zone resolution (of_local) inverts the wall-clock display (to_local) at every instant whose
   wall-clock reading is unambiguous (outside overlaps). *)
From Miller Require Import Base.Bytes C16.Model.
Open Scope Z_scope.

Definition zone := (Z * Z * Z)%type.   (* offset, start, end *)
Definition zo (z : zone) : Z := fst (fst z).
Definition zs (z : zone) : Z := snd (fst z).
Definition ze (z : zone) : Z := snd z.

Fixpoint zones_from (cs co : Z) (tr : list (Z * Z)) : list zone :=
  match tr with
  | [] => [(co, cs, OMEGA)]
  | (s, o) :: r => (co, cs, s) :: zones_from s o r
  end.
Definition zones (z : ztable) : list zone := zones_from ALPHA (z_base z) (z_trans z).

Lemma lookup_from_in tr : forall cs co t, cs <= t -> t < OMEGA ->
  let z := lookup_from cs co tr t in In z (zones_from cs co tr) /\ zs z <= t < ze z.
Proof.
  induction tr as [|[s o] r IH]; intros cs co t H1 H2; cbn [lookup_from zones_from].
  - cbv zeta. split; [now left|]. unfold zs, ze; cbn [fst snd]; lia.
  - destruct (Z.ltb_spec t s).
    + cbv zeta. split; [now left|]. unfold zs, ze; cbn [fst snd]; lia.
    + specialize (IH s o t ltac:(lia) H2). cbv zeta in *. destruct IH as [I1 I2]. split; [now right|exact I2].
Qed.

Lemma wf_from_cons cs co s o r :
  wf_from cs co ((s, o) :: r) = true -> Z.abs co <= ZK /\ cs + ZD <= s /\ wf_from s o r = true.
Proof. cbn [wf_from]. rewrite !andb_true_iff, !Z.leb_le. tauto. Qed.

Lemma zones_facts tr : forall cs co, wf_from cs co tr = true ->
  forall p, In p (zones_from cs co tr) ->
  (zs p = cs \/ cs + ZD <= zs p) /\ zs p + ZD <= ze p <= OMEGA /\ Z.abs (zo p) <= ZK.
Proof.
  induction tr as [|[s o] r IH]; intros cs co Hwf p Hin.
  - cbn [wf_from] in Hwf. rewrite andb_true_iff, !Z.leb_le in Hwf.
    destruct Hin as [<-|[]]. unfold zs, ze, zo; cbn [fst snd]. lia.
  - apply wf_from_cons in Hwf. destruct Hwf as (H1 & H2 & H3). destruct Hin as [<-|Hin].
    + (* it ends where the next period starts, hence before OMEGA *)
      assert (N : exists q, In q (zones_from s o r) /\ zs q = s) by (destruct r as [|[] ?]; eexists; (split; [now left|reflexivity])).
      destruct N as (q & Hq & Eq). specialize (IH s o H3 q Hq). unfold zs, ze, zo, ZD in *; cbn [fst snd] in *. lia.
    + specialize (IH s o H3 p Hin). unfold ZD in *. lia.
Qed.

Lemma zones_sep tr : forall cs co, wf_from cs co tr = true ->
  forall p q, In p (zones_from cs co tr) -> In q (zones_from cs co tr) ->
  p = q \/ ze p = zs q \/ ze p + ZD <= zs q \/ ze q = zs p \/ ze q + ZD <= zs p.
Proof.
  induction tr as [|[s o] r IH]; intros cs co Hwf p q Hp Hq.
  - destruct Hp as [<-|[]]. destruct Hq as [<-|[]]. now left.
  - apply wf_from_cons in Hwf. destruct Hwf as (_ & _ & W).
    destruct Hp as [<-|Hp]; destruct Hq as [<-|Hq]; [now left | | | exact (IH s o W p q Hp Hq)].
    + pose proof (zones_facts r s o W q Hq). change (ze (co, cs, s)) with s. lia.
    + pose proof (zones_facts r s o W p Hp). change (ze (co, cs, s)) with s. lia.
Qed.

Definition offset_of (z : ztable) (t : Z) : Z := zo (lookup z t).
Lemma offset_at_zo z t : offset_at z t = zo (lookup z t).
Proof. unfold offset_at, zo. destruct (lookup z t) as [[o s] e]. reflexivity. Qed.

Lemma of_local_zones z l :
  of_local z l =
  if zo (lookup z l) =? 0 then l
  else if (l - zo (lookup z l) <? zs (lookup z l)) || (ze (lookup z l) <=? l - zo (lookup z l))
       then l - offset_at z (l - zo (lookup z l)) else l - zo (lookup z l).
Proof. unfold of_local, zo, zs, ze. now destruct (lookup z l) as [[o s] e]. Qed.

Section Table.
Variable z : ztable.
Hypothesis Hwf : wf_ztable z = true.

Lemma zone_facts p : In p (zones z) -> ALPHA <= zs p /\ zs p + ZD <= ze p <= OMEGA /\ Z.abs (zo p) <= ZK.
Proof. intros Hp. pose proof (zones_facts _ _ _ Hwf p Hp). unfold ZD in *. lia. Qed.

Lemma lookup_in t : ALPHA <= t < OMEGA -> In (lookup z t) (zones z) /\ zs (lookup z t) <= t < ze (lookup z t).
Proof. intros [H1 H2]. exact (lookup_from_in (z_trans z) ALPHA (z_base z) t H1 H2). Qed.

Lemma lookup_unique p u : In p (zones z) -> zs p <= u < ze p -> lookup z u = p.
Proof.
  intros Hp Hu. pose proof (zone_facts p Hp) as F.
  destruct (lookup_in u ltac:(lia)) as [Hq Hr]. pose proof (zone_facts _ Hq) as G.
  destruct (zones_sep _ _ _ Hwf _ _ Hq Hp) as [E|E]; [exact E|]. unfold ZD, ZK in *. lia.
Qed.

Lemma offset_at_in p u : In p (zones z) -> zs p <= u < ze p -> offset_at z u = zo p.
Proof. intros Hp Hu. now rewrite offset_at_zo, (lookup_unique p u Hp Hu). Qed.

(* time.Date on a reading l that lies, read as UTC, in period p: when l - zo p is in p as well, that is the answer;
   when it falls into another period q, the answer is taken with the offset of q *)
Lemma of_local_stay p l :
  In p (zones z) -> zs p <= l < ze p -> zs p <= l - zo p < ze p -> of_local z l = l - zo p.
Proof.
  intros Hp Hl Hu. rewrite of_local_zones, (lookup_unique p l Hp Hl).
  destruct (Z.eqb_spec (zo p) 0); [lia|].
  destruct (Z.ltb_spec (l - zo p) (zs p)); [lia|]. destruct (Z.leb_spec (ze p) (l - zo p)); [lia|]. reflexivity.
Qed.

Lemma of_local_cross p q l :
  In p (zones z) -> In q (zones z) -> zs p <= l < ze p -> ~ zs p <= l - zo p < ze p -> zs q <= l - zo p < ze q ->
  of_local z l = l - zo q.
Proof.
  intros Hp Hq Hl Hn Hu. rewrite of_local_zones, (lookup_unique p l Hp Hl), (offset_at_in q _ Hq Hu).
  destruct (Z.eqb_spec (zo p) 0); [lia|].
  destruct (Z.ltb_spec (l - zo p) (zs p)); [reflexivity|]. destruct (Z.leb_spec (ze p) (l - zo p)); [reflexivity|lia].
Qed.

(* The answer r for the reading l of an instant t is an instant that shows l: l minus the offset of a period that
   contains r.  l read as UTC lies in the period of t or in a neighbour q; if l - zo q stays in q, that is r; otherwise
   it falls back into the period of t and r = t. *)
Theorem of_local_shows t :
  ALPHA + ZD <= t -> t <= OMEGA - ZD ->
  exists p, In p (zones z) /\ of_local z (to_local z t) = to_local z t - zo p /\ zs p <= to_local z t - zo p < ze p.
Proof.
  intros Hlo Hhi. unfold to_local. rewrite offset_at_zo.
  destruct (lookup_in t) as [Hi Ri]; [unfold ZD in *; lia|]. set (pi := lookup z t) in *.
  pose proof (zone_facts pi Hi) as Fi. set (l := t + zo pi).
  destruct (lookup_in l) as [Hj Rj]; [unfold l, ZD, ZK in *; lia|]. set (pj := lookup z l) in *.
  pose proof (zone_facts pj Hj) as Fj.
  assert (D : zs pj <= l - zo pj < ze pj \/ ~ zs pj <= l - zo pj < ze pj) by lia.
  destruct D as [D|D].
  - exists pj. now rewrite (of_local_stay pj l Hj Rj D).
  - exists pi. assert (Rt : zs pi <= l - zo pi < ze pi) by (unfold l; lia).
    rewrite (of_local_cross pj pi l Hj Hi Rj D); [auto|].
    destruct (zones_sep _ _ _ Hwf _ _ Hi Hj) as [E|E]; [rewrite <- E in D; contradiction|].
    unfold l, ZD, ZK in *. lia.
Qed.

End Table.

(* the wall-clock reading of instant t is unambiguous: every period that could also display it has the same offset *)
Definition unambiguous_at (z : ztable) (t : Z) : Prop :=
  forall p, In p (zones z) -> zs p <= to_local z t - zo p < ze p -> zo p = offset_at z t.

Theorem of_local_to_local z t :
  wf_ztable z = true -> ALPHA + ZD <= t -> t <= OMEGA - ZD -> unambiguous_at z t -> of_local z (to_local z t) = t.
Proof.
  intros Hwf Hlo Hhi Hun. destruct (of_local_shows z Hwf t Hlo Hhi) as (p & Hp & E & R).
  rewrite E, (Hun p Hp R). unfold to_local. lia.
Qed.
