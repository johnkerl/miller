(* C16: the general format law.  For EVERY format of the numeric-code language (Format.v) that determines the
   instant, strptime inverts strftime on every instant of the years 1..9999: a small inverse theory of
   "sequence of fixed-width numeric fields and literals" against the pbnjay parts loop + time.Parse field rules. *)
From Miller Require Import Base.Bytes C16.Model C16.Format C16.CivilProofs C16.TextProofs C16.Proofs.
From Miller Require Import Base.RecordFacts.
Open Scope char_scope.
Open Scope Z_scope.

Lemma width_code_ind (P : ascii -> nat -> Prop) :
  P "Y" 4%nat -> P "j" 3%nat -> P "m" 2%nat -> P "d" 2%nat -> P "H" 2%nat -> P "M" 2%nat -> P "S" 2%nat ->
  forall c w, code_width c = Some w -> P c w.
Proof.
  intros HY Hj Hm Hd HH HM HS c w. unfold code_width.
  repeat match goal with
         | |- context [Ascii.eqb c ?k] => destruct (Ascii.eqb_spec c k) as [->|]; [now intros [= <-]|]
         end.
  discriminate.
Qed.

Lemma frac_code_ind (P : ascii -> Prop) :
  P "1" -> P "2" -> P "3" -> P "4" -> P "5" -> P "6" -> P "7" -> P "8" -> P "9" -> forall c, is_frac_code c = true -> P c.
Proof. intros H1 H2 H3 H4 H5 H6 H7 H8 H9 c. destruct c as [[] [] [] [] [] [] [] []]; try discriminate; intros _; assumption. Qed.

Definition frac_k (c : ascii) : nat := Z.to_nat (dval c).

Lemma frac_code_k c : is_frac_code c = true -> (1 <= frac_k c <= 9)%nat.
Proof. revert c. apply frac_code_ind; vm_compute; lia. Qed.

Lemma frac_code_not_width c : is_frac_code c = true -> code_width c = None.
Proof. revert c. apply frac_code_ind; reflexivity. Qed.

Lemma width_not_frac c w : code_width c = Some w -> is_frac_code c = false.
Proof. intros H. destruct (is_frac_code c) eqn:E; [|reflexivity]. rewrite (frac_code_not_width c E) in H. discriminate. Qed.

Lemma num_code_not_pct c : num_code c = true -> Ascii.eqb c "%" = false.
Proof. intros H. destruct (Ascii.eqb_spec c "%") as [->|]; [discriminate H|reflexivity]. Qed.

Lemma parts_ok_cons c l t : parts_ok ((c, l) :: t) = true ->
  num_code c = true /\ no_pct l = true /\ lit_ok l = true /\ (l = [] -> t = []) /\ parts_ok t = true.
Proof.
  cbn [parts_ok]. rewrite !andb_true_iff. intros ((((Hc & Hl) & Hlit) & Hlast) & Ht). repeat split; try assumption.
  intros ->. destruct t; [reflexivity|discriminate Hlast].
Qed.

Record good_tm (x : tm) : Prop := {
  g_y : 1 <= tm_y x <= 9999;
  g_v : valid_date (tm_y x) (tm_mo x) (tm_d x) = true;
  g_h : 0 <= tm_h x < 24;
  g_mi : 0 <= tm_mi x < 60;
  g_s : 0 <= tm_s x < 60 }.

Lemma good_tm_of_sec t : LO <= t <= HI -> good_tm (tm_of_sec t).
Proof.
  intros Ht. pose proof (tm_year_range t Ht). pose proof (tm_of_sec_fields t) as F. cbv zeta in F.
  destruct F as (F1 & F2 & F3 & F4). constructor; assumption.
Qed.

Lemma valid_date_bounds y m d : valid_date y m d = true -> 1 <= m <= 12 /\ 1 <= d <= days_in_month y m /\ d <= 31.
Proof.
  intros Hv. apply valid_date_range in Hv. split; [lia|]. split; [lia|]. unfold days_in_month in *.
  destruct (m =? 2); [destruct (is_leap y); lia|]. destruct ((m =? 4) || (m =? 6) || (m =? 9) || (m =? 11)); lia.
Qed.

(* in March-based coordinates January 1 is day 306 of the previous year *)
Lemma yday_range y m d : valid_date y m d = true -> 1 <= yday y m d <= (if is_leap y then 366 else 365).
Proof.
  intros Hv. pose proof (doy_of_valid y m d Hv) as H. cbv zeta in H. apply valid_date_range in Hv.
  pose proof (D_step (y - 1)) as L. replace (y - 1 + 1) with y in L by ring.
  unfold yday. rewrite !days_closed_form. change (if 1 <=? 2 then y - 1 else y) with (y - 1).
  unfold mstart in *. destruct (Z.leb_spec m 2); destruct (is_leap y); Z.div_mod_to_equations; lia.
Qed.

Definition fval (c : ascii) (x : tm) : Z :=
  if Ascii.eqb c "Y" then tm_y x else if Ascii.eqb c "m" then tm_mo x else if Ascii.eqb c "d" then tm_d x
  else if Ascii.eqb c "H" then tm_h x else if Ascii.eqb c "M" then tm_mi x else if Ascii.eqb c "S" then tm_s x
  else yday (tm_y x) (tm_mo x) (tm_d x).
Definition fwidth (c : ascii) : nat := match code_width c with Some w => w | None => 2%nat end.
(* the text of a part: a fixed-width number, followed for a fractional-seconds code by the decimals *)
Definition ftail (c : ascii) (ns : Z) : bytes :=
  if is_frac_code c then "." :: digs (frac_k c) (ns / pow10 (9 - frac_k c)) else [].
Definition field (c : ascii) (x : tm) (ns : Z) : bytes :=
  digs (fwidth (parse_code c)) (fval (parse_code c) x) ++ ftail c ns.
Fixpoint render (ps : list part) (x : tm) (ns : Z) : bytes :=
  match ps with [] => [] | (c, l) :: r => field c x ns ++ l ++ render r x ns end.

Lemma fval_range c w x : good_tm x -> code_width c = Some w -> 0 <= fval c x < 10 ^ Z.of_nat w /\ (1 <= w)%nat.
Proof.
  intros [Gy Gv Gh Gmi Gs]. destruct (valid_date_bounds _ _ _ Gv) as (Hm & Hd & Hd31).
  pose proof (yday_range _ _ _ Gv) as Hj. revert c w.
  apply width_code_ind; unfold fval; eval_eqb; cbv iota;
    try change (10 ^ Z.of_nat 4) with 10000; try change (10 ^ Z.of_nat 3) with 1000; try change (10 ^ Z.of_nat 2) with 100;
    destruct (is_leap (tm_y x)); lia.
Qed.

Lemma pow10_pos n : 0 < pow10 n.
Proof. unfold pow10. apply Z.pow_pos_nonneg; lia. Qed.

Lemma frac_value_range k ns : (k <= 9)%nat -> 0 <= ns < 1000000000 -> 0 <= ns / pow10 (9 - k) < 10 ^ Z.of_nat k.
Proof.
  intros Hk Hns. pose proof (pow10_pos (9 - k)) as P. split; [apply Z.div_pos; lia|].
  apply Z.div_lt_upper_bound; [lia|].
  assert (E : pow10 (9 - k) * 10 ^ Z.of_nat k = 1000000000).
  { unfold pow10. rewrite <- Z.pow_add_r by lia. replace (Z.of_nat (9 - k) + Z.of_nat k) with 9 by lia. reflexivity. }
  lia.
Qed.

Lemma strftime_verb_frac c t ns :
  is_frac_code c = true -> strftime_verb c t ns = Some (frac_sec (tm_of_sec t) ns (frac_k c) (frac_k c)).
Proof.
  intros F. unfold strftime_verb. cbv zeta. generalize (tm_of_sec t). intros x. revert c F. apply frac_code_ind; reflexivity.
Qed.

Lemma strftime_verb_width c w t ns : code_width c = Some w -> strftime_verb c t ns = Some (padz w (fval c (tm_of_sec t))).
Proof.
  intros Hw. unfold strftime_verb. cbv zeta. generalize (tm_of_sec t). intros x. revert c w Hw. apply width_code_ind; reflexivity.
Qed.

Lemma parse_code_width c : num_code c = true -> code_width (parse_code c) = Some (fwidth (parse_code c)).
Proof.
  unfold num_code, parse_code, fwidth. destruct (is_frac_code c); [reflexivity|].
  destruct (code_width c); [reflexivity|discriminate].
Qed.

Lemma strftime_verb_field c t ns :
  good_tm (tm_of_sec t) -> 0 <= ns < 1000000000 -> num_code c = true ->
  strftime_verb c t ns = Some (field c (tm_of_sec t) ns).
Proof.
  intros G Hns Hc. pose proof (parse_code_width c Hc) as Hw. destruct (fval_range _ _ _ G Hw) as [Hr Hw1].
  unfold field, ftail, parse_code in *. destruct (is_frac_code c) eqn:F.
  - pose proof (frac_code_k c F) as Hk.
    rewrite (strftime_verb_frac c t ns F). unfold frac_sec. rewrite padz_nonneg by apply Hr.
    now rewrite (padnn_small 2), (padnn_small (frac_k c)) by (try apply frac_value_range; (exact Hr || lia)).
  - rewrite (strftime_verb_width c _ t ns Hw), app_nil_r. now rewrite padz_nonneg, padnn_small by (assumption || lia).
Qed.

Fixpoint flat_raw (ps : list part) : bytes :=
  match ps with [] => [] | (c, l) :: r => "%" :: c :: l ++ flat_raw r end.

Lemma ext_rewrite_fuel_nil fuel : ext_rewrite_fuel fuel [] = [].
Proof. destruct fuel; reflexivity. Qed.

Lemma no_pct_cons c l : no_pct (c :: l) = true -> Ascii.eqb c "%" = false /\ no_pct l = true.
Proof. unfold no_pct. cbn [forallb]. intros H. apply andb_true_iff in H. destruct H as [H1 H2]. apply negb_true_iff in H1. auto. Qed.

Lemma rewrite_literal l : forall R fuel, no_pct l = true -> (List.length (l ++ R) <= fuel)%nat ->
  ext_rewrite_fuel fuel (l ++ R) = l ++ ext_rewrite_fuel (fuel - List.length l) R.
Proof.
  induction l as [|p l IH]; intros R fuel Hl Hf.
  - cbn [app List.length]. now rewrite Nat.sub_0_r.
  - destruct (no_pct_cons _ _ Hl) as [Hp Hl']. cbn [app List.length] in *.
    destruct fuel as [|k]; [lia|]. cbn [Nat.sub].
    destruct (l ++ R) as [|q t] eqn:E.
    + destruct l; [|discriminate E]. cbn [app] in E. subst R. cbn [ext_rewrite_fuel app List.length].
      now rewrite ext_rewrite_fuel_nil.
    + cbn [ext_rewrite_fuel]. rewrite Hp. rewrite <- E. rewrite IH by (try assumption; rewrite E; cbn [List.length] in *; lia).
      reflexivity.
Qed.

(* one step at a fractional-seconds code, and at any other numeric code: there the code byte is passed on as literal text *)
Lemma ext_rewrite_frac k c R : is_frac_code c = true ->
  ext_rewrite_fuel (S k) ("%" :: c :: "S" :: R) = "%" :: c :: ext_rewrite_fuel k R.
Proof. intros F. cbn [ext_rewrite_fuel]. unfold is_frac_code in F. rewrite F. revert c F. apply frac_code_ind; reflexivity. Qed.

Lemma ext_rewrite_plain k c R : Ascii.eqb c "%" = false -> is_frac_code c = false ->
  ext_rewrite_fuel (S k) ("%" :: c :: R) = "%" :: ext_rewrite_fuel k (c :: R).
Proof.
  intros E F. cbn [ext_rewrite_fuel]. change (Ascii.eqb "%" "%") with true. cbv iota. unfold is_frac_code in F. rewrite E, F.
  destruct R; [destruct k|]; reflexivity.
Qed.

Lemma rewrite_parts ps : forall fuel, parts_ok ps = true -> (List.length (flat_print ps) <= fuel)%nat ->
  ext_rewrite_fuel fuel (flat_print ps) = flat_raw ps.
Proof.
  induction ps as [|[c l] r IH]; intros fuel Hok Hf; [apply ext_rewrite_fuel_nil|].
  destruct (parts_ok_cons _ _ _ Hok) as (Hc & Hl & _ & _ & Hr).
  pose proof (num_code_not_pct c Hc) as Ec. cbn [flat_print flat_raw] in *.
  destruct (is_frac_code c) eqn:F; cbn [List.length] in Hf; rewrite app_length in Hf; (destruct fuel as [|k]; [lia|]).
  - rewrite (ext_rewrite_frac k c _ F), rewrite_literal, IH by (try assumption; rewrite ?app_length; lia). reflexivity.
  - rewrite (ext_rewrite_plain k c _ Ec F). change (c :: l ++ flat_print r) with ((c :: l) ++ flat_print r).
    assert (Hcl : no_pct (c :: l) = true) by (unfold no_pct in *; cbn [forallb]; now rewrite Ec).
    rewrite rewrite_literal by (try assumption; cbn [app List.length]; rewrite app_length; lia).
    cbn [app List.length]. now rewrite IH by (try assumption; lia).
Qed.

Lemma strftime_go_literal l R t ns : no_pct l = true ->
  strftime_go (l ++ R) t ns = match strftime_go R t ns with Some b => Some (l ++ b) | None => None end.
Proof.
  intros Hl. induction l as [|c l IH]; cbn [app].
  - destruct (strftime_go R t ns); reflexivity.
  - destruct (no_pct_cons _ _ Hl) as [Hc Hl']. cbn [strftime_go]. rewrite Hc. rewrite (IH Hl').
    destruct (strftime_go R t ns); reflexivity.
Qed.

Lemma strftime_go_parts ps t ns :
  good_tm (tm_of_sec t) -> 0 <= ns < 1000000000 -> parts_ok ps = true ->
  strftime_go (flat_raw ps) t ns = Some (render ps (tm_of_sec t) ns).
Proof.
  intros G Hns. induction ps as [|[c l] r IH]; intros Hok; [reflexivity|].
  destruct (parts_ok_cons _ _ _ Hok) as (Hc & Hl & _ & _ & Hr).
  cbn [flat_raw render strftime_go]. change (Ascii.eqb "%" "%") with true. cbv iota.
  now rewrite (strftime_verb_field c t ns G Hns Hc), (strftime_go_literal l _ t ns Hl), (IH Hr).
Qed.

Theorem strftime_format pre ps t ns :
  no_pct pre = true -> parts_ok ps = true -> LO <= t <= HI -> 0 <= ns < 1000000000 ->
  strftime (pre ++ flat_print ps) t ns = Some (pre ++ render ps (tm_of_sec t) ns).
Proof.
  intros Hpre Hok Ht Hns. unfold strftime, ext_rewrite.
  rewrite rewrite_literal by (try assumption; lia).
  rewrite rewrite_parts by (try assumption; rewrite app_length; lia).
  rewrite strftime_go_literal by assumption.
  rewrite (strftime_go_parts ps t ns (good_tm_of_sec t Ht) Hns Hok). reflexivity.
Qed.

Definition pparts (ps : list part) : list part := map (fun p => (parse_code (fst p), snd p)) ps.

Lemma flat_parse_head ps : flat_parse ps = [] \/ exists t, flat_parse ps = "%" :: t.
Proof. destruct ps as [|[c l] r]; [now left|right]. cbn [flat_parse]. eexists. reflexivity. Qed.

Lemma lit_until_pct_app l R : no_pct l = true -> (R = [] \/ exists t, R = "%" :: t) -> lit_until_pct (l ++ R) = (l, R).
Proof.
  intros Hl HR. induction l as [|c l IH]; cbn [app].
  - destruct HR as [->|[t ->]]; reflexivity.
  - destruct (no_pct_cons _ _ Hl) as [Hc Hl']. cbn [lit_until_pct]. rewrite Hc. rewrite (IH Hl'). reflexivity.
Qed.

Lemma fmt_parts_flat ps : forall fuel, (List.length ps < fuel)%nat -> parts_ok ps = true ->
  fmt_parts fuel (flat_parse ps) = Some (pparts ps).
Proof.
  induction ps as [|[c l] r IH]; intros fuel Hf Hok.
  - destruct fuel; [cbn in Hf; lia|reflexivity].
  - destruct (parts_ok_cons _ _ _ Hok) as (_ & Hl & _ & _ & Hr).
    destruct fuel as [|fu]; [cbn in Hf; lia|]. cbn [List.length] in Hf.
    cbn [flat_parse fmt_parts]. change (Ascii.eqb "%" "%") with true. cbv iota.
    rewrite (lit_until_pct_app l (flat_parse r)) by (assumption || apply flat_parse_head).
    now rewrite (IH fu) by (assumption || lia).
Qed.

Lemma flat_parse_length ps : (List.length ps <= List.length (flat_parse ps))%nat.
Proof. induction ps as [|[c l] r IH]; [cbn; lia|]. cbn [flat_parse List.length]. rewrite app_length. lia. Qed.

Lemma width_known c w : code_width c = Some w -> strp_known c = true.
Proof. revert c w. apply width_code_ind; reflexivity. Qed.

Lemma pparts_known ps : parts_ok ps = true -> existsb (fun p => negb (strp_known (fst p))) (pparts ps) = false.
Proof.
  induction ps as [|[c l] r IH]; [reflexivity|]. intros H. destruct (parts_ok_cons _ _ _ H) as (Hc & _ & _ & _ & Hr).
  cbn [pparts map existsb fst]. rewrite (width_known _ _ (parse_code_width c Hc)). exact (IH Hr).
Qed.

Lemma pparts_in_model ps : parts_ok ps = true -> parts_in_model (pparts ps) = true.
Proof.
  induction ps as [|[c l] r IH]; [reflexivity|]. intros H.
  destruct (parts_ok_cons _ _ _ H) as (Hc & _ & Hlit & Hlast & Hr). pose proof (parse_code_width c Hc) as Hw.
  destruct r as [|p2 r2].
  - cbn [pparts map parts_in_model fst snd]. now rewrite Hw.
  - change (pparts ((c, l) :: p2 :: r2)) with ((parse_code c, l) :: pparts (p2 :: r2)).
    destruct l as [|l0 lt]; [discriminate (Hlast eq_refl)|].
    specialize (IH Hr). destruct (pparts (p2 :: r2)) as [|q qs] eqn:E; [discriminate E|].
    cbn [parts_in_model]. rewrite Hw, Hlit. exact IH.
Qed.

Lemma firstn_len_app {A} (a b : list A) n : List.length a = n -> firstn n (a ++ b) = a.
Proof. intros <-. rewrite firstn_app, Nat.sub_diag, firstn_all. cbn [firstn]. apply app_nil_r. Qed.
Lemma skipn_len_app {A} (a b : list A) n : List.length a = n -> skipn n (a ++ b) = b.
Proof. intros <-. apply skipn_app_length. Qed.

Lemma parse_digits_digs w v : (1 <= w)%nat -> 0 <= v < 10 ^ Z.of_nat w -> parse_digits (digs w v) = Some v.
Proof.
  intros Hw Hv. destruct (numtext_digs w v Hw Hv) as (Hne & Hd & Hp). unfold parse_digits. rewrite Hd, Hp. now destruct (digs w v).
Qed.

Lemma set_field_digs c w v extra acc :
  (1 <= w)%nat -> 0 <= v < 10 ^ Z.of_nat w ->
  set_field c (digs w v ++ extra) w acc =
  if Ascii.eqb c "S" then match parse_frac extra with Some ns => upd c v ns acc | None => None end
  else match extra with [] => upd c v 0 acc | _ :: _ => None end.
Proof.
  intros Hw Hv. unfold set_field, zero_pad_left. rewrite app_length, digs_length.
  replace (Nat.leb w (w + List.length extra)) with true by (symmetry; apply Nat.leb_le; lia).
  rewrite (firstn_len_app _ _ w), (skipn_len_app _ _ w) by apply digs_length.
  rewrite digs_length, Nat.eqb_refl. cbn [negb]. now rewrite parse_digits_digs.
Qed.

Lemma parse_frac_digs k v : (1 <= k <= 9)%nat -> 0 <= v < 10 ^ Z.of_nat k ->
  parse_frac ("." :: digs k v) = Some (v * pow10 (9 - k)).
Proof.
  intros Hk Hv. destruct (numtext_digs k v ltac:(lia) Hv) as (Hne & Hd & Hp). unfold parse_frac.
  change (Ascii.eqb "." ".") with true. cbn [orb]. cbv iota. rewrite Hd.
  rewrite firstn_all2, digs_length, Hp by (rewrite digs_length; lia). now destruct (digs k v).
Qed.

Definition mem (c : ascii) (seen : list ascii) : bool := existsb (Ascii.eqb c) seen.
Definition acc_of (seen : list ascii) (x : tm) (nsv : Z) : ptm :=
  {| p_y := if mem "Y" seen then Some (tm_y x) else None;
     p_mo := if mem "m" seen then Some (tm_mo x) else None;
     p_d := if mem "d" seen then Some (tm_d x) else None;
     p_h := if mem "H" seen then tm_h x else 0;
     p_mi := if mem "M" seen then tm_mi x else 0;
     p_s := if mem "S" seen then tm_s x else 0;
     p_ns := nsv;
     p_j := if mem "j" seen then Some (yday (tm_y x) (tm_mo x) (tm_d x)) else None |}.

Lemma upd_acc pc w x seen nsv nsv' : good_tm x -> code_width pc = Some w ->
  upd pc (fval pc x) nsv' (acc_of seen x nsv) = Some (acc_of (pc :: seen) x (if Ascii.eqb pc "S" then nsv' else nsv)).
Proof.
  intros [Gy Gv Gh Gmi Gs]. destruct (valid_date_bounds _ _ _ Gv) as (Hm & _).
  assert (Bm : (1 <=? tm_mo x) && (tm_mo x <=? 12) = true) by (apply andb_true_iff; split; apply Z.leb_le; lia).
  pose proof (proj2 (Z.ltb_lt _ _) (proj2 Gh)) as Bh. pose proof (proj2 (Z.ltb_lt _ _) (proj2 Gmi)) as Bmi.
  pose proof (proj2 (Z.ltb_lt _ _) (proj2 Gs)) as Bs. revert pc w.
  apply width_code_ind; unfold upd, fval; eval_eqb; cbv iota; rewrite ?Bm, ?Bh, ?Bmi, ?Bs;
    unfold acc_of, mem; cbn [existsb p_y p_mo p_d p_h p_mi p_s p_ns p_j]; eval_eqb; reflexivity.
Qed.

Definition field_char (ch : ascii) : bool := is_digit ch || Ascii.eqb ch ".".
Lemma field_chars c x ns : forallb field_char (field c x ns) = true.
Proof.
  assert (D : forall w v, forallb field_char (digs w v) = true)
    by (intros w v; eapply forallb_impl; [|apply digs_digits]; intros a H; unfold field_char; now rewrite H).
  unfold field, ftail. rewrite forallb_app, D. destruct (is_frac_code c); [cbn [forallb]; now rewrite D|reflexivity].
Qed.

Lemma lit_head_not_in_field l0 lt c x ns :
  lit_ok (l0 :: lt) = true -> forallb (fun ch => negb (Ascii.eqb l0 ch)) (field c x ns) = true.
Proof.
  unfold lit_ok, lit_head_ok. rewrite !andb_true_iff, !negb_true_iff. intros [[[H1 H2] _] _].
  eapply forallb_impl; [|apply field_chars]. intros a Ha. unfold field_char in Ha.
  destruct (Ascii.eqb_spec l0 a) as [->|]; [|reflexivity]. rewrite H1, H2 in Ha. discriminate.
Qed.

Definition part_ns (c : ascii) (ns nsv : Z) : Z :=
  if is_frac_code c then ns / pow10 (9 - frac_k c) * pow10 (9 - frac_k c) else if Ascii.eqb c "S" then 0 else nsv.
Fixpoint ns_after (ps : list part) (ns nsv : Z) : Z :=
  match ps with [] => nsv | (c, _) :: r => ns_after r ns (part_ns c ns nsv) end.
Fixpoint seen_after (ps : list part) (seen : list ascii) : list ascii :=
  match ps with [] => seen | (c, _) :: r => seen_after r (parse_code c :: seen) end.

Lemma set_field_field c x ns seen nsv :
  good_tm x -> 0 <= ns < 1000000000 -> num_code c = true ->
  set_field (parse_code c) (field c x ns) (fwidth (parse_code c)) (acc_of seen x nsv)
  = Some (acc_of (parse_code c :: seen) x (part_ns c ns nsv)).
Proof.
  intros G Hns Hc. pose proof (parse_code_width c Hc) as Hw. destruct (fval_range _ _ _ G Hw) as [Hr Hw1].
  unfold field. rewrite set_field_digs by assumption. unfold ftail, part_ns, parse_code in *.
  destruct (is_frac_code c) eqn:F.
  - pose proof (frac_code_k c F) as Hk. change (Ascii.eqb "S" "S") with true. cbv iota.
    rewrite parse_frac_digs by (try apply frac_value_range; lia). exact (upd_acc "S" _ x seen nsv _ G Hw).
  - rewrite <- (upd_acc c _ x seen nsv 0 G Hw). now destruct (Ascii.eqb c "S").
Qed.

Lemma count_digits_all ds : forallb is_digit ds = true -> count_digits ds = List.length ds.
Proof.
  induction ds as [|d ds IH]; [reflexivity|]. cbn [forallb count_digits List.length]. intros H.
  apply andb_true_iff in H. destruct H as [H1 H2]. rewrite H1. now rewrite IH.
Qed.

(* when the field is the whole remaining input (last part, no literal after it) the loop takes all of it *)
Lemma last_field_width c x ns :
  num_code c = true ->
  let inp := field c x ns in
  let w := fwidth (parse_code c) in
  (List.length inp <= if Ascii.eqb (parse_code c) "S" then w + frac_len (skipn w inp) else w)%nat.
Proof.
  intros Hc. cbv zeta. unfold field. rewrite (skipn_len_app _ _ _ (digs_length _ _)), app_length, digs_length.
  unfold ftail, parse_code. destruct (is_frac_code c) eqn:F.
  - change (Ascii.eqb "S" "S") with true. cbv iota. unfold frac_len. change (Ascii.eqb "." ".") with true. cbn [orb List.length].
    rewrite count_digits_all, digs_length by apply digs_digits.
    pose proof (frac_code_k c F). destruct (frac_k c); lia.
  - cbn [List.length]. destruct (Ascii.eqb c "S"); lia.
Qed.

Lemma parse_render ps : forall x ns seen nsv, good_tm x -> 0 <= ns < 1000000000 -> parts_ok ps = true ->
  parse_parts (pparts ps) (render ps x ns) (acc_of seen x nsv)
  = Some (Some (acc_of (seen_after ps seen) x (ns_after ps ns nsv))).
Proof.
  induction ps as [|[c l] r IH]; intros x ns seen nsv G Hns Hok; [reflexivity|].
  destruct (parts_ok_cons _ _ _ Hok) as (Hc & _ & Hlit & Hlast & Hr).
  pose proof (set_field_field c x ns seen nsv G Hns Hc) as SF.
  cbn [pparts map fst snd render seen_after ns_after]. fold (pparts r). cbn [parse_parts]. rewrite (parse_code_width c Hc).
  destruct l as [|l0 lt].
  - (* last part, no literal *)
    rewrite (Hlast eq_refl). cbn [render app]. rewrite app_nil_r.
    pose proof (last_field_width c x ns Hc) as LW. cbv zeta in LW.
    destruct (field c x ns) as [|f0 ft] eqn:EF.
    { apply (f_equal (@List.length ascii)) in EF. unfold field in EF. rewrite app_length, digs_length in EF.
      destruct (fval_range _ _ x G (parse_code_width c Hc)). cbn [List.length] in EF. lia. }
    rewrite <- EF in *. now rewrite firstn_all2, skipn_all2, SF by exact LW.
  - rewrite (find_sub_nohead l0 lt (field c x ns) (render r x ns)) by exact (lit_head_not_in_field l0 lt c x ns Hlit).
    rewrite SF. now apply IH.
Qed.

Lemma mem_seen_after ps : forall seen c, mem c (seen_after ps seen) = has c ps || mem c seen.
Proof.
  induction ps as [|[c0 l] r IH]; intros seen c; [reflexivity|].
  cbn [seen_after]. rewrite IH. unfold has, mem. cbn [existsb fst]. rewrite (Ascii.eqb_sym c (parse_code c0)).
  destruct (Ascii.eqb (parse_code c0) c), (existsb (fun p => Ascii.eqb (parse_code (fst p)) c) r), (existsb (Ascii.eqb c) seen); reflexivity.
Qed.

Lemma trunc_ns_0 ns : 0 <= ns < 1000000000 -> trunc_ns 0 ns = 0.
Proof. intros H. unfold trunc_ns. change (pow10 (9 - 0)) with 1000000000. rewrite Z.div_small by lia. reflexivity. Qed.

Lemma ns_after_trunc ps : forall ns k, 0 <= ns < 1000000000 ->
  ns_after ps ns (trunc_ns k ns) = trunc_ns (last_frac ps k) ns.
Proof.
  induction ps as [|[c l] r IH]; intros ns k Hns; [reflexivity|]. cbn [ns_after last_frac].
  unfold part_ns. destruct (is_frac_code c).
  - change (ns / pow10 (9 - frac_k c) * pow10 (9 - frac_k c)) with (trunc_ns (frac_k c) ns). now apply IH.
  - destruct (Ascii.eqb c "S"); [|now apply IH]. rewrite <- (trunc_ns_0 ns Hns). now apply IH.
Qed.

Lemma assemble_acc seen x nsv :
  good_tm x -> mem "Y" seen = true -> mem "H" seen = true -> mem "M" seen = true -> mem "S" seen = true ->
  (mem "m" seen && mem "d" seen) || mem "j" seen = true ->
  assemble (acc_of seen x nsv) = Some (sec_of_tm x * 1000000000 + nsv).
Proof.
  intros [Gy Gv Gh Gmi Gs] HY HH HM HS HD. destruct (valid_date_bounds _ _ _ Gv) as (Hm & Hd & Hd31).
  pose proof (yday_range _ _ _ Gv) as Hj.
  unfold assemble, acc_of, sec_of_tm. cbn [p_y p_mo p_d p_h p_mi p_s p_ns p_j]. rewrite HY, HH, HM, HS.
  destruct (mem "j" seen).
  - (* the day of the year leads back to the month and day it was computed from *)
    set (yd := yday (tm_y x) (tm_mo x) (tm_d x)) in *.
    destruct (Z.ltb_spec yd 1); [lia|]. destruct (Z.ltb_spec (if is_leap (tm_y x) then 366 else 365) yd); [lia|]. cbn [orb].
    replace (days_of_civil (tm_y x) 1 1 + yd - 1) with (days_of_civil (tm_y x) (tm_mo x) (tm_d x)) by (unfold yd, yday; lia).
    rewrite (civil_of_days_of_civil _ _ _ Gv). destruct (mem "m" seen), (mem "d" seen); rewrite ?Z.eqb_refl; reflexivity.
  - rewrite orb_false_r in HD. apply andb_true_iff in HD. destruct HD as [-> ->].
    destruct (Z.ltb_spec (tm_d x) 1); [lia|]. destruct (Z.ltb_spec (days_in_month (tm_y x) (tm_mo x)) (tm_d x)); [lia|]. reflexivity.
Qed.

Lemma format_ok_parts pre ps : format_ok pre ps = true -> no_pct pre = true /\ parts_ok ps = true /\ determines ps = true.
Proof. unfold format_ok. rewrite !andb_true_iff. tauto. Qed.

Theorem strptime_render pre ps t ns :
  format_ok pre ps = true -> LO <= t <= HI -> 0 <= ns < 1000000000 ->
  strp_exact (pre ++ render ps (tm_of_sec t) ns) (pre ++ flat_parse ps)
  = POk (t * 1000000000 + trunc_ns (last_frac ps 0) ns).
Proof.
  intros Hf Ht Hns. destruct (format_ok_parts pre ps Hf) as (Hpre & Hok & Hdet).
  pose proof (good_tm_of_sec t Ht) as G. set (x := tm_of_sec t) in *.
  unfold strp_exact. rewrite (lit_until_pct_app pre (flat_parse ps) Hpre (flat_parse_head ps)).
  rewrite fmt_parts_flat by (try assumption; pose proof (flat_parse_length ps); rewrite app_length; lia).
  rewrite (pparts_known ps Hok), (pparts_in_model ps Hok). cbn [negb]. rewrite prefixb_app. cbn [negb]. rewrite skipn_app_length.
  change ptm0 with (acc_of [] x 0).
  rewrite <- (trunc_ns_0 ns Hns) at 1.
  rewrite (parse_render ps x ns [] (trunc_ns 0 ns) G Hns Hok), (ns_after_trunc ps ns 0%nat Hns).
  unfold determines in Hdet. repeat (apply andb_true_iff in Hdet; destruct Hdet as [Hdet ?]).
  rewrite assemble_acc; rewrite ?mem_seen_after; cbn [mem existsb]; rewrite ?orb_false_r; try assumption.
  unfold x. now rewrite sec_of_tm_of_sec.
Qed.

Theorem format_law pre ps t ns :
  format_ok pre ps = true -> LO <= t <= HI -> 0 <= ns < 1000000000 ->
  exists txt, strftime (pre ++ flat_print ps) t ns = Some txt /\
              strp_exact txt (pre ++ flat_parse ps) = POk (t * 1000000000 + trunc_ns (last_frac ps 0) ns).
Proof.
  intros Hf Ht Hns. exists (pre ++ render ps (tm_of_sec t) ns). split; [|now apply strptime_render].
  destruct (format_ok_parts pre ps Hf) as (Hpre & Hok & _). now apply strftime_format.
Qed.

Lemma frac_free_plain ps : frac_free ps = true -> flat_print ps = flat_parse ps /\ last_frac ps 0 = O.
Proof.
  induction ps as [|[c l] r IH]; intros H; [split; reflexivity|].
  cbn [frac_free forallb fst] in H. apply andb_true_iff in H. destruct H as [H1 H2]. apply negb_true_iff in H1.
  destruct (IH H2) as [IH1 IH2]. cbn [flat_print flat_parse last_frac]. unfold parse_code. rewrite H1, IH1.
  now destruct (Ascii.eqb c "S").
Qed.

(* the law in its literal form: one and the same format text on both sides *)
Theorem format_law_same_format pre ps t ns :
  format_ok pre ps = true -> frac_free ps = true -> LO <= t <= HI -> 0 <= ns < 1000000000 ->
  let f := pre ++ flat_parse ps in
  exists txt, strftime f t ns = Some txt /\ strp_exact txt f = POk (t * 1000000000).
Proof.
  intros Hf Hfree Ht Hns. cbv zeta. destruct (format_law pre ps t ns Hf Ht Hns) as (txt & E1 & E2).
  destruct (frac_free_plain ps Hfree) as [P1 P2]. rewrite P1 in E1. rewrite P2, (trunc_ns_0 ns Hns) in E2. exists txt. split; [exact E1|]. rewrite E2. f_equal. lia.
Qed.

(* formats with %s or %<k>S on the parsing side: pbnjay's strptime has neither, whatever the input *)
Lemma strptime_rejects_epoch_seconds_and_fractional_codes :
  (forall txt, strp_exact txt (B "%s") = PErr) /\ (forall txt, strp_exact txt (B "%Y-%m-%d %H:%M:%6S") = PErr).
Proof. split; intros txt; reflexivity. Qed.

Lemma format_law_refuted_for_epoch_seconds :
  exists f t txt, LO <= t <= HI /\ strftime f t 0 = Some txt /\ strp_exact txt f = PErr.
Proof. exists (B "%s"), 1500000000, (B "1500000000"). split; [unfold LO, HI; lia|]. split; vm_compute; reflexivity. Qed.
