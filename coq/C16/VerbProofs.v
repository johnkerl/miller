From Miller Require Import Base.Record C16.Model C16.Verb gen.Gen_Zones C16.ZoneProofs C16.Proofs C16.GmtProofs C16.DhmsProofs.
Open Scope Z_scope.

Lemma put_same_value k v r : get k r = Some v -> put k v r = r.
Proof.
  induction r as [|[k' v'] r IH]; cbn [get put]; [discriminate|].
  destruct (beqb k k') eqn:E; intros H; [now inversion H|]. f_equal. now apply IH.
Qed.

Lemma sec2gmt_verb_nonnumeric classify nd names r :
  (forall k v, In k names -> get k r = Some v -> classify v = AOther) -> sec2gmt_verb classify nd names r = r.
Proof.
  revert r; induction names as [|k t IH]; intros r H; cbn [sec2gmt_verb]; [reflexivity|].
  destruct (get k r) as [v|] eqn:G.
  - rewrite (H k v (or_introl eq_refl) G). cbn [sec2gmt_unary]. rewrite (put_same_value _ _ _ G).
    apply IH. intros k' v' Hin. apply H. now right.
  - apply IH. intros k' v' Hin. apply H. now right.
Qed.

Lemma sec2gmt_verb_bystander classify nd names r k :
  ~ In k names -> get k (sec2gmt_verb classify nd names r) = get k r.
Proof.
  revert r; induction names as [|k0 t IH]; intros r Hn; cbn [sec2gmt_verb]; [reflexivity|].
  rewrite IH by (intros Hin; apply Hn; now right).
  destruct (get k0 r) as [v|]; [|reflexivity].
  apply get_put_other. intros ->. apply Hn. now left.
Qed.

(* instances: the listed numbers lie in the range of the general theorem (computed), which then applies *)
Lemma forallb_in_range lo hi (f g : Z -> bool) l :
  (forall n, lo <= n <= hi -> g n = true -> f n = true) ->
  forallb (fun n => (lo <=? n) && (n <=? hi) && g n) l = true -> forallb f l = true.
Proof.
  intros H E. apply forallb_forall. intros n Hn. apply (proj1 (forallb_forall _ _) E) in Hn.
  rewrite !andb_true_iff, !Z.leb_le in Hn. apply H; tauto.
Qed.

Definition boundary_instants : list Z :=
  [0; 1; -1; 86399; 86400; -86400; 951782400; 951868799; 951868800; 1234567890; 2147483647; 2147483648; -2147483649;
   4102444800; -2208988800; -6857222400; 7258118400; -9223372036; 9223372036].

Definition gmt_roundtrip_ok (n : Z) : bool :=
  match gmt2sec_exact (sec2gmt_int n 0) with Some m => m =? n | None => false end.
Lemma gmt_roundtrip_instances :
  forallb gmt_roundtrip_ok (boundary_instants ++ [-62135596800; 253402300799; -62135596799; 253402300798]) = true.
Proof.
  apply (forallb_in_range LO HI _ (fun _ => true)); [|vm_compute; reflexivity].
  intros n Hn _. unfold gmt_roundtrip_ok. rewrite gmt2sec_exact_sec2gmt by exact Hn. apply Z.eqb_refl.
Qed.

(* the float64 result float64(t.Unix()) + float64(t.Nanosecond())/1e9 equals float64(n) on these instants (tests) *)
Definition gmt_float_ok (n : Z) : bool :=
  match gmt2sec_bits (sec2gmt_int n 0) with Some b => b =? bits_of_sf (sf_of_Z n) | None => false end.
Lemma gmt_float_instances :
  forallb gmt_float_ok (boundary_instants ++ [-62135596800; 253402300799; -62135596799; 253402300798]) = true.
Proof.
  (* the parsed instant is n by the general theorem; only the binary64 arithmetic is computed *)
  apply (forallb_in_range LO HI _ (fun n => sec_bits_of_ns (n * 1000000000) =? bits_of_sf (sf_of_Z n))); [|vm_compute; reflexivity].
  intros n Hn E. unfold gmt_float_ok, gmt2sec_bits, strptime_bits. now rewrite strp_exact_sec2gmt.
Qed.

Definition dhms_ints : list Z :=
  [0; 1; -1; 59; 60; 61; -59; -60; -61; 3599; 3600; 3601; -3600; 86399; 86400; 86401; -86400; -86401; 500000; -4000; -90000;
   9223372036854775807; -9223372036854775807; 4611686018427387904; -4611686018427387904].
Definition dhms_ok (n : Z) : bool :=
  match dhms2sec (sec2dhms n), hms2sec (sec2hms n) with Some a, Some b => (a =? n) && (b =? n) | _, _ => false end.
Lemma dhms_ok_int64 n : MIN64 <= n <= MAX64 -> dhms_ok n = true.
Proof. intros Hn. unfold dhms_ok. rewrite dhms_roundtrip, hms_roundtrip by exact Hn. rewrite Z.eqb_refl. reflexivity. Qed.

Lemma dhms_roundtrip_instances : forallb dhms_ok dhms_ints = true.
Proof.
  apply (forallb_in_range MIN64 MAX64 _ (fun _ => true)); [|vm_compute; reflexivity].
  intros n Hn _. exact (dhms_ok_int64 n Hn).
Qed.
(* the former witness of the finding dhms-roundtrip-minint64, now a regression instance (repaired: uint64 magnitude) *)
Lemma dhms_minint64 : dhms_ok MIN64 = true /\ sec2dhms MIN64 = B "-106751991167300d15h30m08s" /\ sec2hms MIN64 = B "-2562047788015215:30:08".
Proof. split; [apply dhms_ok_int64; unfold MIN64, MAX64; lia | vm_compute; split; reflexivity]. Qed.

Lemma gen_zones_wf : forallb wf_ztable gen_zones = true.
Proof. vm_compute. reflexivity. Qed.

(* wall-clock text is unambiguous for instant t when no other offset of the table maps back into its own period *)
Definition offsets_of (z : ztable) : list Z := nodup Z.eq_dec (z_base z :: map snd (z_trans z)).
Definition unambiguous (z : ztable) (offs : list Z) (t : Z) : bool :=
  let l := to_local z t in
  Nat.eqb (List.length (filter (fun o => offset_at z (l - o) =? o) offs)) 1.
Definition roundtrip_at (z : ztable) (offs : list Z) (t : Z) : bool :=
  negb (unambiguous z offs t) || (of_local z (to_local z t) =? t).
Definition deltas : list Z := [-3601; -3600; -1; 0; 1; 1800; 3599; 3600; 7200].
Definition zone_roundtrip_ok (z : ztable) : bool :=
  let offs := offsets_of z in
  forallb (fun tr => forallb (fun d => roundtrip_at z offs (fst tr + d)) deltas) (z_trans z).
Lemma zones_from_offsets tr : forall cs co p, In p (zones_from cs co tr) -> In (zo p) (co :: map snd tr).
Proof. induction tr as [|[s o] r IH]; intros cs co p [<-|Hp]; [now left|destruct Hp|now left|right; exact (IH s o p Hp)]. Qed.

(* the computed test decides the hypothesis of the round-trip theorem: the offset of any period that could display
   the reading of t, and the offset at t itself, both pass the filter, which lets exactly one offset through *)
Lemma unambiguous_sound z t :
  wf_ztable z = true -> ALPHA <= t < OMEGA -> unambiguous z (offsets_of z) t = true -> unambiguous_at z t.
Proof.
  intros Hwf Ht Hu p Hp R. unfold unambiguous in Hu. apply Nat.eqb_eq in Hu.
  assert (F : forall q u, In q (zones z) -> zs q <= u < ze q -> to_local z t - zo q = u ->
              In (zo q) (filter (fun o => offset_at z (to_local z t - o) =? o) (offsets_of z))).
  { intros q u Hq Ru E. apply filter_In. split; [apply nodup_In; exact (zones_from_offsets _ _ _ q Hq)|].
    rewrite E. apply Z.eqb_eq. exact (offset_at_in z Hwf q u Hq Ru). }
  pose proof (F p _ Hp R eq_refl) as I1.
  destruct (lookup_in z t Ht) as [Hi Ri]. pose proof (F _ t Hi Ri) as I2.
  unfold to_local at 1 in I2. rewrite <- offset_at_zo in I2. specialize (I2 ltac:(lia)).
  destruct (filter _ (offsets_of z)) as [|a [|b l]]; try discriminate Hu.
  destruct I1 as [<-|[]]. destruct I2 as [I2|[]]. exact I2.
Qed.

Lemma roundtrip_at_wf z t :
  wf_ztable z = true -> ALPHA + ZD <= t -> t <= OMEGA - ZD -> roundtrip_at z (offsets_of z) t = true.
Proof.
  intros Hwf H1 H2. unfold roundtrip_at. destruct (unambiguous z (offsets_of z) t) eqn:U; [|reflexivity].
  apply Z.eqb_eq, of_local_to_local; try assumption. apply unambiguous_sound; [exact Hwf| unfold ZD in *; lia |exact U].
Qed.

Lemma zone_roundtrip_ok_wf z :
  wf_ztable z = true -> (forall tr, In tr (z_trans z) -> ALPHA + ZD + 3601 <= fst tr <= OMEGA - ZD - 7200) ->
  zone_roundtrip_ok z = true.
Proof.
  intros Hwf Hb. apply forallb_forall. intros tr Htr. apply forallb_forall. intros d Hd. specialize (Hb tr Htr).
  unfold deltas in Hd. cbn [In] in Hd. apply roundtrip_at_wf; [exact Hwf|lia|lia].
Qed.

Definition trans_within (z : ztable) : bool := forallb (fun tr => (LO + ZK <? fst tr) && (fst tr <=? HI - ZK)) (z_trans z).
Lemma gen_zones_within : forallb trans_within gen_zones = true.
Proof. vm_compute. reflexivity. Qed.

Lemma trans_within_spec z tr : trans_within z = true -> In tr (z_trans z) -> LO + ZK < fst tr <= HI - ZK.
Proof. intros H Hin. apply (proj1 (forallb_forall _ _) H) in Hin. rewrite andb_true_iff, Z.ltb_lt, Z.leb_le in Hin. exact Hin. Qed.

Lemma gen_zones_in z : In z gen_zones -> wf_ztable z = true /\ trans_within z = true.
Proof. intros Hz. split; [exact (proj1 (forallb_forall _ _) gen_zones_wf z Hz) | exact (proj1 (forallb_forall _ _) gen_zones_within z Hz)]. Qed.

Lemma gen_zones_roundtrip_near_transitions : forallb zone_roundtrip_ok gen_zones = true.
Proof.
  apply forallb_forall. intros z Hz. destruct (gen_zones_in z Hz) as [Hwf Hb]. apply (zone_roundtrip_ok_wf z Hwf).
  intros tr Htr. pose proof (trans_within_spec z tr Hb Htr). unfold LO, HI, ZK, ZD, ALPHA, OMEGA in *. lia.
Qed.
