(* C16: calendar lemmas.  Both conversions go through the year that starts on 1 March: [D y] counts the days
   before 1 March of year y and [mstart mp] the days before month mp of that year (0 = March .. 11 = February),
   so a day number is D y' + mstart mp + (d - 1), shifted by the epoch offset 719468.  civil_of_days inverts
   this by finding the one year and the one month whose interval contains the day.  That its formulas find them
   is linear arithmetic over the quotients, so everything here holds for all integers without enumeration. *)
From Miller Require Import Base.Bytes C16.Model.
Open Scope Z_scope.

Definition D (y : Z) : Z := 365 * y + y / 4 - y / 100 + y / 400.
Definition mstart (mp : Z) : Z := (153 * mp + 2) / 5.

Lemma D_era y k : D (y + k * 400) = D y + k * 146097.
Proof. unfold D. Z.div_mod_to_equations; lia. Qed.

Lemma D_mono a b : a <= b -> D a <= D b.
Proof. unfold D. intros H. Z.div_mod_to_equations; lia. Qed.

Lemma is_leap_iff y : is_leap y = true <-> y mod 4 = 0 /\ (y mod 100 <> 0 \/ y mod 400 = 0).
Proof.
  unfold is_leap. rewrite andb_true_iff, orb_true_iff, negb_true_iff, !Z.eqb_eq, Z.eqb_neq. reflexivity.
Qed.

(* the March-based year y ends with the February of year y + 1 *)
Lemma D_step y : D (y + 1) - D y = if is_leap (y + 1) then 366 else 365.
Proof.
  unfold D. destruct (is_leap (y + 1)) eqn:E.
  - apply is_leap_iff in E. Z.div_mod_to_equations; lia.
  - apply not_true_iff_false in E. rewrite is_leap_iff in E. Z.div_mod_to_equations; lia.
Qed.

Lemma year_unique Z y y' : D y <= Z < D (y + 1) -> D y' <= Z < D (y' + 1) -> y = y'.
Proof. intros H H'. pose proof (D_mono (y + 1) y'). pose proof (D_mono (y' + 1) y). lia. Qed.

Lemma year_of_era doe : 0 <= doe < 146097 ->
  let yoe := (doe - doe / 1460 + doe / 36524 - doe / 146096) / 365 in
  0 <= yoe < 400 /\ D yoe = 365 * yoe + yoe / 4 - yoe / 100 /\ D yoe <= doe < D (yoe + 1).
Proof. intros H. unfold D. Z.div_mod_to_equations; lia. Qed.

Lemma year_of_day Z :
  let era := Z / 146097 in let doe := Z - era * 146097 in
  let yoe := (doe - doe / 1460 + doe / 36524 - doe / 146096) / 365 in
  let y := yoe + era * 400 in
  D y <= Z < D (y + 1) /\ doe - (365 * yoe + yoe / 4 - yoe / 100) = Z - D y.
Proof.
  intros era doe. assert (Hdoe : 0 <= doe < 146097) by (unfold doe, era; Z.div_mod_to_equations; lia).
  pose proof (year_of_era doe Hdoe) as H. cbv zeta in *. set (yoe := _ / 365) in *.
  destruct H as (Hy & HD & H). rewrite <- HD.
  pose proof (D_era yoe era) as E. pose proof (D_era (yoe + 1) era) as E1.
  replace (yoe + 1 + era * 400) with (yoe + era * 400 + 1) in E1 by ring.
  unfold doe in *. lia.
Qed.

Lemma month_of_doy doy : 0 <= doy < 366 ->
  let mp := (5 * doy + 2) / 153 in 0 <= mp <= 11 /\ mstart mp <= doy < mstart (mp + 1).
Proof. intros H. unfold mstart. Z.div_mod_to_equations; lia. Qed.

Lemma month_unique doy mp : 0 <= mp <= 11 -> mstart mp <= doy < mstart (mp + 1) -> (5 * doy + 2) / 153 = mp.
Proof. unfold mstart. intros. Z.div_mod_to_equations; lia. Qed.

Lemma mstart_step y m : 1 <= m <= 12 -> m <> 2 ->
  mstart ((m + 9) mod 12 + 1) - mstart ((m + 9) mod 12) = days_in_month y m.
Proof.
  intros H H2.
  assert (C : m = 1 \/ m = 3 \/ m = 4 \/ m = 5 \/ m = 6 \/ m = 7 \/ m = 8 \/ m = 9 \/ m = 10 \/ m = 11 \/ m = 12) by lia.
  repeat (destruct C as [->|C]); subst; reflexivity.
Qed.

(* a month ends where the next one starts or, for February, where the March-based year ends *)
Lemma month_span y m : 1 <= m <= 12 ->
  let y' := if m <=? 2 then y - 1 else y in let mp := (m + 9) mod 12 in
  days_in_month y m = Z.min (mstart (mp + 1)) (D (y' + 1) - D y') - mstart mp.
Proof.
  intros Hm. cbv zeta. pose proof (D_step (if m <=? 2 then y - 1 else y)) as HL.
  destruct (Z.eq_dec m 2) as [->|E].
  - change (days_in_month y 2) with (if is_leap y then 29 else 28).
    change (if 2 <=? 2 then y - 1 else y) with (y - 1) in *. replace (y - 1 + 1) with y in * by ring.
    change (mstart ((2 + 9) mod 12 + 1)) with 367. change (mstart ((2 + 9) mod 12)) with 337.
    destruct (is_leap y); lia.
  - rewrite <- (mstart_step y m) by lia.
    assert (mstart ((m + 9) mod 12 + 1) <= 337) by (unfold mstart; Z.div_mod_to_equations; lia).
    destruct (is_leap _); lia.
Qed.

Lemma days_closed_form y m d :
  days_of_civil y m d = D (if m <=? 2 then y - 1 else y) + mstart ((m + 9) mod 12) + d - 1 - 719468.
Proof.
  unfold days_of_civil, D, mstart. cbv zeta. set (y' := if m <=? 2 then y - 1 else y).
  Z.div_mod_to_equations; lia.
Qed.

Lemma valid_date_range y m d : valid_date y m d = true <-> 1 <= m <= 12 /\ 1 <= d <= days_in_month y m.
Proof. unfold valid_date. rewrite !andb_true_iff, !Z.leb_le. lia. Qed.

Lemma doy_of_valid y m d : valid_date y m d = true ->
  let y' := if m <=? 2 then y - 1 else y in let mp := (m + 9) mod 12 in let doy := mstart mp + d - 1 in
  0 <= mp <= 11 /\ mstart mp <= doy < mstart (mp + 1) /\ 0 <= doy < D (y' + 1) - D y'.
Proof.
  intros Hv. apply valid_date_range in Hv. rewrite month_span in Hv by lia. cbv zeta in *.
  set (mp := (m + 9) mod 12) in *.
  assert (0 <= mp <= 11 /\ 0 <= mstart mp) by (unfold mp, mstart; Z.div_mod_to_equations; lia). lia.
Qed.

Lemma days_of_civil_of_days z :
  let '(y, m, d) := civil_of_days z in valid_date y m d = true /\ days_of_civil y m d = z.
Proof.
  unfold civil_of_days. cbv zeta.
  destruct (year_of_day (z + 719468)) as [HY Hdoy]. cbv zeta in HY, Hdoy. rewrite Hdoy. clear Hdoy.
  set (y0 := _ + _ * 400) in *. set (doy := z + 719468 - D y0) in *.
  pose proof (D_step y0) as HL.
  assert (Hdoy : 0 <= doy < 366) by (destruct (is_leap (y0 + 1)); lia).
  destruct (month_of_doy doy Hdoy) as [Hmp Hd]. cbv zeta in Hmp, Hd. set (mp := _ / 153) in *.
  set (m := if mp <? 10 then mp + 3 else mp - 9).
  assert (Hm : (m + 9) mod 12 = mp /\ 1 <= m <= 12 /\ (m <= 2 <-> 10 <= mp))
    by (unfold m; destruct (Z.ltb_spec mp 10); Z.div_mod_to_equations; lia).
  destruct Hm as (Hmm & Hm & Hm2).
  set (y := if m <=? 2 then y0 + 1 else y0).
  assert (Hy : (if m <=? 2 then y - 1 else y) = y0) by (unfold y; destruct (m <=? 2); lia).
  fold (mstart mp). split.
  - apply valid_date_range. rewrite month_span by lia. cbv zeta. rewrite Hy, Hmm. lia.
  - rewrite days_closed_form, Hy, Hmm. lia.
Qed.

Lemma civil_of_days_of_civil y m d :
  valid_date y m d = true -> civil_of_days (days_of_civil y m d) = (y, m, d).
Proof.
  intros Hv. pose proof (doy_of_valid y m d Hv) as H. cbv zeta in H. apply valid_date_range in Hv.
  rewrite days_closed_form. set (y' := if m <=? 2 then y - 1 else y) in *. set (mp := (m + 9) mod 12) in *.
  destruct H as (Hmp & Hd & Hy).
  unfold civil_of_days. cbv zeta.
  replace (D y' + mstart mp + d - 1 - 719468 + 719468) with (D y' + (mstart mp + d - 1)) by ring.
  set (doy := mstart mp + d - 1) in *.
  destruct (year_of_day (D y' + doy)) as [HY Hdoy]. cbv zeta in HY, Hdoy. rewrite Hdoy. clear Hdoy.
  rewrite <- (year_unique (D y' + doy) y' _ ltac:(lia) HY).
  replace (D y' + doy - D y') with doy by ring.
  rewrite (month_unique doy mp Hmp Hd).
  assert (Hm : (if mp <? 10 then mp + 3 else mp - 9) = m)
    by (unfold mp; destruct (Z.ltb_spec ((m + 9) mod 12) 10); Z.div_mod_to_equations; lia).
  rewrite Hm. fold (mstart mp). f_equal; [f_equal|unfold doy; ring].
  unfold y'. destruct (m <=? 2); ring.
Qed.

Lemma days_shift y m d k : days_of_civil (y + 400 * k) m d = days_of_civil y m d + 146097 * k.
Proof.
  rewrite !days_closed_form.
  replace (if m <=? 2 then y + 400 * k - 1 else y + 400 * k) with ((if m <=? 2 then y - 1 else y) + k * 400)
    by (destruct (m <=? 2); ring).
  rewrite D_era. ring.
Qed.

Lemma is_leap_mod y : is_leap (y mod 400) = is_leap y.
Proof.
  unfold is_leap.
  assert (H4 : (y mod 400) mod 4 = y mod 4) by (Z.div_mod_to_equations; lia).
  assert (H100 : (y mod 400) mod 100 = y mod 100) by (Z.div_mod_to_equations; lia).
  rewrite H4, H100, Z.mod_mod by lia. reflexivity.
Qed.

Lemma valid_date_mod y m d : valid_date (y mod 400) m d = valid_date y m d.
Proof. unfold valid_date, days_in_month. now rewrite is_leap_mod. Qed.

Lemma civil_shift z k :
  civil_of_days (z + 146097 * k) = (let '(y, m, d) := civil_of_days z in (y + 400 * k, m, d)).
Proof.
  pose proof (days_of_civil_of_days z) as H. destruct (civil_of_days z) as [[y m] d]. destruct H as [Hv <-].
  rewrite <- days_shift. apply civil_of_days_of_civil.
  now rewrite <- valid_date_mod, Z.mul_comm, Z.mod_add, valid_date_mod by lia.
Qed.

Lemma month_length y m :
  1 <= m <= 12 ->
  (if m =? 12 then days_of_civil (y + 1) 1 1 else days_of_civil y (m + 1) 1) - days_of_civil y m 1 = days_in_month y m.
Proof.
  intros Hm. destruct (Z.eq_dec m 2) as [->|E].
  - change (2 =? 12) with false. cbv iota. rewrite !days_closed_form.
    change (if 2 + 1 <=? 2 then y - 1 else y) with y. change (if 2 <=? 2 then y - 1 else y) with (y - 1).
    change (mstart ((2 + 1 + 9) mod 12)) with 0. change (mstart ((2 + 9) mod 12)) with 337.
    change (days_in_month y 2) with (if is_leap y then 29 else 28).
    pose proof (D_step (y - 1)) as HL. replace (y - 1 + 1) with y in HL by ring. destruct (is_leap y); lia.
  - rewrite <- (mstart_step y m) by lia.
    destruct (Z.eqb_spec m 12) as [->|E12]; rewrite !days_closed_form.
    + change (if 1 <=? 2 then y + 1 - 1 else y + 1) with (y + 1 - 1). change (if 12 <=? 2 then y - 1 else y) with y.
      change ((1 + 9) mod 12) with ((12 + 9) mod 12 + 1). replace (y + 1 - 1) with y by ring. ring.
    + replace ((m + 1 + 9) mod 12) with ((m + 9) mod 12 + 1) by (Z.div_mod_to_equations; lia).
      replace (m + 1 <=? 2) with (m <=? 2) by (destruct (Z.leb_spec (m + 1) 2), (Z.leb_spec m 2); lia). ring.
Qed.

Lemma year_length y : days_of_civil (y + 1) 1 1 - days_of_civil y 1 1 = if is_leap y then 366 else 365.
Proof.
  rewrite !days_closed_form. change (1 <=? 2) with true. cbv iota.
  replace (is_leap y) with (is_leap (y - 1 + 1)) by (f_equal; ring). rewrite <- D_step.
  replace (y + 1 - 1) with (y - 1 + 1) by ring. ring.
Qed.

Lemma days_of_civil_day y m d d' : days_of_civil y m d' - days_of_civil y m d = d' - d.
Proof. rewrite !days_closed_form. ring. Qed.

Lemma days_year_lower y m d : valid_date y m d = true -> y <= 0 -> days_of_civil y m d < -719162.
Proof.
  intros Hv Hy. pose proof (doy_of_valid y m d Hv) as H. cbv zeta in H. apply valid_date_range in Hv.
  rewrite days_closed_form.
  destruct (Z.leb_spec m 2); [pose proof (D_mono (y - 1 + 1) 0)|pose proof (D_mono y 0)];
    unfold D, mstart in *; Z.div_mod_to_equations; lia.
Qed.

Lemma days_year_upper y m d : valid_date y m d = true -> 10000 <= y -> 2932896 < days_of_civil y m d.
Proof.
  intros Hv Hy. pose proof (doy_of_valid y m d Hv) as H. cbv zeta in H. apply valid_date_range in Hv.
  rewrite days_closed_form.
  destruct (Z.leb_spec m 2); [pose proof (D_mono 9999 (y - 1))|pose proof (D_mono 10000 y)];
    unfold D, mstart in *; Z.div_mod_to_equations; lia.
Qed.
