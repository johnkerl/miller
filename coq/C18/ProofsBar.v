(* C18 part 2c: proofs about the barred-PPRINT / markdown reader model (C18/ModelBar.v). *)
From Miller Require Import Base.Bytes Base.Record C01.Model C18.ModelReaders C18.ModelBar.

Lemma bar_events_length md : forall ls nb, List.length (bar_events md nb ls) = List.length ls.
Proof. induction ls as [|l t IH]; intros nb; cbn [bar_events]; [reflexivity|]. destruct (is_nil l); cbn [List.length]; now rewrite IH. Qed.

Definition cerr_of (c : cres) : option cerr := match c with CErr e => Some e | COk _ => None end.
Definition is_cerr (c : cres) : bool := match cerr_of c with Some _ => true | None => false end.

Lemma cerr_of_ccons r c : cerr_of (ccons r c) = cerr_of c.
Proof. destruct c; reflexivity. Qed.
Lemma is_cerr_ccons r c : is_cerr (ccons r c) = is_cerr c.
Proof. unfold is_cerr. now rewrite cerr_of_ccons. Qed.
Lemma is_cerr_true c : (exists e, c = CErr e) <-> is_cerr c = true.
Proof. destruct c as [rs|e]; split; [intros [e H]; discriminate|discriminate|reflexivity|now exists e]. Qed.
Lemma is_cerr_false c : (exists rs, c = COk rs) <-> is_cerr c = false.
Proof. destruct c as [rs|e]; split; [reflexivity|now exists rs|intros [rs H]; discriminate|discriminate]. Qed.

Lemma positional_keys_length n : List.length (positional_keys n) = n.
Proof. unfold positional_keys. now rewrite map_length, seq_length. Qed.

(* the loop state as a partially read block: [hn] = the cell count of the current block's first row *)
Definition cur_bad_n (hn : option nat) (es : list ev) : bool :=
  match ev_blocks es with
  | [] => false
  | b0 :: bs =>
    (match hn with
     | Some n => existsb (fun fs : list bytes => negb (Nat.eqb n (List.length fs))) b0
     | None => rows_bad b0
     end) || existsb rows_bad bs
  end.

Lemma ev_blocks_go_cons : forall es cur, exists b0 bs, ev_blocks_go cur es = b0 :: bs.
Proof. induction es as [|e t IH]; intros cur; cbn [ev_blocks_go]; [eauto|]. destruct e; eauto. Qed.

Lemma ev_blocks_go_rev_app : forall es cur,
  ev_blocks_go cur es = match ev_blocks_go [] es with b0 :: bs => (rev cur ++ b0) :: bs | [] => [] end.
Proof.
  induction es as [|e t IH]; intros cur; cbn [ev_blocks_go].
  - cbn [rev]. now rewrite app_nil_r.
  - destruct e as [| |fs].
    + cbn [rev]. now rewrite app_nil_r.
    + apply IH.
    + rewrite (IH (fs :: cur)), (IH [fs]). destruct (ev_blocks_go [] t) as [|b0 bs]; [reflexivity|].
      cbn [rev app]. now rewrite <- app_assoc.
Qed.

Lemma ev_blocks_row fs t : ev_blocks (EvRow fs :: t) = match ev_blocks t with b0 :: bs => (fs :: b0) :: bs | [] => [] end.
Proof. unfold ev_blocks. cbn [ev_blocks_go]. rewrite ev_blocks_go_rev_app. reflexivity. Qed.
Lemma ev_blocks_skip t : ev_blocks (EvSkip :: t) = ev_blocks t.
Proof. reflexivity. Qed.
Lemma ev_blocks_blank t : ev_blocks (EvBlank :: t) = [] :: ev_blocks t.
Proof. reflexivity. Qed.

Lemma cur_bad_n_nil hn : cur_bad_n hn [] = false.
Proof. destruct hn; reflexivity. Qed.
Lemma cur_bad_n_none t : cur_bad_n None t = existsb rows_bad (ev_blocks t).
Proof. unfold cur_bad_n. destruct (ev_blocks t); reflexivity. Qed.
Lemma cur_bad_n_cons hn e t :
  cur_bad_n hn (e :: t) =
  match e, hn with
  | EvBlank, _ => cur_bad_n None t
  | EvSkip, _ => cur_bad_n hn t
  | EvRow fs, Some n => negb (Nat.eqb n (List.length fs)) || cur_bad_n (Some n) t
  | EvRow fs, None => cur_bad_n (Some (List.length fs)) t
  end.
Proof.
  destruct e as [| |fs]; [|reflexivity|].
  - rewrite cur_bad_n_none. unfold cur_bad_n. rewrite ev_blocks_blank. now destruct hn.
  - unfold cur_bad_n. rewrite ev_blocks_row. destruct (ev_blocks_go_cons t []) as (b0 & bs & Hb).
    unfold ev_blocks in *. rewrite Hb. destruct hn; [|reflexivity]. cbn [existsb]. now rewrite orb_assoc.
Qed.

Lemma bar_go_is_err o : forall es hdr line,
  is_cerr (bar_go o hdr line es) = negb (b_ragged o) && cur_bad_n (option_map (@List.length bytes) hdr) es.
Proof.
  induction es as [|e t IH]; intros hdr line; [now rewrite cur_bad_n_nil, andb_false_r|].
  rewrite cur_bad_n_cons. destruct e as [| |fs]; cbn [bar_go]; [apply (IH None)|apply IH|].
  destruct hdr as [hs|]; cbn [option_map].
  - unfold row_fits.
    destruct (Nat.eqb (List.length hs) (List.length fs)), (b_ragged o) eqn:Hrg; cbn [orb negb andb];
      rewrite ?is_cerr_ccons, ?(IH (Some hs)), ?Hrg; reflexivity.
  - destruct (b_implicit o); [|apply (IH (Some fs))].
    rewrite is_cerr_ccons, (IH (Some (positional_keys (List.length fs)))). cbn [option_map].
    now rewrite positional_keys_length.
Qed.

Lemma read_bar_is_err o s : is_cerr (read_bar_c o s) = bar_malformed o s.
Proof. unfold read_bar_c, bar_malformed. now rewrite bar_go_is_err, cur_bad_n_none. Qed.

Theorem read_bar_err_iff o s : (exists e, read_bar_c o s = CErr e) <-> bar_malformed o s = true.
Proof. rewrite <- read_bar_is_err. apply is_cerr_true. Qed.

Theorem read_bar_ok_iff o s : (exists rs, read_bar_c o s = COk rs) <-> bar_malformed o s = false.
Proof. rewrite <- read_bar_is_err. apply is_cerr_false. Qed.

Definition bad_row_at (o : bopts) (es : list ev) (line : N) (e : cerr) : Prop :=
  exists (hs fs : list bytes) pre post, es = pre ++ EvRow fs :: post
    /\ e = EMismatch (nlen hs) (nlen fs) (line + N.of_nat (List.length pre))
    /\ List.length hs <> List.length fs /\ b_ragged o = false.

Lemma bad_row_at_later o x t line e : bad_row_at o t (line + 1) e -> bad_row_at o (x :: t) line e.
Proof.
  intros (hs & fs & pre & post & -> & -> & Hn & Hr). exists hs, fs, (x :: pre), post.
  repeat split; try assumption. f_equal. cbn [List.length]. lia.
Qed.

Lemma bar_go_err_shape o : forall es hdr line e, cerr_of (bar_go o hdr line es) = Some e -> bad_row_at o es line e.
Proof.
  induction es as [|x t IH]; intros hdr line e H; cbn [bar_go] in H; [discriminate|].
  destruct x as [| |fs]; [eapply bad_row_at_later, IH, H..|].
  destruct hdr as [hs|].
  - destruct (row_fits (b_ragged o) hs fs) eqn:Hf; [rewrite cerr_of_ccons in H; eapply bad_row_at_later, IH, H|].
    injection H as <-. unfold row_fits in Hf. apply orb_false_iff in Hf as [Hf Hr]. apply Nat.eqb_neq in Hf.
    exists hs, fs, [], t. repeat split; try assumption. f_equal. cbn [List.length]. lia.
  - destruct (b_implicit o); [rewrite cerr_of_ccons in H|]; eapply bad_row_at_later, IH, H.
Qed.

(* the offending event is the event of the offending LINE: events and lines correspond one to one *)
Theorem read_bar_err_position o s e :
  read_bar_c o s = CErr e ->
  exists (hs fs : list bytes) pre post,
    bar_events (b_md o) 0 (lines_of s) = pre ++ EvRow fs :: post
    /\ e = EMismatch (nlen hs) (nlen fs) (1 + N.of_nat (List.length pre))
    /\ List.length hs <> List.length fs /\ b_ragged o = false
    /\ (List.length pre < List.length (lines_of s))%nat.
Proof.
  intros H. destruct (bar_go_err_shape o _ None 1 e (f_equal cerr_of H)) as (hs & fs & pre & post & He & -> & Hn & Hr).
  exists hs, fs, pre, post. repeat split; try assumption.
  rewrite <- (bar_events_length (b_md o) (lines_of s) 0), He, app_length. cbn [List.length]. lia.
Qed.

Lemma middle_length (pf : list bytes) : List.length (middle pf) = List.length pf - 2.
Proof. unfold middle. rewrite removelast_firstn_len, firstn_length. destruct pf; cbn [tl List.length]; lia. Qed.

(* the markdown splitter and the "drop the first and last padded field" step never fail: a line with fewer than two padded
   fields is skipped (this is the guard added by ff74c4ac8: make([]string, npad-2) with npad < 2 panicked) *)
Lemma bar_event_row_cells md nb l fs : bar_event md nb l = EvRow fs ->
  exists pf : list bytes, (2 <= List.length pf)%nat /\ List.length fs = (List.length pf - 2)%nat.
Proof.
  unfold bar_event. destruct (is_sep md nb l); [discriminate|].
  set (pf := if md then md_split l else field_split ["|"%char] false l).
  destruct (Nat.ltb (List.length pf) 2) eqn:Hl; [discriminate|]. intros H. injection H as <-.
  exists pf. split; [now apply Nat.ltb_ge|]. now rewrite map_length, middle_length.
Qed.
