(* C18 part 2b: proofs about the classified CSV / CSV-lite / PPRINT / XTAB reader models (C18/ModelReaders.v).
   Each row loop gets one equation for "ends in an error" (is_cerr of the loop = its malformed class) and one lemma that
   places the error at the first bad row; the CSV-lite / PPRINT loop is the barred reader's loop (C18/ModelBar.v) run on
   the events of its lines, and inherits both. *)
From Miller Require Import Base.Bytes Base.Record C01.Model C01.ModelXtab C01.ModelLite C18.ModelReaders C18.ModelBar C18.ProofsBar.
Open Scope char_scope.

Local Lemma eqc_true a b : eqc a b = true -> a = b.
Proof. unfold eqc. intros H. now apply Ascii.eqb_eq. Qed.

Lemma existsb_map {A B} (f : B -> bool) (g : A -> B) l : existsb f (map g l) = existsb (fun x => f (g x)) l.
Proof. induction l as [|x l IH]; cbn [map existsb]; [reflexivity|]. now rewrite IH. Qed.

Lemma forallb_rev {A} (f : A -> bool) l : forallb f (rev l) = forallb f l.
Proof.
  induction l as [|x l IH]; [reflexivity|]. cbn [rev forallb]. rewrite forallb_app, IH. cbn [forallb].
  now rewrite andb_true_r, andb_comm.
Qed.

Lemma skipn_nth {A} (l : list A) : forall i, i < List.length l ->
  exists x, nth_error l i = Some x /\ skipn i l = x :: skipn (S i) l.
Proof.
  induction l as [|y l IH]; intros i Hi; cbn [List.length] in Hi; [lia|]. destruct i as [|i]; [now exists y|].
  apply IH. lia.
Qed.

Definition row_passes (ragged skiptriv : bool) (hs fs : list bytes) : bool := negb (row_bad ragged skiptriv hs fs).

Lemma row_bad_cases rg st hs fs :
  row_bad rg st hs fs = if row_fits rg hs fs then false else if st && forallb is_nil fs then false else true.
Proof. unfold row_bad. destruct (row_fits rg hs fs), (st && forallb is_nil fs); reflexivity. Qed.

Lemma data_rows_cons_err d rg st hs fs t n :
  cerr_of (data_rows d rg st hs n (fs :: t)) =
  if row_bad rg st hs fs then Some (EMismatch (nlen hs) (nlen fs) n) else cerr_of (data_rows d rg st hs (n + 1) t).
Proof.
  cbn [data_rows]. rewrite row_bad_cases. destruct (row_fits rg hs fs); [|now destruct (st && forallb is_nil fs)].
  now destruct (data_rows d rg st hs (n + 1) t).
Qed.

Lemma data_rows_is_err d rg st hs : forall rows n,
  is_cerr (data_rows d rg st hs n rows) = existsb (row_bad rg st hs) rows.
Proof.
  induction rows as [|fs t IH]; intros n; [reflexivity|]. unfold is_cerr. rewrite data_rows_cons_err. cbn [existsb].
  destruct (row_bad rg st hs fs); [reflexivity|apply IH].
Qed.

Lemma data_rows_err_position d rg st hs : forall rows n e,
  cerr_of (data_rows d rg st hs n rows) = Some e ->
  exists pre bad post, rows = pre ++ bad :: post
    /\ forallb (row_passes rg st hs) pre = true /\ row_bad rg st hs bad = true
    /\ e = EMismatch (nlen hs) (nlen bad) (n + N.of_nat (List.length pre)).
Proof.
  induction rows as [|fs t IH]; intros n e H; [discriminate|]. rewrite data_rows_cons_err in H.
  destruct (row_bad rg st hs fs) eqn:Hb.
  - injection H as <-. exists [], fs, t. repeat split; [exact Hb|]. f_equal. cbn [List.length]. lia.
  - destruct (IH _ _ H) as (pre & bad & post & -> & Hp & Hbad & ->). exists (fs :: pre), bad, post.
    repeat split; [|exact Hbad|].
    + cbn [forallb]. unfold row_passes at 1. now rewrite Hb.
    + f_equal. cbn [List.length]. lia.
Qed.

Lemma data_rows_length d rg st hs : forall rows n rs,
  data_rows d rg st hs n rows = COk rs ->
  List.length rs = List.length (filter (row_fits rg hs) rows).
Proof.
  induction rows as [|fs t IH]; intros n rs H; cbn [data_rows filter] in *.
  - now injection H as <-.
  - destruct (row_fits rg hs fs) eqn:Hf.
    + destruct (data_rows d rg st hs (n + 1) t) as [rs'|e] eqn:Ht; [|discriminate].
      injection H as <-. cbn [List.length]. f_equal. eapply IH; eassumption.
    + destruct (st && forallb is_nil fs); [|discriminate]. eapply IH; eassumption.
Qed.

(* the malformed classes of the CSV reader, in the order in which they win *)
Definition csv_delim_malformed (o : copts) : bool := negb (valid_comma (o_comma o)).
Definition csv_quote_malformed (o : copts) (s : bytes) : option qerr :=
  match csv_rows_c (o_lazy o) (o_comma o) (strip_bom s) with RowsFail k => Some k | RowsOk _ => None end.
Definition csv_rows_or_nil (o : copts) (s : bytes) : list (list bytes) :=
  match csv_rows_c (o_lazy o) (o_comma o) (strip_bom s) with RowsOk rows => rows | RowsFail _ => [] end.
(* some data row has a field count different from the header's, ragged mode is off and the row is not a trivial row
   skipped on behalf of the skip-trivial-records verb *)
Definition csv_length_malformed (o : copts) (s : bytes) : bool :=
  match csv_header_data (o_implicit o) (csv_rows_or_nil o s) with
  | None => false
  | Some (hs, _, data) => existsb (row_bad (o_ragged o) (o_skiptriv o) hs) data
  end.

(* what a mismatch message reports: the header's size, the size and the number of the first row that neither fits nor is skipped *)
Definition mismatch_at (o : copts) (s : bytes) (a b r : N) : Prop :=
  exists hs n0 pre bad post,
    csv_header_data (o_implicit o) (csv_rows_or_nil o s) = Some (hs, n0, pre ++ bad :: post)
    /\ forallb (row_passes (o_ragged o) (o_skiptriv o) hs) pre = true
    /\ row_bad (o_ragged o) (o_skiptriv o) hs bad = true
    /\ a = nlen hs /\ b = nlen bad /\ r = (n0 + N.of_nat (List.length pre))%N.

(* every outcome of the reader, with the classes it comes from: the classes are exclusive, so each outcome happens
   exactly on its own *)
Lemma read_csv_class o s :
  match read_csv_c o s with
  | COk _ => csv_delim_malformed o = false /\ csv_quote_malformed o s = None /\ csv_length_malformed o s = false
  | CErr EDelim => csv_delim_malformed o = true
  | CErr (EParse k) => csv_delim_malformed o = false /\ csv_quote_malformed o s = Some k
  | CErr (EMismatch a b r) =>
    csv_delim_malformed o = false /\ csv_quote_malformed o s = None /\ csv_length_malformed o s = true
    /\ mismatch_at o s a b r
  | CErr EXtabInternal => False
  end.
Proof.
  unfold read_csv_c, mismatch_at, csv_delim_malformed, csv_quote_malformed, csv_length_malformed, csv_rows_or_nil.
  destruct (negb (valid_comma (o_comma o))); [reflexivity|].
  destruct (csv_rows_c (o_lazy o) (o_comma o) (strip_bom s)) as [rows|k]; [|auto].
  destruct (csv_header_data (o_implicit o) rows) as [[[hs n0] data]|]; [|auto].
  rewrite <- (data_rows_is_err (o_dedupe o) (o_ragged o) (o_skiptriv o) hs data n0).
  destruct (data_rows (o_dedupe o) (o_ragged o) (o_skiptriv o) hs n0 data) as [rs|e] eqn:E; [auto|].
  destruct (data_rows_err_position _ _ _ _ _ _ _ (f_equal cerr_of E)) as (pre & bad & post & -> & Hp & Hb & ->).
  repeat split. exists hs, n0, pre, bad, post. auto 7.
Qed.

Lemma read_csv_delim o s : read_csv_c o s = CErr EDelim <-> csv_delim_malformed o = true.
Proof.
  pose proof (read_csv_class o s) as H. destruct (read_csv_c o s) as [rs|[|k|a b r|]]; intuition congruence.
Qed.

Lemma read_csv_parse o s k :
  read_csv_c o s = CErr (EParse k) <-> csv_delim_malformed o = false /\ csv_quote_malformed o s = Some k.
Proof.
  pose proof (read_csv_class o s) as H. destruct (read_csv_c o s) as [rs|[|k'|a b r|]]; intuition congruence.
Qed.

Lemma read_csv_mismatch o s :
  (exists a b r, read_csv_c o s = CErr (EMismatch a b r))
  <-> csv_delim_malformed o = false /\ csv_quote_malformed o s = None /\ csv_length_malformed o s = true.
Proof.
  pose proof (read_csv_class o s) as H. split.
  - intros (a & b & r & E). rewrite E in H. tauto.
  - intros Hc. destruct (read_csv_c o s) as [rs|[|k|a b r|]]; [| | |eauto|]; intuition congruence.
Qed.

Lemma read_csv_ok o s :
  (exists rs, read_csv_c o s = COk rs)
  <-> csv_delim_malformed o = false /\ csv_quote_malformed o s = None /\ csv_length_malformed o s = false.
Proof.
  pose proof (read_csv_class o s) as H. split.
  - intros [rs E]. now rewrite E in H.
  - intros Hc. destruct (read_csv_c o s) as [rs|[|k|a b r|]]; [eauto| | | |]; intuition congruence.
Qed.

Lemma read_csv_mismatch_position o s a b r : read_csv_c o s = CErr (EMismatch a b r) -> mismatch_at o s a b r.
Proof. intros E. pose proof (read_csv_class o s) as H. rewrite E in H. apply H. Qed.

Lemma step_lazy comma m c : exists m', step true comma m c = Next m'.
Proof.
  unfold step, step_unq. destruct (m_st m); repeat (match goal with |- context [if ?b then _ else _] => destruct b end); eauto.
Qed.
Lemma run_lazy comma te : forall s m, exists rows, run true comma te m s = RowsOk rows.
Proof.
  induction s as [|c t IH]; intros m; cbn [run].
  - unfold finish. destruct (m_st m); destruct te; eauto.
  - destruct (step_lazy comma m c) as [m' ->]. apply IH.
Qed.
Lemma csv_rows_lazy comma s : exists rows, csv_rows_c true comma s = RowsOk rows.
Proof. unfold csv_rows_c. destruct (normalise s) as [t te]. apply run_lazy. Qed.

(* a text without a double quote is never rejected: the machine never enters a quoted state *)
Definition unq_state (st : cst) : bool := match st with SOR | SOF | UQ | SKIP => true | QT | QQ => false end.
Lemma nochar_cons c x t : nochar c (x :: t) = negb (eqc x c) && nochar c t.
Proof. reflexivity. Qed.

(* CR LF is read as the LF alone, so every branch of norm_go continues with the tail *)
Lemma norm_go_cons c t b :
  fst (norm_go (c :: t) b) =
  if eqc c CR then
    match t with
    | [] => []
    | d :: _ => if eqc d LF then fst (norm_go t true) else c :: fst (norm_go t false)
    end
  else c :: fst (norm_go t (eqc c LF)).
Proof.
  cbn [norm_go]. destruct (eqc c CR); [destruct t as [|d t']; [reflexivity|]|now destruct (norm_go t (eqc c LF))].
  destruct (eqc d LF) eqn:Hd; [|now destruct (norm_go (d :: t') false)].
  apply eqc_true in Hd as ->. cbn. now destruct (norm_go t' true).
Qed.

Lemma norm_go_nodq : forall s b, nochar DQ s = true -> nochar DQ (fst (norm_go s b)) = true.
Proof.
  induction s as [|c t IH]; intros b H; [reflexivity|]. rewrite nochar_cons in H. apply andb_true_iff in H as [Hc Ht].
  rewrite norm_go_cons. destruct (eqc c CR); [destruct t as [|d t']; [reflexivity|destruct (eqc d LF)]|];
    rewrite ?nochar_cons, ?Hc; now apply IH.
Qed.
Lemma step_nodq lazy comma m c :
  unq_state (m_st m) = true -> eqc c DQ = false ->
  exists m', step lazy comma m c = Next m' /\ unq_state (m_st m') = true.
Proof.
  intros Hs Hc. unfold step, step_unq. destruct (m_st m) eqn:Est; try discriminate; rewrite ?Hc;
    repeat (match goal with |- context [if ?b then _ else _] => destruct b end);
    eexists; (split; [reflexivity|cbn; rewrite ?Est; reflexivity]).
Qed.
Lemma run_nodq lazy comma te : forall s m,
  nochar DQ s = true -> unq_state (m_st m) = true -> exists rows, run lazy comma te m s = RowsOk rows.
Proof.
  induction s as [|c t IH]; intros m Hs Hm; cbn [run].
  - unfold finish. destruct (m_st m); try discriminate; destruct te; eauto.
  - rewrite nochar_cons in Hs. apply andb_true_iff in Hs as [Hc Ht]. apply negb_true_iff in Hc.
    destruct (step_nodq lazy comma m c Hm Hc) as (m' & -> & Hm'). now apply IH.
Qed.
Lemma csv_rows_nodq lazy comma s : nochar DQ s = true -> exists rows, csv_rows_c lazy comma s = RowsOk rows.
Proof.
  intros H. unfold csv_rows_c, normalise. pose proof (norm_go_nodq s true H) as Hn.
  destruct (norm_go s true) as [t te]. cbn [fst] in Hn. now apply run_nodq.
Qed.

(* a reported quote error: the record in which it occurs has no completed field (the Go reader's dst == nil) --
   stated on the machine: Fail is only produced by m_error on an empty field list *)
Lemma m_error_fail k m k' : m_error k m = Fail k' -> k' = k /\ m_fields m = [].
Proof. unfold m_error. destruct (m_fields m); [intros H; injection H as <-; auto|discriminate]. Qed.

Definition nf (o : lopts) (l : bytes) : nat := List.length (field_split (l_ifs o) (l_repifs o) l).

Lemma blocks_go_cons cur ls : exists b0 bs, blocks_go cur ls = b0 :: bs.
Proof. revert cur; induction ls as [|l t IH]; intros cur; cbn [blocks_go]; [eauto|]. destruct (is_nil l); eauto. Qed.

Lemma blocks_go_rev_app cur ls :
  blocks_go cur ls = match blocks_go [] ls with b0 :: bs => (rev cur ++ b0) :: bs | [] => [] end.
Proof.
  revert cur; induction ls as [|l t IH]; intros cur; cbn [blocks_go].
  - cbn [rev]. now rewrite app_nil_r.
  - destruct (is_nil l).
    + cbn [rev]. now rewrite app_nil_r.
    + rewrite (IH (l :: cur)), (IH [l]). destruct (blocks_go [] t) as [|b0 bs]; [reflexivity|].
      cbn [rev app]. now rewrite <- app_assoc.
Qed.

Lemma blocks_nonempty_line (l : bytes) (t : list bytes) : is_nil l = false ->
  blocks (l :: t) = match blocks t with b0 :: bs => (l :: b0) :: bs | [] => [] end.
Proof.
  intros H. unfold blocks. cbn [blocks_go]. rewrite H, blocks_go_rev_app. reflexivity.
Qed.
Lemma blocks_empty_line (l : bytes) (t : list bytes) : is_nil l = true -> blocks (l :: t) = [] :: blocks t.
Proof. intros H. unfold blocks. cbn [blocks_go]. now rewrite H. Qed.

(* the reader loop is the loop of the barred reader on these events: an empty line ends the block, any other line is a row *)
Definition lite_ev (o : lopts) (l : bytes) : ev :=
  if is_nil l then EvBlank else EvRow (field_split (l_ifs o) (l_repifs o) l).
Definition lite_bopts (o : lopts) : bopts := mkB false false (l_dedupe o) (l_ragged o).

Lemma lite_go_as_bar o : forall ls hdr line,
  cerr_of (lite_go_c o hdr line ls) = cerr_of (bar_go (lite_bopts o) hdr line (map (lite_ev o) ls)).
Proof.
  induction ls as [|l t IH]; intros hdr line; [reflexivity|]. cbn [lite_go_c map]. unfold lite_ev at 1.
  destruct (is_nil l); cbn [bar_go lite_bopts b_implicit b_ragged]; [apply IH|]. destruct hdr as [hs|]; [|apply IH].
  destruct (row_fits (l_ragged o) hs (field_split (l_ifs o) (l_repifs o) l)); [|reflexivity].
  rewrite cerr_of_ccons, <- IH. now destruct (lite_go_c o (Some hs) (line + 1) t).
Qed.

Lemma ev_blocks_lite o ls :
  ev_blocks (map (lite_ev o) ls) = map (map (field_split (l_ifs o) (l_repifs o))) (blocks ls).
Proof.
  induction ls as [|l t IH]; [reflexivity|]. cbn [map]. unfold lite_ev at 1. destruct (is_nil l) eqn:Hl.
  - now rewrite ev_blocks_blank, (blocks_empty_line l t Hl), IH.
  - rewrite ev_blocks_row, (blocks_nonempty_line l t Hl), IH. now destruct (blocks t).
Qed.

Lemma rows_bad_lite o b : rows_bad (map (field_split (l_ifs o) (l_repifs o)) b) = block_bad o b.
Proof.
  destruct b as [|h data]; [reflexivity|]. cbn [map rows_bad]. now rewrite existsb_map.
Qed.

Lemma lite_blocks_bad o ls : existsb rows_bad (ev_blocks (map (lite_ev o) ls)) = existsb (block_bad o) (blocks ls).
Proof.
  rewrite ev_blocks_lite, existsb_map. induction (blocks ls) as [|b bs IH]; [reflexivity|]. cbn [existsb].
  now rewrite rows_bad_lite, IH.
Qed.

Lemma lite_go_is_err o ls hdr line :
  is_cerr (lite_go_c o hdr line ls)
  = negb (l_ragged o) && cur_bad_n (option_map (@List.length bytes) hdr) (map (lite_ev o) ls).
Proof. unfold is_cerr. rewrite lite_go_as_bar. apply (bar_go_is_err (lite_bopts o)). Qed.

Lemma read_lite_err_iff o s : (exists e, read_lite_c o s = CErr e) <-> lite_malformed o s = true.
Proof.
  etransitivity; [apply is_cerr_true|]. unfold read_lite_c, lite_malformed.
  now rewrite lite_go_is_err, cur_bad_n_none, lite_blocks_bad.
Qed.

Lemma lite_go_err_shape o : forall ls hdr line e,
  lite_go_c o hdr line ls = CErr e ->
  exists (hs : list bytes) pre bad post, ls = pre ++ bad :: post
    /\ e = EMismatch (nlen hs) (N.of_nat (nf o bad)) (line + N.of_nat (List.length pre))
    /\ is_nil bad = false /\ List.length hs <> nf o bad /\ l_ragged o = false.
Proof.
  intros ls hdr line e H. apply (f_equal cerr_of) in H. rewrite lite_go_as_bar in H.
  destruct (bar_go_err_shape _ _ _ _ _ H) as (hs & fs & pre & post & Hes & -> & Hn & Hr).
  apply map_eq_app in Hes as (pre' & l2 & -> & <- & Hes). apply map_eq_cons in Hes as (bad & post' & -> & Hbad & _).
  unfold lite_ev in Hbad. destruct (is_nil bad) eqn:Hb; [discriminate|]. injection Hbad as <-.
  exists hs, pre', bad, post'. rewrite map_length. auto.
Qed.

Lemma xtab_split_some ips l : is_nil l = false -> exists kv, xtab_split ips l = Some kv.
Proof.
  destruct l as [|c0 t]; [discriminate|]. intros _. unfold xtab_split.
  destruct (prefixb ips (c0 :: t)); [eauto|]. destruct (find_ips ips t [c0]) as [[k rest]|]; eauto.
Qed.

Lemma xtab_stanzas_nonempty : forall ls cur,
  forallb (fun l => negb (is_nil l)) cur = true ->
  forallb (forallb (fun l => negb (is_nil l))) (xtab_stanzas ls cur) = true.
Proof.
  induction ls as [|l t IH]; intros cur Hc; cbn [xtab_stanzas].
  - destruct cur; [reflexivity|]. cbn [forallb]. now rewrite forallb_rev, Hc.
  - destruct (is_nil l) eqn:Hl; [|apply IH; cbn [forallb]; now rewrite Hl, Hc].
    destruct cur; [now apply IH|]. cbn [forallb]. rewrite forallb_rev, Hc. now apply IH.
Qed.

Lemma xtab_record_some ips d : forall ls r,
  forallb (fun l => negb (is_nil l)) ls = true -> exists r', xtab_record_c ips d ls r = Some r'.
Proof.
  induction ls as [|l t IH]; intros r H; cbn [xtab_record_c]; [eauto|].
  cbn [forallb] in H. apply andb_true_iff in H as [Hl Ht]. apply negb_true_iff in Hl.
  destruct (xtab_split_some ips l Hl) as [[k v] ->]. now apply IH.
Qed.

Lemma xtab_all_ok ips d : forall sts,
  forallb (forallb (fun l => negb (is_nil l))) sts = true ->
  exists rs, xtab_all ips d sts = COk rs /\ List.length rs = List.length sts.
Proof.
  induction sts as [|st t IH]; intros H; cbn [xtab_all]; [now exists []|].
  cbn [forallb] in H. apply andb_true_iff in H as [Hs Ht].
  destruct (xtab_record_some ips d st [] Hs) as [r ->]. destruct (IH Ht) as (rs & -> & Hlen).
  exists (r :: rs). split; [reflexivity|]. cbn [List.length]. now rewrite Hlen.
Qed.

Lemma read_xtab_total ips d s :
  exists rs, read_xtab_c ips d s = COk rs /\ List.length rs = List.length (xtab_stanzas (lines_of s) []).
Proof. unfold read_xtab_c. apply xtab_all_ok. now apply xtab_stanzas_nonempty. Qed.

Definition put_pairs (d : bool) (kvs : list (bytes * bytes)) (r : record) : record :=
  fold_left (fun acc kv => put_deferred d (fst kv) (snd kv) acc) kvs r.

Lemma put_range_ok d hs fs : forall n i r,
  i + n <= List.length hs -> i + n <= List.length fs ->
  put_range d hs fs i n r = Some (put_pairs d (combine (firstn n (skipn i hs)) (firstn n (skipn i fs))) r).
Proof.
  induction n as [|n IH]; intros i r Hh Hf; [reflexivity|]. cbn [put_range].
  destruct (skipn_nth hs i) as (k & -> & ->); [lia|]. destruct (skipn_nth fs i) as (v & -> & ->); [lia|].
  rewrite IH by lia. reflexivity.
Qed.

Lemma put_extra_ok d fs : forall n i r, i + n <= List.length fs -> exists r', put_extra d fs i n r = Some r'.
Proof.
  induction n as [|n IH]; intros i r Hf; cbn [put_extra]; [eauto|].
  destruct (skipn_nth fs i) as (v & -> & _); [lia|]. apply IH. lia.
Qed.

Lemma put_fill_ok d hs : forall n i r, i + n <= List.length hs -> exists r', put_fill d hs i n r = Some r'.
Proof.
  induction n as [|n IH]; intros i r Hh; cbn [put_fill]; [eauto|].
  destruct (skipn_nth hs i) as (k & -> & _); [lia|]. apply IH. lia.
Qed.

Lemma row_indexed_total d fill hs fs : exists r, row_indexed d fill hs fs = Some r.
Proof.
  unfold row_indexed. destruct (Nat.eqb (List.length hs) (List.length fs)) eqn:He.
  - apply Nat.eqb_eq in He. rewrite put_range_ok by lia. eauto.
  - rewrite put_range_ok by lia. destruct (Nat.ltb (List.length hs) (List.length fs)) eqn:Hlt.
    + apply Nat.ltb_lt in Hlt. apply put_extra_ok. lia.
    + destruct fill; [|eauto]. apply Nat.ltb_ge in Hlt. apply put_fill_ok. lia.
Qed.
