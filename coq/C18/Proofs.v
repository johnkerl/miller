(* C18 part 2: classification theorems for the line-reader models (C18/Model.v). *)
From Miller Require Import Base.Bytes Base.Record C18.Model.
From Coq Require Import DecimalString DecimalN FinFun.
Open Scope char_scope.

Lemma finish_line_no_LF cur : ~ In LF cur -> ~ In LF (finish_line cur).
Proof.
  intros H. destruct cur as [|c t]; cbn [finish_line]; [tauto|].
  destruct (Ascii.eqb c CR); rewrite <- in_rev; [|exact H]. intros Hin. apply H. now right.
Qed.

Lemma lines_aux_no_LF s : forall cur l, ~ In LF cur -> In l (lines_aux cur s) -> ~ In LF l.
Proof.
  induction s as [|c t IH]; intros cur l Hcur Hin; cbn in Hin.
  - destruct cur as [|x cur']; [contradiction|]. destruct Hin as [<-|[]].
    intros H. rewrite <- in_rev in H. now apply Hcur.
  - destruct (Ascii.eqb_spec c LF) as [->|Hne].
    + destruct Hin as [<-|Hin]; [now apply finish_line_no_LF|]. eapply IH; [|exact Hin]. tauto.
    + eapply IH; [|exact Hin]. intros [H|H]; [congruence|now apply Hcur].
Qed.

Lemma split_lines_no_LF s l : In l (split_lines s) -> ~ In LF l.
Proof. apply lines_aux_no_LF. tauto. Qed.

Lemma N_to_dec_inj a b : N_to_dec a = N_to_dec b -> a = b.
Proof.
  unfold N_to_dec. intros H.
  apply (f_equal string_of_list_ascii) in H. rewrite !string_of_list_ascii_of_string in H.
  apply (f_equal NilEmpty.uint_of_string) in H. rewrite !NilEmpty.usu in H. inversion H as [H'].
  apply (f_equal N.of_uint) in H'. now rewrite !Unsigned.of_to in H'.
Qed.

Definition cand (k : bytes) (i : N) : bytes := k ++ "_" :: N_to_dec i.

Lemma cand_inj k : Injective (cand k).
Proof.
  intros a b H. unfold cand in H. apply app_inv_head in H. inversion H as [H']. now apply N_to_dec_inj.
Qed.

Lemma has_In k r : has k r = true -> In k (keys r).
Proof.
  unfold has. induction r as [|[k' v] r IH]; cbn; [discriminate|].
  destruct (beqb_spec k k') as [->|Hne]; [now left|]. intros H. right. now apply IH.
Qed.

Lemma fresh_key_none k r : forall fuel i,
  fresh_key fuel k i r = None -> forall t, (t < fuel)%nat -> has (cand k (i + N.of_nat t)) r = true.
Proof.
  induction fuel as [|f IH]; intros i H t Ht; [lia|]. cbn [fresh_key] in H. fold (cand k i) in H.
  destruct (has (cand k i) r) eqn:E; [|discriminate].
  destruct t as [|t'].
  - now replace (i + N.of_nat 0)%N with i by lia.
  - replace (i + N.of_nat (S t'))%N with (i + 1 + N.of_nat t')%N by lia. apply IH; [exact H|lia].
Qed.

(* pigeonhole: length r + 2 distinct candidates cannot all be keys of r *)
Lemma fresh_key_some k r i : fresh_key (S (S (List.length r))) k i r <> None.
Proof.
  intros H. pose proof (fresh_key_none k r _ _ H) as Hall.
  set (f := S (S (List.length r))) in *.
  set (cands := map (fun t => cand k (i + N.of_nat t)) (seq 0 f)).
  assert (Hnd : NoDup cands).
  { apply Injective_map_NoDup; [|apply seq_NoDup].
    intros a b Hab. apply cand_inj in Hab. apply N.add_cancel_l in Hab. now apply Nat2N.inj in Hab. }
  assert (Hincl : incl cands (keys r)).
  { intros x Hx. apply in_map_iff in Hx. destruct Hx as (t & <- & Ht). apply in_seq in Ht.
    apply has_In. apply Hall. lia. }
  pose proof (NoDup_incl_length Hnd Hincl) as Hlen.
  unfold cands, keys in Hlen. rewrite !map_length, seq_length in Hlen. subst f.
  apply (Nat.nle_succ_diag_l (List.length r)). apply Nat.le_trans with (2 := Hlen). apply Nat.le_succ_diag_r.
Qed.

Lemma put_dedupe_some k v r : put_dedupe k v r <> None.
Proof.
  unfold put_dedupe. destruct (has k r); [|discriminate].
  destruct (fresh_key (S (S (List.length r))) k 2 r) eqn:E; [discriminate|]. now apply fresh_key_some in E.
Qed.

Lemma put_all_some kvs : forall r, put_all kvs r <> None.
Proof.
  induction kvs as [|[k v] t IH]; intros r; cbn; [discriminate|].
  destruct (put_dedupe k v r) eqn:E; [apply IH|now apply put_dedupe_some in E].
Qed.

Lemma map_lines_total f ls :
  (forall l, f l <> None) -> exists rs, map_lines f ls = Ok rs /\ List.length rs = List.length ls.
Proof.
  intros Hf. induction ls as [|x t (rs & IH & Hlen)]; cbn [map_lines]; [now exists []|].
  destruct (f x) as [r|] eqn:E; [|now apply Hf in E]. rewrite IH. exists (r :: rs). cbn [List.length]. auto.
Qed.

Lemma read_dkvp_total s : exists rs, read_dkvp s = Ok rs /\ List.length rs = List.length (split_lines s).
Proof. apply map_lines_total. intros l. apply put_all_some. Qed.

Lemma read_nidx_total s : exists rs, read_nidx s = Ok rs /\ List.length rs = List.length (split_lines s).
Proof. now apply map_lines_total. Qed.

Lemma read_dkvp_never_mismatch s a b l : read_dkvp s <> ErrMismatch a b l.
Proof. destruct (read_dkvp_total s) as (rs & -> & _). discriminate. Qed.

Lemma read_dkvp_one_record_per_line s rs : read_dkvp s = Ok rs -> List.length rs = List.length (split_lines s).
Proof. destruct (read_dkvp_total s) as (rs' & -> & H). now intros [= <-]. Qed.

(* every outcome of the data loop with what it says about the lines; the fuel artefact does not occur *)
Lemma tsv_data_spec hdr : forall ls line,
  match tsv_data hdr line ls with
  | Ok rs => Forall (fun x => nfields x = N.of_nat (List.length hdr)) ls /\ List.length rs = List.length ls
  | ErrMismatch a b l =>
    a = N.of_nat (List.length hdr) /\
    exists pre bad post, ls = pre ++ bad :: post
      /\ Forall (fun x => nfields x = a) pre /\ nfields bad = b /\ b <> a
      /\ l = (line + N.of_nat (List.length pre))%N
  | OutOfFuel => False
  end.
Proof.
  induction ls as [|x t IH]; intros line; cbn [tsv_data]; [split; constructor|].
  destruct (N.eqb_spec (nfields x) (N.of_nat (List.length hdr))) as [Heq|Hne].
  - unfold tsv_record. destruct (put_all _ []) eqn:E; [|now apply put_all_some in E].
    specialize (IH (line + 1)%N). destruct (tsv_data hdr (line + 1)%N t) as [rs|a b l|]; [| |exact IH].
    + destruct IH as [Hall Hlen]. split; [now constructor|]. cbn [List.length]. now rewrite Hlen.
    + destruct IH as (-> & pre & bad & post & -> & Hpre & Hb & Hn & ->). split; [reflexivity|].
      exists (x :: pre), bad, post. repeat split; auto. cbn [List.length]. lia.
  - split; [reflexivity|]. exists [], x, t. repeat split; auto. cbn. lia.
Qed.

Lemma nfields_header h : N.of_nat (List.length (tsv_header h)) = nfields h.
Proof. unfold tsv_header, nfields. now rewrite map_length. Qed.

Lemma read_tsv_spec s :
  match split_lines s with
  | [] => read_tsv s = Ok []
  | h :: t =>
    match read_tsv s with
    | Ok rs => Forall (fun x => nfields x = nfields h) t /\ List.length rs = List.length t
    | ErrMismatch a b l =>
      a = nfields h /\
      exists pre bad post, t = pre ++ bad :: post
        /\ Forall (fun x => nfields x = a) pre /\ nfields bad = b /\ b <> a
        /\ l = (2 + N.of_nat (List.length pre))%N
    | OutOfFuel => False
    end
  end.
Proof.
  unfold read_tsv. destruct (split_lines s) as [|h t]; [reflexivity|]. rewrite <- nfields_header. apply tsv_data_spec.
Qed.

Lemma read_tsv_err_malformed s a b l : read_tsv s = ErrMismatch a b l -> tsv_malformed s.
Proof.
  intros E. pose proof (read_tsv_spec s) as H. unfold tsv_malformed. destruct (split_lines s) as [|h t]; [congruence|].
  rewrite E in H. destruct H as (-> & pre & bad & post & -> & _ & Hb & Hne & _).
  exists bad. split; [apply in_elt|congruence].
Qed.

Lemma read_tsv_malformed_err_strong s : tsv_malformed s -> exists a b l, read_tsv s = ErrMismatch a b l.
Proof.
  pose proof (read_tsv_spec s) as H. unfold tsv_malformed. destruct (split_lines s) as [|h t]; [contradiction|].
  intros (x & Hin & Hne). destruct (read_tsv s) as [rs|a b l|]; [|eauto|contradiction].
  destruct H as [Hall _]. rewrite Forall_forall in Hall. now apply Hall in Hin.
Qed.

Lemma read_tsv_fuel_ok s : read_tsv s <> OutOfFuel.
Proof. intros E. pose proof (read_tsv_spec s) as H. rewrite E in H. destruct (split_lines s); [discriminate|exact H]. Qed.

Lemma read_tsv_ok s rs :
  read_tsv s = Ok rs -> ~ tsv_malformed s /\ List.length rs = pred (List.length (split_lines s)).
Proof.
  intros E. pose proof (read_tsv_spec s) as H. unfold tsv_malformed. rewrite E in H. destruct (split_lines s) as [|h t].
  - injection H as ->. tauto.
  - destruct H as [Hall Hlen]. split; [|exact Hlen]. rewrite Forall_forall in Hall. intros (x & Hin & Hne). now apply Hall in Hin.
Qed.

Lemma read_tsv_err_position s a b l :
  read_tsv s = ErrMismatch a b l ->
  exists h pre bad post, split_lines s = h :: pre ++ bad :: post
    /\ a = nfields h /\ b = nfields bad /\ b <> a
    /\ Forall (fun x => nfields x = a) pre /\ l = (2 + N.of_nat (List.length pre))%N.
Proof.
  intros E. pose proof (read_tsv_spec s) as H. destruct (split_lines s) as [|h t]; [congruence|].
  rewrite E in H. destruct H as (Ha & pre & bad & post & -> & Hpre & Hb & Hne & Hl).
  exists h, pre, bad, post. repeat split; auto.
Qed.
