(* C18 part 2d: proofs about the JSON record-reader layer model (C18/ModelJson.v). *)
From Miller Require Import Base.Bytes C18.ModelJson.

Lemma arr_ids_ok es : forallb elem_is_map es = true -> arr_ids es = inr (flat_map elem_id es).
Proof.
  induction es as [|e t IH]; [reflexivity|]. destruct e as [i|k]; cbn [forallb elem_is_map andb]; [|discriminate].
  intros H. cbn [arr_ids flat_map elem_id app]. now rewrite (IH H).
Qed.
Lemma arr_ids_bad es : forallb elem_is_map es = false -> exists k, arr_ids es = inl k /\ first_other es = Some k.
Proof.
  induction es as [|e t IH]; [discriminate|]. destruct e as [i|k]; cbn [forallb elem_is_map andb arr_ids first_other].
  - intros H. destruct (IH H) as (k & -> & Hk). eauto.
  - eauto.
Qed.

Lemma millerable_err_none v : millerable v = true -> err_of v = None.
Proof.
  destruct v as [i|es|k|]; cbn [millerable err_of]; try discriminate; [reflexivity|].
  induction es as [|e t IH]; [reflexivity|]. destruct e; cbn [forallb elem_is_map andb first_other]; [exact IH|discriminate].
Qed.

Lemma json_layer_cons_ok v t : millerable v = true -> json_layer (v :: t) = japp (top_ids v) (json_layer t).
Proof.
  destruct v as [i|es|k|]; cbn [millerable json_layer top_ids]; try discriminate; [reflexivity|].
  intros H. now rewrite (arr_ids_ok es H).
Qed.
Lemma json_layer_cons_bad v t : millerable v = false -> exists e, err_of v = Some e /\ json_layer (v :: t) = JErr e.
Proof.
  destruct v as [i|es|k|]; cbn [millerable json_layer err_of]; intros H; try discriminate H; eauto.
  destruct (arr_ids_bad es H) as (k & -> & ->). now exists (JUnmillerable k).
Qed.

Theorem json_layer_ok vs : forallb millerable vs = true -> json_layer vs = JOk (flat_map top_ids vs).
Proof.
  induction vs as [|v t IH]; [reflexivity|]. cbn [forallb]. intros H. apply andb_prop in H as [Hv Ht].
  now rewrite (json_layer_cons_ok v t Hv), (IH Ht).
Qed.

Theorem json_layer_err vs : forallb millerable vs = false ->
  exists pre bad post e, vs = pre ++ bad :: post /\ forallb millerable pre = true /\ millerable bad = false
    /\ err_of bad = Some e /\ json_layer vs = JErr e.
Proof.
  induction vs as [|v t IH]; [discriminate|]. cbn [forallb]. intros H. destruct (millerable v) eqn:Hv.
  - destruct (IH H) as (pre & bad & post & e & -> & Hp & Hb & He & Hl).
    exists (v :: pre), bad, post, e. cbn [forallb]. rewrite Hv, Hp. repeat split; try assumption.
    cbn [app]. now rewrite (json_layer_cons_ok v _ Hv), Hl.
  - destruct (json_layer_cons_bad v t Hv) as (e & He & Hl). now exists [], v, t, e.
Qed.

Theorem json_layer_ok_iff vs : (exists ids, json_layer vs = JOk ids) <-> forallb millerable vs = true.
Proof.
  split.
  - intros [ids H]. destruct (forallb millerable vs) eqn:E; [reflexivity|].
    destruct (json_layer_err vs E) as (_ & _ & _ & e & _ & _ & _ & _ & He). congruence.
  - intros H. rewrite (json_layer_ok vs H). eauto.
Qed.
