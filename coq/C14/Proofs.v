From Miller Require Import C14.Value C14.Stack C14.Model.
Open Scope Z_scope.

Lemma beqb_refl a : beqb a a = true.
Proof. destruct (beqb_spec a a); congruence. Qed.

(* ---- records: new fields append, reassigned fields keep their position (Mlrmap.PutCopy) *)
Lemma mkeys_mput_present k v m : mhas k m = true -> mkeys (mput k v m) = mkeys m.
Proof.
  unfold mhas. induction m as [|[k' v'] m IH]; cbn; [discriminate|].
  destruct (beqb k k') eqn:E; cbn; [reflexivity|]. intros H. unfold mkeys in IH. now rewrite IH.
Qed.

Lemma mkeys_mput_absent k v m : mhas k m = false -> mkeys (mput k v m) = mkeys m ++ [k].
Proof.
  unfold mhas. induction m as [|[k' v'] m IH]; cbn; [reflexivity|].
  destruct (beqb k k') eqn:E; cbn; [discriminate|]. intros H. unfold mkeys in IH. now rewrite IH.
Qed.

Lemma mget_mput_same k v m : mget k (mput k v m) = Some v.
Proof.
  induction m as [|[k' v'] m IH]; cbn; [now rewrite beqb_refl|].
  destruct (beqb k k') eqn:E; cbn; rewrite E; auto.
Qed.

Lemma mget_mput_other k k' v m : k <> k' -> mget k' (mput k v m) = mget k' m.
Proof.
  intros Hne. induction m as [|[k2 v2] m IH]; cbn.
  - destruct (beqb_spec k' k); [congruence|reflexivity].
  - destruct (beqb_spec k k2) as [->|Hk]; cbn.
    + destruct (beqb_spec k' k2); [congruence|reflexivity].
    + destruct (beqb k' k2); auto.
Qed.

(* ---- fuel monotonicity: more fuel never changes a result other than OutOfFuel *)
Definition le_res {A} (r r' : res A) : Prop := r = OutOfFuel \/ r = r'.
Definition rec_le (f g : recfn) : Prop := forall t st, le_res (f t st) (g t st).

Lemma le_res_refl {A} (r : res A) : le_res r r.
Proof. right; reflexivity. Qed.

Lemma le_bind {A B} (r r' : res A) (k k' : A -> res B) :
  le_res r r' -> (forall a, le_res (k a) (k' a)) -> le_res (bind r k) (bind r' k').
Proof.
  intros [-> | ->] Hk; [left; reflexivity|]. destruct r'; cbn; auto using le_res_refl.
Qed.

Section StepMono.
Variables (fns : list fdef) (f g : recfn).
Hypothesis H : rec_le f g.

Lemma ev_mono e st : le_res (ev f e st) (ev g e st).
Proof. apply le_bind; [apply H|intros; apply le_res_refl]. Qed.
Lemma evs_mono es st : le_res (evs f es st) (evs g es st).
Proof. apply le_bind; [apply H|intros; apply le_res_refl]. Qed.
Lemma ex_mono t st : le_res (ex f t st) (ex g t st).
Proof. apply le_bind; [apply H|intros; apply le_res_refl]. Qed.

(* the two runs of one layer are compared construct by construct: they differ only where the evaluator is called *)
Ltac mono :=
  repeat match goal with
    | |- le_res ?r ?r => apply le_res_refl
    | |- le_res (bind _ _) (bind _ _) => apply le_bind; [|intros]
    | |- le_res (match ?x with _ => _ end) (match ?x with _ => _ end) => destruct x
    | |- le_res (f _ _) (g _ _) => apply H
    | |- le_res (ev _ _ _) _ => apply ev_mono
    | |- le_res (evs _ _ _) _ => apply evs_mono
    | |- le_res (ex _ _ _) _ => apply ex_mono
    end.

Lemma step_mono : rec_le (step fns f) (step fns g).
Proof.
  intros t st.
  destruct t; cbn [step]; [destruct e; cbn [eval_expr]| | | | |destruct s; cbn [exec_stmt]|..];
    unfold eval_hof, eval_logic, eval_call, exec_call, loop_after_body, call_values; mono.
Qed.

End StepMono.

Lemma run_mono_S fns fuel : rec_le (run fns fuel) (run fns (S fuel)).
Proof. induction fuel as [|n IH]; [now left|exact (step_mono fns _ _ IH)]. Qed.

Lemma run_mono fns fuel fuel' : (fuel <= fuel')%nat -> rec_le (run fns fuel) (run fns fuel').
Proof.
  induction 1 as [|m Hle IH]; [intros t st; apply le_res_refl|].
  intros t st. destruct (IH t st) as [-> | ->]; [left; reflexivity|]. apply run_mono_S.
Qed.

Lemma fuel_monotone fns fuel fuel' t st r :
  (fuel <= fuel')%nat -> run fns fuel t st = r -> r <> OutOfFuel -> run fns fuel' t st = r.
Proof.
  intros Hle Hr Hne. destruct (run_mono fns fuel fuel' Hle t st) as [E|E]; congruence.
Qed.
