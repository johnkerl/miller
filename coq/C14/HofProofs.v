From Miller Require Import C14.Value C14.Stack C14.Model C14.Proofs C14.ScopeProofs C14.InterpProofs C14.Harness.
Open Scope Z_scope.

(* ---- short circuit: when the left operand is the absorbing boolean (false for &&, true for ||), the skipped operand
   is not evaluated: result AND state are those of the left operand, whatever the skipped expression is (so none of its
   side effects happen) *)
Lemma logic_short_circuit rec isand a b st st1 :
  rec (TEval a) st = Ok (RV (VBool (negb isand)), st1) ->
  eval_logic rec isand a b st = Ok (RV (VBool (negb isand)), st1).
Proof. intros H. unfold eval_logic, ev. rewrite H. now destruct isand. Qed.

Lemma ternary_evaluates_one_branch fns rec c a b b' st st1 (bv : bool) :
  rec (TEval c) st = Ok (RV (VBool true), st1) ->
  step fns rec (TEval (ETern c a b)) st = step fns rec (TEval (ETern c a b')) st
  /\ step fns rec (TEval (ETern c a b)) st = rec (TEval a) st1.
Proof. intros H. cbn [step eval_expr]. unfold ev. rewrite H. split; reflexivity. Qed.

Lemma ternary_false_skips_then fns rec c a a' b st st1 :
  rec (TEval c) st = Ok (RV (VBool false), st1) ->
  step fns rec (TEval (ETern c a b)) st = step fns rec (TEval (ETern c a' b)) st
  /\ step fns rec (TEval (ETern c a b)) st = rec (TEval b) st1.
Proof. intros H. cbn [step eval_expr]. unfold ev. rewrite H. split; reflexivity. Qed.

Lemma coalesce_skips_rhs_when_present fns rec a b st v st1 :
  rec (TEval a) st = Ok (RV v, st1) -> v <> VAbsent ->
  step fns rec (TEval (ECoal a b)) st = Ok (RV v, st1).
Proof. intros H Hv. cbn [step eval_expr]. unfold ev. rewrite H. cbn [bind]. destruct v; try reflexivity. contradiction. Qed.

Lemma emitp_emit_agree_on_two_level_maps fns name a b : a <> b -> a <> name -> b <> name ->
  forall m fuel st, two_level m = true -> (total2 m < fuel)%nat ->
  run fns fuel (TEmitIdx true [] name m [a; b]) st = run fns fuel (TEmitIdx false [] name m [a; b]) st.
Proof. intros. now rewrite !emit_idx_is_grouping. Qed.

(* emitp @name without keys: one record holding the value under its name, nothing for an absent value *)
Lemma emitp_unindexed_is_one_named_record fns rec name e st v st1 :
  rec (TEval e) st = Ok (RV v, st1) -> v <> VAbsent ->
  step fns rec (TExec (SEmitP name e [])) st = Ok (RO ONormal, emit_item (ORec [(name, v)]) st1).
Proof. intros H Hv. cbn [step exec_stmt]. unfold ev. rewrite H. cbn [bind]. destruct v; try reflexivity. contradiction. Qed.

(* ---- higher-order functions: the callback is called once per element, in order, with the accumulator threaded through;
   stated for one step: the first element's call, then the rest of the loop *)
Lemma hof_step fns rec h ismap lit fn item rest acc st r st1 acc' :
  call_values fns rec lit fn (hof_args h ismap acc item) st = Ok (r, st1) ->
  hof_next h ismap acc item r = HCont acc' ->
  step fns rec (THof h ismap lit fn (item :: rest) acc) st = rec (THof h ismap lit fn rest acc') st1.
Proof. intros Hc Hn. cbn [step]. rewrite Hc. cbn [bind]. rewrite Hn. reflexivity. Qed.

(* any / every stop at the first deciding element: the remaining elements are never passed to the callback *)
Lemma any_stops_at_first_true fns rec ismap lit fn item rest rest' acc st st1 :
  call_values fns rec lit fn (hof_args HAny ismap acc item) st = Ok (VBool true, st1) ->
  step fns rec (THof HAny ismap lit fn (item :: rest) acc) st = Ok (RV (VBool true), st1)
  /\ step fns rec (THof HAny ismap lit fn (item :: rest') acc) st = Ok (RV (VBool true), st1).
Proof. intros Hc. cbn [step]. rewrite Hc. split; reflexivity. Qed.

Lemma every_stops_at_first_false fns rec ismap lit fn item rest rest' acc st st1 :
  call_values fns rec lit fn (hof_args HEvery ismap acc item) st = Ok (VBool false, st1) ->
  step fns rec (THof HEvery ismap lit fn (item :: rest) acc) st = Ok (RV (VBool false), st1)
  /\ step fns rec (THof HEvery ismap lit fn (item :: rest') acc) st = Ok (RV (VBool false), st1).
Proof. intros Hc. cbn [step]. rewrite Hc. split; reflexivity. Qed.

(* a callback -- named function or function literal -- returns with the caller's locals exactly as they were: whole
   executions, any fuel (for literals: inside the fragment, which excludes literals that assign enclosing locals) *)
Lemma callbacks_preserve_locals fns fuel lit fn vs st v st' :
  stk st <> [] -> call_values fns (run fns fuel) lit fn vs st = Ok (v, st') -> stk st' = stk st.
Proof. intros Hne H. exact (call_values_same fns _ (run_inv fns fuel) lit fn vs _ st Hne eq_refl _ _ H). Qed.

(* ---- then-chains: every verb runs as a program of its own -- its own functions, oosvars and stack -- on the records the
   previous verb emitted *)
Lemma chain_is_composition vr p q p2 rest fuel ins outs rs :
  run_prog vr p q fuel ins = Ok outs -> recs_of outs = Some rs ->
  run_chain vr ((p, q) :: p2 :: rest) fuel ins = run_chain vr (p2 :: rest) fuel rs.
Proof. intros H Hr. cbn [run_chain]. destruct p2 as [p2' q2]. rewrite H. cbn [bind]. rewrite Hr. reflexivity. Qed.

(* instances computed by the kernel: a literal reads an enclosing local; two verbs with a same-named function *)
Definition hof_witness : prog :=
  {| p_funcs := [{| f_name := B "#1"; f_sub := false; f_params := [(TAny, B "e")]; f_ret := TAny;
                    f_body := [SReturn (Some (EBin (BArith OMul) (ELocal (B "e")) (ELocal (B "cap"))))] |};
                 {| f_name := B "g"; f_sub := false; f_params := [(TAny, B "acc"); (TAny, B "e")]; f_ret := TInt;
                    f_body := [SReturn (Some (EBin (BArith OAdd) (ELocal (B "acc")) (ELocal (B "e"))))] |}];
     p_begin := []; p_main := [];
     p_end := [[SAssign (LLocal (B "cap")) [] (EInt 10);
                SPrint (EHof HApply (EArrLit [EInt 1; EInt 2; EInt 3]) true (B "#1") None);
                SPrint (EHof HFold (EArrLit [EInt 1; EInt 2; EInt 3]) false (B "g") (Some (EInt 100)));
                SPrint (EHof HSort (EArrLit [EInt 3; EInt 1; EInt 2]) false (B "g") None);
                SPrint (ELocal (B "cap"))]] |}.

Lemma hof_example :
  run_prog documented hof_witness false 60 [] =
  Ok [OLine (B "[10, 20, 30]"); OLine (B "106"); OLine (B "[3, 1, 2]"); OLine (B "10")].
Proof. vm_compute. reflexivity. Qed.

Definition verb (k : Z) (field : bytes) : prog :=
  {| p_funcs := [{| f_name := B "f"; f_sub := false; f_params := [(TAny, B "e")]; f_ret := TAny;
                    f_body := [SReturn (Some (EBin (BArith OAdd) (ELocal (B "e")) (EInt k)))] |}];
     p_begin := []; p_main := [SAssign (LField field) [] (EHof HApply (EArrLit [EInt 1; EInt 2]) false (B "f") None)]; p_end := [] |}.

Lemma chain_example :
  run_chain documented [(verb 1 (B "x"), false); (verb 10 (B "y"), false)] 60 [[(B "a", VInt 0)]] =
  Ok [ORec [(B "a", VInt 0); (B "x", VArr [VInt 2; VInt 3]); (B "y", VArr [VInt 11; VInt 12])]].
Proof. vm_compute. reflexivity. Qed.
