(* C14: what the operations of the local-variable stack leave alone.  Define, set, set-at-scope, unset and the in-place
   update of an indexed local all rewrite the current frameset into one with as many frames and touch nothing else;
   only the pushes and pops change the shape.  ScopeProofs lifts this to whole executions of the interpreter. *)
From Miller Require Import C14.Value C14.Stack C14.Model.

Definition depth (s : astack) : nat := List.length (hd [] s).

Inductive kept : astack -> astack -> Prop :=
| kept_nil : kept [] []
| kept_cur fs fs' r : List.length fs' = List.length fs -> kept (fs :: r) (fs' :: r).

Lemma kept_refl s : kept s s.
Proof. destruct s; now constructor. Qed.

Lemma kept_trans a b c : kept a b -> kept b c -> kept a c.
Proof. destruct 1; inversion 1; subst; constructor; congruence. Qed.

Lemma kept_depth s s' : kept s s' -> depth s' = depth s.
Proof. destruct 1; [reflexivity|assumption]. Qed.

Lemma depth_push s : s <> [] -> depth (a_push_frame s) = S (depth s).
Proof. destruct s; [contradiction|reflexivity]. Qed.

Lemma depth_pop s : (2 <= depth s)%nat -> S (depth (a_pop_frame s)) = depth s.
Proof. destruct s as [|[|sc [|sc2 fs]] r]; cbn; lia. Qed.

Lemma a_top_kept h s s' : a_top h s = Some s' -> kept s s'.
Proof.
  unfold a_top. destruct s as [|[|sc fs] r]; try discriminate. destruct (h sc); [|discriminate].
  intros [= <-]. now constructor.
Qed.

Lemma fs_set_existing_length x v fs : forall fs', fs_set_existing x v fs = Some (Some fs') -> List.length fs' = List.length fs.
Proof.
  induction fs as [|sc fs IH]; cbn; intros fs' H; [discriminate|].
  destruct (sget x sc).
  - destruct (sc_set x v sc); [|discriminate]. injection H as <-. reflexivity.
  - destruct (fs_set_existing x v fs) as [[t|]|]; try discriminate. injection H as <-. cbn. now rewrite IH.
Qed.

Lemma a_set_kept x v s s' : a_set x v s = Some s' -> kept s s'.
Proof.
  unfold a_set. destruct s as [|fs r]; [discriminate|].
  destruct (fs_set_existing x v fs) as [[fs'|]|] eqn:E; [|discriminate|apply a_top_kept].
  intros [= <-]. constructor. now apply fs_set_existing_length in E.
Qed.

Lemma fs_poke_length x v fs : forall fs', fs_poke x v fs = Some fs' -> List.length fs' = List.length fs.
Proof.
  induction fs as [|sc fs IH]; cbn; intros fs' H; [discriminate|].
  destruct (sget x sc).
  - injection H as <-. reflexivity.
  - destruct (fs_poke x v fs) as [t|]; [|discriminate]. injection H as <-. cbn. now rewrite IH.
Qed.

Lemma fs_poke_kept x v fs fs' r : fs_poke x v fs = Some fs' -> kept (fs :: r) (fs' :: r).
Proof. intros E. constructor. exact (fs_poke_length _ _ _ _ E). Qed.

Lemma a_unset_kept x s : kept s (a_unset x s).
Proof.
  unfold a_unset. destruct s as [|fs r]; [constructor|].
  destruct (fs_poke x VAbsent fs) eqn:E; [exact (fs_poke_kept _ _ _ _ r E)|apply kept_refl].
Qed.

Lemma bind_params_kept ps : forall vs s s', bind_params ps vs s = Some s' -> kept s s'.
Proof.
  induction ps as [|[t x] ps IH]; intros [|v vs] s s'; cbn; try discriminate.
  - intros [= <-]. apply kept_refl.
  - destruct (a_define x t v s) as [s1|] eqn:E; [|discriminate]. intros H.
    exact (kept_trans _ _ _ (a_top_kept _ _ _ E) (IH _ _ _ H)).
Qed.

Lemma depth_bind_params ps : forall vs s s', bind_params ps vs s = Some s' -> depth s' = depth s.
Proof. intros vs s s' H. exact (kept_depth _ _ (bind_params_kept _ _ _ _ H)). Qed.
