(* C14 property theorems, each followed by Print Assumptions, and non-vacuity Examples.
   Stated over the definitions the harness runs (C14.Model.run / run_prog on the abstract stack of C14.Stack). *)
From Miller Require Import C14.Value C14.Stack C14.Model C14.Proofs C14.StackProofs C14.ScopeProofs C14.DepthProofs C14.InterpProofs C14.PrecProofs C14.ArrayProofs C14.Harness C14.HofProofs gen.Gen_Precedence.
Open Scope Z_scope.

(* ---- the pooled, recycled frames and framesets of pkg/runtime/stack.go are observationally the abstract scopes:
   for ALL operation sequences (push/pop frame, push/pop frameset, typed define, set, set-at-scope, unset, get)
   the concrete model and the list-of-scopes model give the same observations and related final states *)
Theorem C14_pooled_stack_refines_abstract :
  forall ops : list sop,
    snd (c_run c_new ops) = snd (a_run a_new ops) /\ abs_stack (fst (c_run c_new ops)) = fst (a_run a_new ops).
Proof. exact pooled_stack_refines_abstract. Qed.
Print Assumptions C14_pooled_stack_refines_abstract.

(* ---- block scoping on the stack the interpreter runs on *)
(* inner `var` shadows: inside the block the inner value is read, whatever outer frames hold *)
Theorem C14_inner_var_shadows :
  forall x t v s s', a_define x t v (a_push_frame s) = Some s' -> a_get x s' = Some v.
Proof. exact inner_define_shadows. Qed.
Print Assumptions C14_inner_var_shadows.

(* ... and when the block exits every outer binding is exactly as before *)
Theorem C14_block_local_declaration_vanishes :
  forall x t v sc fs r s', a_define x t v (a_push_frame ((sc :: fs) :: r)) = Some s' -> a_pop_frame s' = (sc :: fs) :: r.
Proof. exact define_in_block_is_local. Qed.
Print Assumptions C14_block_local_declaration_vanishes.

(* undeclared assignment inside a block updates the nearest enclosing binding, in place, keeping its declared type *)
Theorem C14_undeclared_assignment_updates_enclosing :
  forall x v b sc fs r s',
    sget x sc = Some b -> gate (b_ty b) v = true ->
    a_set x v (a_push_frame ((sc :: fs) :: r)) = Some s' ->
    a_pop_frame s' = (sreplace x {| b_ty := b_ty b; b_val := v |} sc :: fs) :: r.
Proof. exact set_in_block_updates_outer. Qed.
Print Assumptions C14_undeclared_assignment_updates_enclosing.

(* ---- type declarations are enforced: at the declaration and at every later plain assignment, from any nested scope *)
Theorem C14_type_gate_at_declaration :
  forall x t v s s', a_define x t v s = Some s' -> gate t v = true.
Proof. exact define_respects_gate. Qed.
Print Assumptions C14_type_gate_at_declaration.

Theorem C14_type_gate_at_assignment :
  forall x v fs r s' t, a_set x v (fs :: r) = Some s' -> fs_type x fs = Some t -> gate t v = true.
Proof. exact set_respects_gate. Qed.
Print Assumptions C14_type_gate_at_assignment.

(* ---- function calls get a fresh frameset: no caller variable is visible, and the caller's stack comes back intact *)
Theorem C14_callee_sees_no_caller_locals : forall x s, a_get x (a_push_set s) = None.
Proof. exact push_set_hides. Qed.
Print Assumptions C14_callee_sees_no_caller_locals.

Theorem C14_caller_stack_restored : forall s, s <> [] -> a_pop_set (a_push_set s) = s.
Proof. exact pop_push_set. Qed.
Print Assumptions C14_caller_stack_restored.

(* ---- arguments are passed by value and callee locals are fenced off, over WHOLE executions (induction on fuel):
   evaluating any expression -- with all the user-defined functions it calls, recursively, and every assignment they make to
   their parameters and locals, indexed or not -- returns the local-variable stack of the evaluation context unchanged *)
Theorem C14_arguments_by_value_callee_cannot_touch_caller_locals :
  forall fns fuel e st v st',
    stk st <> [] -> run fns fuel (TEval e) st = Ok (RV v, st') -> stk st' = stk st.
Proof. exact expressions_preserve_locals. Qed.
Print Assumptions C14_arguments_by_value_callee_cannot_touch_caller_locals.

(* statements (blocks, loops, emits ...) only ever change the CURRENT frameset: every caller's frameset is untouched *)
Theorem C14_statements_touch_only_current_frameset :
  forall fns fuel ss st o st',
    stk st <> [] -> run fns fuel (TBlock ss) st = Ok (RO o, st') -> tl (stk st') = tl (stk st) /\ stk st' <> [].
Proof. exact statements_preserve_caller_framesets. Qed.
Print Assumptions C14_statements_touch_only_current_frameset.

(* block scoping over whole executions (induction on fuel): a block -- with every nested block, loop, break/continue/return,
   function and subroutine call in it -- returns with the current frameset at the frame depth it was entered with, and with
   all callers' framesets untouched: the scopes visible after the block are the ones visible before it *)
Theorem C14_blocks_restore_scope_depth :
  forall fns fuel ss st o st',
    (1 <= depth (stk st))%nat -> run fns fuel (TBlock ss) st = Ok (RO o, st') ->
    depth (stk st') = depth (stk st) /\ tl (stk st') = tl (stk st).
Proof. exact blocks_restore_scope_depth. Qed.
Print Assumptions C14_blocks_restore_scope_depth.

(* ---- new fields are appended while reassigned fields keep their position *)
Theorem C14_reassigned_field_keeps_position :
  forall k v r, mhas k r = true -> mkeys (mput k v r) = mkeys r.
Proof. exact mkeys_mput_present. Qed.
Print Assumptions C14_reassigned_field_keeps_position.

Theorem C14_new_field_is_appended :
  forall k v r, mhas k r = false -> mkeys (mput k v r) = mkeys r ++ [k].
Proof. exact mkeys_mput_absent. Qed.
Print Assumptions C14_new_field_is_appended.

(* ---- more fuel never changes a result other than OutOfFuel *)
Theorem C14_fuel_monotone :
  forall fns fuel fuel' t st r,
    (fuel <= fuel')%nat -> run fns fuel t st = r -> r <> OutOfFuel -> run fns fuel' t st = r.
Proof. exact fuel_monotone. Qed.
Print Assumptions C14_fuel_monotone.

(* ---- documented precedence: the operator chain REGENERATED from pkg/parsing/mlr.bnf on this run has the levels, operator
   sets, associativity and arity of the reference table (docs/src/reference-dsl-operators.md, entered in PrecProofs.v) *)
Theorem C14_precedence_matches_reference : levels_eqb gen_levels documented_levels = true.
Proof. exact precedence_matches_reference. Qed.
Print Assumptions C14_precedence_matches_reference.

(* ---- absent rules: assigning an absent value is skipped, for every kind of left-hand side, with or without indices *)
Theorem C14_absent_assignment_skipped :
  forall fns rec b idx e st st1,
    rec (TEval e) st = Ok (RV VAbsent, st1) ->
    step fns rec (TExec (SAssign b idx e)) st = Ok (RO ONormal, st1).
Proof. exact absent_assignment_skipped. Qed.
Print Assumptions C14_absent_assignment_skipped.

Theorem C14_absent_declaration_skipped :
  forall fns rec t x e st st1,
    rec (TEval e) st = Ok (RV VAbsent, st1) ->
    step fns rec (TExec (SDefine t x e)) st = Ok (RO ONormal, st1).
Proof. exact absent_declaration_skipped. Qed.
Print Assumptions C14_absent_declaration_skipped.

(* a present value assigned to $k is stored by PutCopy (so the two field-order theorems above apply to it) *)
Theorem C14_field_assignment_is_put :
  forall fns rec k e st st1 v r,
    rec (TEval e) st = Ok (RV v, st1) -> v <> VAbsent -> inrec st1 = Some r ->
    step fns rec (TExec (SAssign (LField k) [] e)) st = Ok (RO ONormal, set_inrec (Some (mput k v r)) st1).
Proof. exact field_assignment_is_put. Qed.
Print Assumptions C14_field_assignment_is_put.

(* ---- out-of-stream variables persist across records *)
Theorem C14_oosvars_persist_across_records :
  forall vr p q fuel r t st st1,
    run_block (p_funcs p) fuel (p_main p)
      (let st0 := set_nr (nr st + 1) (set_inrec (Some r) st) in if v_filter_per_record vr then set_filt VAbsent st0 else st0) = Ok st1 ->
    exists st2, run_records vr p q fuel (r :: t) st = run_records vr p q fuel t st2 /\ oos st2 = oos st1 /\ stk st2 = stk st1.
Proof. exact oosvars_persist. Qed.
Print Assumptions C14_oosvars_persist_across_records.

(* ---- filter statement: in the reference semantics the decision taken for earlier records is irrelevant ... *)
Theorem C14_filter_is_per_record :
  forall vr p q fuel r t st f,
    v_filter_per_record vr = true ->
    run_records vr p q fuel (r :: t) (set_filt f st) = run_records vr p q fuel (r :: t) st.
Proof. exact filter_is_per_record. Qed.
Print Assumptions C14_filter_is_per_record.

(* ... and fails for the variant in which the filter condition is never reset (v_filter_per_record := false): witness *)
Theorem C14_filter_is_per_record_refuted_for_old_variant :
  run_prog {| v_filter_per_record := false |} sticky_witness false 50 [[(B "a", VInt 1)]; [(B "a", VInt 2)]] = Ok []
  /\ run_prog documented sticky_witness false 50 [[(B "a", VInt 1)]; [(B "a", VInt 2)]] = Ok [ORec [(B "a", VInt 2)]].
Proof. exact filter_sticky_variant_drops_later_records. Qed.
Print Assumptions C14_filter_is_per_record_refuted_for_old_variant.

(* ---- type declarations are enforced at indexed assignment too, for every local: x[i...] = v on a local declared with
   type t succeeds only if t admits maps (so it always fails on int/num/str/bool locals) -- or,
   if the local already holds an array and t admits arrays (PutIndexed keeps an array an array: next theorem) -- given that
   a collection currently stored in the slot respects the declaration.  (The first disjunct alone is false: `arr x = [1]; x[1] = 2` succeeds.) *)
Theorem C14_type_gate_enforced_indexed :
  forall x vs v st fs r t st',
    stk st = fs :: r -> fs_type x fs = Some t ->
    (forall c, fs_get x fs = Some c -> is_coll c = true -> gate t c = true) ->
    assign_local_indexed x vs v st = Ok (RO ONormal, st') ->
    (forall m, gate t (VMap m) = true) \/ (exists a, fs_get x fs = Some (VArr a) /\ forall a', gate t (VArr a') = true).
Proof. exact indexed_assignment_gated. Qed.
Print Assumptions C14_type_gate_enforced_indexed.

Theorem C14_indexed_assignment_keeps_collection_kind :
  forall idx c v c', is_coll c = true -> put_indexed c idx v = VOk c' -> is_map c' = is_map c /\ is_arr c' = is_arr c.
Proof. exact put_indexed_keeps_kind. Qed.
Print Assumptions C14_indexed_assignment_keeps_collection_kind.

(* ---- arrays: 1-up indexing with negative aliases (-1 = last), reads out of bounds are absent *)
Theorem C14_array_index_alias : forall a k, 1 <= k <= alen a -> arr_get a (k - alen a - 1) = arr_get a k.
Proof. exact array_index_alias. Qed.
Print Assumptions C14_array_index_alias.

Theorem C14_array_read_in_bounds_is_1_up :
  forall a k, 1 <= k <= alen a -> index_read (VArr a) (VInt k) = Ok (nth (Z.to_nat (k - 1)) a VAbsent).
Proof. exact array_read_in_bounds. Qed.
Print Assumptions C14_array_read_in_bounds_is_1_up.

Theorem C14_array_read_out_of_bounds_is_absent :
  forall a k, arr_inb (alen a) k = false -> index_read (VArr a) (VInt k) = Ok VAbsent.
Proof. exact array_read_out_of_bounds_is_absent. Qed.
Print Assumptions C14_array_read_out_of_bounds_is_absent.

(* assignment to an in-bounds index (alias or not) replaces that element, keeps the length and every other element *)
Theorem C14_array_put_get :
  forall a k v, arr_inb (alen a) k = true ->
    exists a', put_indexed (VArr a) [VInt k] v = VOk (VArr a') /\ arr_get a' k = Some v /\ alen a' = alen a.
Proof. exact array_put_get. Qed.
Print Assumptions C14_array_put_get.

Theorem C14_array_put_leaves_other_elements :
  forall a k j v, arr_inb (alen a) k = true -> zidx (alen a) k <> zidx (alen a) j ->
    arr_get (arr_set a (zidx (alen a) k) v) j = arr_get a j.
Proof. exact array_put_other. Qed.
Print Assumptions C14_array_put_leaves_other_elements.

(* auto-extend: one past the end appends exactly one element; index 0 and negative indices before the start are statement
   errors.  FULL statement of the reference (reference-main-arrays.md "Auto-extend and null-gaps"): writing further out
   extends the array and fills the gap with JSON null.  The model has no null value: it leaves the fragment there
   (third theorem), and the correspondence skips and counts such programs. *)
Theorem C14_array_auto_extend_by_one : forall a v, put_indexed (VArr a) [VInt (alen a + 1)] v = VOk (VArr (a ++ [v])).
Proof. exact array_auto_extend_by_one. Qed.
Print Assumptions C14_array_auto_extend_by_one.

Theorem C14_array_put_zero_or_before_start_is_error :
  forall a k v, k = 0 \/ k < - alen a -> put_indexed (VArr a) [VInt k] v = VErr.
Proof. exact array_put_zero_or_before_start_is_error. Qed.
Print Assumptions C14_array_put_zero_or_before_start_is_error.

Theorem C14_array_put_beyond_partial : forall a k v, alen a + 1 < k -> put_indexed (VArr a) [VInt k] v = VUnsup.
Proof. exact array_put_beyond_is_outside_fragment. Qed.
Print Assumptions C14_array_put_beyond_partial.

(* inclusive slices with 1-up bounds, negative aliases, trimming *)
Theorem C14_slice_is_inclusive :
  forall (l : list value) lo hi, 1 <= lo -> lo <= hi -> hi <= Z.of_nat (List.length l) ->
    slice_list l lo hi = firstn (Z.to_nat (hi - lo + 1)) (skipn (Z.to_nat (lo - 1)) l).
Proof. exact (@slice_is_firstn_skipn value). Qed.
Print Assumptions C14_slice_is_inclusive.

Theorem C14_slice_length :
  forall (l : list value) lo hi, 1 <= lo -> lo <= hi -> hi <= Z.of_nat (List.length l) ->
    Z.of_nat (List.length (slice_list l lo hi)) = hi - lo + 1.
Proof. exact (@slice_length value). Qed.
Print Assumptions C14_slice_length.

Theorem C14_slice_negative_alias :
  forall (l : list value) lo hi, 1 <= lo <= Z.of_nat (List.length l) -> 1 <= hi <= Z.of_nat (List.length l) ->
    slice_list l (lo - Z.of_nat (List.length l) - 1) (hi - Z.of_nat (List.length l) - 1) = slice_list l lo hi.
Proof. exact (@slice_negative_alias value). Qed.
Print Assumptions C14_slice_negative_alias.

Theorem C14_slice_out_of_range_is_trimmed :
  forall (l : list value) lo hi, 1 <= lo -> Z.of_nat (List.length l) <= hi -> slice_list l lo hi = skipn (Z.to_nat (lo - 1)) l.
Proof. exact (@slice_trims value). Qed.
Print Assumptions C14_slice_out_of_range_is_trimmed.

Theorem C14_array_unset_shifts :
  forall a k, 1 <= k <= alen a -> remove_indexed (VArr a) [VInt k] = VArr (firstn (Z.to_nat (k - 1)) a ++ skipn (Z.to_nat k) a).
Proof. exact array_unset_shifts. Qed.
Print Assumptions C14_array_unset_shifts.

(* arguments by value, arrays: C14_arguments_by_value_callee_cannot_touch_caller_locals above quantifies over all values,
   arrays included; this is an instance of it on a concrete program (the callee overwrites, extends and unsets elements of its parameter) *)
Theorem C14_array_argument_by_value_instance :
  run_prog documented array_by_value_witness false 60 [] =
  Ok [ORec [(B "inner", VArr [VInt 99; VInt 3; VInt 7]); (B "outer", VArr [VInt 1; VInt 2; VInt 3])]].
Proof. exact array_by_value_example. Qed.
Print Assumptions C14_array_argument_by_value_instance.

(* ---- positional names $[[n]] / values $[[[n]]] *)
Theorem C14_positional_out_of_range_assignment_is_noop :
  forall m p v, pos_idx m p = None -> pos_put_value m p v = m /\ pos_put_name m p v = m.
Proof. exact positional_out_of_range_is_noop. Qed.
Print Assumptions C14_positional_out_of_range_assignment_is_noop.

Theorem C14_positional_negative_alias :
  forall m p, 1 <= p <= Z.of_nat (List.length m) -> pos_idx m (p - Z.of_nat (List.length m) - 1) = pos_idx m p.
Proof. exact positional_alias. Qed.
Print Assumptions C14_positional_negative_alias.

Theorem C14_positional_value_assignment_keeps_names : forall m p v, mkeys (pos_put_value m p v) = mkeys m.
Proof. exact positional_value_assignment_keeps_names. Qed.
Print Assumptions C14_positional_value_assignment_keeps_names.

(* ---- emitf @a, @b = one record with those names *)
Theorem C14_emitf_is_one_record :
  forall fns rec items st vs st1,
    rec (TEvals (map snd items)) st = Ok (RVs vs, st1) ->
    step fns rec (TExec (SEmitF items)) st =
    Ok (RO ONormal, emit_item (ORec (fold_left (fun r kv => match snd kv with VAbsent => r | v => mput (fst kv) v r end)
                                               (combine (map fst items) vs) [])) st1).
Proof. exact emitf_is_one_record. Qed.
Print Assumptions C14_emitf_is_one_record.

Example C14_positional_nonvacuous :
  pos_idx [(B "a", VInt 1); (B "b", VInt 2)] 3 = None
  /\ pos_put_name [(B "a", VInt 1); (B "b", VInt 2); (B "c", VInt 3)] 1 (VStr (B "b")) = [(B "b", VInt 1); (B "c", VInt 3)]
  /\ pos_name [(B "a", VInt 1); (B "b", VInt 2)] (-1) = Some (B "b").
Proof. repeat split; vm_compute; reflexivity. Qed.

Example C14_arrays_nonvacuous :
  arr_get [VInt 10; VInt 20; VInt 30] (-1) = Some (VInt 30)
  /\ arr_inb (alen [VInt 10; VInt 20; VInt 30]) (-3) = true /\ arr_inb 3 0 = false /\ arr_inb 3 4 = false
  /\ slice_list [VInt 1; VInt 2; VInt 3; VInt 4; VInt 5] 2 3 = [VInt 2; VInt 3]
  /\ slice_list [VInt 1; VInt 2; VInt 3; VInt 4; VInt 5] (-2) (-1) = [VInt 4; VInt 5]
  /\ slice_read (VStr (B "hello")) (VInt 2) (VInt 3) = VStr (B "el")
  /\ put_indexed (VArr [VInt 1]) [VInt 2; VStr (B "k")] (VInt 5) = VOk (VArr [VInt 1; VMap [(B "k", VInt 5)]]).
Proof. repeat split; vm_compute; reflexivity. Qed.

(* ---- emit @name, "a", "b" splits a two-level map exactly into the records of the two-level grouping *)
Theorem C14_emit_by_names_splits_like_grouping :
  forall fns name a b, a <> b -> a <> name -> b <> name ->
  forall m fuel st, two_level m = true -> (total2 m < fuel)%nat ->
    run fns fuel (TEmitIdx false [] name m [a; b]) st = Ok (RO ONormal, emit_all (group2 name a b m) st).
Proof. exact (emit_idx_is_grouping false). Qed.
Print Assumptions C14_emit_by_names_splits_like_grouping.

(* ---- multi-key for-loops for ((k1,...,kn), v in m): break (return, error) from any key level ends the whole loop *)
Theorem C14_multikey_exit_propagates_through_every_level :
  forall fns rec k k2 ks vn key sub more body st s1 o st2,
    a_set_at_scope k (VStr key) (stk st) = Some s1 ->
    rec (TMulti (k2 :: ks) vn sub body) (set_stk s1 st) = Ok (RO o, st2) -> o <> ONormal ->
    step fns rec (TMulti (k :: k2 :: ks) vn ((key, VMap sub) :: more) body) st = Ok (RO o, st2).
Proof. exact multikey_exit_propagates. Qed.
Print Assumptions C14_multikey_exit_propagates_through_every_level.

Theorem C14_multikey_break_ends_whole_loop :
  forall fns rec ks vn e body st m st1 st2,
    rec (TEval e) st = Ok (RV (VMap m), st1) ->
    rec (TMulti ks vn m body) (push_frame st1) = Ok (RO OBreak, st2) ->
    step fns rec (TExec (SForMulti ks vn e body)) st = Ok (RO ONormal, pop_frame st2).
Proof. exact multikey_break_ends_loop. Qed.
Print Assumptions C14_multikey_break_ends_whole_loop.

(* ---- by value at function RETURN: the value a call (or any sub-expression) produced is the value its consumer gets,
   whatever the later sub-expressions of the same expression do to the storage it was read from (st2 is arbitrary) *)
Theorem C14_returned_value_unaffected_by_later_mutation :
  forall fns rec e es st v st1 vs st2,
    rec (TEval e) st = Ok (RV v, st1) -> rec (TEvals es) st1 = Ok (RVs vs, st2) ->
    step fns rec (TEvals (e :: es)) st = Ok (RVs (v :: vs), st2).
Proof. exact earlier_value_is_a_snapshot. Qed.
Print Assumptions C14_returned_value_unaffected_by_later_mutation.

Theorem C14_argument_unaffected_by_later_sibling_arguments :
  forall fns rec soft e es t x ps st v st1 vs st2,
    rec (TEval e) st = Ok (RV v, st1) -> gate t v = true -> rec (TArgs soft es ps) st1 = Ok (RVs vs, st2) ->
    step fns rec (TArgs soft (e :: es) ((t, x) :: ps)) st = Ok (RVs (v :: vs), st2).
Proof. exact earlier_argument_is_a_snapshot. Qed.
Print Assumptions C14_argument_unaffected_by_later_sibling_arguments.

Theorem C14_return_snapshot_instance :
  run_prog documented return_snapshot_witness false 60 [] = Ok [OLine (B "1/bumped"); OLine (B "101")].
Proof. exact return_snapshot_example. Qed.
Print Assumptions C14_return_snapshot_instance.

(* non-vacuity: concrete inputs meeting the hypotheses, and a recursive program the interpreter really runs *)
Example C14_nonvacuous :
  two_level [(B "pan", VMap [(B "x", VInt 1); (B "y", VInt 2)]); (B "eks", VMap [(B "x", VInt 3)])] = true
  /\ group2 (B "sum") (B "a") (B "b") [(B "pan", VMap [(B "x", VInt 1)])] = [[(B "a", VStr (B "pan")); (B "b", VStr (B "x")); (B "sum", VInt 1)]]
  /\ a_define (B "x") TInt (VInt 1) (a_push_frame a_new) <> None
  /\ a_define (B "x") TInt (VStr (B "a")) a_new = None
  /\ run_prog documented
       {| p_funcs := [{| f_name := B "f"; f_sub := false; f_params := [(TInt, B "n")]; f_ret := TInt;
                         f_body := [SIf [(EBin (BCmp CLe) (ELocal (B "n")) (EInt 1), [SReturn (Some (EInt 1))])] None;
                                    SReturn (Some (EBin (BArith OMul) (ELocal (B "n")) (ECall (B "f") [EBin (BArith OSub) (ELocal (B "n")) (EInt 1)])))] |}];
          p_begin := []; p_main := [SAssign (LField (B "y")) [] (ECall (B "f") [EField (B "a")])]; p_end := [] |}
       false 100 [[(B "a", VInt 5)]] = Ok [ORec [(B "a", VInt 5); (B "y", VInt 120)]].
Proof. repeat split; try (vm_compute; congruence); vm_compute; reflexivity. Qed.

(* ---- short circuit, emitp, higher-order functions with function literals, then-chains *)
(* && / || / ?: / ?? never evaluate the skipped side: result and state are the left operand's, for EVERY skipped expression *)
Theorem C14_and_short_circuits :
  forall fns rec a b st st1, rec (TEval a) st = Ok (RV (VBool false), st1) ->
    step fns rec (TEval (EAnd a b)) st = Ok (RV (VBool false), st1).
Proof. exact (fun _ rec => logic_short_circuit rec true). Qed.
Print Assumptions C14_and_short_circuits.

Theorem C14_or_short_circuits :
  forall fns rec a b st st1, rec (TEval a) st = Ok (RV (VBool true), st1) ->
    step fns rec (TEval (EOr a b)) st = Ok (RV (VBool true), st1).
Proof. exact (fun _ rec => logic_short_circuit rec false). Qed.
Print Assumptions C14_or_short_circuits.

Theorem C14_ternary_true_skips_else :
  forall fns rec c a b b' st st1 (bv : bool), rec (TEval c) st = Ok (RV (VBool true), st1) ->
    step fns rec (TEval (ETern c a b)) st = step fns rec (TEval (ETern c a b')) st
    /\ step fns rec (TEval (ETern c a b)) st = rec (TEval a) st1.
Proof. exact ternary_evaluates_one_branch. Qed.
Print Assumptions C14_ternary_true_skips_else.

Theorem C14_ternary_false_skips_then :
  forall fns rec c a a' b st st1, rec (TEval c) st = Ok (RV (VBool false), st1) ->
    step fns rec (TEval (ETern c a b)) st = step fns rec (TEval (ETern c a' b)) st
    /\ step fns rec (TEval (ETern c a b)) st = rec (TEval b) st1.
Proof. exact ternary_false_skips_then. Qed.
Print Assumptions C14_ternary_false_skips_then.

Theorem C14_absent_coalescing_skips_rhs_when_present :
  forall fns rec a b st v st1, rec (TEval a) st = Ok (RV v, st1) -> v <> VAbsent ->
    step fns rec (TEval (ECoal a b)) st = Ok (RV v, st1).
Proof. exact coalesce_skips_rhs_when_present. Qed.
Print Assumptions C14_absent_coalescing_skips_rhs_when_present.

(* emitp by names = the grouping, = emit by names, on two-level maps *)
Theorem C14_emitp_by_names_splits_like_grouping :
  forall fns name a b, a <> b -> a <> name -> b <> name ->
  forall m fuel st, two_level m = true -> (total2 m < fuel)%nat ->
    run fns fuel (TEmitIdx true [] name m [a; b]) st = Ok (RO ONormal, emit_all (group2 name a b m) st).
Proof. exact (emit_idx_is_grouping true). Qed.
Print Assumptions C14_emitp_by_names_splits_like_grouping.

Theorem C14_emitp_equals_emit_on_two_level_maps :
  forall fns name a b, a <> b -> a <> name -> b <> name ->
  forall m fuel st, two_level m = true -> (total2 m < fuel)%nat ->
    run fns fuel (TEmitIdx true [] name m [a; b]) st = run fns fuel (TEmitIdx false [] name m [a; b]) st.
Proof. exact emitp_emit_agree_on_two_level_maps. Qed.
Print Assumptions C14_emitp_equals_emit_on_two_level_maps.

Theorem C14_emitp_unindexed_is_one_named_record :
  forall fns rec name e st v st1, rec (TEval e) st = Ok (RV v, st1) -> v <> VAbsent ->
    step fns rec (TExec (SEmitP name e [])) st = Ok (RO ONormal, emit_item (ORec [(name, v)]) st1).
Proof. exact emitp_unindexed_is_one_named_record. Qed.
Print Assumptions C14_emitp_unindexed_is_one_named_record.

(* higher-order functions: one callback call per element in order, accumulator threaded; any/every stop early;
   callbacks (named functions and, inside the fragment, function literals) leave the caller's locals as they were *)
Theorem C14_hof_calls_callback_per_element_in_order :
  forall fns rec h ismap lit fn item rest acc st r st1 acc',
    call_values fns rec lit fn (hof_args h ismap acc item) st = Ok (r, st1) ->
    hof_next h ismap acc item r = HCont acc' ->
    step fns rec (THof h ismap lit fn (item :: rest) acc) st = rec (THof h ismap lit fn rest acc') st1.
Proof. exact hof_step. Qed.
Print Assumptions C14_hof_calls_callback_per_element_in_order.

Theorem C14_any_stops_at_first_true :
  forall fns rec ismap lit fn item rest rest' acc st st1,
    call_values fns rec lit fn (hof_args HAny ismap acc item) st = Ok (VBool true, st1) ->
    step fns rec (THof HAny ismap lit fn (item :: rest) acc) st = Ok (RV (VBool true), st1)
    /\ step fns rec (THof HAny ismap lit fn (item :: rest') acc) st = Ok (RV (VBool true), st1).
Proof. exact any_stops_at_first_true. Qed.
Print Assumptions C14_any_stops_at_first_true.

Theorem C14_every_stops_at_first_false :
  forall fns rec ismap lit fn item rest rest' acc st st1,
    call_values fns rec lit fn (hof_args HEvery ismap acc item) st = Ok (VBool false, st1) ->
    step fns rec (THof HEvery ismap lit fn (item :: rest) acc) st = Ok (RV (VBool false), st1)
    /\ step fns rec (THof HEvery ismap lit fn (item :: rest') acc) st = Ok (RV (VBool false), st1).
Proof. exact every_stops_at_first_false. Qed.
Print Assumptions C14_every_stops_at_first_false.

Theorem C14_callbacks_preserve_caller_locals :
  forall fns fuel lit fn vs st v st', stk st <> [] ->
    call_values fns (run fns fuel) lit fn vs st = Ok (v, st') -> stk st' = stk st.
Proof. exact callbacks_preserve_locals. Qed.
Print Assumptions C14_callbacks_preserve_caller_locals.

(* then-chains: each put is a program of its own (functions, oosvars, stack) on the records the previous one emitted *)
Theorem C14_chain_verbs_are_separate_programs :
  forall vr p q p2 rest fuel ins outs rs, run_prog vr p q fuel ins = Ok outs -> recs_of outs = Some rs ->
    run_chain vr ((p, q) :: p2 :: rest) fuel ins = run_chain vr (p2 :: rest) fuel rs.
Proof. exact chain_is_composition. Qed.
Print Assumptions C14_chain_verbs_are_separate_programs.

Example C14_round3_nonvacuous :
  run_prog documented hof_witness false 60 [] = Ok [OLine (B "[10, 20, 30]"); OLine (B "106"); OLine (B "[3, 1, 2]"); OLine (B "10")]
  /\ run_chain documented [(verb 1 (B "x"), false); (verb 10 (B "y"), false)] 60 [[(B "a", VInt 0)]] =
     Ok [ORec [(B "a", VInt 0); (B "x", VArr [VInt 2; VInt 3]); (B "y", VArr [VInt 11; VInt 12])]].
Proof. split; [exact hof_example|exact chain_example]. Qed.
