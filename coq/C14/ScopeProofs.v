(* C14: isolation invariants of the whole interpreter, by induction on fuel.
   (1) evaluating an expression -- including every user-defined function it calls, recursively, with all their
       assignments to locals and (collection-valued) parameters -- leaves the caller's local-variable stack EXACTLY as it was:
       arguments are passed by value and callee locals are fenced off;
   (2) executing statements only ever touches the current frameset, and returns with it at the frame depth it started
       with: the framesets of all callers are unchanged, and after a block exits the enclosing scopes are the ones that
       were there before. *)
From Miller Require Import C14.Value C14.Stack C14.Model C14.DepthProofs.
Open Scope Z_scope.

Definition is_expr_task (t : task) : bool :=
  match t with TEval _ | TEvals _ | TIdx _ _ | TArgs _ _ _ | TMapLit _ _ | THof _ _ _ _ _ _ | TSort _ _ _ _ _ => true | _ => false end.

Definition frame_rel (s s' : astack) : Prop := tl s' = tl s /\ s' <> [].

(* [above n s a]: the stack a is s with another current frameset, n frames deeper (as far as s has a frame at all:
   popping the last frame of a frameset is a no-op, so nothing can be said when a block is entered at depth 0) *)
Definition above (n : nat) (s a : astack) : Prop :=
  frame_rel s a /\ (1 <= depth s -> depth a = n + depth s)%nat.

Definition post (t : task) (st st' : state) : Prop :=
  if is_expr_task t then stk st' = stk st else above 0 (stk st) (stk st').

Lemma above_refl s : s <> [] -> above 0 s s.
Proof. repeat split; auto. Qed.

Lemma above_ne n s a : above n s a -> a <> [].
Proof. intros H. exact (proj2 (proj1 H)). Qed.

Lemma above_kept n s a b : kept a b -> above n s a -> above n s b.
Proof.
  intros K [[Ht Hne] Hd]. destruct K as [|fs fs' r Hl]; [contradiction|].
  split; [split; [exact Ht|discriminate]|]. intros H. rewrite <- (Hd H). exact Hl.
Qed.

Lemma above_trans n s a b : above n s a -> above 0 a b -> above n s b.
Proof.
  intros [[Ht Hne] Hd] [[Ht' Hne'] Hd']. split; [split; congruence|].
  intros H. rewrite Hd', (Hd H); lia.
Qed.

Lemma above_push n s a : above n s a -> above (S n) s (a_push_frame a).
Proof.
  intros [[Ht Hne] Hd]. split.
  - destruct a; [contradiction|]. split; [exact Ht|discriminate].
  - intros H. now rewrite (depth_push _ Hne), (Hd H).
Qed.

Lemma above_pop n s a : above (S n) s a -> above n s (a_pop_frame a).
Proof.
  intros [[Ht Hne] Hd]. split.
  - destruct a as [|[|sc [|sc2 fs]] r]; [contradiction| | |]; split; auto; discriminate.
  - intros H. specialize (Hd H). pose proof (depth_pop a). lia.
Qed.

Create HintDb above discriminated.
#[local] Hint Resolve above_ne above_push above_pop above_kept a_top_kept a_set_kept a_unset_kept fs_poke_kept : above.

Lemma pop_callee_set s fs s3 : s <> [] -> frame_rel (fs :: s) s3 -> a_pop_set s3 = s.
Proof.
  intros Hs [Ht Hne]. destruct s3 as [|fs3 r3]; [contradiction|]. cbn in Ht. subst r3.
  destruct s; [contradiction|reflexivity].
Qed.

(* ---- where a computation ends: [after r Q] says that the state in which r ends, if it ends normally, satisfies Q *)
Definition after {A} (r : res (A * state)) (Q : state -> Prop) : Prop :=
  forall a st, r = Ok (a, st) -> Q st.

Lemma after_ok {A} (a : A) st (Q : state -> Prop) : Q st -> after (Ok (a, st)) Q.
Proof. intros H ? ? [= _ <-]. exact H. Qed.

Lemma after_bind {A B} (r : res (A * state)) (k : A * state -> res (B * state)) (Q1 Q : state -> Prop) :
  after r Q1 -> (forall a st, Q1 st -> after (k (a, st)) Q) -> after (bind r k) Q.
Proof. intros Hr Hk b st'. destruct r as [[a st]| | |]; try discriminate. exact (Hk a st (Hr a st eq_refl) b st'). Qed.

Lemma after_lift (r : res value) st (Q : state -> Prop) : Q st -> after (lift r st) Q.
Proof. intros H ? ?. destruct r; try discriminate. intros [= _ <-]. exact H. Qed.

Definition inv (f : recfn) : Prop := forall t st, stk st <> [] -> after (f t st) (post t st).

Ltac stk_simpl :=
  cbn [stk set_inrec set_oos set_filt emit_item set_stk set_nr push_frame pop_frame push_set pop_set].

Lemma stk_set_inrec r st : stk (set_inrec r st) = stk st. Proof. reflexivity. Qed.
Lemma stk_set_oos r st : stk (set_oos r st) = stk st. Proof. reflexivity. Qed.
Lemma stk_set_filt r st : stk (set_filt r st) = stk st. Proof. reflexivity. Qed.
Lemma stk_emit_item r st : stk (emit_item r st) = stk st. Proof. reflexivity. Qed.
Lemma stk_set_stk s st : stk (set_stk s st) = s. Proof. reflexivity. Qed.

Lemma fs_poke_frame x v fs fs' (r : astack) : fs_poke x v fs = Some fs' -> frame_rel (fs :: r) (fs' :: r).
Proof. intros _. split; [reflexivity|discriminate]. Qed.

Section StepInv.
Variable fns : list fdef.
Variable f : recfn.
Hypothesis HP : inv f.

(* the two forms in which the hypothesis about the evaluator is used: an expression task keeps the stack where it is,
   any task keeps it n frames above s *)
Lemma rec_same t s st : is_expr_task t = true -> s <> [] -> stk st = s -> after (f t st) (fun st' => stk st' = s).
Proof. intros Ht Hs <- r st' E. pose proof (HP t st Hs r st' E) as H. unfold post in H. now rewrite Ht in H. Qed.

Lemma rec_above t n s st : above n s (stk st) -> after (f t st) (fun st' => above n s (stk st')).
Proof.
  intros Ha r st' E. pose proof (HP t st (proj2 (proj1 Ha)) r st' E) as H. unfold post in H.
  destruct (is_expr_task t); [now rewrite H|exact (above_trans _ _ _ _ Ha H)].
Qed.

(* ev, evs and ex only check the kind of result *)
Lemma ev_after e st Q : after (f (TEval e) st) Q -> after (ev f e st) Q.
Proof. intros H. apply (after_bind _ _ Q Q H). intros [] st1 H1 ? ? [= _ <-]; exact H1. Qed.
Lemma evs_after es st Q : after (f (TEvals es) st) Q -> after (evs f es st) Q.
Proof. intros H. apply (after_bind _ _ Q Q H). intros [] st1 H1 ? ? [= _ <-]; exact H1. Qed.
Lemma ex_after t st Q : after (f t st) Q -> after (ex f t st) Q.
Proof. intros H. apply (after_bind _ _ Q Q H). intros [] st1 H1 ? ? [= _ <-]; exact H1. Qed.

(* a call: the body runs above the parameters, which are bound in a frameset of their own; popping that frameset
   afterwards gives the caller's stack back *)
Lemma call_restores ps vs body st s2 :
  stk st <> [] -> bind_params ps vs (a_push_set (stk st)) = Some s2 ->
  after (ex f (TBlock body) (set_stk s2 st)) (fun st3 => a_pop_set (stk st3) = stk st).
Proof.
  intros Hs E. apply bind_params_kept in E. unfold a_push_set in E. inversion E as [|fs fs' r Hl]; subst.
  apply ex_after. intros r st3 H. apply (pop_callee_set _ fs' _ Hs).
  assert (Ha : above 0 (fs' :: stk st) (fs' :: stk st)) by (apply above_refl; discriminate).
  exact (proj1 (rec_above _ 0 _ (set_stk _ st) Ha r st3 H)).
Qed.

(* symbolic execution of one layer of the interpreter: at a bind, the sub-evaluation is accounted for by the hypothesis
   about the evaluator (or, for the body of a callee, by call_restores); at a match, every branch is followed; where the
   layer returns, the facts collected about the stack are put together.  A bind is first tried with the goal's own
   predicate for the state in between, which is right except across a push or a call. *)
Ltac leaf := stk_simpl; first [solve [eauto with above] | congruence | idtac].

Ltac rec_call :=
  first [ eapply rec_above; stk_simpl; solve [eauto with above]
        | apply rec_same; [reflexivity | assumption | first [assumption | reflexivity]] ].

Ltac sub :=
  lazymatch goal with
  | |- after (ev _ _ _) _ => apply ev_after; rec_call
  | |- after (evs _ _ _) _ => apply evs_after; rec_call
  | |- after (ex _ _ _) _ =>
      first [ apply ex_after; rec_call
            | eapply call_restores; [first [congruence | solve [eauto with above]] | eassumption] ]
  | |- after (f _ _) _ => rec_call
  end.

Ltac after_sub := let H := fresh in intros ? ? H; cbv beta in H.

Ltac walk :=
  unfold ro, rv;
  repeat match goal with
    | |- after (Ok _) _ => apply after_ok; leaf
    | |- after (lift _ _) _ => apply after_lift; leaf
    | |- after (bind (match _ with _ => _ end) _) ?Q => apply (after_bind _ _ Q Q); [ | after_sub]
    | |- after (bind _ _) ?Q => apply (after_bind _ _ Q Q); [sub | after_sub]
    | |- after (bind _ _) _ => eapply after_bind; [sub | after_sub]
    | |- after (match match ?x with _ => _ end with _ => _ end) _ => destruct x
    | |- after (match ?x with _ => _ end) _ =>
        lazymatch type of x with option _ => destruct x eqn:? | _ => destruct x end
    | |- after Fatal _ => intros ? ? [=]
    | |- after Unsup _ => intros ? ? [=]
    | |- after _ _ => sub
    end.

Lemma eval_logic_same isand a b s st :
  s <> [] -> stk st = s -> after (eval_logic f isand a b st) (fun st' => stk st' = s).
Proof. intros Hs H. unfold eval_logic. walk. Qed.

Lemma eval_call_same name args s st :
  s <> [] -> stk st = s -> after (eval_call fns f name args st) (fun st' => stk st' = s).
Proof. intros Hs H. unfold eval_call. walk. Qed.

Lemma exec_call_above name args n s st :
  above n s (stk st) -> after (exec_call fns f name args st) (fun st' => above n s (stk st')).
Proof. intros H. unfold exec_call. walk. Qed.

(* a callback invoked by a higher-order function: a named function runs in a frameset of its own, which is popped; a
   function literal runs in a frame of the current frameset, and the call is inside the fragment only when the enclosing
   locals come back as they were: the state it returns is given the stack of before *)
Lemma call_values_same lit name vs s st :
  s <> [] -> stk st = s -> after (call_values fns f lit name vs st) (fun st' => stk st' = s).
Proof.
  intros Hs H. unfold call_values. destruct lit.
  - walk. eapply after_bind with (Q1 := fun _ => True); [easy|intros o st3 _]. walk.
  - walk.
Qed.

Lemma eval_hof_same h c lit fn init s st :
  s <> [] -> stk st = s -> after (eval_hof fns f h c lit fn init st) (fun st' => stk st' = s).
Proof. intros Hs H. unfold eval_hof. walk. Qed.

Lemma eval_expr_same e s st :
  s <> [] -> stk st = s -> after (eval_expr fns f e st) (fun st' => stk st' = s).
Proof.
  intros Hs H. destruct e; cbn [eval_expr];
    first [now apply eval_logic_same | now apply eval_call_same | now apply eval_hof_same | walk].
Qed.

Lemma assign_local_indexed_above x vs v n s st :
  above n s (stk st) -> after (assign_local_indexed x vs v st) (fun st' => above n s (stk st')).
Proof.
  intros H. unfold assign_local_indexed, of_pres. destruct (stk st) as [|fs r] eqn:Es; walk.
Qed.

Lemma assign_indexed_above b vs v n s st :
  above n s (stk st) -> after (assign_indexed b vs v st) (fun st' => above n s (stk st')).
Proof. intros H. destruct b; [| |now apply assign_local_indexed_above]; unfold assign_indexed, of_pres; walk. Qed.

Lemma unset_lvalue_above b vs n s st : above n s (stk st) -> above n s (stk (unset_lvalue b vs st)).
Proof.
  intros H. unfold unset_lvalue.
  destruct b as [k|k|x], vs as [|v0 vs]; try (destruct (inrec st); exact H); stk_simpl; eauto with above.
  destruct (stk st) as [|fs r] eqn:Es; [now rewrite Es|].
  destruct (fs_get x fs); [|now rewrite Es]. destruct (fs_poke x (remove_indexed v (v0 :: vs)) fs) eqn:E; stk_simpl; rewrite ?Es; eauto with above.
Qed.

Lemma exec_stmt_above c n s st :
  above n s (stk st) -> after (exec_stmt fns f c st) (fun st' => above n s (stk st')).
Proof.
  intros H. destruct c; cbn [exec_stmt]; unfold assign_direct, loop_after_body; walk;
    auto using assign_indexed_above, unset_lvalue_above, exec_call_above.
Qed.

Lemma step_inv : inv (step fns f).
Proof.
  intros t st Hs. unfold post. destruct (is_expr_task t) eqn:Et.
  - destruct t; try discriminate Et; cbn [step]; [now apply eval_expr_same|walk..].
    all: eapply after_bind; [eapply call_values_same; [eassumption|reflexivity]|after_sub]; walk.
  - apply above_refl in Hs. destruct t; try discriminate Et; cbn [step]; unfold loop_after_body;
      [now apply exec_stmt_above|walk..].
Qed.

End StepInv.

Lemma run_inv fns fuel : inv (run fns fuel).
Proof. induction fuel as [|n IH]; [intros t st _ r st' [=]|]. now apply step_inv. Qed.

(* (1) by-value argument passing and fenced callee locals: an expression, whatever functions it calls, leaves the local
   variable stack of its evaluation context exactly as it found it *)
Lemma expressions_preserve_locals fns fuel e st v st' :
  stk st <> [] -> run fns fuel (TEval e) st = Ok (RV v, st') -> stk st' = stk st.
Proof. intros Hne H. exact (run_inv fns fuel (TEval e) st Hne _ _ H). Qed.

(* (2) statements only touch the current frameset: all the callers' framesets are unchanged *)
Lemma statements_preserve_caller_framesets fns fuel ss st o st' :
  stk st <> [] -> run fns fuel (TBlock ss) st = Ok (RO o, st') -> tl (stk st') = tl (stk st) /\ stk st' <> [].
Proof. intros Hne H. exact (proj1 (run_inv fns fuel (TBlock ss) st Hne _ _ H)). Qed.

(* block scoping over whole executions: a block (with everything nested in it and everything it calls) returns with the
   current frameset at the same frame depth, the callers' framesets untouched *)
Lemma blocks_restore_scope_depth fns fuel ss st o st' :
  (1 <= depth (stk st))%nat -> run fns fuel (TBlock ss) st = Ok (RO o, st') ->
  depth (stk st') = depth (stk st) /\ tl (stk st') = tl (stk st).
Proof.
  intros Hd H. assert (Hne : stk st <> []) by (destruct (stk st); [inversion Hd|discriminate]).
  destruct (run_inv fns fuel (TBlock ss) st Hne _ _ H) as [[Ht _] Hdepth]. exact (conj (Hdepth Hd) Ht).
Qed.
