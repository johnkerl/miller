From Miller Require Import C14.Value C14.Stack C14.Model C14.Proofs C14.StackProofs.
Open Scope Z_scope.

(* ---- absent assignment is skipped: the statement changes nothing beyond what evaluating its right-hand side did;
   the indices of the left-hand side are not even evaluated *)
Lemma absent_assignment_skipped fns rec b idx e st st1 :
  rec (TEval e) st = Ok (RV VAbsent, st1) ->
  step fns rec (TExec (SAssign b idx e)) st = Ok (RO ONormal, st1).
Proof. intros H. cbn [step exec_stmt]. unfold ev. rewrite H. reflexivity. Qed.

Lemma absent_declaration_skipped fns rec t x e st st1 :
  rec (TEval e) st = Ok (RV VAbsent, st1) ->
  step fns rec (TExec (SDefine t x e)) st = Ok (RO ONormal, st1).
Proof. intros H. cbn [step exec_stmt]. unfold ev. rewrite H. reflexivity. Qed.

(* a present value assigned to a field lands in the record by Mlrmap.PutCopy: position kept or appended (Proofs.v) *)
Lemma field_assignment_is_put fns rec k e st st1 v r :
  rec (TEval e) st = Ok (RV v, st1) -> v <> VAbsent -> inrec st1 = Some r ->
  step fns rec (TExec (SAssign (LField k) [] e)) st = Ok (RO ONormal, set_inrec (Some (mput k v r)) st1).
Proof.
  intros H Hv Hr. cbn [step exec_stmt]. unfold ev. rewrite H. cbn. destruct v; try contradiction; cbn; unfold assign_direct; rewrite Hr; reflexivity.
Qed.

(* ---- out-of-stream variables persist across records: the next record starts from the oosvars (and nothing else of the
   DSL state but the filter flag and the recycled stack) the previous record's main block left behind *)
Lemma oosvars_persist vr p q fuel r t st st1 :
  run_block (p_funcs p) fuel (p_main p)
    (let st0 := set_nr (nr st + 1) (set_inrec (Some r) st) in if v_filter_per_record vr then set_filt VAbsent st0 else st0) = Ok st1 ->
  exists st2, run_records vr p q fuel (r :: t) st = run_records vr p q fuel t st2 /\ oos st2 = oos st1 /\ stk st2 = stk st1.
Proof.
  intros H. cbn [run_records]. cbv zeta in H. rewrite H. cbn [bind].
  eexists. split; [reflexivity|]. destruct (inrec st1); [destruct (passes q (filt st1))|]; split; reflexivity.
Qed.

(* ---- the filter statement decides about the current record only (reference semantics = variant [documented]) *)
Lemma filter_is_per_record vr p q fuel r t st f :
  v_filter_per_record vr = true ->
  run_records vr p q fuel (r :: t) (set_filt f st) = run_records vr p q fuel (r :: t) st.
Proof. intros Hv. cbn [run_records]. rewrite Hv. reflexivity. Qed.

(* before its repair put_or_filter.go kept FilterExpression across records (it was never reset): in that variant a filter
   statement executed for record 1 drops record 2 as well *)
Definition sticky_witness : prog :=
  {| p_funcs := []; p_begin := [];
     p_main := [SIf [(EBin (BCmp CEq) ENR (EInt 1), [SFilter (EBool false)])] None];
     p_end := [] |}.

Lemma filter_sticky_variant_drops_later_records :
  run_prog {| v_filter_per_record := false |} sticky_witness false 50 [[(B "a", VInt 1)]; [(B "a", VInt 2)]] = Ok []
  /\ run_prog documented sticky_witness false 50 [[(B "a", VInt 1)]; [(B "a", VInt 2)]] = Ok [ORec [(B "a", VInt 2)]].
Proof. split; vm_compute; reflexivity. Qed.

(* ---- indexed assignment to a typed local is an assignment: a local declared with type t accepts x[i] = v only when t
   admits maps; a scalar-, void-, absent- or error-valued local becomes a fresh map through its gate, a map-valued one is
   updated (and stays a map) *)
Lemma gate_map_irrelevant t m m' : gate t (VMap m) = gate t (VMap m').
Proof. destruct t; reflexivity. Qed.

Lemma gate_arr_irrelevant t a a' : gate t (VArr a) = gate t (VArr a').
Proof. destruct t; reflexivity. Qed.

(* with arrays in the value domain: either the declared type admits maps, or the local already held an array (which
   PutIndexed keeps an array, see ArrayProofs.put_indexed_keeps_kind) and the type admits arrays *)
Lemma indexed_assignment_gated x vs v st fs r t st' :
  stk st = fs :: r -> fs_type x fs = Some t ->
  (forall c, fs_get x fs = Some c -> is_coll c = true -> gate t c = true) ->
  assign_local_indexed x vs v st = Ok (RO ONormal, st') ->
  (forall m, gate t (VMap m) = true) \/ (exists a, fs_get x fs = Some (VArr a) /\ forall a', gate t (VArr a') = true).
Proof.
  intros Hs Ht Hwt H. unfold assign_local_indexed in H. rewrite Hs in H.
  assert (Hfresh : of_pres (fresh_indexed vs v)
            (fun m0 => match a_set x (VMap m0) (fs :: r) with
                       | Some s => ro ONormal (set_stk s st)
                       | None => ro OErr st
                       end) st = Ok (RO ONormal, st') -> forall m, gate t (VMap m) = true).
  { unfold of_pres. destruct (fresh_indexed vs v) as [m0| |]; try discriminate.
    destruct (a_set x (VMap m0) (fs :: r)) as [s|] eqn:E; [|discriminate]. intros _ m.
    rewrite (gate_map_irrelevant t m m0). eapply C14.StackProofs.set_respects_gate; eauto. }
  destruct (fs_get x fs) as [c|] eqn:Eg; [|left; now apply Hfresh].
  destruct c; cbn [is_coll is_map is_arr orb] in H; try (left; now apply Hfresh).
  - left. intros m0. rewrite (gate_map_irrelevant t m0 m). now apply Hwt.
  - right. exists l. split; [reflexivity|]. intros a'. rewrite (gate_arr_irrelevant t a' l). now apply Hwt.
Qed.

(* ---- emit @name, "a", "b" and emitp @name, "a", "b" on a two-level map = the records of the two-level grouping,
   in map order *)
Definition group2 (name a b : bytes) (m : amap) : list amap :=
  flat_map (fun kv => match snd kv with
                      | VMap m1 => map (fun kv2 => [(a, VStr (fst kv)); (b, VStr (fst kv2)); (name, snd kv2)]) m1
                      | _ => []
                      end) m.

Definition leaf (v : value) : bool := match v with VMap _ => false | _ => true end.
Definition two_level (m : amap) : bool :=
  forallb (fun kv => match snd kv with VMap m1 => forallb (fun kv2 => leaf (snd kv2)) m1 | _ => false end) m.

Fixpoint total2 (m : amap) : nat :=
  match m with
  | [] => O
  | (_, v) :: t => S ((match v with VMap m1 => List.length m1 | _ => O end) + total2 t)
  end.

Definition emit_all (rs : list amap) (st : state) : state := fold_left (fun s r => emit_item (ORec r) s) rs st.

Lemma beqb_false a b : a <> b -> beqb a b = false.
Proof. intros H. destruct (beqb_spec a b); congruence. Qed.

Lemma record_of_three a b name x y v :
  a <> b -> a <> name -> b <> name -> mput name v (mput b y [(a, x)]) = [(a, x); (b, y); (name, v)].
Proof.
  intros Hab Han Hbn. cbn [mput]. rewrite (beqb_false b a) by congruence. cbn [mput].
  now rewrite (beqb_false name a), (beqb_false name b) by congruence.
Qed.

(* the last key of emitp: one record per entry, whatever the entry holds *)
Lemma emit_inner fns name a b k1 : a <> b -> a <> name -> b <> name ->
  forall m1 fuel st, (List.length m1 < fuel)%nat ->
  run fns fuel (TEmitIdx true [(a, VStr k1)] name m1 [b]) st
  = Ok (RO ONormal, emit_all (map (fun kv2 => [(a, VStr k1); (b, VStr (fst kv2)); (name, snd kv2)]) m1) st).
Proof.
  intros Hab Han Hbn. induction m1 as [|[k2 v] m1 IH]; intros fuel st Hf; (destruct fuel as [|f]; [cbn in Hf; lia|]).
  - reflexivity.
  - assert (Hf' : (List.length m1 < f)%nat) by (cbn in Hf; lia).
    cbn [run step]. rewrite (record_of_three a b name) by assumption.
    destruct v; unfold ro; cbn [bind]; now rewrite (IH f _ Hf').
Qed.

Lemma emit_all_app rs1 rs2 st : emit_all (rs1 ++ rs2) st = emit_all rs2 (emit_all rs1 st).
Proof. unfold emit_all. now rewrite fold_left_app. Qed.

(* the outer level never looks at the emit/emitp flag: it matters only where a leaf is itself a map (emit splices it,
   emitp keeps it under the name), which a two-level map excludes *)
Lemma emit_idx_is_grouping isp fns name a b : a <> b -> a <> name -> b <> name ->
  forall m fuel st, two_level m = true -> (total2 m < fuel)%nat ->
  run fns fuel (TEmitIdx isp [] name m [a; b]) st = Ok (RO ONormal, emit_all (group2 name a b m) st).
Proof.
  intros Hab Han Hbn. induction m as [|[k1 v1] m IH]; intros fuel st Hl Hf; (destruct fuel as [|f]; [cbn in Hf; lia|]).
  - reflexivity.
  - cbn [two_level forallb snd] in Hl. apply andb_true_iff in Hl. destruct Hl as [Hv Hl].
    destruct v1 as [| | | | |m1|]; try discriminate.
    cbn [run step]. cbn [mput total2] in *.
    rewrite (emit_inner fns name a b k1 Hab Han Hbn m1 f st) by lia.
    cbn [bind]. rewrite IH; [|exact Hl|lia].
    cbn [group2 flat_map snd fst]. rewrite emit_all_app. reflexivity.
Qed.

(* ---- multi-key for-loops: a break (or return, or error) coming back from a deeper key level is handed upward unchanged
   by every enclosing key level, and ends the whole loop *)
Lemma multikey_exit_propagates fns rec k k2 ks vn key sub more body st s1 o st2 :
  a_set_at_scope k (VStr key) (stk st) = Some s1 ->
  rec (TMulti (k2 :: ks) vn sub body) (set_stk s1 st) = Ok (RO o, st2) -> o <> ONormal ->
  step fns rec (TMulti (k :: k2 :: ks) vn ((key, VMap sub) :: more) body) st = Ok (RO o, st2).
Proof.
  intros Hs Hr Ho. cbn [step]. rewrite Hs. unfold ex. rewrite Hr. cbn [bind]. destruct o; try reflexivity. contradiction.
Qed.

Lemma multikey_break_ends_loop fns rec ks vn e body st m st1 st2 :
  rec (TEval e) st = Ok (RV (VMap m), st1) ->
  rec (TMulti ks vn m body) (push_frame st1) = Ok (RO OBreak, st2) ->
  step fns rec (TExec (SForMulti ks vn e body)) st = Ok (RO ONormal, pop_frame st2).
Proof. intros He Hm. cbn [step exec_stmt]. unfold ev, ex. rewrite He. cbn [bind]. rewrite Hm. reflexivity. Qed.

(* ---- by value at function RETURN: once a sub-expression has been evaluated to v, v is what the enclosing expression
   uses, whatever the evaluation of the remaining sub-expressions does to the storage v was read from *)
Lemma earlier_value_is_a_snapshot fns rec e es st v st1 vs st2 :
  rec (TEval e) st = Ok (RV v, st1) -> rec (TEvals es) st1 = Ok (RVs vs, st2) ->
  step fns rec (TEvals (e :: es)) st = Ok (RVs (v :: vs), st2).
Proof. intros He Hs. cbn [step]. unfold ev, evs. rewrite He. cbn [bind]. rewrite Hs. reflexivity. Qed.

Lemma earlier_argument_is_a_snapshot fns rec soft e es t x ps st v st1 vs st2 :
  rec (TEval e) st = Ok (RV v, st1) -> gate t v = true -> rec (TArgs soft es ps) st1 = Ok (RVs vs, st2) ->
  step fns rec (TArgs soft (e :: es) ((t, x) :: ps)) st = Ok (RVs (v :: vs), st2).
Proof. intros He Hg Hs. cbn [step]. unfold ev. rewrite He. cbn [bind]. rewrite Hg, Hs. reflexivity. Qed.

(* the scenario of the missed mutation: f() returns the oosvar map @c, bump() then changes @c, g receives both *)
Definition return_snapshot_witness : prog :=
  let incr n := SAssign (LOos (B "c")) [EStr (B "v")] (EBin (BArith OAdd) (EIndex (EOos (B "c")) (EStr (B "v"))) (EInt n)) in
  {| p_funcs := [
       {| f_name := B "f"; f_sub := false; f_params := []; f_ret := TMap; f_body := [incr 1; SReturn (Some (EOos (B "c")))] |};
       {| f_name := B "bump"; f_sub := false; f_params := []; f_ret := TStr; f_body := [incr 100; SReturn (Some (EStr (B "bumped")))] |};
       {| f_name := B "g"; f_sub := false; f_params := [(TMap, B "m"); (TStr, B "s")]; f_ret := TStr;
          f_body := [SReturn (Some (EBin BDot (EBin BDot (EIndex (ELocal (B "m")) (EStr (B "v"))) (EStr (B "/"))) (ELocal (B "s"))))] |}];
     p_begin := []; p_main := [];
     p_end := [[SPrint (ECall (B "g") [ECall (B "f") []; ECall (B "bump") []]); SPrint (EIndex (EOos (B "c")) (EStr (B "v")))]] |}.

Lemma return_snapshot_example :
  run_prog documented return_snapshot_witness false 60 [] = Ok [OLine (B "1/bumped"); OLine (B "101")].
Proof. vm_compute. reflexivity. Qed.
