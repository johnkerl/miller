(* C14: laws of the array part of the value model (Value.v: arr_get, put_indexed, remove_indexed, slice_list),
   i.e. of pkg/mlrval/mlrval_collections.go UnaliasArrayLengthIndex / ArrayGet / putIndexedOnArray / removeIndexedOnArray
   and bifs.MillerSliceAccess as used by ArraySliceAccessNode; also the positional-name assignments (pos_put_value, pos_put_name) and emitf. *)
From Miller Require Import C14.Value C14.Stack C14.Model C15.Proofs.
From Coq Require Import Lia ZifyBool ZifyNat.
Open Scope Z_scope.

(* UnaliasArrayLengthIndex: 1..n and the aliases -n..-1 are in bounds; k and k-n-1 name the same element *)
Lemma arr_inb_iff n k : arr_inb n k = true <-> 1 <= k <= n \/ - n <= k <= -1.
Proof. unfold arr_inb. lia. Qed.

Lemma zidx_pos n k : 1 <= k -> zidx n k = Z.to_nat (k - 1).
Proof. intros H. unfold zidx. now rewrite unalias_pos. Qed.

Lemma zidx_neg n k : k <= -1 -> zidx n k = Z.to_nat (k + n).
Proof. intros H. unfold zidx. now rewrite unalias_neg. Qed.

Lemma alias_same n k : 1 <= k <= n -> arr_inb n (k - n - 1) = arr_inb n k /\ zidx n (k - n - 1) = zidx n k.
Proof.
  intros H. split; [rewrite (proj2 (arr_inb_iff n k)), (proj2 (arr_inb_iff n (k - n - 1))) by lia; reflexivity|].
  rewrite zidx_neg, zidx_pos by lia. f_equal. lia.
Qed.

(* negative aliases: -1 is the last element, -n the first *)
Lemma array_index_alias a k : 1 <= k <= alen a -> arr_get a (k - alen a - 1) = arr_get a k.
Proof. intros H. unfold arr_get. now destruct (alias_same _ _ H) as [-> ->]. Qed.

(* reads out of bounds (index 0 included) are absent, not errors *)
Lemma array_read_out_of_bounds_is_absent a k : arr_inb (alen a) k = false -> index_read (VArr a) (VInt k) = Ok VAbsent.
Proof. intros H. cbn. unfold arr_get. now rewrite H. Qed.

Lemma array_read_in_bounds a k : 1 <= k <= alen a -> index_read (VArr a) (VInt k) = Ok (nth (Z.to_nat (k - 1)) a VAbsent).
Proof.
  intros H. cbn. unfold arr_get. rewrite (proj2 (arr_inb_iff _ k)), zidx_pos by lia.
  destruct (nth_error a (Z.to_nat (k - 1))) eqn:En; [now rewrite (nth_error_nth _ _ _ En)|].
  apply nth_error_None in En. unfold alen in H. lia.
Qed.

Lemma list_set_length {A} (l : list A) : forall i x, List.length (arr_set l i x) = List.length l.
Proof. induction l as [|h t IH]; intros [|i] x; cbn; auto. Qed.

Lemma list_set_nth_same {A} (l : list A) : forall i x, (i < List.length l)%nat -> nth_error (arr_set l i x) i = Some x.
Proof. induction l as [|h t IH]; intros [|i] x H; cbn in *; try lia; auto. apply IH. lia. Qed.

Lemma list_set_nth_other {A} (l : list A) : forall i j x, i <> j -> nth_error (arr_set l i x) j = nth_error l j.
Proof. induction l as [|h t IH]; intros [|i] [|j] x H; cbn in *; auto; try congruence. Qed.

Lemma alen_set a i v : alen (arr_set a i v) = alen a.
Proof. unfold alen. now rewrite list_set_length. Qed.

(* assignment to an in-bounds index (positive or negative alias) replaces exactly that element *)
Lemma array_put_get a k v :
  arr_inb (alen a) k = true ->
  exists a', put_indexed (VArr a) [VInt k] v = VOk (VArr a') /\ arr_get a' k = Some v /\ alen a' = alen a.
Proof.
  intros H. exists (arr_set a (zidx (alen a) k) v). cbn. rewrite H. split; [reflexivity|]. split; [|apply alen_set].
  unfold arr_get. rewrite alen_set, H. apply list_set_nth_same.
  apply arr_inb_iff in H. unfold alen in *. destruct H; [rewrite zidx_pos|rewrite zidx_neg]; lia.
Qed.

Lemma array_put_other a k j v :
  arr_inb (alen a) k = true -> zidx (alen a) k <> zidx (alen a) j ->
  arr_get (arr_set a (zidx (alen a) k) v) j = arr_get a j.
Proof.
  intros H Hne. unfold arr_get. rewrite alen_set.
  destruct (arr_inb (alen a) j); [|reflexivity]. now apply list_set_nth_other.
Qed.

(* auto-extend: writing one past the end appends exactly one element; index 0 and negative indices before the start are
   errors (the array is untouched: the statement fails); further out Miller fills the gap with JSON nulls, which the
   model does not represent (VUnsup: such programs are skipped by the correspondence) *)
Lemma array_put_outside a k v : arr_inb (alen a) k = false ->
  put_indexed (VArr a) [VInt k] v = if k <=? 0 then VErr else if k =? alen a + 1 then VOk (VArr (a ++ [v])) else VUnsup.
Proof. intros H. cbn. now rewrite H. Qed.

Lemma array_auto_extend_by_one a v : put_indexed (VArr a) [VInt (alen a + 1)] v = VOk (VArr (a ++ [v])).
Proof.
  rewrite array_put_outside by (unfold arr_inb, alen; lia).
  rewrite Z.eqb_refl. now replace (alen a + 1 <=? 0) with false by (unfold alen; lia).
Qed.

Lemma array_put_zero_or_before_start_is_error a k v : k = 0 \/ k < - alen a -> put_indexed (VArr a) [VInt k] v = VErr.
Proof.
  intros H. rewrite array_put_outside by (unfold arr_inb, alen in *; lia).
  now replace (k <=? 0) with true by (unfold alen in *; lia).
Qed.

Lemma array_put_beyond_is_outside_fragment a k v : alen a + 1 < k -> put_indexed (VArr a) [VInt k] v = VUnsup.
Proof.
  intros H. rewrite array_put_outside by (unfold arr_inb, alen in *; lia).
  replace (k <=? 0) with false by (unfold alen in *; lia). now replace (k =? alen a + 1) with false by lia.
Qed.

(* PutIndexed never changes the kind of the collection it is applied to: a map stays a map, an array an array (so a local
   declared arr/map keeps satisfying its declaration under indexed assignment) *)
Lemma put_indexed_keeps_kind idx : forall c v c', is_coll c = true -> put_indexed c idx v = VOk c' -> is_map c' = is_map c /\ is_arr c' = is_arr c.
Proof.
  destruct idx as [|k rest]; intros c v c' Hc H; [discriminate|].
  destruct c; try discriminate Hc; cbn [put_indexed] in H.
  - destruct rest.
    + destruct (key_for_put k); inversion H; subst; auto.
    + destruct (strict_key k); [|discriminate]. destruct (mget b m).
      * destruct (put_indexed v1 (v0 :: rest) v); inversion H; subst; auto.
      * destruct (strict_key v0); [|discriminate]. destruct (put_indexed (VMap []) (v0 :: rest) v); inversion H; subst; auto.
  - destruct k; try discriminate. destruct (arr_inb (alen l) z).
    + destruct rest; [inversion H; subst; auto|].
      destruct (match v0 with VStr (_ :: _) => _ | VInt _ => _ | _ => None end); [|discriminate].
      destruct (put_indexed v1 (v0 :: rest) v); inversion H; subst; auto.
    + destruct (z <=? 0); [discriminate|]. destruct (z =? alen l + 1); [|discriminate].
      destruct rest; [inversion H; subst; auto|]. destruct (put_indexed (VStr []) (v0 :: rest) v); inversion H; subst; auto.
Qed.

Lemma slice_access_empty n lo hi :
  Z.min (n - 1) (C15.Model.unalias n hi) < Z.max 0 (C15.Model.unalias n lo) -> C15.Model.slice_access n lo hi false = None.
Proof.
  intros H. unfold C15.Model.slice_access. cbn [andb]. cbv zeta.
  repeat match goal with |- context [?a <? ?b] => destruct (Z.ltb_spec a b) end; try reflexivity; lia.
Qed.

(* a slice is what is left between the two bounds once they are unaliased and clamped to the list *)
Lemma slice_list_clamped {A} (l : list A) lo hi :
  let n := Z.of_nat (List.length l) in
  let a := Z.max 0 (C15.Model.unalias n lo) in let b := Z.min (n - 1) (C15.Model.unalias n hi) in
  slice_list l lo hi = firstn (Z.to_nat (b - a + 1)) (skipn (Z.to_nat a) l).
Proof.
  intros n a b. unfold slice_list. fold n. destruct (Z.le_gt_cases a b) as [H|H].
  - now rewrite (slice_access_clamped n lo hi H).
  - rewrite slice_access_empty by (fold a b; lia). now replace (Z.to_nat (b - a + 1)) with 0%nat by lia.
Qed.

(* inclusive slices: for 1 <= lo <= hi <= n the slice [lo:hi] is elements lo..hi, both ends included *)
Lemma slice_is_firstn_skipn {A} (l : list A) lo hi :
  1 <= lo -> lo <= hi -> hi <= Z.of_nat (List.length l) ->
  slice_list l lo hi = firstn (Z.to_nat (hi - lo + 1)) (skipn (Z.to_nat (lo - 1)) l).
Proof. intros H1 H2 H3. rewrite slice_list_clamped, !unalias_pos by lia. do 2 f_equal; lia. Qed.

Lemma slice_length {A} (l : list A) lo hi :
  1 <= lo -> lo <= hi -> hi <= Z.of_nat (List.length l) -> Z.of_nat (List.length (slice_list l lo hi)) = hi - lo + 1.
Proof.
  intros H1 H2 H3. rewrite slice_is_firstn_skipn by assumption. rewrite firstn_length, skipn_length. lia.
Qed.

(* negative aliases in slices: [lo-n-1 : hi-n-1] is [lo:hi] *)
Lemma slice_negative_alias {A} (l : list A) lo hi :
  1 <= lo <= Z.of_nat (List.length l) -> 1 <= hi <= Z.of_nat (List.length l) ->
  slice_list l (lo - Z.of_nat (List.length l) - 1) (hi - Z.of_nat (List.length l) - 1) = slice_list l lo hi.
Proof.
  intros H1 H2. rewrite !slice_list_clamped. set (n := Z.of_nat (List.length l)) in *.
  rewrite (unalias_neg n (lo - n - 1)), (unalias_neg n (hi - n - 1)), (unalias_pos n lo), (unalias_pos n hi) by lia.
  do 2 f_equal; lia.
Qed.

(* out-of-range slice bounds are trimmed to the array (Python-like), never an error *)
Lemma slice_trims {A} (l : list A) lo hi :
  1 <= lo -> Z.of_nat (List.length l) <= hi -> slice_list l lo hi = skipn (Z.to_nat (lo - 1)) l.
Proof.
  intros H1 H2. rewrite slice_list_clamped, (unalias_pos _ lo) by lia. set (n := Z.of_nat (List.length l)) in *.
  assert (Hh : n - 1 <= C15.Model.unalias n hi).
  { unfold C15.Model.unalias. destruct (Z.leb_spec 1 hi), (Z.leb_spec hi (-1)); lia. }
  replace (Z.max 0 (lo - 1)) with (lo - 1) by lia. apply firstn_all2. rewrite skipn_length. lia.
Qed.

(* unset of an array element removes it and shifts the later elements down *)
Lemma array_unset_shifts a k : 1 <= k <= alen a ->
  remove_indexed (VArr a) [VInt k] = VArr (firstn (Z.to_nat (k - 1)) a ++ skipn (Z.to_nat k) a).
Proof.
  intros H. cbn. rewrite (proj2 (arr_inb_iff _ k)), zidx_pos by lia. unfold list_remove_at. do 3 f_equal. lia.
Qed.

(* by value for arrays: a function that overwrites, extends and unsets elements of its array parameter leaves the
   caller's array as it was (instance of ScopeProofs.expressions_preserve_locals, computed) *)
Definition array_by_value_witness : prog :=
  {| p_funcs := [{| f_name := B "f"; f_sub := false; f_params := [(TArr, B "a")]; f_ret := TAny;
                    f_body := [SAssign (LLocal (B "a")) [EInt 1] (EInt 99);
                               SAssign (LLocal (B "a")) [EBin (BArith OAdd) (EFun1 FLength (ELocal (B "a"))) (EInt 1)] (EInt 7);
                               SUnset (LLocal (B "a")) [EInt 2];
                               SReturn (Some (ELocal (B "a")))] |}];
     p_begin := []; p_main := [];
     p_end := [[SAssign (LLocal (B "xs")) [] (EArrLit [EInt 1; EInt 2; EInt 3]);
                SEmit1 (EMapLit [(EStr (B "inner"), ECall (B "f") [ELocal (B "xs")]); (EStr (B "outer"), ELocal (B "xs"))])]] |}.

Lemma array_by_value_example :
  run_prog documented array_by_value_witness false 60 [] =
  Ok [ORec [(B "inner", VArr [VInt 99; VInt 3; VInt 7]); (B "outer", VArr [VInt 1; VInt 2; VInt 3])]].
Proof. vm_compute. reflexivity. Qed.

(* ---- positional names: positions 1..n and the aliases -n..-1; an out-of-range position makes both assignments no-ops *)
Lemma positional_out_of_range_is_noop m p v : pos_idx m p = None -> pos_put_value m p v = m /\ pos_put_name m p v = m.
Proof. intros H. unfold pos_put_value, pos_put_name. now rewrite H. Qed.

Lemma positional_alias m p : 1 <= p <= Z.of_nat (List.length m) -> pos_idx m (p - Z.of_nat (List.length m) - 1) = pos_idx m p.
Proof. intros H. unfold pos_idx. now destruct (alias_same _ _ H) as [-> ->]. Qed.

(* assignment to a positional value keeps every field name and the field order *)
Lemma pos_set_value_keys m : forall i v, mkeys (pos_set_value m i v) = mkeys m.
Proof. induction m as [|[k x] t IH]; intros [|i] v; cbn; auto. f_equal. apply IH. Qed.

Lemma positional_value_assignment_keeps_names m p v : mkeys (pos_put_value m p v) = mkeys m.
Proof. unfold pos_put_value. destruct (pos_idx m p); [apply pos_set_value_keys|reflexivity]. Qed.

(* emitf @a, @b, ...: exactly one record, holding the present values under those names in order *)
Lemma emitf_is_one_record fns rec items st vs st1 :
  rec (TEvals (map snd items)) st = Ok (RVs vs, st1) ->
  step fns rec (TExec (SEmitF items)) st =
  Ok (RO ONormal, emit_item (ORec (fold_left (fun r kv => match snd kv with VAbsent => r | v => mput (fst kv) v r end)
                                             (combine (map fst items) vs) [])) st1).
Proof. intros H. cbn [step exec_stmt]. unfold evs. rewrite H. reflexivity. Qed.
