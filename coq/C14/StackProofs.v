(* C14: the pooled concrete stack (frames and framesets recycled through pools, cleared on reuse, slots found
   through the namesToOffsets map) refines the abstract list-of-scopes stack, for ALL operation sequences.
   A concrete frame represents a scope when its offset map is the one its slots determine (frame_ok); every
   operation takes represented inputs to represented outputs, level by level: frame, frame list, frameset, stack. *)
From Miller Require Import C14.Value C14.Stack.
Open Scope nat_scope.

Fixpoint mk_n2o (k : nat) (l : list cslot) : list (bytes * nat) :=
  match l with [] => [] | sl :: t => (c_name sl, k) :: mk_n2o (S k) t end.

Definition frame_ok (f : cframe) : Prop := n2o f = mk_n2o 0 (vars f).
Definition fset_ok (fs : cfset) : Prop := frames fs <> [] /\ Forall frame_ok (frames fs).
Definition pooled_ok (fs : cfset) : Prop := frames fs <> [].
Definition stack_ok (s : cstack) : Prop := Forall fset_ok (sets s) /\ Forall pooled_ok (spool s).

Definition rep_frame (f : cframe) (sc : scope) : Prop := frame_ok f /\ abs_frame f = sc.
Definition rep_frames (fl : list cframe) (fs : fset) : Prop := fl <> [] /\ Forall frame_ok fl /\ map abs_frame fl = fs.

(* partial operations: both sides fail, or both succeed with related results *)
Inductive orel {A B} (R : A -> B -> Prop) : option A -> option B -> Prop :=
| orel_some a b : R a b -> orel R (Some a) (Some b)
| orel_none : orel R None None.

Definition mkb (sl : cslot) : binding := {| b_ty := c_ty sl; b_val := c_val sl |}.
Definition abs_vars (l : list cslot) : scope := map (fun sl => (c_name sl, mkb sl)) l.
Definition with_val (sl : cslot) (v : value) : cslot := {| c_name := c_name sl; c_ty := c_ty sl; c_val := v |}.

(* ---- frame level.  What the offset map of a well-formed frame says about a name: the offset of its first slot, which
   is the binding the scope walk finds, and overwriting the value there is sreplace *)
Lemma lookup_vars x l : forall k,
  match olookup x (mk_n2o k l) with
  | Some j => exists i sl, j = k + i /\ nth_error l i = Some sl /\ sget x (abs_vars l) = Some (mkb sl) /\
      forall v, mk_n2o k (list_set i (with_val sl v) l) = mk_n2o k l /\
                abs_vars (list_set i (with_val sl v) l) = sreplace x (mkb (with_val sl v)) (abs_vars l)
  | None => sget x (abs_vars l) = None
  end.
Proof.
  induction l as [|s0 l IH]; intros k; cbn; [reflexivity|]. destruct (beqb x (c_name s0)).
  - exists 0, s0. rewrite Nat.add_0_r. repeat split; reflexivity.
  - specialize (IH (S k)). destruct (olookup x (mk_n2o (S k) l)) as [j|]; [|exact IH].
    destruct IH as (i & sl & -> & Hn & Hg & Hu). exists (S i), sl. rewrite Nat.add_succ_r.
    repeat split; auto; cbn; f_equal; apply Hu.
Qed.

Lemma slot_lookup x f : frame_ok f ->
  match olookup x (n2o f) with
  | Some i => exists sl, nth_error (vars f) i = Some sl /\ sget x (abs_frame f) = Some (mkb sl) /\
      forall v, rep_frame {| vars := list_set i (with_val sl v) (vars f); n2o := n2o f |}
                          (sreplace x (mkb (with_val sl v)) (abs_frame f))
  | None => sget x (abs_frame f) = None
  end.
Proof.
  unfold frame_ok. intros Hok. rewrite Hok. pose proof (lookup_vars x (vars f) 0) as H.
  destruct (olookup x (mk_n2o 0 (vars f))) as [j|]; [|exact H].
  destruct H as (i & sl & -> & Hn & Hg & Hu). exists sl. repeat split; auto; [symmetry|]; apply Hu.
Qed.

Lemma cf_get_abs x f : frame_ok f -> option_map mkb (cf_get x f) = sget x (abs_frame f).
Proof.
  intros Hok. unfold cf_get. pose proof (slot_lookup x f Hok) as H.
  destruct (olookup x (n2o f)); [destruct H as (sl & -> & -> & _); reflexivity|now rewrite H].
Qed.

Lemma cf_has_abs x f : frame_ok f ->
  cf_has x f = match sget x (abs_frame f) with Some _ => true | None => false end.
Proof.
  intros Hok. unfold cf_has. pose proof (slot_lookup x f Hok) as H.
  destruct (olookup x (n2o f)); [destruct H as (sl & _ & -> & _); reflexivity|now rewrite H].
Qed.

Lemma mk_n2o_app l : forall k sl, mk_n2o k (l ++ [sl]) = mk_n2o k l ++ [(c_name sl, k + List.length l)].
Proof.
  induction l as [|s0 l IH]; intros k sl; cbn; [now rewrite Nat.add_0_r|].
  now rewrite IH, Nat.add_succ_r.
Qed.

Lemma cf_append_rep sl f : frame_ok f -> rep_frame (cf_append sl f) (abs_frame f ++ [(c_name sl, mkb sl)]).
Proof.
  unfold rep_frame, frame_ok, cf_append, abs_frame. cbn. intros ->. now rewrite mk_n2o_app, map_app.
Qed.

Lemma cf_define_abs x t v f : frame_ok f -> orel rep_frame (cf_define x t v f) (sc_define x t v (abs_frame f)).
Proof.
  intros Hok. unfold cf_define, sc_define. pose proof (slot_lookup x f Hok) as H.
  destruct (olookup x (n2o f)); [destruct H as (sl & _ & -> & _); constructor|].
  rewrite H. destruct (gate t v); constructor. now apply (cf_append_rep {| c_name := x; c_ty := t; c_val := v |}).
Qed.

Lemma cf_set_abs x v f : frame_ok f -> orel rep_frame (cf_set x v f) (sc_set x v (abs_frame f)).
Proof.
  intros Hok. unfold cf_set, sc_set. pose proof (slot_lookup x f Hok) as H. destruct (olookup x (n2o f)).
  - destruct H as (sl & -> & -> & Hu). cbn [mkb b_ty]. destruct (gate (c_ty sl) v); constructor. apply Hu.
  - rewrite H. constructor. now apply (cf_append_rep {| c_name := x; c_ty := TAny; c_val := v |}).
Qed.

Definition sc_poke (x : bytes) (v : value) (sc : scope) : scope :=
  match sget x sc with
  | Some b => sreplace x {| b_ty := b_ty b; b_val := v |} sc
  | None => sc
  end.

Lemma cf_poke_abs x v f : frame_ok f -> rep_frame (cf_poke x v f) (sc_poke x v (abs_frame f)).
Proof.
  intros Hok. unfold cf_poke, sc_poke. pose proof (slot_lookup x f Hok) as H. destruct (olookup x (n2o f)).
  - destruct H as (sl & -> & -> & Hu). apply Hu.
  - rewrite H. now split.
Qed.

(* ---- frame lists *)
Lemma cfl_get_abs x fl : Forall frame_ok fl -> cfl_get x fl = fs_get x (map abs_frame fl).
Proof.
  induction 1 as [|f fl Hf _ IH]; cbn; [reflexivity|].
  rewrite <- (cf_get_abs x f Hf). destruct (cf_get x f); cbn; auto.
Qed.

Lemma rep_frames_cons f sc fl fs : rep_frame f sc -> Forall frame_ok fl -> map abs_frame fl = fs -> rep_frames (f :: fl) (sc :: fs).
Proof. intros [Hk <-] Hfl <-. split; [discriminate|]. split; [constructor; auto|reflexivity]. Qed.

Lemma cfl_set_existing_abs x v fl : Forall frame_ok fl ->
  orel (orel rep_frames) (cfl_set_existing x v fl) (fs_set_existing x v (map abs_frame fl)).
Proof.
  induction 1 as [|f fl Hf Hfl IH]; cbn; [constructor|].
  rewrite (cf_has_abs x f Hf). destruct (sget x (abs_frame f)).
  - constructor. destruct (cf_set_abs x v f Hf) as [f' sc' Hr|]; constructor. now apply rep_frames_cons.
  - destruct IH as [? ? [fl' fs' (_ & Hk & Ha)|]|]; [do 2 constructor; now apply rep_frames_cons|do 2 constructor|constructor].
Qed.

Lemma cfl_poke_abs x v fl : Forall frame_ok fl -> orel rep_frames (cfl_poke x v fl) (fs_poke x v (map abs_frame fl)).
Proof.
  induction 1 as [|f fl Hf Hfl IH]; cbn; [constructor|].
  rewrite (cf_has_abs x f Hf). pose proof (cf_poke_abs x v f Hf) as Hp. unfold sc_poke in Hp.
  destruct (sget x (abs_frame f)).
  - constructor. now apply rep_frames_cons.
  - destruct IH as [fl' fs' (_ & Hk & Ha)|]; constructor. now apply rep_frames_cons.
Qed.

(* ---- frameset level *)
Lemma cf_clear_ok f : frame_ok (cf_clear f).
Proof. reflexivity. Qed.

Lemma cfs_push_ok fs : fset_ok fs -> fset_ok (cfs_push fs) /\ abs_fset (cfs_push fs) = [] :: abs_fset fs.
Proof.
  intros [Hne Hall]. unfold cfs_push, abs_fset.
  destruct (fpool fs); cbn; (split; [split; [discriminate|constructor; [reflexivity|auto]]|reflexivity]).
Qed.

Lemma cfs_pop_ok fs : fset_ok fs ->
  fset_ok (cfs_pop fs) /\ abs_fset (cfs_pop fs) = match abs_fset fs with _ :: ((_ :: _) as r) => r | other => other end.
Proof.
  intros [Hne Hall]. unfold cfs_pop, abs_fset, fset_ok.
  destruct (frames fs) as [|f [|g r]] eqn:E; cbn; rewrite ?E; [contradiction|now repeat split|].
  split; [split; [discriminate|now inversion Hall]|reflexivity].
Qed.

Lemma cfs_pop_pooled fs : pooled_ok fs -> pooled_ok (cfs_pop fs).
Proof.
  unfold pooled_ok, cfs_pop. destruct (frames fs) as [|f [|g r]] eqn:E; cbn; rewrite ?E; auto. discriminate.
Qed.

Lemma cfs_pop_all_len n : forall fs, pooled_ok fs -> List.length (frames fs) <= S n ->
  exists f, frames (cfs_pop_all n fs) = [f].
Proof.
  induction n as [|n IH]; intros fs Hp Hl; cbn.
  - unfold pooled_ok in Hp. destruct (frames fs) as [|f [|g r]]; cbn in *; [contradiction|eauto|lia].
  - apply IH; [now apply cfs_pop_pooled|].
    unfold cfs_pop. destruct (frames fs) as [|f [|g r]] eqn:E; cbn in *; rewrite ?E; cbn; lia.
Qed.

Lemma cfs_reset_ok fs : pooled_ok fs -> fset_ok (cfs_reset fs) /\ abs_fset (cfs_reset fs) = [ [] ].
Proof.
  intros Hp. unfold cfs_reset.
  destruct (cfs_pop_all_len (List.length (frames fs)) fs Hp) as [f Hf]; [lia|].
  rewrite Hf. unfold abs_fset, fset_ok; cbn. split; [split; [discriminate|repeat constructor]|reflexivity].
Qed.

(* ---- stack level *)
Definition rep_stack (s : cstack) (a : astack) : Prop := stack_ok s /\ abs_stack s = a.

Lemma cur_ok fs r sp : stack_ok {| sets := fs :: r; spool := sp |} -> fset_ok fs.
Proof. intros [Hs _]. now inversion Hs. Qed.

Lemma cur_replace fs' fs r sp :
  stack_ok {| sets := fs :: r; spool := sp |} -> fset_ok fs' -> stack_ok {| sets := fs' :: r; spool := sp |}.
Proof. intros [Hs Hp] Hk. inversion Hs; subst. split; [constructor|]; assumption. Qed.

Lemma cur_frames fl fs r sp : stack_ok {| sets := fs :: r; spool := sp |} -> rep_frames fl (map abs_frame fl) ->
  stack_ok {| sets := {| frames := fl; fpool := fpool fs |} :: r; spool := sp |}.
Proof. intros Hok (Hn & Hk & _). apply (cur_replace _ _ _ _ Hok). now split. Qed.

Lemma top_refines (g : cframe -> option cframe) (h : scope -> option scope) s :
  (forall f, frame_ok f -> orel rep_frame (g f) (h (abs_frame f))) -> stack_ok s ->
  orel rep_stack (c_top g s) (a_top h (abs_stack s)).
Proof.
  intros Hg Hok. destruct s as [[|fs r] sp]; [constructor|]. destruct (cur_ok _ _ _ Hok) as [Hne Hall].
  unfold c_top, abs_stack, abs_fset. cbn [sets spool map]. destruct (frames fs) as [|f fl] eqn:Ef; [contradiction|].
  inversion Hall as [|? ? Hf Hfl]; subst. cbn [map a_top].
  destruct (Hg f Hf) as [f' sc' [Hk <-]|]; constructor. split; [|reflexivity].
  apply (cur_replace _ _ _ _ Hok). split; [discriminate|now constructor].
Qed.

(* ---- the simulation: one step *)
Lemma step_refines s o : stack_ok s ->
  stack_ok (fst (c_step s o)) /\ a_step (abs_stack s) o = (abs_stack (fst (c_step s o)), snd (c_step s o)).
Proof.
  intros Hok. destruct o; cbn [c_step a_step].
  - (* push frame *)
    destruct s as [[|fs r] sp]; [now split|]. destruct (cfs_push_ok fs (cur_ok _ _ _ Hok)) as [Hk Ha].
    split; [exact (cur_replace _ _ _ _ Hok Hk)|]. cbn. now rewrite Ha.
  - (* pop frame *)
    destruct s as [[|fs r] sp]; [now split|]. destruct (cfs_pop_ok fs (cur_ok _ _ _ Hok)) as [Hk Ha].
    split; [exact (cur_replace _ _ _ _ Hok Hk)|]. cbn. rewrite Ha. now destruct (abs_fset fs) as [|a [|b c]].
  - (* push set *)
    destruct Hok as [Hs Hp]. unfold c_push_set, abs_stack. destruct (spool s) as [|fs p] eqn:E.
    + split; [split; [constructor; [split; [discriminate|repeat constructor]|auto]|constructor]|reflexivity].
    + inversion Hp; subst. destruct (cfs_reset_ok fs H1) as [Hk Ha].
      split; [split; [constructor; auto|auto]|]. cbn [sets map fst snd]. unfold a_push_set. now rewrite Ha.
  - (* pop set *)
    pose proof Hok as [Hs Hp]. unfold c_pop_set, abs_stack.
    destruct (sets s) as [|fs [|g r]] eqn:E; cbn; rewrite ?E; [now split..|].
    inversion Hs; subst. split; [split; [auto|constructor; [apply H1|auto]]|reflexivity].
  - (* define *)
    unfold c_define, a_define. now destruct (top_refines _ _ s (cf_define_abs x t v) Hok) as [s' a' [Hk <-]|].
  - (* set *)
    destruct s as [[|fs r] sp]; [now split|]. destruct (cur_ok _ _ _ Hok) as [Hne Hall].
    pose proof (top_refines _ _ _ (cf_set_abs x v) Hok) as Ht.
    unfold c_set, a_set, c_set_at_scope, a_set_at_scope. cbn [sets spool abs_stack map] in *. unfold abs_fset at 1.
    destruct (cfl_set_existing_abs x v (frames fs) Hall) as [? ? [fl' fs' Hr|]|].
    + pose proof Hr as (_ & _ & <-). split; [exact (cur_frames _ _ _ _ Hok Hr)|reflexivity].
    + now split.
    + now destruct Ht as [s' a' [Hk <-]|].
  - (* set at scope *)
    unfold c_set_at_scope, a_set_at_scope. now destruct (top_refines _ _ s (cf_set_abs x v) Hok) as [s' a' [Hk <-]|].
  - (* unset *)
    destruct s as [[|fs r] sp]; [now split|]. destruct (cur_ok _ _ _ Hok) as [Hne Hall].
    unfold c_unset, a_unset. cbn [sets spool abs_stack map]. unfold abs_fset at 1.
    destruct (cfl_poke_abs x VAbsent (frames fs) Hall) as [fl' fs' Hr|]; [|now split].
    pose proof Hr as (_ & _ & <-). split; [exact (cur_frames _ _ _ _ Hok Hr)|reflexivity].
  - (* get *)
    split; [exact Hok|]. destruct s as [[|fs r] sp]; [reflexivity|]. destruct (cur_ok _ _ _ Hok) as [_ Hall].
    unfold c_get, a_get, abs_stack, abs_fset. cbn. now rewrite (cfl_get_abs x _ Hall).
Qed.

Lemma run_refines ops : forall s, stack_ok s ->
  snd (c_run s ops) = snd (a_run (abs_stack s) ops)
  /\ abs_stack (fst (c_run s ops)) = fst (a_run (abs_stack s) ops)
  /\ stack_ok (fst (c_run s ops)).
Proof.
  induction ops as [|o ops IH]; intros s Hok; cbn; [auto|].
  destruct (step_refines s o Hok) as [Hok' Ha]. rewrite Ha.
  destruct (c_step s o) as [s' ob]. cbn [fst snd] in *. destruct (IH s' Hok') as (H1 & H2 & H3).
  destruct (c_run s' ops) as [s'' obs]. destruct (a_run (abs_stack s') ops) as [t'' obs']. cbn in *.
  subst. auto.
Qed.

Lemma c_new_ok : stack_ok c_new.
Proof. split; repeat constructor. discriminate. Qed.

Lemma pooled_stack_refines_abstract ops :
  snd (c_run c_new ops) = snd (a_run a_new ops) /\ abs_stack (fst (c_run c_new ops)) = fst (a_run a_new ops).
Proof. destruct (run_refines ops c_new c_new_ok) as (H1 & H2 & _). exact (conj H1 H2). Qed.

(* ---- scoping laws of the abstract stack (the one the interpreter runs on) *)
(* a variable declared inside a block is gone when the block exits and never touches outer frames *)
Lemma define_in_block_is_local x t v sc fs r s' :
  a_define x t v (a_push_frame ((sc :: fs) :: r)) = Some s' -> a_pop_frame s' = (sc :: fs) :: r.
Proof.
  unfold a_define, sc_define. cbn. destruct (gate t v); [|discriminate]. intros H; inversion H; subst. reflexivity.
Qed.

(* an inner declaration shadows: reads inside the block see the inner value, whatever the outer frames hold *)
Lemma inner_define_shadows x t v s s' :
  a_define x t v (a_push_frame s) = Some s' -> a_get x s' = Some v.
Proof.
  unfold a_define, sc_define. destruct s as [|fs r]; cbn; [discriminate|]. destruct (gate t v); [|discriminate].
  intros [= <-]. cbn. now destruct (beqb_spec x x).
Qed.

(* the type gate: a successful declaration or assignment stores a value accepted by the declared type *)
Lemma define_respects_gate x t v s s' : a_define x t v s = Some s' -> gate t v = true.
Proof.
  unfold a_define, a_top, sc_define. destruct s as [|[|sc fs] r]; try discriminate.
  destruct (sget x sc); [discriminate|]. destruct (gate t v); [reflexivity|discriminate].
Qed.

(* a name that has a declared type is found by the scope walk, and the walk's assignment goes through that type's gate *)
Lemma fs_set_existing_gate x v t fs : fs_type x fs = Some t ->
  match fs_set_existing x v fs with Some (Some _) => gate t v = true | Some None => True | None => False end.
Proof.
  induction fs as [|sc fs IH]; cbn; [discriminate|]. unfold sc_set. destruct (sget x sc) as [b|].
  - intros [= <-]. now destruct (gate (b_ty b) v).
  - intros Ht. specialize (IH Ht). now destruct (fs_set_existing x v fs) as [[?|]|].
Qed.

(* an untyped assignment to a variable declared with a type anywhere in the enclosing scopes passes that type's gate *)
Lemma set_respects_gate x v fs r s' t :
  a_set x v (fs :: r) = Some s' -> fs_type x fs = Some t -> gate t v = true.
Proof.
  unfold a_set. intros H Ht. pose proof (fs_set_existing_gate x v t fs Ht) as G.
  destruct (fs_set_existing x v fs) as [[?|]|]; [exact G|discriminate|contradiction].
Qed.

(* undeclared assignment updates the nearest enclosing binding: after the block exits the outer variable has the new value *)
Lemma set_in_block_updates_outer x v b sc fs r s' :
  sget x sc = Some b -> gate (b_ty b) v = true ->
  a_set x v (a_push_frame ((sc :: fs) :: r)) = Some s' ->
  a_pop_frame s' = (sreplace x {| b_ty := b_ty b; b_val := v |} sc :: fs) :: r.
Proof.
  intros Hs Hg. unfold a_set. cbn. unfold sc_set. rewrite Hs, Hg. intros H; inversion H; subst. reflexivity.
Qed.

(* a new frameset hides every caller variable, and popping it restores the caller's stack exactly *)
Lemma push_set_hides x s : a_get x (a_push_set s) = None.
Proof. reflexivity. Qed.

Lemma pop_push_set s : s <> [] -> a_pop_set (a_push_set s) = s.
Proof. destruct s; [contradiction|reflexivity]. Qed.
