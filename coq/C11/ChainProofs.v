(* C11 -- then-chains of selecting verbs select (closure by induction on the chain), at the three strengths of
   "selects": membership, sub-multiset, subsequence. *)
From Miller Require Import Base.Record C11.Model C11.Proofs.
From Coq Require Import Permutation.
Open Scope Z_scope.

Definition verb := list record -> list record.
(* every output record is an input record *)
Definition selects (f : verb) : Prop := forall l, incl (f l) l.
(* ... and no record comes out more often than it went in *)
Definition selects_submultiset (f : verb) : Prop := forall l, exists rest, Permutation l (f l ++ rest).
(* ... and the input order is kept *)
Definition selects_in_order (f : verb) : Prop := forall l, sublist (f l) l.

(* mlr v1 then v2 then ... : each verb reads the previous verb's output *)
Definition chain (vs : list verb) : verb := fun l => fold_left (fun acc f => f acc) vs l.

Lemma in_order_submultiset (f : verb) : selects_in_order f -> selects_submultiset f.
Proof. intros H l. apply sublist_submultiset, H. Qed.
Lemma submultiset_selects (f : verb) : selects_submultiset f -> selects f.
Proof. intros H l. apply submultiset_incl, H. Qed.

Lemma chain_closed (R : list record -> list record -> Prop) vs :
  (forall l, R l l) -> (forall a b c, R a b -> R b c -> R a c) ->
  Forall (fun f : verb => forall l, R (f l) l) vs -> forall l, R (chain vs l) l.
Proof.
  intros Hr Ht. unfold chain. induction 1 as [|f vs Hf Hvs IH]; intros l; cbn [fold_left]; [apply Hr|].
  eapply Ht; [apply IH|apply Hf].
Qed.
Lemma chain_app vs ws l : chain (vs ++ ws) l = chain ws (chain vs l).
Proof. unfold chain. apply fold_left_app. Qed.

(* filter as a verb: the verdict history is fixed; a failing run prints nothing *)
Definition filter_verb (isf inv : bool) (vs : list verdict) : verb :=
  fun l => match filter_run isf inv vs l with Some o => o | None => [] end.

(* the text grep matches: the record rendered with "=" and "," whatever the I/O separators are *)
Lemma grep_text_example :
  dkvp_string [(B "a", B "1"); (B "b", B "x;y")] = B "a=1,b=x;y" /\ nidx_string [(B "a", B "1"); (B "b", B "x;y")] = B "1,x;y".
Proof. split; reflexivity. Qed.
