(* C11 -- lemmas about the verb models of Model.v.  Everything is by induction over the whole input stream: no size bound. *)
From Miller Require Import Base.Record C11.Model.
From Coq Require Import Permutation.
From Miller Require Import Base.RecordFacts.
Open Scope Z_scope.

Inductive sublist {A} : list A -> list A -> Prop :=
| sl_nil : sublist [] []
| sl_skip x a b : sublist a b -> sublist a (x :: b)
| sl_take x a b : sublist a b -> sublist (x :: a) (x :: b).
#[export] Hint Constructors sublist : core.

Lemma sublist_refl {A} (l : list A) : sublist l l.
Proof. induction l; auto. Qed.
Lemma sublist_nil {A} (l : list A) : sublist [] l.
Proof. induction l; auto. Qed.
Lemma sublist_incl {A} (a b : list A) : sublist a b -> incl a b.
Proof.
  induction 1 as [|x a b H IH|x a b H IH]; intros y Hy; cbn in *; auto.
  destruct Hy as [->|Hy]; auto.
Qed.
Lemma sublist_length {A} (a b : list A) : sublist a b -> (List.length a <= List.length b)%nat.
Proof. induction 1; cbn; lia. Qed.
Lemma sublist_filter {A} (f : A -> bool) l : sublist (filter f l) l.
Proof. induction l as [|x l IH]; cbn; auto. destruct (f x); auto. Qed.
Lemma sublist_app {A} (a b c d : list A) : sublist a b -> sublist c d -> sublist (a ++ c) (b ++ d).
Proof. induction 1; cbn; auto. Qed.
Lemma sublist_firstn {A} n (l : list A) : sublist (firstn n l) l.
Proof. revert l; induction n; intros [|x l]; cbn; auto using sublist_nil. Qed.
Lemma sublist_skipn {A} n (l : list A) : sublist (skipn n l) l.
Proof. revert l; induction n; intros [|x l]; cbn; auto using sublist_refl. Qed.

Lemma sublist_trans {A} (b c : list A) : sublist b c -> forall a, sublist a b -> sublist a c.
Proof.
  induction 1 as [|x b c H IH|x b c H IH]; intros a Ha; [assumption|auto|].
  inversion Ha; subst; auto.
Qed.
Lemma sublist_flat_map {A B} (f h : A -> list B) ks : (forall g, sublist (f g) (h g)) -> sublist (flat_map f ks) (flat_map h ks).
Proof. intros H. induction ks as [|k ks IH]; cbn; [constructor|]. apply sublist_app; auto. Qed.

Definition submultiset {A} (a b : list A) : Prop := exists rest, Permutation b (a ++ rest).

Lemma submultiset_trans {A} (a b c : list A) : submultiset a b -> submultiset b c -> submultiset a c.
Proof. intros [r1 H1] [r2 H2]. exists (r1 ++ r2). rewrite H2, H1. now rewrite app_assoc. Qed.
Lemma submultiset_app {A} (a b c d : list A) : submultiset a b -> submultiset c d -> submultiset (a ++ c) (b ++ d).
Proof.
  intros [r1 H1] [r2 H2]. exists (r1 ++ r2). rewrite H1, H2, <- !app_assoc. apply Permutation_app_head.
  rewrite !app_assoc. apply Permutation_app_tail, Permutation_app_comm.
Qed.
Lemma submultiset_flat_map {A B} (f h : A -> list B) ks :
  (forall g, submultiset (f g) (h g)) -> submultiset (flat_map f ks) (flat_map h ks).
Proof. intros H. induction ks as [|k ks IH]; cbn; [now exists []|]. now apply submultiset_app. Qed.
Lemma Permutation_submultiset {A} (a b : list A) : Permutation a b -> submultiset a b.
Proof. intros H. exists []. rewrite app_nil_r. now symmetry. Qed.
Lemma sublist_submultiset {A} (a b : list A) : sublist a b -> submultiset a b.
Proof.
  induction 1 as [|x a b H [rest IH]|x a b H [rest IH]].
  - exists []. constructor.
  - exists (x :: rest). now apply Permutation_cons_app.
  - exists rest. cbn. now constructor.
Qed.
Lemma submultiset_incl {A} (a b : list A) : submultiset a b -> incl a b.
Proof. intros [rest H] x Hx. apply (Permutation_in _ (Permutation_sym H)), in_or_app. auto. Qed.

Lemma filter_filter_imp {A} (f g : A -> bool) l :
  (forall x, f x = true -> g x = true) -> filter f (filter g l) = filter f l.
Proof.
  intros H. induction l as [|x l IH]; cbn; [reflexivity|].
  destruct (g x) eqn:Eg; cbn.
  - destruct (f x); rewrite IH; reflexivity.
  - destruct (f x) eqn:Ef; [apply H in Ef; congruence|exact IH].
Qed.
Section AssocFacts.
  Context {A : Type}.
  Implicit Types m : list (bytes * A).
  Lemma alookup_aput_same k (v : A) m : alookup k (aput k v m) = Some v.
  Proof.
    induction m as [|[k' v'] m IH]; cbn; [now rewrite beqb_refl|].
    destruct (beqb k k') eqn:E; cbn; rewrite E; auto.
  Qed.
  Lemma alookup_aput_other k k' (v : A) m : k <> k' -> alookup k' (aput k v m) = alookup k' m.
  Proof.
    intros Hne. induction m as [|[k2 v2] m IH]; cbn.
    - destruct (beqb_spec k' k); [congruence|reflexivity].
    - destruct (beqb_spec k k2) as [->|Hk]; cbn.
      + destruct (beqb_spec k' k2); [congruence|reflexivity].
      + destruct (beqb k' k2); auto.
  Qed.
  Definition akeys m : list bytes := map fst m.
  Lemma akeys_aput k (v : A) m : akeys (aput k v m) = if mem k (akeys m) then akeys m else akeys m ++ [k].
  Proof.
    induction m as [|[k' v'] m IH]; cbn; [reflexivity|].
    destruct (beqb k k') eqn:E; cbn; [reflexivity|].
    unfold akeys in *. rewrite IH. unfold mem. destruct (existsb (beqb k) (map fst m)); reflexivity.
  Qed.
  Lemma alookup_notin k m : ~ In k (akeys m) -> alookup k m = None.
  Proof.
    induction m as [|[k' v'] m IH]; cbn; [reflexivity|]. intros H.
    destruct (beqb_spec k k') as [->|Hne]; [tauto|]. apply IH. tauto.
  Qed.

  (* lookup with a default; [cnt] is [aget 0] and [bucket] is [aget []] *)
  Definition aget (d : A) (g : bytes) m : A := match alookup g m with Some a => a | None => d end.
  Lemma aget_aput_same d g v m : aget d g (aput g v m) = v.
  Proof. unfold aget. now rewrite alookup_aput_same. Qed.
  Lemma aget_aput_other d g g' v m : g <> g' -> aget d g' (aput g v m) = aget d g' m.
  Proof. intros H. unfold aget. now rewrite alookup_aput_other. Qed.

  Lemma assoc_by_keys d m : NoDup (akeys m) -> m = map (fun g => (g, aget d g m)) (akeys m).
  Proof.
    induction m as [|[k v] m IH]; cbn; intros Hnd; [reflexivity|].
    inversion Hnd as [|? ? Hni Hnd']; subst. unfold aget at 1. cbn. rewrite beqb_refl. f_equal.
    rewrite IH at 1 by assumption. apply map_ext_in. intros g Hg. unfold aget. cbn.
    destruct (beqb_spec g k); [subst; tauto|reflexivity].
  Qed.

  (* the keys of the ordered map m once a stream whose distinct keys are ks has been put into it *)
  Definition keys_after m (ks : list bytes) : list bytes := akeys m ++ filter (fun g => negb (mem g (akeys m))) ks.
  Lemma keys_after_nil m : keys_after m [] = akeys m.
  Proof. apply app_nil_r. Qed.
  Lemma keys_after_empty ks : keys_after [] ks = ks.
  Proof. apply (filter_all_true (fun _ => true)). reflexivity. Qed.
  (* one more record, of group g0, in front of that stream *)
  Lemma keys_after_aput g0 (v : A) m ks :
    keys_after (aput g0 v m) ks = keys_after m (g0 :: filter (fun x => negb (beqb x g0)) ks).
  Proof.
    unfold keys_after. rewrite akeys_aput. cbn [filter]. destruct (mem g0 (akeys m)) eqn:Em; cbn [negb].
    - f_equal. symmetry. apply filter_filter_imp. intros x Hx. rewrite negb_true_iff in *.
      destruct (beqb_spec x g0); [subst; congruence|reflexivity].
    - rewrite <- app_assoc. cbn [app]. f_equal. f_equal.
      rewrite filter_filter. apply filter_ext. intros x.
      rewrite mem_app. cbn. rewrite orb_false_r, negb_orb. apply andb_comm.
  Qed.
End AssocFacts.

Lemma cnt_aput_same g v m : cnt g (aput g v m) = v.
Proof. exact (aget_aput_same 0 g v m). Qed.
Lemma cnt_aput_other g g' v m : g <> g' -> cnt g' (aput g v m) = cnt g' m.
Proof. exact (aget_aput_other 0 g g' v m). Qed.
Lemma bucket_aput_same g v m : bucket g (aput g v m) = v.
Proof. exact (aget_aput_same [] g v m). Qed.
Lemma bucket_aput_other g g' v m : g <> g' -> bucket g' (aput g v m) = bucket g' m.
Proof. exact (aget_aput_other [] g g' v m). Qed.

Section Groups.
  Variable keyf : record -> option bytes.

  Lemma group_of_cons r g t :
    group_of keyf g (r :: t) = if okey_eqb (keyf r) g then r :: group_of keyf g t else group_of keyf g t.
  Proof. reflexivity. Qed.
  Lemma group_of_app g a b : group_of keyf g (a ++ b) = group_of keyf g a ++ group_of keyf g b.
  Proof. apply filter_app. Qed.
  Lemma group_of_all g l : (forall r, In r l -> keyf r = Some g) -> group_of keyf g l = l.
  Proof. intros H. apply filter_all_true. intros r Hr. rewrite (H r Hr). cbn. apply beqb_refl. Qed.
  Lemma group_of_none g g' l : g' <> g -> (forall r, In r l -> keyf r = Some g') -> group_of keyf g l = [].
  Proof.
    intros Hne H. apply filter_none. intros r Hr. rewrite (H r Hr). cbn.
    destruct (beqb_spec g' g); congruence.
  Qed.
  Lemma group_of_In g l r : In r (group_of keyf g l) <-> In r l /\ keyf r = Some g.
  Proof.
    unfold group_of. rewrite filter_In. destruct (keyf r) as [x|]; cbn; [|intuition discriminate].
    destruct (beqb_spec x g); intuition congruence.
  Qed.

  Lemma group_of_flat_family (B : bytes -> list record) g gs :
    NoDup gs -> (forall h r, In r (B h) -> keyf r = Some h) ->
    group_of keyf g (flat_map B gs) = if mem g gs then B g else [].
  Proof.
    intros Hnd HB. induction Hnd as [|h gs Hni Hnd IH]; [reflexivity|].
    cbn [flat_map]. rewrite group_of_app, IH. cbn [mem existsb]. fold (mem g gs).
    destruct (beqb_spec g h) as [->|Hne]; cbn [orb].
    - rewrite (group_of_all h (B h) (HB h)). destruct (mem h gs) eqn:Em; [apply mem_In in Em; tauto|apply app_nil_r].
    - rewrite (group_of_none g h (B h)); [reflexivity|congruence|apply HB].
  Qed.

  Lemma dkeys_NoDup l : NoDup (dkeys keyf l).
  Proof.
    induction l as [|r t IH]; cbn; [constructor|].
    destruct (keyf r) as [g|]; [|exact IH].
    constructor; [|now apply NoDup_filter].
    rewrite filter_In. intros [_ H]. now rewrite beqb_refl in H.
  Qed.
  Lemma dkeys_complete g l : ~ In g (dkeys keyf l) -> group_of keyf g l = [].
  Proof.
    induction l as [|r t IH]; cbn [dkeys]; [reflexivity|]. rewrite group_of_cons.
    destruct (keyf r) as [g1|]; cbn [okey_eqb]; [|exact IH]. intros H. cbn in H.
    destruct (beqb_spec g1 g) as [->|Hne]; [tauto|]. apply IH. intros Hin. apply H. right.
    rewrite filter_In. split; [exact Hin|]. rewrite negb_true_iff. apply beqb_false. congruence.
  Qed.
  Lemma dkeys_group g l : In g (dkeys keyf l) -> group_of keyf g l <> [].
  Proof.
    induction l as [|r t IH]; cbn [dkeys]; [intros []|]. rewrite group_of_cons.
    destruct (keyf r) as [g1|]; cbn [okey_eqb]; [|exact IH]. destruct (beqb_spec g1 g) as [->|Hne]; [discriminate|].
    intros [->|H]; [congruence|]. apply IH. now apply filter_In in H.
  Qed.

  Lemma flat_map_pull (f : bytes -> list record) g0 ks :
    NoDup ks -> (~ In g0 ks -> f g0 = []) ->
    Permutation (flat_map f ks) (f g0 ++ flat_map f (filter (fun x => negb (beqb x g0)) ks)).
  Proof.
    induction 1 as [|x ks Hni Hnd IH]; intros Hz.
    - cbn. rewrite Hz; auto.
    - cbn [flat_map filter]. destruct (beqb_spec x g0) as [->|Hne]; cbn [negb].
      + rewrite filter_all_true; [reflexivity|]. intros y Hy. rewrite negb_true_iff. apply beqb_false. congruence.
      + cbn [flat_map]. rewrite IH by (intros H; apply Hz; cbn; tauto).
        rewrite !app_assoc. apply Permutation_app_tail. apply Permutation_app_comm.
  Qed.

  Lemma groups_permutation l :
    Permutation (flat_map (fun g => group_of keyf g l) (dkeys keyf l)) (filter (has_key keyf) l).
  Proof.
    induction l as [|r t IH]; [constructor|].
    cbn [dkeys filter]. unfold has_key at 1. destruct (keyf r) as [g0|] eqn:E.
    - cbn [flat_map]. rewrite group_of_cons, E. cbn [okey_eqb]. rewrite beqb_refl, <- app_comm_cons. apply perm_skip.
      rewrite (flat_map_ext_in _ (fun g => group_of keyf g t)).
      + rewrite <- IH. symmetry. apply (flat_map_pull (fun g => group_of keyf g t) g0); [apply dkeys_NoDup|apply dkeys_complete].
      + intros g Hg. apply filter_In in Hg. destruct Hg as [_ Hg]. rewrite negb_true_iff, beqb_sym in Hg.
        rewrite group_of_cons, E. cbn [okey_eqb]. now rewrite Hg.
    - rewrite (flat_map_ext_in _ (fun g => group_of keyf g t)); [exact IH|].
      intros g _. now rewrite group_of_cons, E.
  Qed.
End Groups.

(* The keyed streaming verbs keep one state per group in an ordered map and hand every record to the machine of its
   group: [step s r] = (records emitted, next state).  [grun] is such a verb, [srun] one machine running alone. *)
Section Grouped.
  Context {S : Type}.
  Variable keyf : record -> option bytes.
  Variable s0 : S.
  Variable step : S -> record -> list record * S.

  Fixpoint grun (m : list (bytes * S)) (l : list record) : list record :=
    match l with
    | [] => []
    | r :: t => match keyf r with
                | None => grun m t
                | Some g => let '(e, s) := step (aget s0 g m) r in e ++ grun (aput g s m) t
                end
    end.
  Fixpoint srun (s : S) (xs : list record) : list record :=
    match xs with
    | [] => []
    | x :: t => let '(e, s') := step s x in e ++ srun s' t
    end.

  (* a machine passes on only what it was given: [held s] are the records that state [s] still holds *)
  Variable held : S -> list record.
  Hypothesis step_held : forall s r e s', step s r = (e, s') -> incl (e ++ held s') (held s ++ [r]).

  Definition own (m : list (bytes * S)) : Prop := forall g x, In x (held (aget s0 g m)) -> keyf x = Some g.

  Lemma own_step m g r e s : own m -> keyf r = Some g -> step (aget s0 g m) r = (e, s) ->
    (forall x, In x e -> keyf x = Some g) /\ own (aput g s m).
  Proof.
    intros Ho E Es.
    assert (H : forall x, In x (e ++ held s) -> keyf x = Some g).
    { intros x Hx. apply (step_held _ _ _ _ Es), in_app_or in Hx. destruct Hx as [Hx|[<-|[]]]; [exact (Ho g x Hx)|exact E]. }
    split; [intros x Hx; apply H, in_or_app; auto|].
    intros g' x. destruct (beqb_spec g g') as [<-|Hne].
    - rewrite aget_aput_same. intros Hx. apply H, in_or_app; auto.
    - rewrite aget_aput_other by assumption. apply Ho.
  Qed.

  Lemma grun_group g l : forall m, own m -> group_of keyf g (grun m l) = srun (aget s0 g m) (group_of keyf g l).
  Proof.
    induction l as [|r t IH]; intros m Ho; cbn [grun]; [reflexivity|]. rewrite (group_of_cons _ r).
    destruct (keyf r) as [g0|] eqn:E; cbn [okey_eqb]; [|auto].
    destruct (step (aget s0 g0 m) r) as [e s] eqn:Es. destruct (own_step _ _ _ _ _ Ho E Es) as [He Ho'].
    rewrite group_of_app, (IH _ Ho'). destruct (beqb_spec g0 g) as [->|Hne].
    - rewrite (group_of_all _ _ _ He), aget_aput_same. cbn [srun]. now rewrite Es.
    - now rewrite (group_of_none _ _ _ _ Hne He), aget_aput_other.
  Qed.
  Lemma grun_has_key l : forall m, own m -> forall x, In x (grun m l) -> has_key keyf x = true.
  Proof.
    induction l as [|r t IH]; intros m Ho x; cbn [grun]; [intros []|].
    destruct (keyf r) as [g0|] eqn:E; [|now apply IH].
    destruct (step (aget s0 g0 m) r) as [e s] eqn:Es. destruct (own_step _ _ _ _ _ Ho E Es) as [He Ho'].
    intros Hx. apply in_app_or in Hx. destruct Hx as [Hx|Hx]; [unfold has_key; now rewrite (He x Hx)|eapply IH; eauto].
  Qed.
End Grouped.

(* machines that hold nothing: a step passes its record on or drops it *)
Section Passing.
  Context {S : Type}.
  Variable keyf : record -> option bytes.
  Variable s0 : S.
  Variable step : S -> record -> list record * S.
  Hypothesis step_passes : forall s r, sublist (fst (step s r)) [r].

  Lemma passing_sublist l : forall m, sublist (grun keyf s0 step m l) l.
  Proof.
    induction l as [|r t IH]; intros m; cbn [grun]; [constructor|].
    destruct (keyf r) as [g|]; [|auto]. pose proof (step_passes (aget s0 g m) r) as Hs.
    destruct (step (aget s0 g m) r) as [e s]. apply (sublist_app e [r]); auto.
  Qed.
  Lemma passing_held s r e s' : step s r = (e, s') -> incl (e ++ []) ([] ++ [r]).
  Proof. intros E. rewrite app_nil_r. apply sublist_incl. specialize (step_passes s r). now rewrite E in step_passes. Qed.
  Lemma passing_has_key m l r : In r (grun keyf s0 step m l) -> has_key keyf r = true.
  Proof. apply (grun_has_key keyf s0 step (fun _ => []) passing_held). intros g x []. Qed.
  Lemma passing_group g m l : group_of keyf g (grun keyf s0 step m l) = srun step (aget s0 g m) (group_of keyf g l).
  Proof. apply (grun_group keyf s0 step (fun _ => []) passing_held). intros g' x []. Qed.
End Passing.

Lemma incl_by_groups keyf out l : (forall r, In r out -> has_key keyf r = true) ->
  (forall g, incl (group_of keyf g out) (group_of keyf g l)) -> incl out l.
Proof.
  intros Hk Hg r Hr. specialize (Hk r Hr). unfold has_key in Hk. destruct (keyf r) as [g|] eqn:E; [|discriminate].
  apply (group_of_In keyf g), Hg, group_of_In; auto.
Qed.

(* Counting selectors (head -g, tail -n +k, decimate): the state is the number of records of the group seen before;
   [dec] of it decides whether the record passes. *)
Definition cstep (dec : Z -> bool) (c : Z) (r : record) : list record * Z := (if dec c then [r] else [], c + 1).

Fixpoint zseq (c : Z) (n : nat) : list Z := match n with O => [] | S n' => c :: zseq (c + 1) n' end.

Section Counting.
  Variable dec : Z -> bool.
  Variable keyf : record -> option bytes.

  Lemma cstep_passes c r : sublist (fst (cstep dec c r)) [r].
  Proof. cbn. destruct (dec c); auto. Qed.

  Lemma counting_sublist m l : sublist (grun keyf 0 (cstep dec) m l) l.
  Proof. apply passing_sublist, cstep_passes. Qed.
  Lemma counting_has_key m l r : In r (grun keyf 0 (cstep dec) m l) -> has_key keyf r = true.
  Proof. apply passing_has_key, cstep_passes. Qed.
  Lemma counting_group g m l :
    group_of keyf g (grun keyf 0 (cstep dec) m l) = srun (cstep dec) (cnt g m) (group_of keyf g l).
  Proof. apply (passing_group keyf 0 _ cstep_passes). Qed.

  Lemma counting_positions xs : forall c,
    srun (cstep dec) c xs = map snd (filter (fun p => dec (fst p)) (combine (zseq c (List.length xs)) xs)).
  Proof.
    induction xs as [|x t IH]; intros c; cbn; [reflexivity|].
    destruct (dec c); cbn; rewrite IH; reflexivity.
  Qed.
End Counting.

Lemma counting_threshold k xs : forall c,
  srun (cstep (fun c => c + 1 <=? k)) c xs = firstn (Z.to_nat (k - c)) xs
  /\ srun (cstep (fun c => c + 1 >? k)) c xs = skipn (Z.to_nat (k - c)) xs.
Proof.
  induction xs as [|x t IH]; intros c; cbn [srun cstep]; [now rewrite firstn_nil, skipn_nil|].
  destruct (IH (c + 1)) as [-> ->]. rewrite Z.gtb_ltb, Z.ltb_antisym. destruct (Z.leb_spec (c + 1) k).
  - replace (Z.to_nat (k - c)) with (S (Z.to_nat (k - (c + 1)))) by lia. split; reflexivity.
  - replace (Z.to_nat (k - c)) with O by lia. replace (Z.to_nat (k - (c + 1))) with O by lia. split; reflexivity.
Qed.
Definition counting_firstn k xs c := proj1 (counting_threshold k xs c).
Definition counting_skipn k xs c := proj2 (counting_threshold k xs c).

Lemma head_keyed_eq k fs l : forall m, head_keyed k fs m l = grun (grouping_key fs) 0 (cstep (fun c => c + 1 <=? k)) m l.
Proof.
  induction l as [|r t IH]; intros m; cbn [head_keyed grun cstep]; [reflexivity|].
  destruct (grouping_key fs r) as [g|]; [|apply IH].
  unfold aget. destruct (alookup g m) as [c|]; cbn zeta; rewrite ?Z.add_0_l, IH; destruct (_ <=? k); reflexivity.
Qed.
Lemma tail_from_eq s fs l : forall m, tail_from s fs m l = grun (grouping_key fs) 0 (cstep (fun c => c + 1 >? s)) m l.
Proof.
  induction l as [|r t IH]; intros m; cbn [tail_from grun cstep]; [reflexivity|].
  destruct (grouping_key fs r) as [g|]; [|apply IH]. cbn zeta. rewrite IH. fold (cnt g m). destruct (_ >? s); reflexivity.
Qed.
Lemma decimate_eq n rem fs l : forall m, decimate_run n rem fs m l = grun (grouping_key fs) 0 (cstep (fun c => c mod n =? rem)) m l.
Proof.
  induction l as [|r t IH]; intros m; cbn [decimate_run grun cstep]; [reflexivity|].
  destruct (grouping_key fs r) as [g|]; [|apply IH]. cbn zeta. rewrite IH. fold (cnt g m). destruct (_ =? rem); reflexivity.
Qed.

Lemma grouping_key_nil r : grouping_key [] r = Some [].
Proof. reflexivity. Qed.
Lemma group_of_nil_key l : group_of (grouping_key []) [] l = l.
Proof. apply group_of_all. reflexivity. Qed.

Lemma head_unkeyed_eq k l : forall c, head_unkeyed k c l = srun (cstep (fun c => c + 1 <=? k)) c l.
Proof.
  induction l as [|r t IH]; intros c; cbn [head_unkeyed srun cstep]; [reflexivity|].
  cbn zeta. rewrite IH. destruct (c + 1 <=? k); reflexivity.
Qed.

Lemma head_nonneg k g l : 0 <= k ->
  head k g l = match g with None => head_unkeyed k 0 l | Some fs => head_keyed k fs [] l end.
Proof. intros Hk. unfold head. destruct (Z.ltb_spec k 0); [lia|reflexivity]. Qed.
Lemma head_negative k g l : 0 < k -> head (- k) g l = head_abl k (match g with Some fs => fs | None => [] end) [] l.
Proof. intros Hk. unfold head. destruct (Z.ltb_spec (- k) 0); [now rewrite Z.opp_involutive|lia]. Qed.

Lemma head_first_k k l : 0 <= k -> head k None l = firstn (Z.to_nat k) l.
Proof. intros Hk. now rewrite head_nonneg, head_unkeyed_eq, counting_firstn, Z.sub_0_r. Qed.

Lemma tail_plus_eq n fs l : tail n true fs l = grun (grouping_key fs) 0 (cstep (fun c => c + 1 >? Z.max (n - 1) 0)) [] l.
Proof. apply tail_from_eq. Qed.
Lemma tail_plus_group n fs g l :
  group_of (grouping_key fs) g (tail n true fs l) = skipn (Z.to_nat (Z.max (n - 1) 0)) (group_of (grouping_key fs) g l).
Proof. now rewrite tail_plus_eq, counting_group, counting_skipn, Z.sub_0_r. Qed.

Lemma tail_plus_ungrouped n l : tail n true [] l = skipn (Z.to_nat (Z.max (n - 1) 0)) l.
Proof. rewrite <- (group_of_nil_key (tail n true [] l)), tail_plus_group. now rewrite group_of_nil_key. Qed.

Lemma head_tail_split k l : 0 <= k -> head k None l ++ tail (k + 1) true [] l = l.
Proof.
  intros Hk. rewrite head_first_k by lia. rewrite tail_plus_ungrouped.
  replace (Z.max (k + 1 - 1) 0) with k by lia. apply firstn_skipn.
Qed.
Lemma head_tail_count k l : 0 <= k ->
  (List.length (head k None l) + List.length (tail (k + 1) true [] l) = List.length l)%nat.
Proof. intros Hk. rewrite <- app_length. now rewrite head_tail_split. Qed.

Lemma assoc_by_dkeys {A} (d : A) m keyf l : akeys m = dkeys keyf l -> m = map (fun g => (g, aget d g m)) (dkeys keyf l).
Proof. intros E. rewrite <- E. apply assoc_by_keys. rewrite E. apply dkeys_NoDup. Qed.
Lemma emit_buckets_dkeys m keyf l : akeys m = dkeys keyf l -> emit_buckets m = flat_map (fun g => bucket g m) (dkeys keyf l).
Proof.
  intros E. unfold emit_buckets. rewrite (assoc_by_dkeys [] m keyf l E) at 1.
  rewrite map_map. symmetry. apply flat_map_concat_map.
Qed.

Section Bucketize.
  Variable upd : list record -> record -> list record.
  Variable keyf : record -> option bytes.

  Lemma bucketize_bucket g l : forall m,
    bucket g (bucketize upd keyf m l) = fold_left upd (group_of keyf g l) (bucket g m).
  Proof.
    induction l as [|r t IH]; intros m; cbn [bucketize]; [reflexivity|]. rewrite group_of_cons.
    destruct (keyf r) as [g0|]; cbn [okey_eqb]; [|apply IH].
    rewrite IH. destruct (beqb_spec g0 g) as [->|Hne]; [now rewrite bucket_aput_same|now rewrite bucket_aput_other].
  Qed.

  Lemma bucketize_keys l : forall m, akeys (bucketize upd keyf m l) = keys_after m (dkeys keyf l).
  Proof.
    induction l as [|r t IH]; intros m; cbn [bucketize dkeys]; [now rewrite keys_after_nil|].
    destruct (keyf r) as [g0|]; [|apply IH]. rewrite IH. apply keys_after_aput.
  Qed.

  Lemma bucketize_emit l :
    emit_buckets (bucketize upd keyf [] l) = flat_map (fun g => fold_left upd (group_of keyf g l) []) (dkeys keyf l).
  Proof.
    rewrite (emit_buckets_dkeys _ keyf l) by (rewrite bucketize_keys; apply keys_after_empty).
    apply flat_map_ext_in. intros g _. now rewrite bucketize_bucket.
  Qed.
End Bucketize.

Lemma fold_left_snoc (xs w : list record) : fold_left (fun w r => w ++ [r]) xs w = w ++ xs.
Proof.
  revert w; induction xs as [|x t IH]; intros w; cbn; [now rewrite app_nil_r|].
  rewrite IH. now rewrite <- app_assoc.
Qed.

Lemma bucketize_snoc keyf l :
  emit_buckets (bucketize (fun w r => w ++ [r]) keyf [] l) = flat_map (fun g => group_of keyf g l) (dkeys keyf l).
Proof. rewrite bucketize_emit. apply flat_map_ext_in. intros g _. apply fold_left_snoc. Qed.
Lemma group_by_spec fs l :
  group_by fs l = flat_map (fun g => group_of (grouping_key fs) g l) (dkeys (grouping_key fs) l).
Proof. apply bucketize_snoc. Qed.
Lemma group_like_spec l :
  group_like l = flat_map (fun g => group_of keys_key g l) (dkeys keys_key l).
Proof. apply bucketize_snoc. Qed.
Lemma group_by_permutation fs l : Permutation (group_by fs l) (filter (has_key (grouping_key fs)) l).
Proof. rewrite group_by_spec. apply groups_permutation. Qed.
Lemma group_by_submultiset fs l : submultiset (group_by fs l) l.
Proof.
  eapply submultiset_trans; [apply Permutation_submultiset, group_by_permutation|apply sublist_submultiset, sublist_filter].
Qed.
Lemma group_like_permutation l : Permutation (group_like l) l.
Proof.
  rewrite group_like_spec. rewrite groups_permutation. rewrite filter_all_true; [reflexivity|]. reflexivity.
Qed.
Lemma length_flat_map {A B} (f : A -> list B) l :
  List.length (flat_map f l) = fold_right (fun x acc => (List.length (f x) + acc)%nat) O l.
Proof. induction l as [|x l IH]; cbn; [reflexivity|]. now rewrite app_length, IH. Qed.
Lemma group_of_sizes_sum keyf l :
  fold_right (fun g acc => (List.length (group_of keyf g l) + acc)%nat) O (dkeys keyf l) = List.length (filter (has_key keyf) l).
Proof.
  rewrite <- (length_flat_map (fun g => group_of keyf g l)).
  apply Permutation_length. apply groups_permutation.
Qed.
Lemma group_sizes_sum fs l :
  fold_right (fun g acc => (List.length (group_of (grouping_key fs) g l) + acc)%nat) O (dkeys (grouping_key fs) l)
  = List.length (filter (has_key (grouping_key fs)) l).
Proof. apply group_of_sizes_sum. Qed.

Definition lastn (k : nat) (xs : list record) : list record := skipn (List.length xs - k) xs.

Lemma drain_spec fuel : forall k w, 0 <= k -> (List.length w <= fuel)%nat ->
  drain fuel k w = (firstn (List.length w - Z.to_nat k) w, skipn (List.length w - Z.to_nat k) w).
Proof.
  induction fuel as [|f IH]; intros k w Hk Hf.
  - destruct w; [reflexivity|cbn in Hf; lia].
  - cbn [drain]. rewrite Z.gtb_ltb. destruct (Z.ltb_spec k (Z.of_nat (List.length w))) as [Hlt|Hge].
    + destruct w as [|x w']; [cbn in Hlt; lia|].
      cbn [List.length] in *. rewrite IH by lia.
      replace (S (List.length w') - Z.to_nat k)%nat with (S (List.length w' - Z.to_nat k)) by lia. reflexivity.
    + replace (List.length w - Z.to_nat k)%nat with O by lia. reflexivity.
Qed.

Lemma push_drain_spec k w r : 0 <= k ->
  push_drain k w r = (firstn (List.length (w ++ [r]) - Z.to_nat k) (w ++ [r]), lastn (Z.to_nat k) (w ++ [r])).
Proof. intros Hk. unfold push_drain. cbn zeta. rewrite drain_spec by lia. reflexivity. Qed.

Lemma app_lastn (a b : list record) k : List.length b = Nat.min k (List.length (a ++ b)) ->
  a = firstn (List.length (a ++ b) - k) (a ++ b) /\ b = lastn k (a ++ b).
Proof.
  intros H. unfold lastn. rewrite app_length in *. replace (_ - k)%nat with (List.length a) by lia.
  rewrite firstn_app, skipn_app, Nat.sub_diag, firstn_all, skipn_all. cbn. now rewrite app_nil_r.
Qed.

(* one window fed the records xs: what it lets go (head -n -k emits that) followed by what it ends with (tail -n k emits
   that at the end of the stream) is everything it saw, and it ends as full as it can be *)
Lemma window_run k xs : 0 <= k -> forall w, (List.length w <= Z.to_nat k)%nat ->
  srun (push_drain k) w xs = firstn (List.length (w ++ xs) - Z.to_nat k) (w ++ xs)
  /\ fold_left (fun w r => snd (push_drain k w r)) xs w = lastn (Z.to_nat k) (w ++ xs).
Proof.
  intros Hk. set (f := fun w r => snd (push_drain k w r)).
  assert (H : forall w, (List.length w <= Z.to_nat k)%nat ->
                srun (push_drain k) w xs ++ fold_left f xs w = w ++ xs
                /\ List.length (fold_left f xs w) = Nat.min (Z.to_nat k) (List.length (w ++ xs))).
  { induction xs as [|x t IH]; intros w Hw; cbn [fold_left srun].
    - rewrite app_nil_r. split; [reflexivity|lia].
    - change (f w x) with (snd (push_drain k w x)). rewrite push_drain_spec by assumption. cbn [snd]. unfold lastn.
      set (d := (List.length (w ++ [x]) - Z.to_nat k)%nat).
      destruct (IH (skipn d (w ++ [x]))) as [E L]; [rewrite skipn_length; lia|]. split.
      + rewrite <- app_assoc, E, app_assoc, firstn_skipn. now rewrite <- app_assoc.
      + rewrite L. rewrite !app_length, skipn_length. unfold d. rewrite app_length. cbn. lia. }
  intros w Hw. destruct (H w Hw) as [E L]. rewrite <- E in L |- *. now apply app_lastn.
Qed.

Lemma tail_lastn_spec k fs l : 0 <= k ->
  tail_lastn k fs l = flat_map (fun g => lastn (Z.to_nat k) (group_of (grouping_key fs) g l)) (dkeys (grouping_key fs) l).
Proof.
  intros Hk. unfold tail_lastn. rewrite bucketize_emit. apply flat_map_ext_in. intros g _.
  apply (window_run k _ Hk []). cbn. lia.
Qed.

Lemma tail_spec n fs l :
  tail n false fs l = flat_map (fun g => lastn (Z.abs_nat n) (group_of (grouping_key fs) g l)) (dkeys (grouping_key fs) l).
Proof.
  unfold tail. rewrite tail_lastn_spec by lia. now rewrite Zabs2Nat.abs_nat_spec.
Qed.

Lemma dkeys_nil_key l : l <> [] -> dkeys (grouping_key []) l = [[]].
Proof.
  induction l as [|r t IH]; [congruence|]. intros _. cbn [dkeys]. rewrite grouping_key_nil.
  destruct t as [|r' t']; [reflexivity|]. rewrite IH by congruence. reflexivity.
Qed.
Lemma tail_ungrouped n l : tail n false [] l = lastn (Z.abs_nat n) l.
Proof.
  rewrite tail_spec. destruct l as [|r t]; [reflexivity|].
  rewrite dkeys_nil_key by congruence. cbn [flat_map]. now rewrite group_of_nil_key, app_nil_r.
Qed.

Lemma lastn_rev k l : lastn k l = rev (firstn k (rev l)).
Proof.
  unfold lastn. rewrite firstn_rev, rev_involutive. reflexivity.
Qed.
Lemma tail_mirrors_head k l : 0 <= k -> tail k false [] l = tac (head k None (tac l)).
Proof.
  intros Hk. rewrite tail_ungrouped, head_first_k by assumption. unfold tac.
  rewrite lastn_rev. now rewrite Zabs2Nat.abs_nat_nonneg.
Qed.

Lemma filter_run_sublist isf inv vs l : forall o, filter_run isf inv vs l = Some o -> sublist o l.
Proof.
  revert vs. induction l as [|r t IH]; intros vs o.
  - destruct vs; cbn; intros H; injection H as <-; constructor.
  - destruct vs as [|v vt]; cbn [filter_run]; [discriminate|].
    destruct (match v with VTrue => Some true | VFalse => Some false | VAbsent => if isf then Some false else Some true
                          | VOther => if isf then None else Some true end) as [b|]; [|discriminate].
    destruct (filter_run isf inv vt t) as [rest|] eqn:E; [|discriminate].
    specialize (IH vt rest E). destruct (xorb b inv); intros H; injection H as <-; auto.
Qed.

Definition bool_or_absent (v : verdict) : bool := match v with VOther => false | _ => true end.

(* for every evaluation history made of booleans and absents (one verdict per record), filter never fails and
   filter / filter -x split the input: each record goes to exactly one side, order kept on both *)
Inductive split3 {A} : list A -> list A -> list A -> Prop :=
| sp_nil : split3 [] [] []
| sp_left x l a b : split3 l a b -> split3 (x :: l) (x :: a) b
| sp_right x l a b : split3 l a b -> split3 (x :: l) a (x :: b).

Lemma split3_perm {A} (l a b : list A) : split3 l a b -> Permutation (a ++ b) l.
Proof.
  induction 1; cbn; auto. symmetry. apply Permutation_cons_app. now symmetry.
Qed.
Lemma split3_sublists {A} (l a b : list A) : split3 l a b -> sublist a l /\ sublist b l.
Proof. induction 1 as [|x l a b H [IH1 IH2]|x l a b H [IH1 IH2]]; auto. Qed.

Lemma filter_split3 {A} (p : A -> bool) l : split3 l (filter p l) (filter (fun x => negb (p x)) l).
Proof. induction l as [|x l IH]; cbn; [constructor|]. destruct (p x); cbn; now constructor. Qed.

Lemma filter_partition vs l :
  List.length vs = List.length l -> forallb bool_or_absent vs = true ->
  exists a b, filter_run true false vs l = Some a /\ filter_run true true vs l = Some b /\ split3 l a b.
Proof.
  revert vs. induction l as [|r t IH]; intros vs Hlen Hv.
  - exists [], []. destruct vs; cbn; repeat split; constructor.
  - destruct vs as [|v vt]; [discriminate|]. cbn in Hlen, Hv. apply andb_true_iff in Hv. destruct Hv as [Hv1 Hv2].
    destruct (IH vt ltac:(lia) Hv2) as (a & b & Ha & Hb & Hs).
    cbn [filter_run]. rewrite Ha, Hb.
    destruct v; cbn in *; try discriminate;
      [exists (r :: a), b|exists a, (r :: b)|exists a, (r :: b)]; repeat split; constructor; assumption.
Qed.

Lemma tac_involutive l : tac (tac l) = l.
Proof. unfold tac. apply rev_involutive. Qed.
Lemma tac_permutation l : Permutation (tac l) l.
Proof. unfold tac. symmetry. apply Permutation_rev. Qed.

Lemma uniq_a_run_sublist l : forall seen, sublist (uniq_a_run seen l) l.
Proof.
  induction l as [|r t IH]; intros seen; cbn [uniq_a_run]; [constructor|].
  destruct (existsb (record_eqb r) seen); auto.
Qed.
Lemma existsb_record_In r l : existsb (record_eqb r) l = true <-> In r l.
Proof.
  rewrite existsb_exists. split.
  - intros (x & Hx & E). destruct (record_eqb_spec r x); [subst; auto|discriminate].
  - intros H. exists r. split; [auto|]. destruct (record_eqb_spec r r); congruence.
Qed.
Lemma uniq_a_run_spec l : forall seen,
  NoDup (uniq_a_run seen l)
  /\ (forall r, In r (uniq_a_run seen l) <-> In r l /\ ~ In r seen).
Proof.
  induction l as [|r t IH]; intros seen; cbn [uniq_a_run].
  - split; [constructor|]. cbn. tauto.
  - destruct (existsb (record_eqb r) seen) eqn:E.
    + apply existsb_record_In in E. destruct (IH seen) as [Hnd Hin]. split; [assumption|].
      intros x. rewrite Hin. cbn. intuition congruence.
    + assert (Hr : ~ In r seen) by (rewrite <- existsb_record_In; congruence).
      destruct (IH (r :: seen)) as [Hnd Hin]. split.
      * constructor; [|assumption]. rewrite Hin. cbn. tauto.
      * intros x. cbn. rewrite Hin. cbn. destruct (record_eqb_spec r x); intuition congruence.
Qed.

Lemma uniq_a_sublist l : sublist (uniq_a l) l.
Proof. apply uniq_a_run_sublist. Qed.
Lemma head_nonneg_sublist k g l : 0 <= k -> sublist (head k g l) l.
Proof.
  intros Hk. destruct g as [fs|]; [|rewrite head_first_k by assumption; apply sublist_firstn].
  rewrite head_nonneg, head_keyed_eq by assumption. apply counting_sublist.
Qed.

Lemma tail_plus_sublist n fs l : sublist (tail n true fs l) l.
Proof. rewrite tail_plus_eq. apply counting_sublist. Qed.
Lemma decimate_sublist n b e fs l : sublist (decimate n b e fs l) l.
Proof. unfold decimate. rewrite decimate_eq. apply counting_sublist. Qed.

Lemma Permutation_incl {A} (a b : list A) : Permutation a b -> incl a b.
Proof. intros H x Hx. eapply Permutation_in; eauto. Qed.

Lemma tail_lastn_submultiset n fs l : submultiset (tail n false fs l) l.
Proof.
  apply (submultiset_trans _ (group_by fs l)); [|apply group_by_submultiset].
  rewrite tail_spec, group_by_spec. apply sublist_submultiset, sublist_flat_map. intros g. apply sublist_skipn.
Qed.

Lemma at_least_walk_spec names num ks : forall found, found < num ->
  at_least_walk names num found ks = (num - found <=? Z.of_nat (List.length (filter (fun k => mem k names) ks))).
Proof.
  induction ks as [|k t IH]; intros found Hf; cbn [at_least_walk filter]; [symmetry; apply Z.leb_gt; cbn; lia|].
  destruct (mem k names); [|now apply IH]. cbn [List.length].
  destruct (Z.eqb_spec (found + 1) num); [symmetry; apply Z.leb_le; lia|]. rewrite IH by lia.
  destruct (Z.leb_spec (num - (found + 1)) (Z.of_nat (List.length (filter (fun k => mem k names) t)))),
           (Z.leb_spec (num - found) (Z.of_nat (S (List.length (filter (fun k => mem k names) t))))); lia.
Qed.

Lemma cat_n_ungrouped_spec name l : forall c,
  cat_n_ungrouped name c l = map (fun p => prepend name (dec_of_Z (fst p)) (snd p)) (combine (zseq (c + 1) (List.length l)) l).
Proof.
  induction l as [|r t IH]; intros c; cbn; [reflexivity|]. now rewrite IH.
Qed.

Definition unprepended (name : bytes) (l : list record) : Prop := forall r, In r l -> has name r = false.

(* numbering of one group: its records carry (count before + 1), (count before + 2), ... *)
Fixpoint number_from (name : bytes) (c : Z) (xs : list record) : list record :=
  match xs with [] => [] | x :: t => ((name, dec_of_Z (c + 1)) :: x) :: number_from name (c + 1) t end.

Lemma prepend_fresh name v r : has name r = false -> prepend name v r = (name, v) :: r.
Proof. intros H. unfold prepend. now rewrite H. Qed.

Lemma grouping_key_cons_fresh fs name v r : mem name fs = false -> grouping_key fs ((name, v) :: r) = grouping_key fs r.
Proof.
  intros Hm. unfold grouping_key. replace (selected_values fs ((name, v) :: r)) with (selected_values fs r); [reflexivity|].
  induction fs as [|f t IH]; cbn [selected_values]; [reflexivity|].
  cbn in Hm. apply orb_false_iff in Hm. destruct Hm as [Hf Ht]. cbn [get]. rewrite beqb_sym in Hf. rewrite Hf.
  destruct (get f r); [|reflexivity]. now rewrite IH.
Qed.

Lemma cat_n_grouped_group name fs g l : mem name fs = false -> unprepended name l -> forall c m,
  group_of (grouping_key fs) g (cat_n_grouped name fs c m l) = number_from name (cnt g m) (group_of (grouping_key fs) g l).
Proof.
  intros Hm. induction l as [|r t IH]; intros Hu c m; cbn [cat_n_grouped]; [reflexivity|].
  assert (Hr : has name r = false) by (apply Hu; cbn; auto).
  assert (Hu' : unprepended name t) by (intros x Hx; apply Hu; cbn; auto).
  (* the counter field in front does not change the group of the record *)
  rewrite (group_of_cons _ r).
  destruct (grouping_key fs r) as [g0|] eqn:E;
    rewrite prepend_fresh, group_of_cons, grouping_key_cons_fresh, E, IH by assumption; cbn [okey_eqb]; [|reflexivity].
  destruct (beqb_spec g0 g) as [->|Hne]; [|now rewrite cnt_aput_other].
  cbn [number_from]. rewrite cnt_aput_same. unfold cnt. destruct (alookup g m); rewrite ?Z.add_0_l; reflexivity.
Qed.

Definition comma_free (v : bytes) : Prop := ~ In ","%char v.

Lemma join_comma_cons x t : t <> [] -> join_comma (x :: t) = x ++ ","%char :: join_comma t.
Proof. destruct t; [congruence|reflexivity]. Qed.

Lemma app_sep_inj c (x y a b : bytes) : ~ In c x -> ~ In c y -> x ++ c :: a = y ++ c :: b -> x = y /\ a = b.
Proof.
  revert y. induction x as [|d x IH]; intros [|e y] Hx Hy H; cbn in H.
  - injection H as ->. auto.
  - injection H as <- _. exfalso. apply Hy. cbn. auto.
  - injection H as -> _. exfalso. apply Hx. cbn. auto.
  - injection H as <- H. destruct (IH y) as [-> ->]; auto.
    + intros Hin. apply Hx. cbn. auto.
    + intros Hin. apply Hy. cbn. auto.
Qed.

Lemma comma_free_sep x y z : comma_free x -> x <> y ++ ","%char :: z.
Proof. intros Hx ->. apply Hx, in_or_app. right. now left. Qed.
Lemma join_comma_no_comma x y : comma_free x -> x = y ++ ","%char :: join_comma [] -> False.
Proof. intros Hx. apply comma_free_sep, Hx. Qed.

(* the joined text determines the comma-free texts; only [] and [[]] are both joined to the empty text *)
Lemma join_comma_inj a : forall b, (a = [] <-> b = []) -> Forall comma_free a -> Forall comma_free b ->
  join_comma a = join_comma b -> a = b.
Proof.
  induction a as [|x a IH]; intros [|y b] [N1 N2] Ha Hb H; [reflexivity|discriminate (N1 eq_refl)|discriminate (N2 eq_refl)|].
  inversion Ha as [|? ? Hx Ha']; subst. inversion Hb as [|? ? Hy Hb']; subst.
  destruct a as [|x2 a]; destruct b as [|y2 b].
  - cbn in H. congruence.
  - destruct (comma_free_sep _ _ _ Hx H).
  - destruct (comma_free_sep _ _ _ Hy (eq_sym H)).
  - rewrite (join_comma_cons x (x2 :: a)), (join_comma_cons y (y2 :: b)) in H by congruence.
    destruct (app_sep_inj _ _ _ _ _ Hx Hy H) as [-> H2]. f_equal. apply IH; auto. split; discriminate.
Qed.

Lemma selected_values_Forall2 fs r : forall vs, selected_values fs r = Some vs ->
  Forall2 (fun f v => get f r = Some v) fs vs.
Proof.
  induction fs as [|f t IH]; intros vs; cbn [selected_values]; [intros E; injection E as <-; constructor|].
  destruct (get f r) as [w|] eqn:G; [|discriminate]. destruct (selected_values t r) as [vs'|]; [|discriminate].
  intros E. injection E as <-. constructor; auto.
Qed.
Lemma selected_values_In fs r : forall vs, selected_values fs r = Some vs ->
  forall v, In v vs -> exists k, In k fs /\ get k r = Some v.
Proof.
  intros vs H. apply selected_values_Forall2 in H. induction H as [|f w t vs' G _ IH]; intros v; [intros []|].
  intros [<-|Hv]; [exists f; cbn; auto|]. destruct (IH v Hv) as (k & Hk & Hg). exists k. cbn. auto.
Qed.
Lemma selected_values_length fs r vs : selected_values fs r = Some vs -> List.length vs = List.length fs.
Proof. intros H. apply selected_values_Forall2 in H. induction H; cbn; congruence. Qed.

Lemma set_nth_length {A} i (x : A) l : List.length (set_nth i x l) = List.length l.
Proof. revert i; induction l as [|y l IH]; intros [|i]; cbn; auto. Qed.

Lemma set_nth_perm {A} (l : list A) : forall i a x, nth_error l i = Some a ->
  Permutation (x :: l) (a :: set_nth i x l).
Proof.
  induction l as [|y l IH]; intros [|i] a x H; cbn in *; try discriminate.
  - injection H as ->. apply perm_swap.
  - etransitivity; [apply perm_swap|]. etransitivity; [apply perm_skip, (IH i a x H)|apply perm_swap].
Qed.
Lemma nth_error_set_nth_same {A} (l : list A) : forall i x, (i < List.length l)%nat -> nth_error (set_nth i x l) i = Some x.
Proof. induction l as [|y l IH]; intros [|i] x H; cbn in *; try lia; [reflexivity|]. apply IH. lia. Qed.
Lemma nth_error_set_nth_other {A} (l : list A) : forall i j x, i <> j -> nth_error (set_nth i x l) j = nth_error l j.
Proof. induction l as [|y l IH]; intros [|i] [|j] x H; cbn; try congruence; auto. Qed.

Lemma swap_nth_perm {A} i j (l : list A) : Permutation (swap_nth i j l) l.
Proof.
  unfold swap_nth. destruct (nth_error l i) as [a|] eqn:Ei; [|reflexivity].
  destruct (nth_error l j) as [b|] eqn:Ej; [|reflexivity].
  (* writing a at j takes b out, writing b at i then takes a out again *)
  assert (Ei' : nth_error (set_nth j a l) i = Some a).
  { destruct (Nat.eq_dec i j) as [->|Hne]; [apply nth_error_set_nth_same, nth_error_Some; congruence|].
    now rewrite nth_error_set_nth_other by auto. }
  symmetry. apply (Permutation_cons_inv (a := a)).
  etransitivity; [exact (set_nth_perm l j b a Ej)|exact (set_nth_perm _ i a b Ei')].
Qed.

Lemma shuffle_loop_perm steps : forall i us images, Permutation (shuffle_loop i steps us images) images.
Proof.
  induction steps as [|s IH]; intros i us images; cbn [shuffle_loop]; [destruct us; reflexivity|].
  destruct us as [|u us']; [reflexivity|]. rewrite IH. apply swap_nth_perm.
Qed.

Lemma pick_all_perm {A} (arr : list A) idx idx' : Permutation idx idx' -> Permutation (pick_all idx arr) (pick_all idx' arr).
Proof.
  induction 1 as [|x a b H IH|x y a|a b c H1 IH1 H2 IH2]; cbn [pick_all].
  - reflexivity.
  - destruct (nth_error arr x); [constructor|]; assumption.
  - destruct (nth_error arr x), (nth_error arr y); try reflexivity. apply perm_swap.
  - etransitivity; eauto.
Qed.
Lemma pick_all_seq {A} (arr : list A) : forall pre, pick_all (seq (List.length pre) (List.length arr)) (pre ++ arr) = arr.
Proof.
  induction arr as [|x arr IH]; intros pre; cbn [List.length seq pick_all]; [reflexivity|].
  rewrite nth_error_app2 by lia. rewrite Nat.sub_diag. cbn [nth_error]. f_equal.
  specialize (IH (pre ++ [x])). rewrite app_length in IH. cbn in IH. rewrite Nat.add_1_r in IH.
  rewrite <- app_assoc in IH. exact IH.
Qed.

Lemma shuffle_permutation us l : Permutation (shuffle us l) l.
Proof.
  unfold shuffle. rewrite (pick_all_perm l _ _ (shuffle_loop_perm _ _ _ _)).
  pose proof (pick_all_seq l []) as H. cbn in H. now rewrite H.
Qed.

Lemma pick_all_incl {A} (arr : list A) idx : incl (pick_all idx arr) arr.
Proof.
  induction idx as [|i t IH]; cbn [pick_all]; [intros x []|].
  destruct (nth_error arr i) eqn:E; [|exact IH]. intros x [<-|H]; [eapply nth_error_In; eauto|auto].
Qed.
Lemma pick_all_length {A} (arr : list A) idx : Forall (fun i => (i < List.length arr)%nat) idx ->
  List.length (pick_all idx arr) = List.length idx.
Proof.
  induction 1 as [|i t Hi Ht IH]; cbn [pick_all]; [reflexivity|].
  destruct (nth_error arr i) eqn:E; [cbn; now rewrite IH|]. apply nth_error_None in E. lia.
Qed.
Lemma bootstrap_incl nout us l : incl (bootstrap nout us l) l.
Proof. apply pick_all_incl. Qed.
