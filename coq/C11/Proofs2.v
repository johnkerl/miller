(* C11 -- head -n -k (all but the last k of each group), the one-statement "selects only" summary, and obliviousness of the models to the context (NR). *)
From Miller Require Import Base.Record C11.Model C11.Proofs.
From Coq Require Import Permutation.
Open Scope Z_scope.

Lemma head_abl_eq k fs l : forall m, head_abl k fs m l = grun (grouping_key fs) [] (push_drain k) m l.
Proof.
  induction l as [|r t IH]; intros m; cbn [head_abl grun]; [reflexivity|].
  destruct (grouping_key fs r) as [g|]; [|apply IH].
  change (aget [] g m) with (bucket g m). destruct (push_drain k (bucket g m) r) as [e w]. now rewrite IH.
Qed.

Lemma push_drain_held k : 0 <= k -> forall w r e w', push_drain k w r = (e, w') -> incl (e ++ w') (w ++ [r]).
Proof.
  intros Hk w r e w' H. rewrite push_drain_spec in H by assumption. injection H as <- <-.
  unfold lastn. rewrite firstn_skipn. apply incl_refl.
Qed.

Lemma head_abl_spec k fs l : 0 <= k ->
  incl (head_abl k fs [] l) l
  /\ (forall r, In r (head_abl k fs [] l) -> has_key (grouping_key fs) r = true)
  /\ (forall x, let xs := group_of (grouping_key fs) x l in
                group_of (grouping_key fs) x (head_abl k fs [] l) = firstn (List.length xs - Z.to_nat k) xs).
Proof.
  intros Hk. cbn zeta. rewrite head_abl_eq.
  assert (Ho : own (grouping_key fs) [] (fun w => w) []) by (intros x r []).
  assert (Hh := grun_has_key _ _ _ (fun w => w) (push_drain_held k Hk) l [] Ho).
  assert (Hg : forall x, group_of (grouping_key fs) x (grun (grouping_key fs) [] (push_drain k) [] l)
                         = firstn (List.length (group_of (grouping_key fs) x l) - Z.to_nat k) (group_of (grouping_key fs) x l)).
  { intros x. rewrite (grun_group _ _ _ (fun w => w) (push_drain_held k Hk) x l [] Ho).
    apply (window_run k _ Hk []). cbn. lia. }
  split; [|split; assumption].
  apply (incl_by_groups _ _ _ Hh). intros x. rewrite Hg. apply sublist_incl, sublist_firstn.
Qed.

Lemma has_key_nil r : has_key (grouping_key []) r = true.
Proof. reflexivity. Qed.

Lemma head_negative_ungrouped k l : 0 < k -> head (- k) None l = firstn (List.length l - Z.to_nat k) l.
Proof.
  intros Hk. rewrite head_negative by assumption.
  destruct (head_abl_spec k [] l ltac:(lia)) as (_ & _ & Hg). specialize (Hg []). cbn zeta in Hg.
  now rewrite !group_of_nil_key in Hg.
Qed.

Lemma selects_only l :
  (forall n g, incl (head n g l) l)
  /\ (forall n plus fs, incl (tail n plus fs l) l)
  /\ (forall n b e fs, incl (decimate n b e fs l) l)
  /\ (forall isf inv vs o, filter_run isf inv vs l = Some o -> incl o l)
  /\ (forall mt i v, incl (grep mt i v l) l)
  /\ (forall mode names mt, incl (having_fields mode names mt l) l)
  /\ incl (tac l) l
  /\ (forall fs, incl (group_by fs l) l)
  /\ incl (group_like l) l
  /\ incl (uniq_a l) l
  /\ incl (skip_trivial l) l
  /\ incl (nothing l) l
  /\ (forall us, incl (shuffle us l) l)
  /\ (forall n us, incl (bootstrap n us l) l).
Proof.
  repeat split.
  - intros n g. destruct (Z.ltb_spec n 0).
    + rewrite <- (Z.opp_involutive n), head_negative by lia. apply head_abl_spec. lia.
    + apply sublist_incl. now apply head_nonneg_sublist.
  - intros n [|] fs; [apply sublist_incl, tail_plus_sublist|apply submultiset_incl, tail_lastn_submultiset].
  - intros. apply sublist_incl, decimate_sublist.
  - intros. eapply sublist_incl, filter_run_sublist; eauto.
  - intros. apply sublist_incl, sublist_filter.
  - intros. apply sublist_incl, sublist_filter.
  - apply Permutation_incl, tac_permutation.
  - intros fs r Hr. apply (Permutation_in _ (group_by_permutation fs l)) in Hr. apply filter_In in Hr. tauto.
  - apply Permutation_incl, group_like_permutation.
  - apply sublist_incl, uniq_a_sublist.
  - apply sublist_incl, sublist_filter.
  - intros x [].
  - intros. apply Permutation_incl, shuffle_permutation.
  - intros. apply bootstrap_incl.
Qed.

Definition oblivious {A} (f : cstream -> A) : Prop := forall s s', map fst s = map fst s' -> f s = f s'.
Lemma on_records_oblivious {A} (v : list record -> A) : oblivious (on_records v).
Proof. intros s s' H. unfold on_records. now rewrite H. Qed.

Lemma tail_plus_is_not_by_nr :
  let s : cstream := [([(B "i", B "1")], (1, 1, [])); ([(B "i", B "3")], (3, 3, [])); ([(B "i", B "5")], (5, 5, []))] in
  on_records (tail 3 true []) s = [[(B "i", B "5")]]
  /\ tail_plus_by_nr 3 s = [[(B "i", B "3")]; [(B "i", B "5")]].
Proof. cbn zeta. split; reflexivity. Qed.
