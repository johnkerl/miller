(* Meaning of the boolean checkers of Checkers.v. *)
From Miller Require Import Base.Record C11.Model C11.Checkers C11.Proofs.
From Coq Require Import Permutation.
Open Scope Z_scope.

Lemma record_eqb_refl r : record_eqb r r = true.
Proof. destruct (record_eqb_spec r r); congruence. Qed.

Lemma remove1_perm r l : forall l', remove1 r l = Some l' -> Permutation l (r :: l').
Proof.
  induction l as [|x t IH]; intros l'; cbn [remove1]; [discriminate|].
  destruct (record_eqb_spec r x) as [->|Hne].
  - intros H; injection H as <-. reflexivity.
  - destruct (remove1 r t) as [t'|]; [|discriminate]. intros H; injection H as <-.
    etransitivity; [apply perm_skip, (IH t' eq_refl)|apply perm_swap].
Qed.
Lemma remove1_in r l : In r l -> exists l', remove1 r l = Some l'.
Proof.
  induction l as [|x t IH]; cbn [remove1 In]; [tauto|].
  destruct (record_eqb_spec r x) as [->|Hne]; [eauto|].
  intros [->|H]; [congruence|]. destruct (IH H) as (t' & ->). eauto.
Qed.

Lemma msub_sound a : forall b c, msub a b = Some c -> Permutation b (a ++ c).
Proof.
  induction a as [|x a IH]; intros b c; cbn [msub].
  - intros H; injection H as <-. reflexivity.
  - destruct (remove1 x b) as [b'|] eqn:E; [|discriminate]. intros H.
    rewrite (remove1_perm _ _ _ E). cbn. apply perm_skip. now apply IH.
Qed.
Lemma msub_complete a : forall b c, Permutation b (a ++ c) -> exists c', msub a b = Some c' /\ Permutation c c'.
Proof.
  induction a as [|x a IH]; intros b c H; cbn [msub].
  - exists b. split; [reflexivity|now symmetry].
  - assert (Hin : In x b) by (eapply Permutation_in; [symmetry; exact H|cbn; auto]).
    destruct (remove1_in _ _ Hin) as (b' & E). rewrite E.
    apply IH. apply (Permutation_cons_inv (a := x)). rewrite <- (remove1_perm _ _ _ E). exact H.
Qed.

Lemma perm_b_spec a b : perm_b a b = true <-> Permutation a b.
Proof.
  unfold perm_b. split.
  - destruct (msub a b) as [[|? ?]|] eqn:E; try discriminate. intros _.
    apply msub_sound in E. rewrite app_nil_r in E. now symmetry.
  - intros H. destruct (msub_complete a b []) as (c' & -> & Hc); [rewrite app_nil_r; now symmetry|].
    apply Permutation_nil in Hc. now subst.
Qed.

Lemma submset_b_spec a b : submset_b a b = true <-> submultiset a b.
Proof.
  unfold submset_b. split.
  - destruct (msub a b) as [c|] eqn:E; [|discriminate]. intros _. exists c. now apply msub_sound.
  - intros (rest & H). destruct (msub_complete a b rest H) as (c' & -> & _). reflexivity.
Qed.

Lemma memr_spec r l : memr r l = true <-> In r l.
Proof. apply existsb_record_In. Qed.

Lemma check_sample_spec k fs inp out : check_sample k fs inp out = true <->
  let keyf := grouping_key fs in
  submultiset out inp
  /\ (forall r, In r out -> has_key keyf r = true)
  /\ (forall g, In g (dkeys keyf inp) ->
        Z.of_nat (List.length (group_of keyf g out)) = Z.min k (Z.of_nat (List.length (group_of keyf g inp))))
  /\ out = flat_map (fun g => group_of keyf g out) (dkeys keyf inp).
Proof.
  unfold check_sample. cbn zeta. rewrite !andb_true_iff, submset_b_spec, !forallb_forall. setoid_rewrite Z.eqb_eq.
  destruct (records_eqb_spec (flat_map (fun g => group_of (grouping_key fs) g out) (dkeys (grouping_key fs) inp)) out);
    intuition congruence.
Qed.

Lemma shuffle_passes_checker us l : check_shuffle l (shuffle us l) = true.
Proof. apply perm_b_spec. symmetry. apply shuffle_permutation. Qed.
