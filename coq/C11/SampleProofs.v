(* C11 -- the reservoir model of `mlr sample` satisfies its checker for every sequence of draws:
   per group a without-replacement sample of min(k, group size) records, groups in first-appearance order. *)
From Miller Require Import Base.Record C11.Model C11.Checkers C11.Proofs C11.CheckerProofs.
From Coq Require Import Permutation.
From Miller Require Import Base.RecordFacts.
Open Scope Z_scope.

Lemma set_nth_none {A} (l : list A) : forall i x, nth_error l i = None -> set_nth i x l = l.
Proof. induction l as [|y l IH]; intros [|i] x H; cbn in *; try discriminate; try reflexivity. f_equal. auto. Qed.

(* one reservoir of size k is offered a record: appended while there is room, afterwards put in some slot or dropped *)
Inductive rstep (k : Z) (w : list record) (r : record) : list record -> Prop :=
| rs_fill : Z.of_nat (List.length w) < k -> rstep k w r (w ++ [r])
| rs_set i : k <= Z.of_nat (List.length w) -> rstep k w r (set_nth i r w)
| rs_drop : k <= Z.of_nat (List.length w) -> rstep k w r w.
Inductive rrun (k : Z) : list record -> list record -> list record -> Prop :=
| rr_nil w : rrun k w [] w
| rr_cons w x xs w1 w' : rstep k w x w1 -> rrun k w1 xs w' -> rrun k w (x :: xs) w'.

Lemma rstep_spec k w x w1 : rstep k w x w1 ->
  submultiset w1 (w ++ [x])
  /\ (Z.of_nat (List.length w) <= k -> Z.of_nat (List.length w1) = Z.min k (Z.of_nat (List.length w) + 1)).
Proof.
  intros [Hlt|i Hge|Hge].
  - split; [now apply Permutation_submultiset|]. rewrite app_length. cbn. lia.
  - rewrite set_nth_length. split; [|lia]. destruct (nth_error w i) as [a|] eqn:E.
    + exists [a]. rewrite <- !Permutation_cons_append. now apply set_nth_perm.
    + exists [x]. now rewrite set_nth_none.
  - split; [now exists [x]|lia].
Qed.

Lemma rrun_spec k w xs w' : rrun k w xs w' ->
  submultiset w' (w ++ xs)
  /\ (Z.of_nat (List.length w) <= k -> Z.of_nat (List.length w') = Z.min k (Z.of_nat (List.length (w ++ xs)))).
Proof.
  induction 1 as [w|w x xs w1 w' Hs _ [IH1 IH2]].
  - rewrite app_nil_r. split; [now apply Permutation_submultiset|lia].
  - destruct (rstep_spec _ _ _ _ Hs) as [S1 S2]. split.
    + apply (submultiset_trans _ _ _ IH1). replace (w ++ x :: xs) with ((w ++ [x]) ++ xs) by now rewrite <- app_assoc.
      apply submultiset_app; [exact S1|now apply Permutation_submultiset].
    + intros Hw. rewrite IH2 by lia. rewrite !app_length in *. cbn [List.length]. lia.
Qed.

Section Sample.
  Variable k : Z.
  Variable fs : list bytes.
  Hypothesis Hk : 0 <= k.
  Let keyf := grouping_key fs.

  (* one record with a key: its group's reservoir takes a step, the other buckets stay *)
  Lemma sample_run_step r t m nr ds g0 : keyf r = Some g0 -> (List.length (r :: t) <= List.length ds)%nat ->
    exists w1 ds', rstep k (bucket g0 m) r w1 /\ (List.length t <= List.length ds')%nat
                   /\ sample_run k fs m nr ds (r :: t) = sample_run k fs (aput g0 w1 m) (nr + 1) ds' t.
  Proof.
    intros E Hd. cbn [sample_run]. fold keyf. rewrite E. cbn zeta. cbn in Hd.
    destruct (Z.ltb_spec (Z.of_nat (List.length (bucket g0 m))) k).
    - exists (bucket g0 m ++ [r]), ds. repeat split; [now constructor|lia].
    - destruct ds as [|d ds']; [cbn in Hd; lia|]. cbn in Hd.
      destruct (d mod nr <? k); eexists _, ds'; (repeat split; [now constructor|lia]).
  Qed.
  Lemma sample_run_skip r t m nr ds : keyf r = None -> sample_run k fs m nr ds (r :: t) = sample_run k fs m (nr + 1) ds t.
  Proof. intros E. cbn [sample_run]. fold keyf. now rewrite E. Qed.

  Lemma sample_run_keys l : forall m nr ds, (List.length l <= List.length ds)%nat ->
    akeys (sample_run k fs m nr ds l) = keys_after m (dkeys keyf l).
  Proof.
    induction l as [|r t IH]; intros m nr ds Hd; [now rewrite keys_after_nil|]. cbn [dkeys].
    destruct (keyf r) as [g0|] eqn:E.
    - destruct (sample_run_step r t m nr ds g0 E Hd) as (w1 & ds' & _ & Hd' & ->).
      rewrite IH by assumption. apply keys_after_aput.
    - rewrite sample_run_skip by assumption. apply IH. cbn in Hd. lia.
  Qed.

  Lemma sample_run_bucket g l : forall m nr ds, (List.length l <= List.length ds)%nat ->
    rrun k (bucket g m) (group_of keyf g l) (bucket g (sample_run k fs m nr ds l)).
  Proof.
    induction l as [|r t IH]; intros m nr ds Hd; [constructor|]. rewrite group_of_cons.
    destruct (keyf r) as [g0|] eqn:E; cbn [okey_eqb].
    - destruct (sample_run_step r t m nr ds g0 E Hd) as (w1 & ds' & Hs & Hd' & ->).
      specialize (IH (aput g0 w1 m) (nr + 1) ds' Hd'). destruct (beqb_spec g0 g) as [->|Hne].
      + rewrite bucket_aput_same in IH. econstructor; eassumption.
      + now rewrite bucket_aput_other in IH.
    - rewrite sample_run_skip by assumption. apply IH. cbn in Hd. lia.
  Qed.

  Theorem sample_passes_checker ds l : (List.length l <= List.length ds)%nat ->
    check_sample k fs l (sample k fs ds l) = true.
  Proof.
    intros Hd. unfold sample. set (m' := sample_run k fs [] 1 ds l).
    assert (Hkeys : akeys m' = dkeys keyf l) by (unfold m'; rewrite sample_run_keys by assumption; apply keys_after_empty).
    rewrite (emit_buckets_dkeys m' keyf l Hkeys).
    set (B := fun g => bucket g m').
    assert (Hb : forall g, submultiset (B g) (group_of keyf g l)
                           /\ Z.of_nat (List.length (B g)) = Z.min k (Z.of_nat (List.length (group_of keyf g l)))).
    { intros g. destruct (rrun_spec _ _ _ _ (sample_run_bucket g l [] 1 ds Hd)) as [S L]. split; [exact S|]. apply L. cbn. lia. }
    assert (HB : forall h r, In r (B h) -> keyf r = Some h).
    { intros h r Hr. apply (submultiset_incl _ _ (proj1 (Hb h))), group_of_In in Hr. tauto. }
    assert (Hg : forall g, In g (dkeys keyf l) -> group_of keyf g (flat_map B (dkeys keyf l)) = B g).
    { intros g Hin. rewrite (group_of_flat_family keyf B g _ (dkeys_NoDup keyf l) HB).
      apply mem_In in Hin. now rewrite Hin. }
    apply check_sample_spec. cbn zeta. fold keyf. split; [|split; [|split]].
    - apply (submultiset_trans _ (group_by fs l)); [|apply group_by_submultiset].
      rewrite group_by_spec. apply submultiset_flat_map. intros g. apply Hb.
    - intros r Hr. apply in_flat_map in Hr. destruct Hr as (g & _ & Hr). unfold has_key. now rewrite (HB g r Hr).
    - intros g Hin. rewrite (Hg g Hin). apply Hb.
    - symmetry. apply flat_map_ext_in, Hg.
  Qed.
End Sample.
