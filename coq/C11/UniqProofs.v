(* C11 -- proofs about the uniq / count-distinct models of UniqModel.v *)
From Miller Require Import Base.Record C11.Model C11.UniqModel C11.Proofs.
From Coq Require Import Permutation Lia.
Open Scope Z_scope.

Lemma uniq_c_run_keys inv fs l : forall m, akeys (uniq_c_run inv fs m l) = keys_after m (dkeys (uniq_key inv fs) l).
Proof.
  induction l as [|r t IH]; intros m; cbn [uniq_c_run dkeys]; [now rewrite keys_after_nil|].
  destruct (uniq_key inv fs r) as [g0|]; [|apply IH].
  destruct (alookup g0 m); rewrite IH; apply keys_after_aput.
Qed.

Lemma uniq_c_run_lookup inv fs g l : forall m,
  alookup g (uniq_c_run inv fs m l)
  = match alookup g m, group_of (uniq_key inv fs) g l with
    | Some cp, xs => Some (fst cp + Z.of_nat (List.length xs), snd cp)
    | None, [] => None
    | None, r :: t => Some (Z.of_nat (S (List.length t)), uniq_proj inv fs r)
    end.
Proof.
  induction l as [|r t IH]; intros m; cbn [uniq_c_run].
  - cbn. destruct (alookup g m) as [[c p]|]; [cbn; now rewrite Z.add_0_r|reflexivity].
  - rewrite group_of_cons. destruct (uniq_key inv fs r) as [g0|]; cbn [okey_eqb]; [|apply IH].
    destruct (beqb_spec g0 g) as [->|Hne].
    + destruct (alookup g m) as [cp|]; rewrite IH, alookup_aput_same; cbn [fst snd List.length]; do 2 f_equal; lia.
    + destruct (alookup g0 m); rewrite IH, alookup_aput_other by assumption; reflexivity.
Qed.

Lemma uniq_c_run_spec inv fs l :
  uniq_c_run inv fs [] l
  = map (fun g => let xs := group_of (uniq_key inv fs) g l in
                  (g, (Z.of_nat (List.length xs), uniq_proj inv fs (hd [] xs))))
        (dkeys (uniq_key inv fs) l).
Proof.
  assert (Hk : akeys (uniq_c_run inv fs [] l) = dkeys (uniq_key inv fs) l) by (rewrite uniq_c_run_keys; apply keys_after_empty).
  rewrite (assoc_by_dkeys (0, [] : record) _ _ _ Hk) at 1. apply map_ext_in. intros g Hg. cbn zeta. f_equal.
  unfold aget. rewrite uniq_c_run_lookup. cbn [alookup].
  apply dkeys_group in Hg. destruct (group_of (uniq_key inv fs) g l) as [|x xs]; [congruence|reflexivity].
Qed.

(* uniq -g / -x without counts: per group a flag "seen"; the first record of a group passes *)
Definition fstep (seen : bool) (r : record) : list record * bool := (if seen then [] else [r], true).

Lemma uniq_g_run_eq inv fs l : forall seen m, (forall g, mem g seen = aget false g m) ->
  uniq_g_run inv fs seen l = map (uniq_proj inv fs) (grun (uniq_key inv fs) false fstep m l).
Proof.
  induction l as [|r t IH]; intros seen m Hm; cbn [uniq_g_run grun fstep]; [reflexivity|].
  destruct (uniq_key inv fs r) as [g|]; [|now apply IH]. rewrite <- Hm.
  destruct (mem g seen) eqn:Es; cbn [app map]; [|f_equal]; apply IH; intros g'; cbn [mem existsb]; fold (mem g' seen).
  - destruct (beqb_spec g g') as [<-|Hne]; [now rewrite aget_aput_same|now rewrite aget_aput_other].
  - destruct (beqb_spec g' g) as [->|Hne]; [now rewrite aget_aput_same|]. rewrite aget_aput_other by congruence. apply Hm.
Qed.

Lemma fstep_passes seen r : sublist (fst (fstep seen r)) [r].
Proof. destruct seen; cbn; auto. Qed.

(* without -x the groups are those of head -n 1 -g *)
Lemma uniq_key_plain fs r : uniq_key false fs r = grouping_key fs r.
Proof. reflexivity. Qed.

Lemma in_put k v (r : record) kv : In kv (put k v r) -> kv = (k, v) \/ In kv r.
Proof.
  induction r as [|[k' v'] r IH]; cbn; [intros [<-|[]]; auto|].
  destruct (beqb_spec k k') as [->|Hne]; cbn.
  - intros [<-|H]; auto.
  - intros [<-|H]; auto. destruct (IH H); auto.
Qed.

Lemma selected_values_get ns r : forall vs, selected_values ns r = Some vs ->
  forall kv, In kv (combine ns vs) -> get (fst kv) r = Some (snd kv).
Proof.
  intros vs H. apply selected_values_Forall2 in H. induction H as [|n v ns vs' Eg _ IH]; cbn; intros kv; [intros []|].
  intros [<-|Hin]; [exact Eg|auto].
Qed.

Lemma uniq_proj_combine inv fs r kv : In kv (uniq_proj inv fs r) ->
  exists vs, selected_values (uniq_names inv fs r) r = Some vs /\ In kv (combine (uniq_names inv fs r) vs).
Proof.
  unfold uniq_proj, build. destruct (selected_values (uniq_names inv fs r) r) as [vs|]; [|intros []].
  intros H. exists vs. split; [reflexivity|].
  assert (G : forall ps acc, In kv (fold_left (fun r kv => put (fst kv) (snd kv) r) ps acc) -> In kv ps \/ In kv acc).
  { induction ps as [|[k v] ps IH]; intros acc Hin; cbn [fold_left] in Hin; [auto|].
    destruct (IH _ Hin) as [Hp|Hp]; [cbn; auto|]. destruct (in_put _ _ _ _ Hp) as [->|Ha]; cbn; auto. }
  destruct (G _ _ H) as [Hp|[]]. exact Hp.
Qed.
Lemma uniq_proj_fields inv fs r kv : In kv (uniq_proj inv fs r) -> get (fst kv) r = Some (snd kv).
Proof. intros H. destruct (uniq_proj_combine _ _ _ _ H) as (vs & E & Hin). exact (selected_values_get _ _ _ E kv Hin). Qed.
Lemma uniq_proj_names inv fs r kv : In kv (uniq_proj inv fs r) -> In (fst kv) (uniq_names inv fs r).
Proof. intros H. destruct (uniq_proj_combine _ _ _ _ H) as (vs & _ & Hin). destruct kv. exact (in_combine_l _ _ _ _ Hin). Qed.
Lemma uniq_x_excludes fs r kv : In kv (uniq_proj true fs r) -> mem (fst kv) fs = false.
Proof.
  intros H. apply uniq_proj_names in H. cbn in H. unfold keys_except in H. apply filter_In in H.
  now rewrite <- negb_true_iff.
Qed.

Definition free_of (c : ascii) (v : bytes) : Prop := ~ In c v.

Definition plain_name (n : bytes) : Prop := n <> [] /\ comma_free n /\ free_of ";"%char n.

Lemma join_comma_free_of c ns : c <> ","%char -> Forall (free_of c) ns -> free_of c (join_comma ns).
Proof.
  intros Hc. induction 1 as [|n ns Hn Hns IH]; [intros []|].
  destruct ns as [|n2 ns]; [exact Hn|]. rewrite join_comma_cons by congruence.
  intros Hin. apply in_app_or in Hin. destruct Hin as [Hin|[Hin|Hin]]; [now apply Hn|congruence|now apply IH].
Qed.

Lemma join_comma_nil_names a : Forall plain_name a -> join_comma a = [] -> a = [].
Proof.
  intros Ha H. destruct Ha as [|n ns [Hn _] _]; [reflexivity|].
  destruct ns; cbn in H; [congruence|]. destruct n; [congruence|discriminate].
Qed.

Lemma join_comma_inj_names a b : Forall plain_name a -> Forall plain_name b -> join_comma a = join_comma b -> a = b.
Proof.
  intros Ha Hb H. apply join_comma_inj; [| | |exact H].
  - split; intros ->; [symmetry in H|]; now apply join_comma_nil_names in H.
  - eapply Forall_impl; [|exact Ha]. now intros n (_ & Hn & _).
  - eapply Forall_impl; [|exact Hb]. now intros n (_ & Hn & _).
Qed.

Lemma get_values n r v : get n r = Some v -> In v (values r).
Proof.
  induction r as [|[k' v'] r IH]; cbn; [discriminate|].
  destruct (beqb n k'); [intros E; injection E as ->; auto|auto].
Qed.
Lemma selected_values_comma_free ns r vs :
  selected_values ns r = Some vs -> (forall v, In v (values r) -> comma_free v) -> Forall comma_free vs.
Proof.
  intros Hs C. apply Forall_forall. intros v Hin.
  destruct (selected_values_In _ _ _ Hs v Hin) as (n & _ & Eg). exact (C v (get_values _ _ _ Eg)).
Qed.

Lemma uniq_x_key_faithful fs r1 r2 k :
  Forall plain_name (keys_except fs r1) -> Forall plain_name (keys_except fs r2) ->
  uniq_key true fs r1 = Some k -> uniq_key true fs r2 = Some k ->
  keys_except fs r1 = keys_except fs r2
  /\ ((forall v, In v (values r1) -> comma_free v) -> (forall v, In v (values r2) -> comma_free v) ->
      uniq_proj true fs r1 = uniq_proj true fs r2).
Proof.
  intros N1 N2. unfold uniq_key, uniq_proj. cbn [uniq_names].
  destruct (selected_values (keys_except fs r1) r1) as [v1|] eqn:E1; [|discriminate].
  destruct (selected_values (keys_except fs r2) r2) as [v2|] eqn:E2; [|discriminate].
  intros H1 H2. injection H1 as <-. injection H2 as H.
  assert (Hsemi : forall ns, Forall plain_name ns -> free_of ";"%char (join_comma ns)).
  { intros ns Hns. apply join_comma_free_of; [discriminate|]. eapply Forall_impl; [|exact Hns]. intros a (_ & _ & Ha). exact Ha. }
  destruct (app_sep_inj _ _ _ _ _ (Hsemi _ N2) (Hsemi _ N1) H) as [Hn Hv].
  apply join_comma_inj_names in Hn; auto. split; [congruence|].
  intros C1 C2. rewrite <- Hn in *. f_equal.
  symmetry. apply join_comma_inj; eauto using selected_values_comma_free.
  rewrite <- !length_zero_iff_nil, (selected_values_length _ _ _ E1), (selected_values_length _ _ _ E2). reflexivity.
Qed.

(* what 30bef5caa repaired: x=3 and y=3 had one key (values only); now they have two *)
Lemma uniq_x_names_separated :
  let r1 := [(B "a", B "1"); (B "x", B "3")] in
  let r2 := [(B "a", B "2"); (B "y", B "3")] in
  uniq_key_unqualified true [B "a"] r1 = uniq_key_unqualified true [B "a"] r2
  /\ uniq_key true [B "a"] r1 <> uniq_key true [B "a"] r2
  /\ uniq_g true [B "a"] [r1; r2] = [[(B "x", B "3")]; [(B "y", B "3")]]
  /\ uniq_c true [B "a"] (B "count") [r1; r2; r1] = [[(B "x", B "3"); (B "count", B "2")]; [(B "y", B "3"); (B "count", B "1")]].
Proof. cbn zeta. split; [reflexivity|]. split; [discriminate|]. split; reflexivity. Qed.

Definition occurrences (r : record) (l : list record) : Z := Z.of_nat (List.length (filter (record_eqb r) l)).

Lemma rbump_fst r m : map fst (rbump r m) = if existsb (record_eqb r) (map fst m) then map fst m else map fst m ++ [r].
Proof.
  induction m as [|[r' c] m IH]; cbn; [reflexivity|].
  destruct (record_eqb r r') eqn:E; cbn; [reflexivity|]. rewrite IH.
  destruct (existsb (record_eqb r) (map fst m)); reflexivity.
Qed.

Fixpoint rget (r : record) (m : list (record * Z)) : Z :=
  match m with [] => 0 | (r', c) :: t => if record_eqb r r' then c else rget r t end.
Lemma rget_rbump_same r m : rget r (rbump r m) = rget r m + 1.
Proof.
  induction m as [|[r' c] m IH]; cbn.
  - destruct (record_eqb_spec r r); [reflexivity|congruence].
  - destruct (record_eqb r r') eqn:E; cbn; rewrite E; auto.
Qed.
Lemma rget_rbump_other r x m : x <> r -> rget x (rbump r m) = rget x m.
Proof.
  intros Hne. induction m as [|[r' c] m IH]; cbn.
  - destruct (record_eqb_spec x r); [congruence|reflexivity].
  - destruct (record_eqb_spec r r') as [<-|Hr]; cbn.
    + destruct (record_eqb_spec x r); [congruence|reflexivity].
    + destruct (record_eqb x r'); auto.
Qed.

Lemma uniq_a_counts_rget x l : forall m, rget x (fold_left (fun m r => rbump r m) l m) = rget x m + occurrences x l.
Proof.
  unfold occurrences. induction l as [|r t IH]; intros m; cbn [fold_left filter]; [cbn; lia|].
  rewrite IH. destruct (record_eqb_spec x r) as [<-|Hne].
  - rewrite rget_rbump_same. cbn [List.length]. lia.
  - rewrite rget_rbump_other by assumption. lia.
Qed.

(* the keys of the counting map are the records uniq -a prints; [seen] need only hold the same records as the map *)
Lemma uniq_a_counts_keys l : forall m seen,
  (forall x, existsb (record_eqb x) seen = existsb (record_eqb x) (map fst m)) ->
  map fst (fold_left (fun m r => rbump r m) l m) = map fst m ++ uniq_a_run seen l.
Proof.
  induction l as [|r t IH]; intros m seen Hs; cbn [fold_left uniq_a_run]; [now rewrite app_nil_r|].
  assert (K := rbump_fst r m). rewrite <- Hs in K. destruct (existsb (record_eqb r) seen).
  - rewrite (IH _ seen); rewrite K; [reflexivity|exact Hs].
  - rewrite (IH _ (r :: seen)); rewrite K; [now rewrite <- app_assoc|].
    intros x. rewrite existsb_app, <- Hs. cbn. rewrite orb_false_r. apply orb_comm.
Qed.
Lemma uniq_a_counts_fst l : map fst (uniq_a_counts l) = uniq_a l.
Proof. apply (uniq_a_counts_keys l [] []). reflexivity. Qed.

Lemma rget_lookup m : NoDup (map fst m) -> m = map (fun r => (r, rget r m)) (map fst m).
Proof.
  induction m as [|[r c] m IH]; cbn; intros Hnd; [reflexivity|].
  inversion Hnd as [|? ? Hni Hnd']; subst.
  destruct (record_eqb_spec r r); [|congruence]. f_equal.
  rewrite IH at 1 by assumption. apply map_ext_in. intros x Hx.
  destruct (record_eqb_spec x r); [subst; tauto|reflexivity].
Qed.
