(* C11 property theorems, each followed by Print Assumptions; the lemmas behind them are in the other files of C11.
   All are over the verb models of C11/Model.v -- the definitions C11/Harness.v runs against the real mlr --
   for every input stream (no size bound), every count, every group-by list, every evaluation history / oracle. *)
From Miller Require Import Base.Record C11.Model C11.UniqModel C11.Checkers C11.Proofs C11.Proofs2 C11.CheckerProofs C11.SampleProofs C11.UniqProofs C11.ChainProofs.
From Coq Require Import Permutation.
Open Scope Z_scope.

(* ---- nothing altered or invented: every output record of every selecting verb is an input record *)
Theorem C11_selects_only : forall l,
  (forall n g, incl (head n g l) l)
  /\ (forall n plus fs, incl (tail n plus fs l) l)
  /\ (forall n b e fs, incl (decimate n b e fs l) l)
  /\ (forall isf inv vs o, filter_run isf inv vs l = Some o -> incl o l)
  /\ (forall mt i v, incl (grep mt i v l) l)
  /\ (forall mode names mt, incl (having_fields mode names mt l) l)
  /\ incl (tac l) l
  /\ (forall fs, incl (group_by fs l) l)
  /\ incl (group_like l) l
  /\ incl (uniq_a l) l
  /\ incl (skip_trivial l) l
  /\ incl (nothing l) l
  /\ (forall us, incl (shuffle us l) l)
  /\ (forall n us, incl (bootstrap n us l) l).
Proof. exact selects_only. Qed.
Print Assumptions C11_selects_only.

(* ---- order kept (subsequence of the input) by the streaming selectors *)
Theorem C11_streaming_selectors_keep_order : forall l,
  (forall k g, 0 <= k -> sublist (head k g l) l)
  /\ (forall n fs, sublist (tail n true fs l) l)
  /\ (forall n b e fs, sublist (decimate n b e fs l) l)
  /\ (forall isf inv vs o, filter_run isf inv vs l = Some o -> sublist o l)
  /\ (forall mt i v, sublist (grep mt i v l) l)
  /\ (forall mode names mt, sublist (having_fields mode names mt l) l)
  /\ sublist (uniq_a l) l /\ sublist (skip_trivial l) l.
Proof.
  exact (fun l => conj (fun k g Hk => head_nonneg_sublist k g l Hk)
        (conj (fun n fs => tail_plus_sublist n fs l)
        (conj (fun n b e fs => decimate_sublist n b e fs l)
        (conj (fun isf inv vs o => filter_run_sublist isf inv vs l o)
        (conj (fun mt i v => sublist_filter _ l)
        (conj (fun mode names mt => sublist_filter _ l)
        (conj (uniq_a_sublist l) (sublist_filter _ l)))))))).
Qed.
Print Assumptions C11_streaming_selectors_keep_order.

Theorem C11_head_is_first_k : forall k l, 0 <= k -> head k None l = firstn (Z.to_nat k) l.
Proof. exact head_first_k. Qed.
Print Assumptions C11_head_is_first_k.

Theorem C11_head_per_group : forall k fs l, 0 <= k ->
  sublist (head k (Some fs) l) l
  /\ (forall r, In r (head k (Some fs) l) -> has_key (grouping_key fs) r = true)
  /\ (forall g, group_of (grouping_key fs) g (head k (Some fs) l) = firstn (Z.to_nat k) (group_of (grouping_key fs) g l)).
Proof.
  intros k fs l Hk. rewrite head_nonneg, head_keyed_eq by assumption.
  split; [apply counting_sublist|]. split; [apply counting_has_key|].
  intros g. now rewrite counting_group, counting_firstn, Z.sub_0_r.
Qed.
Print Assumptions C11_head_per_group.

Theorem C11_head_negative_all_but_last_k : forall k l, 0 < k ->
  head (- k) None l = firstn (List.length l - Z.to_nat k) l.
Proof. exact head_negative_ungrouped. Qed.
Print Assumptions C11_head_negative_all_but_last_k.

(* per group; the relative order of records of different groups in the output is the order in which they leave
   their windows (not the input order), which the documentation does not fix *)
Theorem C11_head_negative_per_group : forall k g l, 0 < k ->
  let fs := match g with Some fs => fs | None => [] end in
  incl (head (- k) g l) l
  /\ (forall r, In r (head (- k) g l) -> has_key (grouping_key fs) r = true)
  /\ (forall x, let xs := group_of (grouping_key fs) x l in
                group_of (grouping_key fs) x (head (- k) g l) = firstn (List.length xs - Z.to_nat k) xs).
Proof.
  intros k g l Hk. cbn zeta. rewrite head_negative by assumption. apply head_abl_spec. lia.
Qed.
Print Assumptions C11_head_negative_per_group.

Theorem C11_tail_last_k_per_group : forall n fs l,
  tail n false fs l = flat_map (fun g => lastn (Z.abs_nat n) (group_of (grouping_key fs) g l)) (dkeys (grouping_key fs) l).
Proof. exact tail_spec. Qed.
Print Assumptions C11_tail_last_k_per_group.

Theorem C11_tail_is_last_k : forall n l, tail n false [] l = skipn (List.length l - Z.abs_nat n) l.
Proof. exact tail_ungrouped. Qed.
Print Assumptions C11_tail_is_last_k.

Theorem C11_tail_mirrors_head : forall k l, 0 <= k -> tail k false [] l = tac (head k None (tac l)).
Proof. exact tail_mirrors_head. Qed.
Print Assumptions C11_tail_mirrors_head.

Theorem C11_tail_plus_per_group : forall n fs l,
  let s := Z.to_nat (Z.max (n - 1) 0) in
  sublist (tail n true fs l) l
  /\ (forall r, In r (tail n true fs l) -> has_key (grouping_key fs) r = true)
  /\ (forall g, group_of (grouping_key fs) g (tail n true fs l) = skipn s (group_of (grouping_key fs) g l)).
Proof.
  intros n fs l. split; [apply tail_plus_sublist|]. split; [|intros g; apply tail_plus_group].
  rewrite tail_plus_eq. apply counting_has_key.
Qed.
Print Assumptions C11_tail_plus_per_group.

(* ---- |head -n k| + |tail -n +(k+1)| = N, and in fact head ++ tail = input *)
Theorem C11_head_tail_count : forall k l, 0 <= k ->
  head k None l ++ tail (k + 1) true [] l = l
  /\ (List.length (head k None l) + List.length (tail (k + 1) true [] l) = List.length l)%nat.
Proof. exact (fun k l Hk => conj (head_tail_split k l Hk) (head_tail_count k l Hk)). Qed.
Print Assumptions C11_head_tail_count.

(* ---- decimate: of each group, the records at 0-based positions j with j mod n = n-1 (or 0 with -b) *)
Theorem C11_decimate_positions : forall n b e fs l,
  let rem := if b && negb e then 0 else n - 1 in
  sublist (decimate n b e fs l) l
  /\ (forall r, In r (decimate n b e fs l) -> has_key (grouping_key fs) r = true)
  /\ (forall g, let xs := group_of (grouping_key fs) g l in
                group_of (grouping_key fs) g (decimate n b e fs l)
                = map snd (filter (fun p => fst p mod n =? rem) (combine (zseq 0 (List.length xs)) xs))).
Proof.
  intros n b e fs l. cbn zeta. split; [apply decimate_sublist|]. unfold decimate. rewrite decimate_eq.
  split; [apply counting_has_key|]. intros g. rewrite counting_group. apply counting_positions.
Qed.
Print Assumptions C11_decimate_positions.

(* ---- filter / filter -x partition the input, for every history of boolean-or-absent verdicts *)
Theorem C11_filter_partition : forall vs l,
  List.length vs = List.length l -> forallb bool_or_absent vs = true ->
  exists a b, filter_run true false vs l = Some a /\ filter_run true true vs l = Some b
              /\ split3 l a b /\ Permutation (a ++ b) l /\ sublist a l /\ sublist b l.
Proof.
  intros vs l H1 H2. destruct (filter_partition vs l H1 H2) as (a & b & Ha & Hb & Hs).
  exists a, b. repeat split; try assumption; [now apply split3_perm|apply (split3_sublists _ _ _ Hs)..].
Qed.
Print Assumptions C11_filter_partition.

Theorem C11_filter_true_passes_rest_inverted : forall vs l,
  List.length vs = List.length l -> forallb bool_or_absent vs = true ->
  filter_run true false vs l = Some (map snd (filter (fun p => match fst p with VTrue => true | _ => false end) (combine vs l)))
  /\ filter_run true true vs l = Some (map snd (filter (fun p => match fst p with VTrue => false | _ => true end) (combine vs l))).
Proof.
  intros vs l. revert vs. induction l as [|r t IH]; intros vs Hlen Hv.
  - destruct vs; cbn; auto.
  - destruct vs as [|v vt]; [discriminate|]. cbn in Hlen, Hv. apply andb_true_iff in Hv. destruct Hv as [Hv1 Hv2].
    destruct (IH vt ltac:(lia) Hv2) as [Ha Hb]. cbn [filter_run combine filter]. rewrite Ha, Hb.
    destruct v; cbn in *; try discriminate; auto.
Qed.
Print Assumptions C11_filter_true_passes_rest_inverted.

Theorem C11_tac_involutive_permutation : forall l, tac (tac l) = l /\ Permutation (tac l) l.
Proof. exact (fun l => conj (tac_involutive l) (tac_permutation l)). Qed.
Print Assumptions C11_tac_involutive_permutation.

(* ---- group-by / group-like: groups in first-appearance order, each in input order; a permutation of the keyed records *)
Theorem C11_group_by_order : forall fs l,
  group_by fs l = flat_map (fun g => group_of (grouping_key fs) g l) (dkeys (grouping_key fs) l)
  /\ Permutation (group_by fs l) (filter (has_key (grouping_key fs)) l).
Proof. exact (fun fs l => conj (group_by_spec fs l) (group_by_permutation fs l)). Qed.
Print Assumptions C11_group_by_order.

Theorem C11_group_like_order : forall l,
  group_like l = flat_map (fun g => group_of keys_key g l) (dkeys keys_key l) /\ Permutation (group_like l) l.
Proof. exact (fun l => conj (group_like_spec l) (group_like_permutation l)). Qed.
Print Assumptions C11_group_like_order.

Theorem C11_group_sizes_sum : forall fs l,
  fold_right (fun g acc => (List.length (group_of (grouping_key fs) g l) + acc)%nat) O (dkeys (grouping_key fs) l)
  = List.length (filter (has_key (grouping_key fs)) l)
  /\ List.length (group_by fs l) = List.length (filter (has_key (grouping_key fs)) l).
Proof. exact (fun fs l => conj (group_sizes_sum fs l) (Permutation_length (group_by_permutation fs l))). Qed.
Print Assumptions C11_group_sizes_sum.

(* "group" = same joined key text = same group-by values, as long as no value contains a comma ... *)
Theorem C11_grouping_key_faithful_without_commas : forall fs r1 r2 v1 v2,
  selected_values fs r1 = Some v1 -> selected_values fs r2 = Some v2 ->
  Forall comma_free v1 -> Forall comma_free v2 ->
  (grouping_key fs r1 = grouping_key fs r2 <-> v1 = v2).
Proof.
  intros fs r1 r2 v1 v2 H1 H2 F1 F2. unfold grouping_key. rewrite H1, H2. split; [|congruence].
  intros H. injection H as H. apply join_comma_inj; auto.
  rewrite <- !length_zero_iff_nil, (selected_values_length _ _ _ H1), (selected_values_length _ _ _ H2). reflexivity.
Qed.
Print Assumptions C11_grouping_key_faithful_without_commas.

(* ... and false otherwise: records with different group-by values share a group, so head -n 1 -g a,b drops the
   first record of a group (witness class grouping-key-comma-collision) *)
Theorem C11_groups_are_value_tuples_refuted : exists fs r1 r2,
  selected_values fs r1 <> selected_values fs r2
  /\ grouping_key fs r1 = grouping_key fs r2
  /\ head 1 (Some fs) [r1; r2] = [r1].
Proof.
  exists [B "a"; B "b"], [(B "a", B "x,y"); (B "b", B "z")], [(B "a", B "x"); (B "b", B "y,z")].
  split; [discriminate|split; reflexivity].
Qed.
Print Assumptions C11_groups_are_value_tuples_refuted.

(* ---- uniq -a: exactly the first occurrence of each distinct record *)
Theorem C11_uniq_a_first_occurrences : forall l,
  sublist (uniq_a l) l /\ NoDup (uniq_a l) /\ (forall r, In r (uniq_a l) <-> In r l).
Proof.
  intros l. destruct (uniq_a_run_spec l []) as [Hnd Hin].
  split; [apply uniq_a_sublist|split; [exact Hnd|]]. intros r. rewrite (Hin r). cbn. tauto.
Qed.
Print Assumptions C11_uniq_a_first_occurrences.

(* ---- having-fields --at-least *)
Theorem C11_having_at_least : forall names mt r, names <> [] ->
  having_pred HAtLeast names mt r
  = (Z.of_nat (List.length names) <=? Z.of_nat (List.length (filter (fun k => mem k names) (keys r)))).
Proof.
  intros names mt r Hn. cbn [having_pred]. rewrite at_least_walk_spec, Z.sub_0_r; [reflexivity|].
  destruct names; [congruence|cbn; lia].
Qed.
Print Assumptions C11_having_at_least.

(* ---- cat -n [-g]: each group numbered 1..n, records otherwise untouched (counter name not already a field) *)
Theorem C11_cat_n_numbers_stream : forall name l,
  cat (Some name) None l = map (fun p => prepend name (dec_of_Z (fst p)) (snd p)) (combine (zseq 1 (List.length l)) l).
Proof. exact (fun name l => cat_n_ungrouped_spec name l 0). Qed.
Print Assumptions C11_cat_n_numbers_stream.

Theorem C11_cat_n_g_numbers_each_group : forall name fs g l,
  mem name fs = false -> unprepended name l ->
  group_of (grouping_key fs) g (cat (Some name) (Some fs) l) = number_from name 0 (group_of (grouping_key fs) g l).
Proof. exact (fun name fs g l H1 H2 => cat_n_grouped_group name fs g l H1 H2 0 []). Qed.
Print Assumptions C11_cat_n_g_numbers_each_group.

(* ---- random verbs, for EVERY sequence of draws *)
Theorem C11_shuffle_is_permutation : forall us l, Permutation (shuffle us l) l.
Proof. exact shuffle_permutation. Qed.
Print Assumptions C11_shuffle_is_permutation.

Theorem C11_bootstrap_from_input : forall nout us l,
  incl (bootstrap nout us l) l
  /\ (Forall (fun i => (i < List.length l)%nat) us -> (List.length l <= List.length us)%nat -> nout = -1 ->
      List.length (bootstrap nout us l) = List.length l).
Proof.
  intros nout us l. split; [apply bootstrap_incl|]. intros Hf Hl ->. unfold bootstrap. cbn. rewrite pick_all_length.
  - rewrite firstn_length. lia.
  - apply (incl_Forall (sublist_incl _ _ (sublist_firstn _ us)) Hf).
Qed.
Print Assumptions C11_bootstrap_from_input.

(* ---- the checkers run on mlr's output for shuffle / bootstrap / sample mean what they should *)
Theorem C11_checkers_correct :
  (forall inp out, check_shuffle inp out = true <-> Permutation inp out)
  /\ (forall nout inp out, check_bootstrap nout inp out = true
        <-> Z.of_nat (List.length out) = (if nout =? -1 then Z.of_nat (List.length inp) else nout) /\ incl out inp)
  /\ (forall k fs inp out, check_sample k fs inp out = true ->
        let keyf := grouping_key fs in
        (exists rest, Permutation inp (out ++ rest))
        /\ (forall r, In r out -> has_key keyf r = true)
        /\ (forall g, In g (dkeys keyf inp) ->
              Z.of_nat (List.length (group_of keyf g out)) = Z.min k (Z.of_nat (List.length (group_of keyf g inp))))
        /\ out = flat_map (fun g => group_of keyf g out) (dkeys keyf inp)).
Proof.
  split; [exact perm_b_spec|]. split.
  - intros nout inp out. unfold check_bootstrap. rewrite andb_true_iff, Z.eqb_eq, forallb_forall.
    unfold incl. now setoid_rewrite memr_spec.
  - intros k fs inp out. apply check_sample_spec.
Qed.
Print Assumptions C11_checkers_correct.

(* ---- sample (reservoir per group): for EVERY sequence of draws (at least one per record) the model's output passes the
   checker, i.e. (by C11_checkers_correct) it is, group by group in first-appearance order, a without-replacement
   sample of min(k, group size) records of that group; records lacking a group-by field are dropped *)
Theorem C11_sample_model_satisfies_checker : forall k fs ds l,
  0 <= k -> (List.length l <= List.length ds)%nat -> check_sample k fs l (sample k fs ds l) = true.
Proof. exact (fun k fs ds l Hk Hd => sample_passes_checker k fs Hk ds l Hd). Qed.
Print Assumptions C11_sample_model_satisfies_checker.

(* ---- contexts: the models of head, tail, decimate, cat -n/-g, filter's emit decision, ... are functions of the record
   stream alone, so whatever they count they count ARRIVALS: two streams with the same records and arbitrary, different
   NR/FNR/FILENAME contexts give the same output.  (The correspondence check feeds the real verbs records whose NR is
   not the arrival index and expects exactly this.) *)
Theorem C11_verb_models_oblivious_to_context :
  (forall n g, oblivious (on_records (head n g)))
  /\ (forall n plus fs, oblivious (on_records (tail n plus fs)))
  /\ (forall n b e fs, oblivious (on_records (decimate n b e fs)))
  /\ (forall name g, oblivious (on_records (cat name g)))
  /\ (forall isf inv vs, oblivious (on_records (filter_run isf inv vs)))
  /\ oblivious (on_records tac) /\ (forall fs, oblivious (on_records (group_by fs))) /\ oblivious (on_records group_like)
  /\ oblivious (on_records uniq_a) /\ oblivious (on_records skip_trivial)
  /\ (forall k fs ds, oblivious (on_records (sample k fs ds))).
Proof.
  repeat split; intros; apply on_records_oblivious.
Qed.
Print Assumptions C11_verb_models_oblivious_to_context.

(* `tail -n +N` skips the first N-1 records THAT ARRIVE, whatever NR they carry -- and that differs from selecting by NR
   as soon as an upstream verb has dropped records (witness: the survivors of a filter keeping NR 1, 3, 5) *)
Theorem C11_tail_plus_counts_arrivals_not_NR :
  (forall n (s : cstream), on_records (tail n true []) s = skipn (Z.to_nat (Z.max (n - 1) 0)) (map fst s))
  /\ exists s, on_records (tail 3 true []) s <> tail_plus_by_nr 3 s.
Proof.
  split; [intros n s; apply tail_plus_ungrouped|].
  exists [([(B "i", B "1")], (1, 1, [])); ([(B "i", B "3")], (3, 3, [])); ([(B "i", B "5")], (5, 5, []))].
  vm_compute. discriminate.
Qed.
Print Assumptions C11_tail_plus_counts_arrivals_not_NR.

(* ---- non-vacuity: concrete streams meeting the hypotheses, with non-trivial outcomes *)
Definition ex_stream : list record :=
  [ [(B "a", B "pan"); (B "b", B "1")]; [(B "a", B "eks"); (B "b", B "2")]; [(B "b", B "3")];
    [(B "a", B "pan"); (B "b", B "4")]; [(B "a", B "eks"); (B "b", B "5")]; [(B "a", B "pan"); (B "b", B "6")] ].
Example C11_nonvacuous :
  head 1 (Some [B "a"]) ex_stream = [nth 0 ex_stream []; nth 1 ex_stream []]
  /\ head (-1) (Some [B "a"]) ex_stream = [nth 0 ex_stream []; nth 1 ex_stream []; nth 3 ex_stream []]
  /\ tail 1 false [B "a"] ex_stream = [nth 5 ex_stream []; nth 4 ex_stream []]
  /\ tail 5 true [] ex_stream = [nth 4 ex_stream []; nth 5 ex_stream []]
  /\ decimate 2 false false [B "a"] ex_stream = [nth 3 ex_stream []; nth 4 ex_stream []]
  /\ List.length (group_by [B "a"] ex_stream) = 5%nat
  /\ filter_run true true [VTrue; VAbsent; VFalse; VTrue; VTrue; VAbsent] ex_stream
     = Some [nth 1 ex_stream []; nth 2 ex_stream []; nth 5 ex_stream []]
  /\ forallb bool_or_absent [VTrue; VAbsent; VFalse; VTrue; VTrue; VAbsent] = true
  /\ unprepended (B "n") ex_stream
  /\ shuffle [3; 3; 5; 0; 4; 5]%nat ex_stream <> ex_stream
  /\ sample 1 [B "a"] [8; 1; 6; 0; 0; 0] ex_stream = [nth 5 ex_stream []; nth 1 ex_stream []].
Proof.
  repeat split; try (vm_compute; reflexivity).
  - intros r Hr. cbn in Hr. repeat (destruct Hr as [<-|Hr]; [reflexivity|]). destruct Hr.
  - vm_compute. discriminate.
Qed.

(* ---- then-chains: `mlr v1 then v2 then ...` of selecting verbs selects, at each of the three strengths
   (membership / sub-multiset / subsequence), by induction on the chain *)
Theorem C11_then_chains_select : forall vs,
  (Forall selects vs -> selects (chain vs))
  /\ (Forall selects_submultiset vs -> selects_submultiset (chain vs))
  /\ (Forall selects_in_order vs -> selects_in_order (chain vs)).
Proof.
  intros vs. split; [|split]; intros H.
  - exact (chain_closed _ vs (@incl_refl _) (@incl_tran _) H).
  - exact (chain_closed _ vs (fun l => Permutation_submultiset l l (Permutation_refl l)) (@submultiset_trans _) H).
  - exact (chain_closed _ vs sublist_refl (fun a b c Hab Hbc => sublist_trans b c Hbc a Hab) H).
Qed.
Print Assumptions C11_then_chains_select.

(* which verb is in which class (subsequence => sub-multiset => membership); bootstrap draws with replacement and is in
   the membership class only (C11_selects_only); head -n -k -g: membership and per-group content (C11_head_negative_per_group) *)
Theorem C11_selecting_verb_classes :
  ((forall k g, 0 <= k -> selects_in_order (head k g))
   /\ (forall k, 0 < k -> selects_in_order (head (- k) None))
   /\ (forall n fs, selects_in_order (tail n true fs))
   /\ (forall n b e fs, selects_in_order (decimate n b e fs))
   /\ (forall isf inv vs, selects_in_order (filter_verb isf inv vs))
   /\ (forall mt i v, selects_in_order (grep mt i v))
   /\ (forall mode names mt, selects_in_order (having_fields mode names mt))
   /\ selects_in_order uniq_a /\ selects_in_order skip_trivial /\ selects_in_order nothing)
  /\ ((forall n plus fs, selects_submultiset (tail n plus fs))
      /\ selects_submultiset tac
      /\ (forall us, selects_submultiset (shuffle us))
      /\ (forall fs, selects_submultiset (group_by fs))
      /\ selects_submultiset group_like
      /\ (forall k fs ds, 0 <= k -> forall l, (List.length l <= List.length ds)%nat -> exists rest, Permutation l (sample k fs ds l ++ rest)))
  /\ (forall f, selects_in_order f -> selects_submultiset f) /\ (forall f, selects_submultiset f -> selects f).
Proof.
  split; [|split; [|exact (conj in_order_submultiset submultiset_selects)]]; repeat split; intros.
  - intros l. now apply head_nonneg_sublist.
  - intros l. rewrite head_negative_ungrouped by assumption. apply sublist_firstn.
  - intros l. apply tail_plus_sublist.
  - intros l. apply decimate_sublist.
  - intros l. unfold filter_verb. destruct (filter_run isf inv vs l) eqn:E; [eapply filter_run_sublist; eauto|apply sublist_nil].
  - intros l. apply sublist_filter.
  - intros l. apply sublist_filter.
  - intros l. apply uniq_a_sublist.
  - intros l. apply sublist_filter.
  - intros l. apply sublist_nil.
  - destruct plus; [apply in_order_submultiset; intros l; apply tail_plus_sublist|intros l; apply tail_lastn_submultiset].
  - intros l. apply Permutation_submultiset, tac_permutation.
  - intros l. apply Permutation_submultiset, shuffle_permutation.
  - intros l. apply group_by_submultiset.
  - intros l. apply Permutation_submultiset, group_like_permutation.
  - apply (proj2 (proj2 C11_checkers_correct) k fs), sample_passes_checker; assumption.
Qed.
Print Assumptions C11_selecting_verb_classes.

(* ---- grep: for EVERY matcher (the regex library is a parameter) grep and grep -v split the input, each record on
   exactly one side, order kept; counts add up.  Same for having-fields --any-matching / --none-matching. *)
Theorem C11_grep_partition : forall (mt : bytes -> bool) v l,
  split3 l (grep mt false v l) (grep mt true v l)
  /\ (List.length (grep mt false v l) + List.length (grep mt true v l) = List.length l)%nat
  /\ Permutation (grep mt false v l ++ grep mt true v l) l
  /\ (forall names, split3 l (having_fields HAnyMatching names mt l) (having_fields HNoneMatching names mt l)).
Proof.
  intros mt v l.
  assert (S : split3 l (grep mt false v l) (grep mt true v l))
    by apply (filter_split3 (fun r => mt (if v then nidx_string r else dkvp_string r))).
  pose proof (split3_perm _ _ _ S) as P. repeat split; [exact S| |exact P|].
  - rewrite <- app_length. now apply Permutation_length.
  - intros names. apply (filter_split3 (fun r => existsb mt (keys r))).
Qed.
Print Assumptions C11_grep_partition.

(* ---- uniq -g / -x (without counts): the projection on the grouping fields of the FIRST record of each group, in
   input order (the records `head -n 1 -g` keeps); without -x the grouping key is the one of head/tail/group-by *)
Theorem C11_uniq_g_first_of_each_group : forall inv fs l,
  exists sel, uniq_g inv fs l = map (uniq_proj inv fs) sel
              /\ sublist sel l
              /\ (forall r, In r sel -> has_key (uniq_key inv fs) r = true)
              /\ (forall g, group_of (uniq_key inv fs) g sel = firstn 1 (group_of (uniq_key inv fs) g l)).
Proof.
  intros inv fs l. exists (grun (uniq_key inv fs) false fstep [] l).
  split; [now apply uniq_g_run_eq|]. split; [apply passing_sublist, fstep_passes|].
  split; [apply passing_has_key, fstep_passes|].
  intros g. rewrite (passing_group _ _ _ fstep_passes).
  destruct (group_of (uniq_key inv fs) g l) as [|x xs]; [reflexivity|]. cbn. f_equal.
  induction xs as [|y xs IH]; [reflexivity|exact IH].
Qed.
Print Assumptions C11_uniq_g_first_of_each_group.

(* ---- uniq -c / count-distinct: one record per group in first-appearance order = the projection of the group's first
   record plus ONLY the count field (its size); the counts add up to the number of records having the grouping fields;
   uniq -n / count-distinct -n print the number of groups *)
Theorem C11_uniq_counts : forall inv fs oname l,
  let keyf := uniq_key inv fs in
  uniq_c inv fs oname l
  = map (fun g => let xs := group_of keyf g l in put oname (dec_of_Z (Z.of_nat (List.length xs))) (uniq_proj inv fs (hd [] xs)))
        (dkeys keyf l)
  /\ fold_right (fun g acc => (List.length (group_of keyf g l) + acc)%nat) O (dkeys keyf l) = List.length (filter (has_key keyf) l)
  /\ uniq_n inv fs l = [[(B "count", dec_of_Z (Z.of_nat (List.length (dkeys keyf l))))]].
Proof.
  intros inv fs oname l. split; [|split; [apply group_of_sizes_sum|]].
  - unfold uniq_c. rewrite uniq_c_run_spec, map_map. reflexivity.
  - unfold uniq_n. now rewrite uniq_c_run_spec, map_length.
Qed.
Print Assumptions C11_uniq_counts.

(* ---- nothing invented by the projection: every field it shows is a field of the record, with its value; with -x no
   excluded field is shown, without -x only named fields *)
Theorem C11_uniq_projection_only_selects_fields : forall inv fs r kv, In kv (uniq_proj inv fs r) ->
  get (fst kv) r = Some (snd kv) /\ In (fst kv) (uniq_names inv fs r) /\ (inv = true -> mem (fst kv) fs = false).
Proof.
  intros inv fs r kv H. split; [exact (uniq_proj_fields inv fs r kv H)|split; [exact (uniq_proj_names inv fs r kv H)|]].
  intros ->. exact (uniq_x_excludes fs r kv H).
Qed.
Print Assumptions C11_uniq_projection_only_selects_fields.

(* ---- uniq / count-distinct -x: records in one group have the same remaining
   field NAMES (names non-empty, without ',' and ';'), and the same remaining sub-record when no value has a comma;
   the key of the values alone ([uniq_key_unqualified]) merges x=3 with y=3 (next theorem) *)
Theorem C11_uniq_x_groups_by_names_and_values : forall fs r1 r2 k,
  Forall plain_name (keys_except fs r1) -> Forall plain_name (keys_except fs r2) ->
  uniq_key true fs r1 = Some k -> uniq_key true fs r2 = Some k ->
  keys_except fs r1 = keys_except fs r2
  /\ ((forall v, In v (values r1) -> comma_free v) -> (forall v, In v (values r2) -> comma_free v) ->
      uniq_proj true fs r1 = uniq_proj true fs r2).
Proof. exact uniq_x_key_faithful. Qed.
Print Assumptions C11_uniq_x_groups_by_names_and_values.

Theorem C11_uniq_x_unqualified_key_merged_names_refuted :
  exists fs r1 r2, keys_except fs r1 <> keys_except fs r2
                   /\ uniq_key_unqualified true fs r1 = uniq_key_unqualified true fs r2
                   /\ uniq_key true fs r1 <> uniq_key true fs r2.
Proof.
  exists [B "a"], [(B "a", B "1"); (B "x", B "3")], [(B "a", B "2"); (B "y", B "3")].
  split; [vm_compute; discriminate|]. split; [reflexivity|vm_compute; discriminate].
Qed.
Print Assumptions C11_uniq_x_unqualified_key_merged_names_refuted.

(* ---- uniq -a -c: the records of uniq -a, each with ONLY its number of occurrences prepended; uniq -a -n their number *)
Theorem C11_uniq_a_counts : forall oname l,
  uniq_a_c oname l = map (fun r => prepend oname (dec_of_Z (occurrences r l)) r) (uniq_a l)
  /\ uniq_a_n oname l = [[(oname, dec_of_Z (Z.of_nat (List.length (uniq_a l))))]].
Proof.
  intros oname l. split.
  - unfold uniq_a_c. rewrite (rget_lookup (uniq_a_counts l)) by (rewrite uniq_a_counts_fst; apply uniq_a_run_spec).
    rewrite uniq_a_counts_fst, map_map. apply map_ext. intros r. cbn [fst snd].
    unfold uniq_a_counts. rewrite uniq_a_counts_rget. reflexivity.
  - unfold uniq_a_n. rewrite <- uniq_a_counts_fst, map_length. reflexivity.
Qed.
Print Assumptions C11_uniq_a_counts.

Example C11_nonvacuous_uniq :
  uniq_g false [B "a"] ex_stream = [[(B "a", B "pan")]; [(B "a", B "eks")]]
  /\ uniq_c false [B "a"] (B "count") ex_stream = [[(B "a", B "pan"); (B "count", B "3")]; [(B "a", B "eks"); (B "count", B "2")]]
  /\ uniq_n true [B "b"] ex_stream = [[(B "count", B "3")]]
  /\ uniq_g true [B "b"] ex_stream = [[(B "a", B "pan")]; [(B "a", B "eks")]; []]
  /\ uniq_a_c (B "n") (ex_stream ++ ex_stream) = map (prepend (B "n") (B "2")) ex_stream
  /\ Forall plain_name (keys_except [B "b"] (nth 0 ex_stream []))
  /\ chain [head 2 (Some [B "a"]); tac; grep (substr_match false (B "pan")) false false] ex_stream = [nth 3 ex_stream []; nth 0 ex_stream []]
  /\ grep (substr_match false (B "a=pan,")) true false ex_stream = [nth 1 ex_stream []; nth 2 ex_stream []; nth 4 ex_stream []].
Proof.
  repeat split; try (vm_compute; reflexivity).
  vm_compute. repeat constructor; try discriminate; intros H; cbn in H; intuition discriminate.
Qed.
