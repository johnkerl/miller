(* C06 proofs.  Specification-side lexical grammar [classify], scanner = [classify] ([scan_classify]), the -S/-A/non-numeric lemmas and extensionality in the digit tables ([scan_ext], [infer_ext]). *)
From Miller Require Import Base.Bytes C06.Model.
From Miller Require Import Base.ListFacts.
Open Scope char_scope.

(* ---------- the documented grammar, as an independent classifier ---------- *)
Definition nonempty (s : bytes) : bool := match s with [] => false | _ => true end.
Definition pref2 (a b1 b2 : ascii) (s : bytes) : bool :=
  match s with c0 :: c1 :: _ => eqc c0 a && (eqc c1 b1 || eqc c1 b2) | _ => false end.
Definition is_dot (s : bytes) : bool := match s with [c] => eqc c "." | _ => false end.

(* [signed]: a sign was stripped.  r: the remainder. *)
Definition classify_pos (signed : bool) (r : bytes) : scantype :=
  match r with
  | [] => SString
  | c0 :: t =>
      if negb (spec_dec c0 || eqc c0 ".") then SString
      else if pref2 "0" "x" "X" r then (if nonempty (skipn 2 r) && forallb spec_hex (skipn 2 r) then SHexInt else SString)
      else if pref2 "0" "o" "O" r then (if nonempty (skipn 2 r) && forallb spec_oct (skipn 2 r) then SOctInt else SString)
      else if pref2 "0" "b" "B" r then (if nonempty (skipn 2 r) && forallb is_bin (skipn 2 r) then SBinInt else SString)
      else if eqc c0 "0" && nonempty t && forallb spec_oct t then SLzOctInt
      else if eqc c0 "0" && nonempty t && forallb spec_dec t then SLzDecInt
      else if forallb spec_dec r then SDecInt
      else if forallb spec_flt r && negb (negb signed && is_dot r) then SMaybeFloat
      else SString
  end.

Definition classify (s : bytes) : scantype :=
  match s with
  | [] => SString
  | c0 :: t => if eqc c0 "-" || eqc c0 "+" then classify_pos true t else classify_pos false s
  end.

Notation sscan := (scan spec_dec spec_oct spec_hex spec_flt).
Notation sscan_pos := (scan_pos spec_dec spec_oct spec_hex spec_flt).

(* ---------- single bytes ---------- *)
Lemma eqc_eq c d : eqc c d = true -> c = d.
Proof. apply Ascii.eqb_eq. Qed.

(* a boolean predicate holds of all 256 bytes when it evaluates to true on each: one evaluation, no case tree *)
Definition allb (q : bool -> bool) : bool := q false && q true.
Definition all_ascii (p : ascii -> bool) : bool :=
  allb (fun b0 => allb (fun b1 => allb (fun b2 => allb (fun b3 => allb (fun b4 => allb (fun b5 => allb (fun b6 => allb (fun b7 =>
    p (Ascii b0 b1 b2 b3 b4 b5 b6 b7))))))))).

Lemma allb_spec q : allb q = true -> forall b, q b = true.
Proof. unfold allb. rewrite andb_true_iff. intros [H0 H1] []; assumption. Qed.

Lemma all_ascii_spec p : all_ascii p = true -> forall c, p c = true.
Proof.
  intros H [b0 b1 b2 b3 b4 b5 b6 b7].
  exact (allb_spec _ (allb_spec _ (allb_spec _ (allb_spec _ (allb_spec _ (allb_spec _ (allb_spec _ (allb_spec _ H b0) b1) b2) b3) b4) b5) b6) b7).
Qed.

Lemma bytes_imp (p q : ascii -> bool) :
  all_ascii (fun c => implb (p c) (q c)) = true -> forall c, p c = true -> q c = true.
Proof. intros H c Hp. pose proof (all_ascii_spec _ H c) as Hc. cbv beta in Hc. rewrite Hp in Hc. exact Hc. Qed.

Lemma bytes_eq (p q : ascii -> bool) :
  all_ascii (fun c => Bool.eqb (p c) (q c)) = true -> forall c, p c = q c.
Proof. intros H c. apply eqb_prop, (all_ascii_spec _ H c). Qed.

(* a class that does not contain a given byte: members differ from it *)
Lemma eqc_outside (p : ascii -> bool) a c : p a = false -> p c = true -> eqc c a = false.
Proof. intros Ha Hc. destruct (eqc c a) eqn:E; [apply eqc_eq in E; congruence|reflexivity]. Qed.

Lemma eqc2_cases c a b : eqc c a || eqc c b = true -> c = a \/ c = b.
Proof. intros H. apply orb_true_iff in H as [H|H]; apply eqc_eq in H; auto. Qed.

Lemma oct_dec : forall c, spec_oct c = true -> spec_dec c = true.   Proof. apply bytes_imp. vm_compute. reflexivity. Qed.
Lemma dec_flt : forall c, spec_dec c = true -> spec_flt c = true.   Proof. apply bytes_imp. vm_compute. reflexivity. Qed.
Lemma dot_not_dec c : eqc c "." = true -> spec_dec c = false.       Proof. intros H. apply eqc_eq in H as ->. reflexivity. Qed.
Lemma dot_flt c : eqc c "." = true -> spec_flt c = true.            Proof. intros H. apply eqc_eq in H as ->. reflexivity. Qed.
Lemma zero_dec c : eqc c "0" = true -> spec_dec c = true.           Proof. intros H. apply eqc_eq in H as ->. reflexivity. Qed.
Lemma sign_not_dec c : eqc c "-" || eqc c "+" = true -> spec_dec c || eqc c "." = false.
Proof. intros H. destruct (eqc2_cases _ _ _ H) as [-> | ->]; reflexivity. Qed.
Lemma range_is_dec c : in_range "0" "9" c = spec_dec c.               Proof. reflexivity. Qed.
Lemma xob_excl c : (eqc c "x" || eqc c "X" = true -> eqc c "o" || eqc c "O" = false /\ eqc c "b" || eqc c "B" = false)
                /\ (eqc c "o" || eqc c "O" = true -> eqc c "b" || eqc c "B" = false).
Proof. split; intros H; destruct (eqc2_cases _ _ _ H) as [-> | ->]; repeat split. Qed.

(* the letters of the 0x 0o 0b prefixes are not float characters (so not digits either) *)
Definition prefix_letter (l u : ascii) : Prop := forall c, eqc c l || eqc c u = true -> spec_flt c = false.
Lemma x_not_flt : prefix_letter "x" "X".  Proof. intros c H. destruct (eqc2_cases _ _ _ H) as [-> | ->]; reflexivity. Qed.
Lemma o_not_flt : prefix_letter "o" "O".  Proof. intros c H. destruct (eqc2_cases _ _ _ H) as [-> | ->]; reflexivity. Qed.
Lemma b_not_flt : prefix_letter "b" "B".  Proof. intros c H. destruct (eqc2_cases _ _ _ H) as [-> | ->]; reflexivity. Qed.

Lemma forallb_oct_dec s : forallb spec_oct s = true -> forallb spec_dec s = true.
Proof. apply forallb_impl, oct_dec. Qed.
Lemma forallb_dec_flt s : forallb spec_dec s = true -> forallb spec_flt s = true.
Proof. apply forallb_impl, dec_flt. Qed.

(* ---------- the scanner decides classify ---------- *)
Lemma lz_loop_spec s ao ad :
  lz_loop spec_dec spec_oct s ao ad = (ao && forallb spec_oct s, ad && forallb spec_dec s).
Proof.
  revert ao ad; induction s as [|c s IH]; intros ao ad; cbn [lz_loop forallb].
  - now rewrite !andb_true_r.
  - destruct (spec_dec c) eqn:Hd.
    + rewrite IH. destruct (spec_oct c); cbn; [reflexivity|]. now rewrite !andb_false_r.
    + assert (spec_oct c = false) as ->.
      { destruct (spec_oct c) eqn:Ho; [|reflexivity]. apply oct_dec in Ho. congruence. }
      cbn. now rewrite !andb_false_r.
Qed.

(* a float character after a leading 0 rules the three prefixes out *)
Lemma pref2_flt l u r : prefix_letter l u -> forallb spec_flt r = true -> pref2 "0" l u r = false.
Proof.
  intros Hlu Hf. destruct r as [|c0 [|c1 t]]; [reflexivity|reflexivity|]. cbn [pref2].
  destruct (eqc c1 l || eqc c1 u) eqn:E; [|apply andb_false_r].
  apply Hlu in E. cbn [forallb] in Hf. rewrite E, andb_false_r in Hf. discriminate.
Qed.

(* classify_pos on a string of float characters that starts with a digit or a point: no prefix, the rest of the cascade *)
Lemma classify_pos_flt signed c0 t :
  forallb spec_flt (c0 :: t) = true -> spec_dec c0 || eqc c0 "." = true ->
  classify_pos signed (c0 :: t) =
  if eqc c0 "0" && nonempty t && forallb spec_oct t then SLzOctInt
  else if eqc c0 "0" && nonempty t && forallb spec_dec t then SLzDecInt
  else if forallb spec_dec (c0 :: t) then SDecInt
  else if negb (negb signed && is_dot (c0 :: t)) then SMaybeFloat else SString.
Proof.
  intros Hf H0. cbn [classify_pos]. rewrite H0. cbn [negb].
  rewrite (pref2_flt _ _ _ x_not_flt Hf), (pref2_flt _ _ _ o_not_flt Hf), (pref2_flt _ _ _ b_not_flt Hf), Hf. reflexivity.
Qed.

(* the two-way choice both the scanner and the grammar end with *)
Lemma dec_or_float_tail signed r : negb signed && is_dot r = false ->
  scan_dec_or_float_or_string spec_dec spec_flt r =
  if forallb spec_dec r then SDecInt else if forallb spec_flt r && negb (negb signed && is_dot r) then SMaybeFloat else SString.
Proof.
  intros ->. unfold scan_dec_or_float_or_string. rewrite andb_true_r.
  destruct (forallb spec_dec r) eqn:Hd; [rewrite (forallb_dec_flt _ Hd)|]; reflexivity.
Qed.

Lemma scan_pos_classify signed r :
  (signed = false -> is_dot r = false) ->
  sscan_pos r = classify_pos signed r.
Proof.
  intros Hdot. assert (Hdot' : negb signed && is_dot r = false) by (destruct signed; [reflexivity|exact (Hdot eq_refl)]).
  destruct r as [|i0 rest]; [reflexivity|]. cbn [scan_pos].
  destruct (eqc i0 ".") eqn:Hp.
  - (* leading point: not a digit, so not "0" and the string is not all digits *)
    unfold scan_float_or_string. destruct (forallb spec_flt (i0 :: rest)) eqn:Hf.
    + rewrite (classify_pos_flt signed i0 rest Hf) by (rewrite Hp; apply orb_true_r).
      apply eqc_eq in Hp as ->. cbn [eqc Ascii.eqb Bool.eqb andb forallb spec_dec in_range cle]. rewrite Hdot'. reflexivity.
    + cbn [classify_pos]. rewrite Hp, orb_true_r. apply eqc_eq in Hp as ->. cbn [negb].
      destruct rest as [|i1 rest]; cbn [pref2 eqc Ascii.eqb Bool.eqb andb]; rewrite ?Hf; reflexivity.
  - destruct (spec_dec i0) eqn:Hd; [|cbn [classify_pos]; rewrite Hd, Hp; reflexivity].
    destruct rest as [|i1 rest2].
    + cbn. rewrite Hd. destruct (eqc i0 "0"); reflexivity.
    + cbn [classify_pos]. rewrite Hd. cbn [orb negb pref2 skipn].
      destruct (eqc i0 "0") eqn:Hz; cbn [andb]; [|apply (dec_or_float_tail signed _ Hdot')].
      destruct (eqc i1 "x" || eqc i1 "X").
      { destruct rest2; [reflexivity|]. unfold scan_hex. destruct (forallb _ _); reflexivity. }
      destruct (eqc i1 "o" || eqc i1 "O").
      { destruct rest2; [reflexivity|]. unfold scan_oct. destruct (forallb _ _); reflexivity. }
      destruct (eqc i1 "b" || eqc i1 "B").
      { destruct rest2; [reflexivity|]. unfold scan_bin. destruct (forallb _ _); reflexivity. }
      rewrite lz_loop_spec. cbn [andb nonempty].
      destruct (forallb spec_oct (i1 :: rest2)); [reflexivity|].
      destruct (forallb spec_dec (i1 :: rest2)); [reflexivity|]. apply (dec_or_float_tail signed _ Hdot').
Qed.

Lemma scan_classify s : sscan s = classify s.
Proof.
  destruct s as [|i0 rest]; [reflexivity|].
  cbn [scan classify].
  destruct (eqc i0 "-") eqn:Hm; cbn [orb].
  { apply scan_pos_classify. discriminate. }
  destruct (eqc i0 "+") eqn:Hpl; cbn [orb].
  { apply scan_pos_classify. discriminate. }
  rewrite range_is_dec.
  destruct (spec_dec i0) eqn:Hd.
  { apply scan_pos_classify. intros _. destruct rest; cbn; [|reflexivity].
    destruct (eqc i0 ".") eqn:Hp; [|reflexivity]. apply dot_not_dec in Hp. congruence. }
  destruct (eqc i0 ".") eqn:Hp; [|cbn [classify_pos]; rewrite Hd, Hp; reflexivity].
  apply eqc_eq in Hp as ->. destruct rest as [|i1 rest]; [reflexivity|].
  (* ".xyz": the code calls scan_dec_or_float_or_string directly; a point is not a digit, so this is scan_pos's answer *)
  rewrite <- (scan_pos_classify false) by reflexivity. reflexivity.
Qed.

(* ---------- inference lemmas ---------- *)
Notation sinfer := (infer spec_dec spec_oct spec_hex spec_flt).
Open Scope Z_scope.

Lemma infer_S_never_numeric s : sinfer FS s = as_string s.
Proof. reflexivity. Qed.

Lemma infer_A_no_ints s n : sinfer FA s <> VInt n.
Proof. unfold infer. destruct (infer_normal _ _ _ _ _ s); discriminate. Qed.

Lemma infer_empty f : sinfer f [] = VEmpty.
Proof. destruct f; reflexivity. Qed.

(* ---------- what a lexical category says about the string ---------- *)
Definition pref_ok (l u : ascii) (dig : ascii -> bool) (r : bytes) : Prop :=
  exists c0 c1 d, r = c0 :: c1 :: d /\ eqc c0 "0" = true /\ eqc c1 l || eqc c1 u = true /\ d <> [] /\ forallb dig d = true.

Lemma nonempty_ne (d : bytes) : nonempty d = true -> d <> [].
Proof. destruct d; discriminate. Qed.

Lemma pref2_ok l u dig r :
  pref2 "0" l u r = true -> nonempty (skipn 2 r) && forallb dig (skipn 2 r) = true -> pref_ok l u dig r.
Proof.
  destruct r as [|c0 [|c1 d]]; try discriminate. cbn [pref2 skipn]. intros H1 H2.
  apply andb_true_iff in H1 as [Hz Hl]. apply andb_true_iff in H2 as [Hn Hd].
  exists c0, c1, d. repeat split; auto using nonempty_ne.
Qed.

Lemma classify_pos_inv signed r :
  match classify_pos signed r with
  | SString => True
  | SDecInt | SLzDecInt => nonempty r && forallb spec_dec r = true
  | SLzOctInt => nonempty r && forallb spec_dec r = true /\ forallb spec_oct r = true
  | SHexInt => pref_ok "x" "X" spec_hex r
  | SOctInt => pref_ok "o" "O" spec_oct r
  | SBinInt => pref_ok "b" "B" is_bin r
  | SMaybeFloat => forallb spec_flt r = true
  end.
Proof.
  destruct r as [|c0 t]; [exact I|]. cbn [classify_pos].
  destruct (negb (spec_dec c0 || eqc c0 ".")); [exact I|].
  destruct (pref2 "0" "x" "X" (c0 :: t)) eqn:Hx; [destruct (nonempty _ && _) eqn:Hh; [exact (pref2_ok _ _ _ _ Hx Hh)|exact I]|].
  destruct (pref2 "0" "o" "O" (c0 :: t)) eqn:Ho; [destruct (nonempty _ && _) eqn:Hh; [exact (pref2_ok _ _ _ _ Ho Hh)|exact I]|].
  destruct (pref2 "0" "b" "B" (c0 :: t)) eqn:Hb; [destruct (nonempty _ && _) eqn:Hh; [exact (pref2_ok _ _ _ _ Hb Hh)|exact I]|].
  destruct (eqc c0 "0" && nonempty t && forallb spec_oct t) eqn:H1.
  { apply andb_true_iff in H1 as [H1 H2]. apply andb_true_iff in H1 as [Hz _]. cbn [nonempty forallb andb].
    apply eqc_eq in Hz as ->. rewrite H2, (forallb_oct_dec _ H2). split; reflexivity. }
  destruct (eqc c0 "0" && nonempty t && forallb spec_dec t) eqn:H2.
  { apply andb_true_iff in H2 as [H2 H3]. apply andb_true_iff in H2 as [Hz _]. cbn [nonempty forallb andb].
    apply eqc_eq in Hz as ->. exact H3. }
  destruct (forallb spec_dec (c0 :: t)); [reflexivity|].
  destruct (forallb spec_flt (c0 :: t)); [|exact I]. destruct (negb _); [reflexivity|exact I].
Qed.

(* every byte of a string that scans as a number is in the numeric alphabet *)
Definition numeric_char (c : ascii) : bool :=
  spec_hex c || spec_flt c || eqc c "x" || eqc c "X" || eqc c "o" || eqc c "O" || eqc c "b" || eqc c "B".

Lemma hex_numeric : forall c, spec_hex c = true -> numeric_char c = true.   Proof. apply bytes_imp. vm_compute. reflexivity. Qed.
Lemma flt_numeric : forall c, spec_flt c = true -> numeric_char c = true.   Proof. apply bytes_imp. vm_compute. reflexivity. Qed.
Lemma oct_numeric : forall c, spec_oct c = true -> numeric_char c = true.   Proof. apply bytes_imp. vm_compute. reflexivity. Qed.
Lemma bin_numeric : forall c, is_bin c = true -> numeric_char c = true.     Proof. apply bytes_imp. vm_compute. reflexivity. Qed.
Lemma letter_numeric l u : numeric_char l = true -> numeric_char u = true ->
  forall c, eqc c l || eqc c u = true -> numeric_char c = true.
Proof. intros Hl Hu c H. destruct (eqc2_cases _ _ _ H) as [-> | ->]; assumption. Qed.

Lemma pref_ok_numeric l u dig r : pref_ok l u dig r ->
  numeric_char l = true -> numeric_char u = true -> (forall c, dig c = true -> numeric_char c = true) ->
  forallb numeric_char r = true.
Proof.
  intros (c0 & c1 & d & -> & Hz & Hl & _ & Hd) Nl Nu Nd. cbn [forallb].
  apply eqc_eq in Hz as ->. rewrite (letter_numeric l u Nl Nu c1 Hl), (forallb_impl _ _ d Nd Hd). reflexivity.
Qed.

Lemma classify_pos_numeric signed r :
  classify_pos signed r <> SString -> forallb numeric_char r = true.
Proof.
  intros Hk. pose proof (classify_pos_inv signed r) as H. destruct (classify_pos signed r); [now elim Hk| | | | | | |].
  - apply andb_true_iff in H as [_ H]. exact (forallb_impl _ _ r flt_numeric (forallb_dec_flt _ H)).
  - apply andb_true_iff in H as [_ H]. exact (forallb_impl _ _ r flt_numeric (forallb_dec_flt _ H)).
  - exact (pref_ok_numeric _ _ _ r H eq_refl eq_refl oct_numeric).
  - exact (forallb_impl _ _ r oct_numeric (proj2 H)).
  - exact (pref_ok_numeric _ _ _ r H eq_refl eq_refl hex_numeric).
  - exact (pref_ok_numeric _ _ _ r H eq_refl eq_refl bin_numeric).
  - exact (forallb_impl _ _ r flt_numeric H).
Qed.

Lemma classify_numeric s : classify s <> SString -> forallb numeric_char s = true.
Proof.
  destruct s as [|c0 t]; [intros H; now elim H|]. cbn [classify].
  destruct (eqc c0 "-" || eqc c0 "+") eqn:Hs; [|apply classify_pos_numeric].
  intros H. cbn [forallb]. rewrite (letter_numeric "-" "+" eq_refl eq_refl c0 Hs). exact (classify_pos_numeric true t H).
Qed.

Lemma non_numeric_scans_string s c :
  In c s -> numeric_char c = false -> sscan s = SString.
Proof.
  intros Hin Hc. rewrite scan_classify.
  destruct (classify s) eqn:Hk; try reflexivity;
    (assert (Hn : forallb numeric_char s = true) by (apply classify_numeric; rewrite Hk; discriminate);
     rewrite forallb_forall in Hn; specialize (Hn c Hin); congruence).
Qed.

Lemma non_numeric_is_string f s c :
  In c s -> numeric_char c = false -> sinfer f s = VString.
Proof.
  intros Hin Hc. pose proof (non_numeric_scans_string s c Hin Hc) as Hs.
  assert (Has : as_string s = VString) by (destruct s; [inversion Hin|reflexivity]).
  destruct f; cbn [infer]; unfold infer_normal; rewrite ?Hs, ?Has; auto.
Qed.

(* ---------- decimal digit strings ---------- *)
Definition dec_val (d : bytes) : Z := fold_left (fun acc c => acc * 10 + (Z.of_N (code c) - 48)) d 0.

Definition signed_dec_ok (d : bytes) : bool :=
  nonempty d && forallb spec_dec d && (negb (eqc (hd "0"%char d) "0") || (Nat.eqb (List.length d) 1)).

Lemma classify_pos_dec signed d : signed_dec_ok d = true -> classify_pos signed d = SDecInt.
Proof.
  unfold signed_dec_ok. rewrite !andb_true_iff. intros [[Hne Hall] Hlz].
  destruct d as [|c0 t]; [discriminate|].
  rewrite (classify_pos_flt signed c0 t (forallb_dec_flt _ Hall)), Hall
    by (cbn [forallb] in Hall; apply andb_true_iff in Hall as [-> _]; reflexivity).
  cbn [hd List.length] in Hlz. destruct (eqc c0 "0"); [|reflexivity]. destruct t; [reflexivity|discriminate].
Qed.

Lemma classify_pos_lz signed t :
  nonempty t = true -> forallb spec_dec t = true ->
  classify_pos signed ("0"%char :: t) = if forallb spec_oct t then SLzOctInt else SLzDecInt.
Proof.
  intros Hne Hall. rewrite classify_pos_flt; [|cbn [forallb]; rewrite (forallb_dec_flt _ Hall)|]; try reflexivity.
  cbn [eqc Ascii.eqb Bool.eqb andb]. rewrite Hne, Hall. destruct (forallb spec_oct t); reflexivity.
Qed.

Lemma is_digit_spec c : is_digit c = spec_dec c.  Proof. reflexivity. Qed.

(* the float a too-large decimal integer becomes: the correctly rounded value, or a string beyond the double range *)
Definition dec_float (neg : bool) (d : bytes) : ival :=
  match round_decimal neg (dec_val d) 0 with Some b => VFloat b | None => VString end.

(* "integers that do not fit in 64 bits become floats": witness that the float is the correctly rounded one *)
Lemma int_overflow_is_float_witness :
  let d := B "9223372036854775808" in
  signed_dec_ok d = true /\ in64 (dec_val d) = false /\ sinfer FDefault d = VFloat 4890909195324358656
  /\ sinfer FDefault (B "-18446744073709551617") = VFloat 14118784831806504960.
Proof. vm_compute. repeat split; reflexivity. Qed.

(* ---------- extensionality in the table predicates (ties the regenerated tables to the theorems) ---------- *)
Section Ext.
  Variables d o h f d' o' h' f' : ascii -> bool.
  Hypothesis Hd : forall c, d c = d' c.
  Hypothesis Ho : forall c, o c = o' c.
  Hypothesis Hh : forall c, h c = h' c.
  Hypothesis Hf : forall c, f c = f' c.

  Lemma forallb_ext' (p q : ascii -> bool) s : (forall c, p c = q c) -> forallb p s = forallb q s.
  Proof. intros H; induction s as [|c s IH]; cbn; [reflexivity|]. now rewrite H, IH. Qed.

  Lemma lz_loop_ext s a b : lz_loop d o s a b = lz_loop d' o' s a b.
  Proof. revert a b; induction s as [|c s IH]; intros a b; cbn; [reflexivity|]. rewrite Hd, Ho. destruct (d' c); [apply IH|reflexivity]. Qed.

  Lemma scan_pos_ext s : scan_pos d o h f s = scan_pos d' o' h' f' s.
  Proof.
    unfold scan_pos, scan_float_or_string, scan_dec_or_float_or_string, scan_hex, scan_oct.
    destruct s as [|i0 rest]; [reflexivity|].
    rewrite (forallb_ext' f f' _ Hf), (forallb_ext' d d' _ Hd), Hd.
    destruct rest as [|i1 rest2]; [reflexivity|].
    rewrite lz_loop_ext, (forallb_ext' h h' _ Hh), (forallb_ext' o o' _ Ho). reflexivity.
  Qed.

  Lemma scan_ext s : scan d o h f s = scan d' o' h' f' s.
  Proof.
    unfold scan. destruct s as [|i0 rest]; [reflexivity|].
    rewrite !scan_pos_ext. unfold scan_dec_or_float_or_string.
    rewrite (forallb_ext' f f' _ Hf), (forallb_ext' d d' _ Hd). reflexivity.
  Qed.

  Lemma infer_ext fl s : infer d o h f fl s = infer d' o' h' f' fl s.
  Proof. unfold infer, infer_normal. now rewrite scan_ext. Qed.
End Ext.
