(* C06: the float reader [parse_float] of the model equals the float grammar of Grammar.v ([parse_float_spec], [parse_float_syntax]), for ALL byte strings. *)
From Miller Require Import Base.Bytes C06.Model C06.Proofs C06.Grammar.
Require Import Lia.
Open Scope char_scope.

(* ---------- span_dec ---------- *)
Definition starts_nondigit (b : bytes) : Prop := match b with c :: _ => spec_dec c = false | [] => True end.

Lemma span_dec_spec s :
  s = fst (span_dec s) ++ snd (span_dec s) /\ forallb spec_dec (fst (span_dec s)) = true /\ starts_nondigit (snd (span_dec s)).
Proof.
  induction s as [|c s IH]; cbn [span_dec]; [repeat split|].
  destruct (spec_dec c) eqn:Hc.
  - destruct (span_dec s) as [a b]. cbn [fst snd] in *. destruct IH as (H1 & H2 & H3).
    repeat split; [cbn; congruence | cbn; now rewrite Hc, H2 | exact H3].
  - cbn. repeat split. exact Hc.
Qed.

Lemma span_dec_app a b : forallb spec_dec a = true -> starts_nondigit b -> span_dec (a ++ b) = (a, b).
Proof.
  induction a as [|c a IH]; cbn [app forallb]; intros Ha Hb.
  - destruct b as [|c b]; [reflexivity|]. cbn in *. now rewrite Hb.
  - apply andb_true_iff in Ha as [Hc Ha]. cbn [span_dec]. rewrite Hc, (IH Ha Hb). reflexivity.
Qed.

Definition spec_tail (ip fp r3 : bytes) : option fparts :=
  match r3 with
  | [] => Some (ip, fp, None)
  | c :: t => if eqc c "e" || eqc c "E" then
                let '(sg, ed) := split_sign t in
                if digits1 ed then Some (ip, fp, Some (is_neg sg, ed)) else None
              else None
  end.

(* ---------- strconv's mantissa loop in terms of span_dec ---------- *)
Open Scope Z_scope.
Notation dfold := (fold_left (fun a c => a * 10 + (Z.of_N (code c) - 48))).
Notation zlen l := (Z.of_nat (List.length l)).

(* a run of digits is accumulated, and counted as fraction digits once the point has been seen *)
Lemma read_mant_app a b : forallb spec_dec a = true -> forall m after sawdot sawdig nd,
  read_mant (a ++ b) m after sawdot sawdig nd =
  read_mant b (dfold a m) (if sawdot then after + zlen a else after) sawdot (sawdig || nonempty a) (nd + zlen a).
Proof.
  induction a as [|c a IH]; cbn [app forallb]; intros Ha m after sawdot sawdig nd.
  - cbn. rewrite orb_false_r, !Z.add_0_r. destruct sawdot; reflexivity.
  - apply andb_true_iff in Ha as [Hc Ha]. cbn [read_mant]. change (is_digit c) with (spec_dec c). rewrite Hc, (IH Ha).
    cbn [fold_left nonempty List.length]. rewrite orb_true_r, Nat2Z.inj_succ. cbn [orb]. f_equal; [destruct sawdot|]; lia.
Qed.

Lemma read_mant_stop b m after sawdig nd : starts_nondigit b -> read_mant b m after true sawdig nd = (m, after, sawdig, nd, b).
Proof.
  destruct b as [|c t]; [reflexivity|]. cbn [starts_nondigit read_mant]. change (is_digit c) with (spec_dec c).
  intros ->. destruct (eqc c "."); reflexivity.
Qed.

Lemma float_parts_tail r :
  float_parts r =
  let ip := fst (span_dec r) in
  let r1 := snd (span_dec r) in
  let fp := match r1 with c :: t => if eqc c "." then fst (span_dec t) else [] | [] => [] end in
  let r3 := match r1 with c :: t => if eqc c "." then snd (span_dec t) else r1 | [] => r1 end in
  if nonempty ip || nonempty fp then spec_tail ip fp r3 else None.
Proof.
  unfold float_parts. destruct (span_dec r) as [ip r1]. cbn [fst snd].
  destruct r1 as [|c t]; [reflexivity|]. destruct (eqc c "."); [|reflexivity].
  destruct (span_dec t) as [fp r3]. reflexivity.
Qed.

(* the mantissa loop reads exactly the integer and fraction digits of float_parts *)
Lemma read_mant_parts r :
  let ip := fst (span_dec r) in
  let r1 := snd (span_dec r) in
  let fp := match r1 with c :: t => if eqc c "." then fst (span_dec t) else [] | [] => [] end in
  let r3 := match r1 with c :: t => if eqc c "." then snd (span_dec t) else r1 | [] => r1 end in
  exists nd, read_mant r 0 0 false false 0 = (dec_val (ip ++ fp), zlen fp, nonempty ip || nonempty fp, nd, r3).
Proof.
  destruct (span_dec_spec r) as (Hr & Hip & Hnd). destruct (span_dec r) as [ip r1]. cbn [fst snd] in *. subst r.
  rewrite (read_mant_app _ _ Hip). destruct r1 as [|c t].
  - eexists. rewrite app_nil_r, orb_false_r. reflexivity.
  - cbn [read_mant starts_nondigit] in *. change (is_digit c) with (spec_dec c). rewrite Hnd.
    destruct (eqc c "."); [|eexists; rewrite app_nil_r, orb_false_r; reflexivity].
    destruct (span_dec_spec t) as (Ht & Hfp & Hnd'). destruct (span_dec t) as [fp r3]. cbn [fst snd] in *. subst t.
    rewrite (read_mant_app _ _ Hfp), (read_mant_stop _ _ _ _ _ Hnd'). unfold dec_val. rewrite fold_left_app. eexists. reflexivity.
Qed.

(* ---------- the sign and the exponent ---------- *)
Lemma sign_match (t : bytes) :
  match t with
  | d :: u => if eqc d "-" then (true, u) else if eqc d "+" then (false, u) else (false, t)
  | [] => (false, t)
  end = (is_neg (fst (split_sign t)), snd (split_sign t)).
Proof.
  destruct t as [|d u]; [reflexivity|]. cbn [split_sign]. destruct (eqc d "-"); [reflexivity|]. destruct (eqc d "+"); reflexivity.
Qed.

Lemma read_digits_none ed : forall acc, forallb spec_dec ed = false -> read_digits ed acc = None.
Proof.
  induction ed as [|c ed IH]; intros acc; cbn [forallb read_digits]; [discriminate|].
  change (is_digit c) with (spec_dec c). destruct (spec_dec c); cbn [andb]; [apply IH|reflexivity].
Qed.
Lemma read_digits_some ed : forall acc : Z, forallb spec_dec ed = true -> exists e : Z, read_digits ed acc = Some e.
Proof.
  induction ed as [|c ed IH]; intros acc; cbn [forallb read_digits]; [eauto|].
  change (is_digit c) with (spec_dec c). destruct (spec_dec c); cbn [andb]; [apply IH|discriminate].
Qed.

Lemma exp_case (neg : bool) (M after : Z) (eneg : bool) (ed : bytes) :
  match ed return option (option Z) with
  | [] => None
  | _ => match read_digits ed 0 with
         | Some e => Some (round_decimal neg M ((if eneg then - e else e) - after))
         | None => None
         end
  end = if digits1 ed then Some (round_decimal neg M ((if eneg then - exp_val ed else exp_val ed) - after)) else None.
Proof.
  destruct ed as [|c ed]; [reflexivity|]. unfold digits1. cbn [nonempty andb].
  destruct (forallb spec_dec (c :: ed)) eqn:H.
  - destruct (read_digits_some _ 0 H) as [e He]. unfold exp_val. now rewrite He.
  - now rewrite (read_digits_none _ 0 H).
Qed.

(* strconv.ParseFloat restricted to what reaches it = the documented float grammar, with the value of the literal *)
Definition spec_parse_float (s : bytes) : option (option Z) :=
  match float_parts (snd (split_sign s)) with
  | Some p => Some (float_value (is_neg (fst (split_sign s))) p)
  | None => None
  end.

Lemma parse_float_spec s : parse_float s = spec_parse_float s.
Proof.
  unfold parse_float, spec_parse_float. rewrite sign_match. destruct (split_sign s) as [sg r]. cbn [fst snd].
  rewrite float_parts_tail. destruct (read_mant_parts r) as [nd ->]. cbv zeta.
  set (ip := fst (span_dec r)). set (fp := match snd (span_dec r) with [] => [] | c :: t => _ end).
  set (r3 := match snd (span_dec r) with [] => snd (span_dec r) | c :: t => _ end). clearbody ip fp r3.
  destruct (nonempty ip || nonempty fp); cbn [negb]; [|reflexivity].
  destruct r3 as [|c t]; cbn [spec_tail].
  - unfold float_value. do 3 f_equal.
  - destruct (eqc c "e" || eqc c "E"); [|reflexivity]. rewrite sign_match. destruct (split_sign t) as [sg' ed]. cbn [fst snd].
    rewrite exp_case. destruct (digits1 ed); reflexivity.
Qed.

Lemma parse_float_syntax s : (parse_float s <> None) <-> float_syntax s = true.
Proof.
  rewrite parse_float_spec. unfold spec_parse_float, float_syntax.
  destruct (float_parts (snd (split_sign s))); split; intros H; try reflexivity; try discriminate; now elim H.
Qed.
