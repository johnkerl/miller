(* C06: the inferrer model equals the documented inference [doc_infer] for ALL byte strings and flags. *)
From Miller Require Import Base.Bytes C06.Model C06.Proofs C06.Grammar C06.GrammarProofs.
Require Import Lia.
Open Scope char_scope.

Notation sinfer := (infer spec_dec spec_oct spec_hex spec_flt).
Notation sscan := (scan spec_dec spec_oct spec_hex spec_flt).

(* ---------- shape facts from the lexical category ---------- *)
Definition signed_of (sg : option bool) : bool := match sg with None => false | _ => true end.

Lemma classify_split s : s <> [] ->
  classify s = classify_pos (signed_of (fst (split_sign s))) (snd (split_sign s)).
Proof.
  destruct s as [|c t]; [intros H; now elim H|]. intros _. cbn [classify split_sign].
  destruct (eqc c "-"); [reflexivity|]. destruct (eqc c "+"); reflexivity.
Qed.

(* ---------- strconv.ParseInt on what reaches it ---------- *)
Open Scope Z_scope.

Lemma parse_int_split base s :
  parse_int base s =
  match snd (split_sign s) with
  | [] => None
  | r => match digits_val base r 0 with
         | Some v => let n := sgn (is_neg (fst (split_sign s))) v in if in64 n then Some n else None
         | None => None
         end
  end.
Proof.
  destruct s as [|c t]; [reflexivity|]. unfold parse_int, split_sign.
  destruct (eqc c "-"); [destruct t; reflexivity|]. destruct (eqc c "+"); [destruct t; reflexivity|]. reflexivity.
Qed.

Definition dv (c : ascii) : Z := match digit_val c with Some v => v | None => 0 end.

(* c is a digit of the base *)
Definition digit_of (base : Z) (c : ascii) : bool :=
  match digit_val c with Some v => (0 <=? v) && (v <? base) | None => false end.

Lemma digit_of_spec base c : digit_of base c = true -> digit_val c = Some (dv c) /\ 0 <= dv c < base.
Proof. unfold digit_of, dv. destruct (digit_val c); [|discriminate]. rewrite andb_true_iff, Z.leb_le, Z.ltb_lt. auto. Qed.

Lemma digit_not_sign base c : digit_of base c = true -> eqc c "-" = false /\ eqc c "+" = false.
Proof. intros H. split; [exact (eqc_outside (digit_of base) "-" c eq_refl H)|exact (eqc_outside (digit_of base) "+" c eq_refl H)]. Qed.

Lemma oct_digit : forall c, spec_oct c = true -> digit_of 8 c = true.    Proof. apply bytes_imp. vm_compute. reflexivity. Qed.
Lemma bin_digit : forall c, is_bin c = true -> digit_of 2 c = true.      Proof. apply bytes_imp. vm_compute. reflexivity. Qed.
Lemma hex_digit : forall c, spec_hex c = true -> digit_of 16 c = true.   Proof. apply bytes_imp. vm_compute. reflexivity. Qed.
Lemma dec_digit : forall c, spec_dec c = true -> digit_of 10 c = true.   Proof. apply bytes_imp. vm_compute. reflexivity. Qed.

Lemma in64_nonneg u : 0 <= u -> in64 u = (u <? two63).
Proof. intros H. unfold in64. destruct (Z.leb_spec (- two63) u) as [|H1]; [reflexivity|]. cbv [two63] in H1. lia. Qed.

Lemma as_string_ne s : s <> [] -> as_string s = VString.
Proof. destruct s; [intros H; now elim H|reflexivity]. Qed.

Lemma strip_prefix_split s : s <> [] ->
  strip_prefix s = (is_neg (fst (split_sign s)), skipn 2 (snd (split_sign s))).
Proof.
  destruct s as [|c t]; [intros H; now elim H|]. intros _. cbn [strip_prefix split_sign].
  destruct (eqc c "-"); [reflexivity|]. destruct (eqc c "+"); reflexivity.
Qed.

Section Base.
  (* a base and the byte class of its digits: 2, 8, 10, 16 *)
  Variables (base : Z) (dig : ascii -> bool).
  Hypothesis base_pos : 0 < base.
  Hypothesis dig_spec : forall c, dig c = true -> digit_of base c = true.

  Notation bfold := (fold_left (fun a c => a * base + dv c)).

  Lemma digits_val_base d : forall acc, forallb dig d = true -> digits_val base d acc = Some (bfold d acc).
  Proof.
    induction d as [|c d IH]; intros acc; cbn [forallb digits_val fold_left]; [reflexivity|].
    rewrite andb_true_iff. intros [Hc Hd]. destruct (digit_of_spec base c (dig_spec c Hc)) as [-> Hr].
    destruct (Z.ltb_spec (dv c) base); [|lia]. apply IH, Hd.
  Qed.

  (* a string of n digits after acc denotes a value in [acc base^n, (acc + 1) base^n) *)
  Lemma fold_bounds d : forall acc, 0 <= acc -> forallb dig d = true ->
    acc * base ^ zlen d <= bfold d acc < (acc + 1) * base ^ zlen d.
  Proof.
    induction d as [|c d IH]; intros acc Ha; cbn [forallb fold_left List.length].
    - intros _. cbn. lia.
    - rewrite andb_true_iff. intros [Hc Hd]. destruct (digit_of_spec base c (dig_spec c Hc)) as [_ Hr].
      rewrite Nat2Z.inj_succ, Z.pow_succ_r by lia.
      assert (Hp : 0 < base ^ zlen d) by (apply Z.pow_pos_nonneg; lia).
      specialize (IH (acc * base + dv c) ltac:(nia) Hd). nia.
  Qed.

  Lemma parse_int_signed s :
    snd (split_sign s) <> [] -> forallb dig (snd (split_sign s)) = true ->
    parse_int base s =
    let v := sgn (is_neg (fst (split_sign s))) (base_val base (snd (split_sign s))) in if in64 v then Some v else None.
  Proof.
    intros Hne Hall. rewrite parse_int_split.
    destruct (snd (split_sign s)) as [|c t] eqn:E; [now elim Hne|].
    rewrite (digits_val_base _ 0 Hall). reflexivity.
  Qed.

  Lemma parse_int_unsigned d :
    d <> [] -> forallb dig d = true ->
    parse_int base d = if base_val base d <? two63 then Some (base_val base d) else None.
  Proof.
    intros Hne Hall.
    assert (Hsp : split_sign d = (None, d)).
    { destruct d as [|c t]; [now elim Hne|]. cbn [forallb] in Hall. apply andb_true_iff in Hall as [Hc _].
      destruct (digit_not_sign base c (dig_spec c Hc)) as [Hm Hp]. cbn [split_sign]. now rewrite Hm, Hp. }
    rewrite parse_int_signed; rewrite Hsp; cbn [fst snd]; auto.
    cbn [is_neg sgn]. cbv zeta. rewrite in64_nonneg; [reflexivity|].
    pose proof (fold_bounds d 0 ltac:(lia) Hall) as [H _]. rewrite Z.mul_0_l in H. exact H.
  Qed.

  Lemma infer_base_doc l u s :
    s <> [] -> pref_ok l u dig (snd (split_sign s)) ->
    infer_base base s =
    let uu := base_val base (skipn 2 (snd (split_sign s))) in
    if uu <? two63 then VInt (sgn (is_neg (fst (split_sign s))) uu) else VString.
  Proof.
    intros Hne (c0 & c1 & d & Hr & _ & _ & Hd & Hall).
    unfold infer_base. rewrite (strip_prefix_split s Hne), Hr. cbn [skipn].
    rewrite (parse_int_unsigned d Hd Hall). cbv zeta.
    destruct (base_val base d <? two63); [reflexivity|]. now apply as_string_ne.
  Qed.
End Base.

Lemma dv_dec : forall c, spec_dec c = true -> (dv c =? Z.of_N (code c) - 48) = true.
Proof. apply bytes_imp. vm_compute. reflexivity. Qed.

Lemma base_val_dec r : forallb spec_dec r = true -> base_val 10 r = dec_val r.
Proof.
  intros H.
  enough (E : forall acc, fold_left (fun a c => a * 10 + dv c) r acc = fold_left (fun a c => a * 10 + (Z.of_N (code c) - 48)) r acc)
    by exact (E 0).
  induction r as [|c r IH]; intros acc; cbn [forallb fold_left] in *; [reflexivity|].
  apply andb_true_iff in H as [Hc Hr]. rewrite (proj1 (Z.eqb_eq _ _) (dv_dec c Hc)). apply IH, Hr.
Qed.

Lemma infer_maybe_float_doc s : s <> [] ->
  infer_maybe_float s = doc_float (is_neg (fst (split_sign s))) (snd (split_sign s)).
Proof.
  intros Hne. unfold infer_maybe_float, doc_float. rewrite parse_float_spec. unfold spec_parse_float.
  rewrite (as_string_ne s Hne). destruct (float_parts _); [destruct (float_value _ _)|]; reflexivity.
Qed.

Lemma digits1_split r : digits1 r = true -> r <> [] /\ forallb spec_dec r = true.
Proof. unfold digits1. rewrite andb_true_iff. intros [H1 H2]. split; [now apply nonempty_ne|exact H2]. Qed.

Lemma infer_decimal_doc s : s <> [] -> digits1 (snd (split_sign s)) = true ->
  infer_decimal s =
  let neg := is_neg (fst (split_sign s)) in let r := snd (split_sign s) in
  let v := sgn neg (dec_val r) in if in64 v then VInt v else doc_float neg r.
Proof.
  intros Hne Hd. apply digits1_split in Hd as [Hr Hall]. unfold infer_decimal.
  rewrite (parse_int_signed 10 spec_dec dec_digit s Hr Hall), (base_val_dec _ Hall).
  cbv zeta. destruct (in64 _); [reflexivity|]. now apply infer_maybe_float_doc.
Qed.

Lemma infer_lz_octal_doc s : s <> [] -> snd (split_sign s) <> [] -> forallb spec_oct (snd (split_sign s)) = true ->
  infer_lz_octal s =
  let v := sgn (is_neg (fst (split_sign s))) (base_val 8 (snd (split_sign s))) in if in64 v then VInt v else VString.
Proof.
  intros Hne Hr Hall. unfold infer_lz_octal. rewrite (parse_int_signed 8 spec_oct oct_digit s Hr Hall).
  cbv zeta. destruct (in64 _); [reflexivity|]. now apply as_string_ne.
Qed.

(* hex: sixteen digits with the top bit set are the two's-complement negatives *)
Lemma top_digit : forall c, spec_hex c = true -> Bool.eqb (in_range "8" "f" c) (8 <=? dv c) = true.
Proof. apply bytes_imp. vm_compute. reflexivity. Qed.

Lemma parse_uint_hex d : d <> [] -> forallb spec_hex d = true ->
  parse_uint 16 d = if base_val 16 d <? two64 then Some (base_val 16 d) else None.
Proof.
  intros Hd Hall. unfold parse_uint. destruct d as [|c t]; [now elim Hd|].
  rewrite (digits_val_base 16 spec_hex hex_digit _ 0 Hall). reflexivity.
Qed.

Lemma infer_hex_doc s :
  s <> [] -> pref_ok "x" "X" spec_hex (snd (split_sign s)) ->
  infer_hex s =
  let neg := is_neg (fst (split_sign s)) in
  let d := skipn 2 (snd (split_sign s)) in
  let u := base_val 16 d in
  if (zlen d =? 16) && (two63 <=? u)
  then VInt (if neg then wrap64 (- wrap64 u) else wrap64 u)
  else if u <? two63 then VInt (sgn neg u) else VString.
Proof.
  intros Hne (c0 & c1 & d & Hr & _ & _ & Hd & Hall).
  unfold infer_hex. rewrite (strip_prefix_split s Hne), Hr. cbn [skipn]. cbv zeta.
  destruct d as [|i0 t] eqn:Ed; [now elim Hd|]. rewrite <- Ed in *. cbv beta iota.
  rewrite (parse_uint_hex d Hd Hall), (parse_int_unsigned 16 spec_hex ltac:(lia) hex_digit d Hd Hall).
  assert (Hall' := Hall). rewrite Ed in Hall'. cbn [forallb] in Hall'. apply andb_true_iff in Hall' as [Hi0 Ht].
  rewrite (eqb_prop _ _ (top_digit i0 Hi0)).
  destruct (zlen d =? 16) eqn:Hlen; cbn [andb]; [|destruct (base_val 16 d <? two63); [reflexivity|now apply as_string_ne]].
  (* u is the top digit times 16^15 plus fifteen more digits: below 2^64, and 2^63 or more exactly when the top digit is 8 or more *)
  apply Z.eqb_eq in Hlen. rewrite Ed in Hlen. cbn [List.length] in Hlen.
  destruct (digit_of_spec _ _ (hex_digit i0 Hi0)) as [_ Hv].
  pose proof (fold_bounds 16 spec_hex ltac:(lia) hex_digit t (dv i0) (proj1 Hv) Ht) as Hb. replace (zlen t) with 15 in Hb by lia.
  assert (Hu : base_val 16 d = fold_left (fun a c => a * 16 + dv c) t (dv i0)) by (rewrite Ed; reflexivity).
  rewrite <- Hu in Hb. cbv [two63 two64].
  destruct (Z.leb_spec 8 (dv i0)).
  - destruct (Z.leb_spec (2 ^ 63) (base_val 16 d)); [|lia]. destruct (Z.ltb_spec (base_val 16 d) (2 ^ 64)); [reflexivity|lia].
  - destruct (Z.leb_spec (2 ^ 63) (base_val 16 d)); [lia|]. destruct (Z.ltb_spec (base_val 16 d) (2 ^ 63)); [reflexivity|lia].
Qed.

(* ---------- the main theorem ---------- *)
Lemma infer_normal_doc oai s : infer_normal spec_dec spec_oct spec_hex spec_flt oai s = doc_infer_normal oai s.
Proof.
  destruct s as [|c0 t0] eqn:Es; [reflexivity|]. rewrite <- Es. assert (Hne : s <> []) by (rewrite Es; discriminate).
  clear Es c0 t0.
  unfold infer_normal, doc_infer_normal. rewrite scan_classify.
  pose proof (classify_split s Hne) as Hcl.
  pose proof (classify_pos_inv (signed_of (fst (split_sign s))) (snd (split_sign s))) as Hinv. rewrite <- Hcl in Hinv.
  pose proof (infer_maybe_float_doc s Hne) as Hmf.
  pose proof (infer_decimal_doc s Hne) as Hdec.
  pose proof (infer_lz_octal_doc s Hne) as Hlz.
  pose proof (infer_hex_doc s Hne) as Hhex.
  pose proof (infer_base_doc 8 spec_oct ltac:(lia) oct_digit "o" "O" s Hne) as Hoct.
  pose proof (infer_base_doc 2 is_bin ltac:(lia) bin_digit "b" "B" s Hne) as Hbin.
  destruct (split_sign s) as [sg r]. cbn [fst snd] in *. cbv zeta in *.
  destruct (classify s).
  - reflexivity.
  - now apply Hdec.
  - destruct oai; [now apply Hdec|now apply as_string_ne].
  - now apply Hoct.
  - destruct oai; [|now apply as_string_ne]. destruct Hinv as [Hd Ho]. apply digits1_split in Hd as [Hr _]. now apply Hlz.
  - now apply Hhex.
  - now apply Hbin.
  - exact Hmf.
Qed.

Theorem infer_is_documented f s : sinfer f s = doc_infer f s.
Proof. destruct f; cbn [infer doc_infer]; rewrite ?infer_normal_doc; reflexivity. Qed.

(* ---------- the inductive grammar and the boolean recogniser agree ---------- *)
Open Scope char_scope.
Definition starts_nonsign (b : bytes) : Prop := match b with c :: _ => eqc c "-" = false /\ eqc c "+" = false | [] => True end.

Lemma split_sign_app sg body : Sign sg -> starts_nonsign body -> snd (split_sign (sg ++ body)) = body.
Proof.
  intros Hs Hb. destruct Hs; cbn [app]; [|reflexivity|reflexivity].
  destruct body as [|c t]; [reflexivity|]. destruct Hb as [Hm Hp]. cbn [split_sign]. now rewrite Hm, Hp.
Qed.

Lemma dec_not_sign c : spec_dec c = true -> eqc c "-" = false /\ eqc c "+" = false.
Proof. intros H. split; [exact (eqc_outside spec_dec "-" c eq_refl H)|exact (eqc_outside spec_dec "+" c eq_refl H)]. Qed.
Lemma dot_not_sign c : eqc c "." = true -> eqc c "-" = false /\ eqc c "+" = false.
Proof. intros H. apply eqc_eq in H as ->. split; reflexivity. Qed.
Lemma e_not_dec c : eqc c "e" || eqc c "E" = true -> spec_dec c = false /\ eqc c "." = false /\ spec_flt c = true.
Proof. intros H. destruct (eqc2_cases _ _ _ H) as [-> | ->]; repeat split. Qed.

Lemma digits_start_nonsign d rest : Digits d -> d <> [] -> starts_nonsign (d ++ rest).
Proof. destruct d as [|c d]; [intros _ H; now elim H|]. intros H _. cbn in H. apply andb_true_iff in H as [Hc _]. cbn. now apply dec_not_sign. Qed.

Lemma exponent_starts_nondigit ex : Exponent ex -> starts_nondigit ex.
Proof. destruct 1 as [|e sg ed He]; [exact I|]. exact (proj1 (e_not_dec e He)). Qed.

Lemma exponent_tail ip fp ex : Exponent ex -> exists p, spec_tail ip fp ex = Some p.
Proof.
  destruct 1 as [|e sg ed He Hs Hd Hne]; [cbn; eauto|]. cbn [spec_tail]. rewrite He.
  assert (Hsp : snd (split_sign (sg ++ ed)) = ed).
  { apply split_sign_app; [exact Hs|]. rewrite <- (app_nil_r ed). now apply digits_start_nonsign. }
  destruct (split_sign (sg ++ ed)) as [sg' ed']. cbn [snd] in Hsp. subst ed'.
  unfold digits1. destruct ed; [now elim Hne|]. cbn [nonempty andb]. unfold Digits in Hd. rewrite Hd. eauto.
Qed.

(* a mantissa, whatever follows it: a digit or a point first, more than a lone point, no sign *)
Lemma mantissa_head m ex : Mantissa m ->
  match m ++ ex with c0 :: _ => spec_dec c0 || eqc c0 "." = true | [] => False end
  /\ is_dot (m ++ ex) = false /\ starts_nonsign (m ++ ex).
Proof.
  intros [ip Hip Hne | ip fp Hip Hfp Hor].
  - destruct ip as [|c ip]; [now elim Hne|]. unfold Digits in Hip. cbn [forallb] in Hip. apply andb_true_iff in Hip as [Hc _].
    cbn [app]. rewrite Hc. repeat split; [|apply (dec_not_sign _ Hc)|apply (dec_not_sign _ Hc)].
    cbn [is_dot]. destruct (ip ++ ex); [|reflexivity]. destruct (eqc c ".") eqn:E; [|reflexivity]. apply dot_not_dec in E. congruence.
  - destruct ip as [|c ip].
    + cbn [app]. change (eqc "." ".") with true. rewrite orb_true_r. repeat split.
      destruct Hor as [H|H]; [now elim H|]. destruct fp; [now elim H|reflexivity].
    + unfold Digits in Hip. cbn [forallb] in Hip. apply andb_true_iff in Hip as [Hc _]. cbn [app]. rewrite Hc.
      repeat split; [|apply (dec_not_sign _ Hc)|apply (dec_not_sign _ Hc)].
      cbn [is_dot]. destruct ip; reflexivity.
Qed.

Lemma floatlit_complete s : FloatLit s -> float_syntax s = true.
Proof.
  intros [sg m ex Hs Hm Hex]. unfold float_syntax.
  rewrite (split_sign_app sg (m ++ ex) Hs (proj2 (proj2 (mantissa_head m ex Hm)))). rewrite float_parts_tail. cbv zeta.
  destruct Hm as [ip Hip Hne | ip fp Hip Hfp Hor].
  - rewrite (span_dec_app ip ex Hip (exponent_starts_nondigit ex Hex)). cbn [fst snd].
    assert (Hn : nonempty ip = true) by (destruct ip; [now elim Hne|reflexivity]).
    destruct Hex as [|e sg' ed He].
    + cbn. now rewrite Hn.
    + rewrite (proj1 (proj2 (e_not_dec e He))). rewrite Hn. cbn [orb].
      destruct (exponent_tail ip [] _ (Exp_some e sg' ed He H H0 H1)) as [p ->]. reflexivity.
  - rewrite <- app_assoc. cbn [app].
    rewrite (span_dec_app ip ("." :: fp ++ ex) Hip); [|reflexivity]. cbn [fst snd].
    change (eqc "." ".") with true. cbv iota.
    rewrite (span_dec_app fp ex Hfp (exponent_starts_nondigit ex Hex)). cbn [fst snd].
    assert (Hn : nonempty ip || nonempty fp = true).
    { destruct Hor as [H|H]; [destruct ip; [now elim H|reflexivity]|destruct fp; [now elim H|apply orb_true_r]]. }
    rewrite Hn. destruct (exponent_tail ip fp ex Hex) as [p ->]. reflexivity.
Qed.

Lemma split_sign_inv s : exists sgb, Sign sgb /\ s = sgb ++ snd (split_sign s).
Proof.
  destruct s as [|c t]; [exists []; split; [constructor|reflexivity]|]. cbn [split_sign].
  destruct (eqc c "-") eqn:Hm.
  { exists ["-"]. split; [constructor|]. apply eqc_eq in Hm. now subst c. }
  destruct (eqc c "+") eqn:Hp.
  { exists ["+"]. split; [constructor|]. apply eqc_eq in Hp. now subst c. }
  exists []. split; [constructor|reflexivity].
Qed.

Lemma spec_tail_sound ip fp r3 p : spec_tail ip fp r3 = Some p -> Exponent r3.
Proof.
  destruct r3 as [|c t]; [constructor|]. cbn [spec_tail].
  destruct (eqc c "e" || eqc c "E") eqn:He; [|discriminate].
  destruct (split_sign_inv t) as (sgb & Hs & Ht).
  destruct (split_sign t) as [sg ed]. cbn [snd] in Ht.
  destruct (digits1 ed) eqn:Hd; [|discriminate]. intros _.
  rewrite Ht. apply digits1_split in Hd as [Hne Hall]. now constructor.
Qed.

Lemma floatlit_sound s : float_syntax s = true -> FloatLit s.
Proof.
  unfold float_syntax. intros H. destruct (split_sign_inv s) as (sgb & Hs & Heq).
  remember (snd (split_sign s)) as r eqn:Er. clear Er. rewrite float_parts_tail in H. cbv zeta in H.
  destruct (span_dec_spec r) as (Hr & Hip & _).
  destruct (span_dec r) as [ip r1]. cbn [fst snd] in *.
  destruct r1 as [|c t].
  - rewrite orb_false_r in H. destruct (nonempty ip) eqn:Hn; [|discriminate].
    rewrite Heq, Hr. apply FloatLit_intro; [exact Hs| |constructor].
    apply Mant_int; [exact Hip|now apply nonempty_ne].
  - destruct (eqc c ".") eqn:Hdot.
    + destruct (span_dec_spec t) as (Ht & Hfp & _). destruct (span_dec t) as [fp r3]. cbn [fst snd] in *.
      destruct (nonempty ip || nonempty fp) eqn:Hn; [|discriminate].
      destruct (spec_tail ip fp r3) as [p|] eqn:Etail; [|discriminate].
      apply eqc_eq in Hdot. subst c. rewrite Heq, Hr, Ht.
      replace (ip ++ "." :: fp ++ r3) with ((ip ++ "." :: fp) ++ r3) by (rewrite <- app_assoc; reflexivity).
      apply FloatLit_intro; [exact Hs| |exact (spec_tail_sound _ _ _ _ Etail)].
      apply Mant_point; [exact Hip|exact Hfp|].
      apply orb_true_iff in Hn as [Hn|Hn]; [left|right]; now apply nonempty_ne.
    + rewrite orb_false_r in H. destruct (nonempty ip) eqn:Hn; [|discriminate].
      destruct (spec_tail ip [] (c :: t)) as [p|] eqn:Etail; [|discriminate].
      rewrite Heq, Hr. apply FloatLit_intro; [exact Hs| |exact (spec_tail_sound _ _ _ _ Etail)].
      apply Mant_int; [exact Hip|now apply nonempty_ne].
Qed.

Theorem floatlit_iff s : FloatLit s <-> float_syntax s = true.
Proof. split; [apply floatlit_complete|apply floatlit_sound]. Qed.

(* ---------- consequences for what is inferred ---------- *)
Lemma floatlit_flt_chars s : FloatLit s -> forallb spec_flt s = true.
Proof.
  intros [sg m ex Hs Hm Hex].
  assert (Hd : forall d, Digits d -> forallb spec_flt d = true) by (intros d Hd; now apply forallb_dec_flt).
  rewrite !forallb_app. apply andb_true_iff; split; [destruct Hs; reflexivity|]. apply andb_true_iff; split.
  - destruct Hm as [ip Hip _|ip fp Hip Hfp _]; [auto|]. rewrite forallb_app. cbn [forallb]. rewrite (Hd _ Hip), (Hd _ Hfp). reflexivity.
  - destruct Hex as [|e sg' ed He Hs' Hed _]; [reflexivity|]. cbn [forallb].
    rewrite forallb_app, (Hd _ Hed), (proj2 (proj2 (e_not_dec e He))). destruct Hs'; reflexivity.
Qed.

(* an unsigned float body consists of float characters (float_parts needs a digit or a point first, so no sign) *)
Lemma flt_chars_of_parts r p : float_parts r = Some p -> forallb spec_flt r = true.
Proof.
  intros H. apply floatlit_flt_chars, floatlit_sound. unfold float_syntax.
  destruct (split_sign_inv r) as (sgb & Hs & Heq). destruct Hs; cbn [app] in Heq.
  - rewrite <- Heq, H. reflexivity.
  - rewrite Heq, float_parts_tail in H. discriminate H.
  - rewrite Heq, float_parts_tail in H. discriminate H.
Qed.

(* whatever is inferred as a float matches the float grammar (ints that overflow included: D+ is a mantissa) *)
Lemma float_kind_sound s b : doc_infer FDefault s = VFloat b -> FloatLit s.
Proof.
  cbn [doc_infer]. unfold doc_infer_normal.
  destruct (split_sign s) as [sg r] eqn:E. assert (Hr : r = snd (split_sign s)) by now rewrite E.
  assert (K : forall neg, doc_float neg r = VFloat b -> FloatLit s).
  { intros neg H. apply floatlit_sound. unfold float_syntax. rewrite <- Hr. unfold doc_float in H.
    destruct (float_parts r); [reflexivity|discriminate]. }
  cbv zeta. destruct (classify s);
    repeat match goal with |- context [if ?c then _ else _] => destruct c end;
    try discriminate; try apply K.
  destruct s; discriminate.
Qed.

(* ---------- closed forms for digit strings ---------- *)
Open Scope Z_scope.

Lemma doc_float_digits neg d : nonempty d = true -> forallb spec_dec d = true -> doc_float neg d = dec_float neg d.
Proof.
  intros Hne Hall. unfold doc_float, dec_float, float_parts.
  rewrite <- (app_nil_r d) at 1. rewrite (span_dec_app d [] Hall I), Hne. cbn [orb float_value List.length].
  rewrite app_nil_r. reflexivity.
Qed.

(* a decimal integer without a leading zero, whatever its sign *)
Lemma decimal_closed s : signed_dec_ok (snd (split_sign s)) = true ->
  let neg := is_neg (fst (split_sign s)) in let d := snd (split_sign s) in
  sinfer FDefault s = if in64 (sgn neg (dec_val d)) then VInt (sgn neg (dec_val d)) else dec_float neg d.
Proof.
  intros Hok. cbv zeta. assert (Hne : s <> []) by (intros ->; discriminate Hok).
  rewrite infer_is_documented. cbn [doc_infer]. unfold doc_infer_normal.
  rewrite (classify_split s Hne), (classify_pos_dec _ _ Hok).
  unfold signed_dec_ok in Hok. apply andb_true_iff in Hok as [Hok _]. apply andb_true_iff in Hok as [Hn Hall].
  destruct (split_sign s) as [sg d]. cbn [fst snd] in *. cbv zeta. rewrite (doc_float_digits _ d Hn Hall). reflexivity.
Qed.

Lemma decimal_unsigned d :
  signed_dec_ok d = true ->
  sinfer FDefault d = if in64 (dec_val d) then VInt (dec_val d) else dec_float false d.
Proof.
  intros Hok. assert (Hsp : split_sign d = (None, d)).
  { destruct d as [|c t]; [discriminate|]. unfold signed_dec_ok in Hok. cbn [nonempty forallb andb] in Hok.
    apply andb_true_iff in Hok as [Hok _]. apply andb_true_iff in Hok as [Hc _].
    destruct (dec_not_sign c Hc) as [Hm Hp]. cbn [split_sign]. now rewrite Hm, Hp. }
  pose proof (decimal_closed d) as H. rewrite Hsp in H. exact (H Hok).
Qed.

Lemma decimal_signed (neg : bool) d :
  signed_dec_ok d = true ->
  let s := (if neg then "-"%char else "+"%char) :: d in
  let v := if neg then - dec_val d else dec_val d in
  sinfer FDefault s = if in64 v then VInt v else dec_float neg d.
Proof. intros Hok. destruct neg; [exact (decimal_closed ("-"%char :: d) Hok)|exact (decimal_closed ("+"%char :: d) Hok)]. Qed.

(* leading-zero decimals *)
Lemma leading_zero_default_is_string t :
  nonempty t = true -> forallb spec_dec t = true ->
  sinfer FDefault ("0"%char :: t) = VString.
Proof.
  intros Hne Hall. rewrite infer_is_documented. cbn [doc_infer]. unfold doc_infer_normal. cbn [split_sign eqc Ascii.eqb Bool.eqb andb classify orb].
  rewrite (classify_pos_lz false t Hne Hall). destruct (forallb spec_oct t); reflexivity.
Qed.

Lemma leading_zero_O_decimal_is_int t :
  nonempty t = true -> forallb spec_dec t = true -> forallb spec_oct t = false ->
  sinfer FO ("0"%char :: t) = if in64 (dec_val t) then VInt (dec_val t) else infer_maybe_float ("0"%char :: t).
Proof.
  intros Hne Hall Hoct. rewrite infer_is_documented. cbn [doc_infer]. unfold doc_infer_normal.
  rewrite (infer_maybe_float_doc ("0"%char :: t)) by discriminate. cbn [split_sign eqc Ascii.eqb Bool.eqb andb classify orb fst snd].
  rewrite (classify_pos_lz false t Hne Hall), Hoct. reflexivity.
Qed.
