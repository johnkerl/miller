(* C06: the scanner sends a string down the float path and strconv accepts it  <=>  the string is a float literal of
   the grammar with a decimal point or an exponent.  For ALL byte strings. *)
From Miller Require Import Base.Bytes C06.Model C06.Proofs C06.Grammar C06.GrammarProofs C06.GrammarInfer.
Require Import Lia.
Open Scope char_scope.

Lemma classify_pos_float signed r :
  forallb spec_flt r = true -> forallb spec_dec r = false ->
  match r with c0 :: _ => spec_dec c0 || eqc c0 "." = true | [] => False end ->
  (signed = false -> is_dot r = false) ->
  classify_pos signed r = SMaybeFloat.
Proof.
  intros Hf Hd H0 Hdot. destruct r as [|c0 t]; [contradiction|]. rewrite (classify_pos_flt signed c0 t Hf H0), Hd.
  (* a leading zero followed by digits only would make the whole string digits *)
  destruct (eqc c0 "0") eqn:Hz; cbn [andb].
  - apply eqc_eq in Hz as ->. cbn [forallb andb spec_dec in_range cle] in Hd. change (forallb spec_dec t = false) in Hd.
    rewrite Hd, andb_false_r. destruct (forallb spec_oct t) eqn:Ho; [rewrite (forallb_oct_dec _ Ho) in Hd; discriminate|].
    rewrite andb_false_r. destruct signed; [reflexivity|]. now rewrite (Hdot eq_refl).
  - destruct signed; [reflexivity|]. now rewrite (Hdot eq_refl).
Qed.

Definition pe (c : ascii) : bool := eqc c "." || eqc c "e" || eqc c "E".
Lemma pe_not_dec c : pe c = true -> spec_dec c = false.
Proof. unfold pe. intros H. apply orb_true_iff in H as [H|H]; [destruct (eqc2_cases _ _ _ H) as [-> | ->]|apply eqc_eq in H as ->]; reflexivity. Qed.
Lemma e_is_pe c : eqc c "e" || eqc c "E" = true -> pe c = true.
Proof. unfold pe. rewrite <- orb_assoc. intros ->. apply orb_true_r. Qed.
Lemma exists_pe_not_dec r : existsb pe r = true -> forallb spec_dec r = false.
Proof.
  induction r as [|c r IH]; cbn [existsb forallb]; [discriminate|]. rewrite orb_true_iff. intros [H|H].
  - now rewrite (pe_not_dec _ H).
  - rewrite (IH H). apply andb_false_r.
Qed.
Lemma digits_no_pe d : Digits d -> existsb pe d = false.
Proof.
  unfold Digits. induction d as [|c d IH]; cbn [existsb forallb]; [reflexivity|]. rewrite andb_true_iff. intros [Hc Hd].
  rewrite (IH Hd), orb_false_r. destruct (pe c) eqn:E; [|reflexivity]. apply pe_not_dec in E. congruence.
Qed.

Lemma sign_no_pe sg : Sign sg -> existsb pe sg = false.
Proof. destruct 1; reflexivity. Qed.

Lemma floatlit_classify s : FloatLit s -> has_point_or_exp s = true -> classify s = SMaybeFloat.
Proof.
  intros Hfl Hpe. pose proof (floatlit_flt_chars s Hfl) as Hflt. destruct Hfl as [sg m ex Hs Hm Hex].
  destruct (mantissa_head m ex Hm) as (H0 & Hdot & Hns).
  assert (Hne : sg ++ m ++ ex <> []).
  { destruct (m ++ ex); [contradiction|]. destruct sg; discriminate. }
  rewrite (classify_split _ Hne), (split_sign_app sg (m ++ ex) Hs Hns).
  change (has_point_or_exp (sg ++ m ++ ex)) with (existsb pe (sg ++ m ++ ex)) in Hpe.
  rewrite existsb_app, (sign_no_pe sg Hs) in Hpe. cbn [orb] in Hpe.
  rewrite forallb_app in Hflt. apply andb_true_iff in Hflt as [_ Hflt].
  apply classify_pos_float; [exact Hflt|now apply exists_pe_not_dec|exact H0|intros _; exact Hdot].
Qed.

(* an all-digit body is an integer category, never the float path *)
Lemma digits_not_float_path signed r : digits1 r = true -> classify_pos signed r <> SMaybeFloat.
Proof.
  intros Hd. apply digits1_split in Hd as [Hne Hall].
  destruct r as [|c0 t]; [now elim Hne|].
  rewrite (classify_pos_flt signed c0 t (forallb_dec_flt _ Hall)), Hall
    by (cbn [forallb] in Hall; apply andb_true_iff in Hall as [-> _]; reflexivity).
  destruct (_ && _); [discriminate|]. destruct (_ && _); discriminate.
Qed.

Lemma floatlit_without_pe s : FloatLit s -> has_point_or_exp s = false -> digits1 (snd (split_sign s)) = true.
Proof.
  intros [sg m ex Hs Hm Hex] Hpe. destruct (mantissa_head m ex Hm) as (_ & _ & Hns).
  rewrite (split_sign_app sg (m ++ ex) Hs Hns).
  change (has_point_or_exp (sg ++ m ++ ex)) with (existsb pe (sg ++ m ++ ex)) in Hpe.
  rewrite !existsb_app in Hpe. apply orb_false_iff in Hpe as [_ Hpe]. apply orb_false_iff in Hpe as [Hm' Hex'].
  destruct Hex as [|e sg' ed He]; [|cbn [existsb] in Hex'; rewrite (e_is_pe _ He) in Hex'; discriminate].
  rewrite app_nil_r. destruct Hm as [ip Hip Hne | ip fp Hip Hfp Hor].
  - unfold digits1. destruct ip; [now elim Hne|]. cbn [nonempty andb]. exact Hip.
  - rewrite existsb_app in Hm'. cbn [existsb] in Hm'. change (pe ".") with true in Hm'. rewrite orb_true_r in Hm'. discriminate.
Qed.

Theorem float_path_iff_grammar s :
  (scan spec_dec spec_oct spec_hex spec_flt s = SMaybeFloat /\ parse_float s <> None)
  <-> (FloatLit s /\ has_point_or_exp s = true).
Proof.
  rewrite scan_classify. split.
  - intros [Hk Hp]. apply parse_float_syntax in Hp. apply floatlit_sound in Hp. split; [exact Hp|].
    destruct (has_point_or_exp s) eqn:E; [reflexivity|exfalso].
    pose proof (floatlit_without_pe s Hp E) as Hd.
    assert (Hne : s <> []) by (destruct s; [discriminate Hk|discriminate]).
    rewrite (classify_split s Hne) in Hk. exact (digits_not_float_path _ _ Hd Hk).
  - intros [Hfl Hpe]. split; [now apply floatlit_classify|]. apply parse_float_syntax. now apply floatlit_complete.
Qed.

(* the inferred value of such a literal: the correctly rounded float, or a string beyond the double range *)
Theorem float_literal_inferred s :
  FloatLit s -> has_point_or_exp s = true ->
  exists p, float_parts (snd (split_sign s)) = Some p
  /\ infer spec_dec spec_oct spec_hex spec_flt FDefault s
     = match float_value (is_neg (fst (split_sign s))) p with Some b => VFloat b | None => VString end.
Proof.
  intros Hfl Hpe. pose proof (floatlit_complete s Hfl) as Hsyn. unfold float_syntax in Hsyn.
  destruct (float_parts (snd (split_sign s))) as [p|] eqn:Ep; [|discriminate]. exists p. split; [reflexivity|].
  rewrite infer_is_documented. cbn [doc_infer]. unfold doc_infer_normal.
  rewrite (floatlit_classify s Hfl Hpe). destruct (split_sign s) as [sg r]. cbn [fst snd] in *.
  unfold doc_float. now rewrite Ep.
Qed.
