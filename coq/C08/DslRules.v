(* C08 part 1c -- absent through the DSL evaluator: rules over the tables REGENERATED on every run into gen/Gen_AbsentDSL.v
   (mlr -n put observations: ?? and ??? over every operand kind, built-in functions applied to absent, asserting_* against is_*,
   what print / dump / emit / unset / typed locals / typed returns / filter / if do with absent).  Each lemma is an exhaustive
   evaluation over the explicit finite domain. *)
From Coq Require Import List String Bool Arith.
From Miller Require Import C08.Model C08.Proofs gen.Gen_Dispositions gen.Gen_AbsentDSL.
Import ListNotations.
Local Open Scope string_scope.

(* the kinds a DSL expression can denote (function values are not first-class in expressions) *)
Definition dsl_kinds : list kind := [KInt; KFloat; KBool; KVoid; KString; KBytes; KArray; KMap; KError; KNull; KAbsent].
Definition rhs_kinds : list kind := [KInt; KString; KVoid; KAbsent].
Definition coalesce_ops : list string := ["??"; "???"].

Fixpoint lookup_co (t : list (string * kind * kind * cls)) (op : string) (a b : kind) : option cls :=
  match t with
  | [] => None
  | (o, x, y, c) :: t' => if String.eqb o op && kind_eqb x a && kind_eqb y b then Some c else lookup_co t' op a b
  end.

(* a ?? b is b exactly when a is absent; a ??? b is b exactly when a is absent or empty *)
Definition co_expected (op : string) (a : kind) : cls :=
  if kind_eqb a KAbsent || (String.eqb op "???" && kind_eqb a KVoid) then CArg 2 else CArg 1.
Definition r_coalesce (op : string) (a b : kind) : bool :=
  match lookup_co gen_coalesce op a b with Some c => cls_eqb c (co_expected op a) | None => false end.

Lemma t_coalesce : forallb (fun op => forallb (fun a => forallb (r_coalesce op a) rhs_kinds) dsl_kinds) coalesce_ops = true.
Proof. vm_compute. reflexivity. Qed.

(* functions of an absent argument *)
Definition absent_out_1 : list string :=
  ["capitalize"; "collapse_whitespace"; "lstrip"; "rstrip"; "strip"; "tolower"; "toupper"; "bitcount";
   "abs"; "ceil"; "floor"; "round"; "sgn"; "exp"; "log"; "log10"; "sqrt"; "sin"; "cos"; "tan"; "sec2gmtdate"; "hexfmt"].
Definition absent_out_n : list string := ["sub"; "gsub"; "ssub"; "gssub"; "truncate"; "splitax"].
Definition fn_is_absent (t : list (string * option kind)) (f : string) : bool :=
  match assoc f t with Some (Some KAbsent) => true | _ => false end.

Lemma t_fn1_absent : forallb (fn_is_absent gen_fn1_absent) absent_out_1 = true.
Proof. vm_compute. reflexivity. Qed.
Lemma t_fnn_absent : forallb (fn_is_absent gen_fnn_absent) absent_out_n = true.
Proof. vm_compute. reflexivity. Qed.

(* EVERY one-argument function of the function table: absent or an error value, except the is_* predicates (a boolean) and the
   listed functions *)
Definition fn1_other : list (string * kind) := [("typeof", KString); ("string", KString); ("clean_whitespace", KString); ("length", KInt)].
Definition is_pred_name (f : string) : bool := String.prefix "is_" f.
Definition r_fn1_class (e : string * option kind) : bool :=
  match snd e with
  | Some KAbsent | Some KError => true
  | Some k => (is_pred_name (fst e) && kind_eqb k KBool)
              || match assoc (fst e) fn1_other with Some k' => kind_eqb k k' | None => false end
  | None => false
  end.
Lemma t_fn1_class : forallb r_fn1_class gen_fn1_absent = true.
Proof. vm_compute. reflexivity. Qed.

(* asserting_p(v) returns exactly when is_p(v) is true (is_p from the regenerated BIF table gen_unary) *)
Definition r_asserting (e : string * kind * bool) : bool :=
  let '(p, k, b) := e in match pred gen_unary p k with Some x => Bool.eqb x b | None => false end.
Lemma t_asserting : forallb r_asserting gen_asserting = true.
Proof. vm_compute. reflexivity. Qed.
Definition asserting_preds : list string :=
  ["is_absent"; "is_present"; "is_null"; "is_not_null"; "is_empty"; "is_not_empty"; "is_error"; "is_int"; "is_float"; "is_numeric"; "is_string";
   "is_bool"; "is_boolean"; "is_map"; "is_not_map"; "is_array"; "is_not_array"; "is_bytes"].
Definition asserting_covers_absent (p : string) : bool :=
  existsb (fun e : string * kind * bool => let '(q, k, _) := e in String.eqb p q && kind_eqb k KAbsent) gen_asserting.
Lemma t_asserting_cover : forallb asserting_covers_absent asserting_preds = true.
Proof. vm_compute. reflexivity. Qed.

(* statements: expected output (newline written /; FATAL = mlr stops with an error) *)
Definition expected_stmt : list (string * string) := [
   ("print_absent", "/|/");
   ("print_concat_absent", "[]/");
   ("dump_absent", "|/");
   ("emit_absent", "|/");
   ("emitp_absent", "|/");
   ("emit_lashed_absent", "/|/");
   ("unset_absent_things", "{/  ""m"": {/    ""a"": 1/  }/}/");
   ("map_absent_key_or_value", "{/  ""m"": {/    ""a"": 1/  }/}/");
   ("typed_local_str", "absent/");
   ("typed_local_num", "absent/");
   ("typed_local_map", "absent/");
   ("typed_local_var", "absent/");
   ("typed_local_keeps_value", "4/");
   ("untyped_function_without_return", "absent/");
   ("untyped_function_returns_absent", "absent/");
   ("typed_return_int_absent", "FATAL");
   ("typed_parameter_int_absent", "FATAL");
   ("array_index_absent", "error/");
   ("map_index_absent", "error/");
   ("ternary_absent_condition", "error/");
   ("if_absent_condition", "FATAL");
   ("env_assign_absent", "v/");
   ("positional_name_assign_absent", "a=1,b=2/");
   ("positional_value_assign_absent", "a=1,b=2/");
   ("srec_assign_absent", "a=1,b=2/");
   ("filter_absent_condition", "");
   ("filter_absent_comparison", "")].
Definition r_stmt (e : string * string) : bool :=
  match assoc (fst e) gen_stmt with Some o => String.eqb o (snd e) | None => false end.
Lemma t_stmt : forallb r_stmt expected_stmt = true.
Proof. vm_compute. reflexivity. Qed.
