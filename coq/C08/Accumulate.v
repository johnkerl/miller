(* C08 -- the accumulation idiom  @sum[$a] += $x  over a stream of records of any length. *)
From Coq Require Import List String Bool Arith ZArith Lia.
From Miller Require Import C08.Assign C08.AssignProofs.
Import ListNotations.
Local Open Scope string_scope.

Lemma get_put_same k v m : get k (put k v m) = Some v.
Proof.
  induction m as [|[k' v'] m IH]; cbn [put get].
  - now rewrite String.eqb_refl.
  - destruct (String.eqb k' k) eqn:E; cbn [get]; rewrite E; [reflexivity|exact IH].
Qed.

Lemma get_put_other k k' v m : String.eqb k k' = false -> get k' (put k v m) = get k' m.
Proof.
  intro Hne. induction m as [|[k0 v0] m IH]; cbn [put get].
  - now rewrite Hne.
  - destruct (String.eqb k0 k) eqn:E; cbn [get].
    + apply String.eqb_eq in E as ->. now rewrite Hne.
    + destruct (String.eqb k0 k'); [reflexivity|exact IH].
Qed.

(* what a record contributes: its $a must be a string and its $x an int, else nothing *)
Definition contrib (r : amap) : option (string * Z) :=
  match get "a" r, get "x" r with
  | Some (VStr s), Some (VInt z) => Some (s, z)
  | _, _ => None
  end.

Definition contrib_for (s : string) (r : amap) : option Z :=
  match contrib r with Some (s', z) => if String.eqb s' s then Some z else None | None => None end.

Definition combine (c t : option Z) : option Z :=
  match c, t with
  | None, _ => t
  | Some c, None => Some c
  | Some c, Some t => Some (c + t)%Z
  end.

(* first-principles total for key s: None when no record contributes *)
Fixpoint total (s : string) (recs : list amap) : option Z :=
  match recs with
  | [] => None
  | r :: rs => combine (contrib_for s r) (total s rs)
  end.

Definition lookup_sum (o : amap) (s : string) : option Z :=
  match get "sum" o with
  | Some (VMap m) => match get s m with Some (VInt z) => Some z | _ => None end
  | _ => None
  end.

Definition ints (m : amap) : Prop := forall k v, get k m = Some v -> exists z, v = VInt z.
Definition sum_ok (o : amap) : Prop :=
  get "sum" o = None \/ exists m, get "sum" o = Some (VMap m) /\ ints m.

(* records whose $a, when present, is a string and whose $x, when present, is an int *)
Definition rec_ok (r : amap) : Prop :=
  (get "a" r = None \/ exists s, get "a" r = Some (VStr s)) /\ (get "x" r = None \/ exists z, get "x" r = Some (VInt z)).

Lemma ints_put k z m : ints m -> ints (put k (VInt z) m).
Proof.
  intros H k' v Hg. destruct (String.eqb k k') eqn:E.
  - apply String.eqb_eq in E. subst. rewrite get_put_same in Hg. injection Hg as <-. eauto.
  - rewrite (get_put_other _ _ _ _ E) in Hg. eauto.
Qed.

Lemma combine_assoc a b c : combine (combine a b) c = combine a (combine b c).
Proof. destruct a, b, c; cbn; try reflexivity; f_equal; lia. Qed.

Lemma combine_none_r a : combine a None = a.
Proof. now destruct a. Qed.

(* @sum[s] and $x are an int or absent; on such values + is [combine] *)
Definition oint (x : option Z) : val := match x with Some z => VInt z | None => VAbsent end.

Lemma plus_oint a b : plus (oint a) (oint b) = oint (combine a b).
Proof. now destruct a, b. Qed.

(* the map that @sum holds, [] while it is unset *)
Definition held (o : amap) : amap := match get "sum" o with Some (VMap m) => m | _ => [] end.

Lemma held_ints o : sum_ok o -> ints (held o).
Proof. unfold held. intros [->|(m & -> & Hi)]; [intros k v Hg; discriminate Hg|exact Hi]. Qed.

Lemma contrib_for_a r sa s :
  get "a" r = Some (VStr sa) -> contrib_for s r = if String.eqb sa s then contrib_for sa r else None.
Proof.
  intros Ha. unfold contrib_for, contrib. rewrite Ha.
  destruct (get "x" r) as [[]|]; cbn; rewrite ?String.eqb_refl; now destruct (String.eqb sa s).
Qed.

Lemma rhs_value r o e sa :
  rec_ok r -> sum_ok o -> get "a" r = Some (VStr sa) ->
  eval (mkstate r o [] e) (EPlus (EIndex (EOosvar "sum") (EField "a")) (EField "x"))
  = oint (combine (lookup_sum o sa) (contrib_for sa r)).
Proof.
  intros [_ Hx] Hs Ha. rewrite <- plus_oint. cbn [eval srec oos]. rewrite Ha. f_equal.
  - unfold lookup_sum. destruct Hs as [->|(m & -> & Hi)]; [reflexivity|].
    destruct (get sa m) as [v|] eqn:G; [|reflexivity]. now destruct (Hi _ _ G) as [z ->].
  - unfold contrib_for, contrib. rewrite Ha. destruct Hx as [->|[z ->]]; [reflexivity|]. now rewrite String.eqb_refl.
Qed.

Lemma stored r o o' sa k :
  get "a" r = Some (VStr sa) -> sum_ok o -> combine (lookup_sum o sa) (contrib_for sa r) = Some k ->
  get "sum" o' = Some (VMap (put sa (VInt k) (held o))) ->
  sum_ok o' /\ forall s, lookup_sum o' s = combine (lookup_sum o s) (contrib_for s r).
Proof.
  intros Ha Hs Hk Ho'. split.
  - right. eexists. split; [exact Ho'|]. apply ints_put, held_ints, Hs.
  - intros s. rewrite (contrib_for_a r sa s Ha). unfold lookup_sum at 1. rewrite Ho'. destruct (String.eqb sa s) eqn:E.
    + apply String.eqb_eq in E as <-. now rewrite get_put_same, Hk.
    + rewrite combine_none_r, (get_put_other _ _ _ _ E). unfold lookup_sum, held. now destruct (get "sum" o) as [[]|].
Qed.

(* nothing is assigned when $a (the index) is absent, or when @sum[$a] and $x both are; else their [combine] is stored *)
Lemma step r o e : rec_ok r -> sum_ok o ->
  exists o', run (mkstate r o [] e) [accumulate] = Ok (mkstate r o' [] e) /\ sum_ok o'
             /\ forall s, lookup_sum o' s = combine (lookup_sum o s) (contrib_for s r).
Proof.
  intros Hr Hs. unfold accumulate. cbn [run]. destruct (proj1 Hr) as [Ha|[sa Ha]].
  - exists o. rewrite (exec_absent_index _ _ _ (EField "a")); [|reflexivity|now left|cbn; now rewrite Ha].
    split; [reflexivity|]. split; [exact Hs|]. intros s. unfold contrib_for, contrib. now rewrite Ha, combine_none_r.
  - pose proof (rhs_value r o e sa Hr Hs Ha) as Hv.
    destruct (combine (lookup_sum o sa) (contrib_for sa r)) as [k|] eqn:Hk.
    + exists (put "sum" (VMap (put sa (VInt k) (held o))) o). split; [|exact (stored r o _ sa k Ha Hs Hk (get_put_same _ _ _))].
      cbn [exec]. rewrite Hv. cbn. rewrite Ha. cbn. unfold held. now destruct (get "sum" o) as [[]|].
    + exists o. rewrite (exec_absent_noop _ _ _ Hv). split; [reflexivity|]. split; [exact Hs|]. intros s.
      rewrite (contrib_for_a r sa s Ha). destruct (lookup_sum o sa), (contrib_for sa r); try discriminate Hk.
      destruct (String.eqb sa s); now rewrite combine_none_r.
Qed.

Lemma stream_accumulates recs : forall o e, Forall rec_ok recs -> sum_ok o ->
  exists o', stream o e [accumulate] recs = Some o' /\ sum_ok o'
             /\ forall s, lookup_sum o' s = combine (lookup_sum o s) (total s recs).
Proof.
  induction recs as [|r recs IH]; intros o e Hr Hs.
  - exists o. split; [reflexivity|split; [exact Hs|]]. intro s. apply eq_sym, combine_none_r.
  - inversion Hr as [|? ? Hr1 Hr2]; subst.
    destruct (step r o e Hr1 Hs) as [o1 [Hrun [Hs1 Hl1]]].
    destruct (IH o1 e Hr2 Hs1) as [o2 [Hst [Hs2 Hl2]]].
    exists o2. split; [|split; [exact Hs2|]].
    + cbn [stream]. rewrite Hrun. cbn [oos env]. exact Hst.
    + intro s. rewrite Hl2, Hl1. cbn [total]. apply combine_assoc.
Qed.

(* from an unset @sum: the final @sum[s] is exactly the first-principles total, and absent when nothing contributed *)
Lemma accumulate_from_unset recs o e : Forall rec_ok recs -> get "sum" o = None ->
  exists o', stream o e [accumulate] recs = Some o' /\ forall s, lookup_sum o' s = total s recs.
Proof.
  intros Hr Hn. destruct (stream_accumulates recs o e Hr (or_introl Hn)) as [o' [H1 [_ H3]]].
  exists o'. split; [exact H1|]. intro s. rewrite H3. unfold lookup_sum. now rewrite Hn.
Qed.
