(* C08 -- generic lifting of exhaustive boolean checks over explicit finite lists to quantified statements. *)
From Coq Require Import List String Bool Arith.
From Miller Require Import C08.Model.
Import ListNotations.

Lemma lift1 {A} (L : list A) (f : A -> bool) :
  forallb f L = true -> forall a, In a L -> f a = true.
Proof. intros H a Ha. exact (proj1 (forallb_forall f L) H a Ha). Qed.

Lemma lift2 {A B} (L1 : list A) (L2 : A -> list B) (f : A -> B -> bool) :
  forallb (fun a => forallb (f a) (L2 a)) L1 = true ->
  forall a b, In a L1 -> In b (L2 a) -> f a b = true.
Proof. intros H a b Ha. exact (lift1 _ _ (lift1 _ _ H a Ha) b). Qed.

Lemma lift3 {A B C} (L1 : list A) (L2 : list B) (L3 : list C) (f : A -> B -> C -> bool) :
  forallb (fun a => forallb (fun b => forallb (f a b) L3) L2) L1 = true ->
  forall a b c, In a L1 -> In b L2 -> In c L3 -> f a b c = true.
Proof. intros H a b c Ha Hb. exact (lift1 _ _ (lift2 _ (fun _ => L2) _ H a b Ha Hb) c). Qed.

Lemma ok_elim open key b : ok open key b = true -> excluded open key = false -> b = true.
Proof. unfold ok. intros H E. rewrite E in H. exact H. Qed.

Lemma and3 a b c : a && b && c = true -> a = true /\ b = true /\ c = true.
Proof. intro H. apply andb_true_iff in H. destruct H as [H Hc]. apply andb_true_iff in H. tauto. Qed.

Lemma all_kinds_complete k : In k all_kinds.
Proof. destruct k; cbn; tauto. Qed.

(* The row of one operator as a table of its own.  A rule evaluated over all kind pairs of an operator looks the operator
   up once, to build this row, instead of once for every cell it reads. *)
Definition row_of {A} (op : string) (t : list (string * A)) : list (string * A) :=
  match assoc op t with Some a => [(op, a)] | None => [] end.

Lemma assoc_row_of {A} op (t : list (string * A)) : assoc op (row_of op t) = assoc op t.
Proof. unfold row_of. destruct (assoc op t); [|reflexivity]. cbn [assoc]. now rewrite String.eqb_refl. Qed.

Lemma lookup2_row_of T op k1 k2 : lookup2 (row_of op T) op k1 k2 = lookup2 T op k1 k2.
Proof. unfold lookup2. now rewrite assoc_row_of. Qed.

Lemma lookup1_row_of U op k : lookup1 (row_of op U) op k = lookup1 U op k.
Proof. unfold lookup1. now rewrite assoc_row_of. Qed.
