(* C08 correspondence harness: the assignment model run by vm_compute on cases written by the Python driver; and the model's + compared with the regenerated table gen_binary at kind level (plus_agrees). *)
From Coq Require Import List String Bool Arith ZArith NArith.
From Miller Require Import C08.Assign.
Import ListNotations.
Local Open Scope string_scope.

Fixpoint val_eqb (a b : val) : bool :=
  match a, b with
  | VAbsent, VAbsent | VEmpty, VEmpty | VError, VError => true
  | VInt x, VInt y => Z.eqb x y
  | VStr s, VStr t => String.eqb s t
  | VMap m, VMap n =>
      (fix go (m n : amap) : bool :=
         match m, n with
         | [], [] => true
         | (k, v) :: m', (k', v') :: n' => String.eqb k k' && val_eqb v v' && go m' n'
         | _, _ => false
         end) m n
  | _, _ => false
  end.

(* what mlr printed at the end of the program: record, oosvars, the named locals and ENV entries (absent -> VAbsent) *)
Inductive observed :=
| ObsFatal
| ObsState (rec oosv : amap) (locals envs : amap).

Definition pick (names : list string) (m : amap) (dflt : val) : amap :=
  map (fun n => (n, match get n m with Some v => v | None => dflt end)) names.

Definition case := (amap * list stmt * observed)%type.

Definition chk (c : case) : bool :=
  let '(r, p, o) := c in
  match run (mkstate r [] [] []) p, o with
  | Fatal, ObsFatal => true
  | Ok st, ObsState r' o' l' e' =>
      val_eqb (VMap (srec st)) (VMap r') && val_eqb (VMap (oos st)) (VMap o')
      && val_eqb (VMap (pick (map fst l') (loc st) VAbsent)) (VMap l')
      && val_eqb (VMap (pick (map fst e') (env st) VEmpty)) (VMap e')
  | _, _ => false
  end.

(* the program stays inside the model's domain (string map keys ...): OutOfModel cases are not comparisons *)
Definition in_model (c : case) : bool :=
  let '(r, p, _) := c in match run (mkstate r [] [] []) p with OutOfModel => false | _ => true end.

(* the model's `+` against the regenerated table, at kind level *)
From Miller Require Import C08.Model gen.Gen_Dispositions.
Definition kind_of (v : val) : kind :=
  match v with VAbsent => KAbsent | VEmpty => KVoid | VError => KError | VInt _ => KInt | VStr _ => KString | VMap _ => KMap end.
Definition plus_samples : list val := [VAbsent; VEmpty; VError; VInt 3; VInt (-7); VStr "abc"; VMap []; VMap [("k", VInt 1)]].
Definition plus_agrees (a b : val) : bool :=
  let ce := lookup2 gen_binary "+" (kind_of a) (kind_of b) in
  match plus a b, a, b with
  | VInt z, VInt x, VInt y => Z.eqb z (x + y) && match ce with Some c => forallb numeric (c_kinds c) | None => false end
  | VInt z, VInt x, _ => Z.eqb z x && cell_in (CArg 1) ce
  | VInt z, _, VInt y => Z.eqb z y && cell_in (CArg 2) ce
  | VAbsent, _, _ => cell_in CAbsent ce
  | VError, _, _ => cell_in CError ce
  | VEmpty, _, _ => cell_in CVoid ce
  | _, _, _ => false
  end.
Lemma plus_model_matches_table :
  forallb (fun a => forallb (plus_agrees a) plus_samples) plus_samples = true.
Proof. vm_compute. reflexivity. Qed.
