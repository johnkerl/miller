(* C08 property theorems, each followed by Print Assumptions; the lemmas behind them are in the other files of C08.

   Part 1 is stated over the tables REGENERATED on every run from the implementation (gen/Gen_Dispositions.v:
   gen_binary / gen_unary / gen_variadic = the real pkg/bifs functions applied to >= 3 representatives of each of the
   12 Mlrval kinds; gen_dsl_logical = && and || through mlr).  `has2 T op k1 k2 c = true` reads: the table has the
   cell and, for EVERY tested pair of representatives of kinds k1, k2, the result of `op` was of class c
   (CArg i = the i-th operand itself, kind and value).  The domains are finite and enumerated completely; the bound
   is the explicit list in each statement.

   `open_findings` (regenerated) lists the known deviations (harness/py/checks/c08.findings.md) the implementation
   exhibits in this run; a theorem with the hypothesis `excluded open_findings cell = false` is the full clause of
   the property when `open_findings = []`, and otherwise the clause outside the footprint of the listed deviations
   (theorem C08_open_findings_are_refutations shows every listed deviation is real, so nothing is excluded that holds
   by accident of the list).  Part 1c is over the tables of gen/Gen_AbsentDSL.v (absent through the DSL evaluator; rules in DslRules.v).  Part 2 is over the assignment model (Assign.v), for all states and programs. *)
From Coq Require Import List String Bool Arith ZArith.
From Miller Require Import C08.Model C08.Proofs C08.TableProofs C08.DslRules gen.Gen_Dispositions gen.Gen_AbsentDSL C08.Assign C08.AssignProofs C08.Accumulate C08.Harness.
Import ListNotations.
Local Open Scope string_scope.

(* ---- absent is the identity of accumulation ---- *)
Theorem C08_absent_identity_left_except_open_findings :
  forall op k, In op accumulate_ops -> In k (identity_kinds op) ->
    excluded open_findings (op, KAbsent, k) = false -> has2 gen_binary op KAbsent k (CArg 2) = true.
Proof. exact (fun op k Ho Hk => ok_elim _ _ _ (lift2 _ _ _ t_absent_left op k Ho Hk)). Qed.
Print Assumptions C08_absent_identity_left_except_open_findings.

Theorem C08_absent_identity_right :
  forall op k, In op accumulate_ops -> In k (identity_kinds op) ->
    excluded open_findings (op, k, KAbsent) = false -> has2 gen_binary op k KAbsent (CArg 1) = true.
Proof. exact (fun op k Ho Hk => ok_elim _ _ _ (lift2 _ _ _ t_absent_right op k Ho Hk)). Qed.
Print Assumptions C08_absent_identity_right.

Theorem C08_absent_op_absent_is_absent :
  forall op, In op (dot_op :: accumulate_ops) -> has2 gen_binary op KAbsent KAbsent CAbsent = true.
Proof. exact (lift1 _ _ t_absent_both). Qed.
Print Assumptions C08_absent_op_absent_is_absent.

Theorem C08_dot_absent_is_identity :
  forall k, In k scalar_kinds -> r_dot_absent gen_binary k = true.
Proof. exact (lift1 _ _ t_dot_absent). Qed.
Print Assumptions C08_dot_absent_is_identity.

Theorem C08_variadic_minmax_ignore_absent :
  forall op k, In op ["min"; "max"] -> In k scalar_kinds ->
    hasv gen_variadic op [k; KAbsent; KAbsent] (CArg 1) = true /\ hasv gen_variadic op [KAbsent; k; KAbsent] (CArg 2) = true
    /\ hasv gen_variadic op [KAbsent; KAbsent; k] (CArg 3) = true /\ hasv gen_variadic op [] CVoid = true.
Proof.
  exact (fun op k Ho Hk =>
    match andb_prop _ _ (lift2 _ (fun _ => scalar_kinds) _ t_variadic op k Ho Hk) with
    | conj H123 H4 => match and3 _ _ _ H123 with conj H1 (conj H2 H3) => conj H1 (conj H2 (conj H3 H4)) end
    end).
Qed.
Print Assumptions C08_variadic_minmax_ignore_absent.

(* ---- math-library functions (and unary operators) of absent are absent; of empty, empty ---- *)
Theorem C08_unary_of_absent_is_absent :
  forall op, In op (math_unary_ops ++ unary_operator_ops ++ ["bitcount"; "min1"; "max1"])%list -> has1 gen_unary op KAbsent CAbsent = true.
Proof. exact (lift1 _ _ t_unary_absent). Qed.
Print Assumptions C08_unary_of_absent_is_absent.

Theorem C08_math_of_empty_is_empty :
  forall op, In op math_unary_ops -> has1 gen_unary op KVoid CVoid = true.
Proof. exact (lift1 _ _ t_math_empty). Qed.
Print Assumptions C08_math_of_empty_is_empty.

(* ---- an error operand with any scalar (also JSON null, absent) yields an error ---- *)
Theorem C08_error_absorbs_except_open_findings :
  forall op k, In op (dot_op :: accumulate_ops) -> In k (scalar_kinds ++ [KNull; KAbsent])%list ->
    (excluded open_findings (op, KError, k) = false -> has2 gen_binary op KError k CError = true)
    /\ (excluded open_findings (op, k, KError) = false -> has2 gen_binary op k KError CError = true).
Proof.
  exact (fun op k Ho Hk =>
    match andb_prop _ _ (lift2 _ (fun _ => (scalar_kinds ++ [KNull; KAbsent])%list) _ t_error op k Ho Hk) with
    | conj H1 H2 => conj (ok_elim _ _ _ H1) (ok_elim _ _ _ H2)
    end).
Qed.
Print Assumptions C08_error_absorbs_except_open_findings.

(* ---- commutative operators: same result kinds for (a,b) and (b,a), all 12 x 12 kind pairs ---- *)
Theorem C08_commutative_result_kinds_except_open_findings :
  forall op k1 k2, In op commutative_ops -> excluded open_findings (op, k1, k2) = false ->
    same_result_kinds (lookup2 gen_binary op k1 k2) (lookup2 gen_binary op k2 k1) = true.
Proof.
  intros op k1 k2 Ho. rewrite <- !(lookup2_row_of gen_binary op).
  exact (ok_elim _ _ _ (lift3 _ _ _ _ t_commutes op k1 k2 Ho (all_kinds_complete k1) (all_kinds_complete k2))).
Qed.
Print Assumptions C08_commutative_result_kinds_except_open_findings.

(* ---- empty operands ---- *)
Theorem C08_empty_with_number_yields_number_except_open_findings :
  forall op k, In op empty_number_ops -> In k number_kinds ->
    (excluded open_findings (op, KVoid, k) = false -> has2 gen_binary op KVoid k (CArg 2) = true)
    /\ (excluded open_findings (op, k, KVoid) = false -> has2 gen_binary op k KVoid (CArg 1) = true)
    /\ has2 gen_binary op KVoid KVoid CVoid = true.
Proof.
  exact (fun op k Ho Hk =>
    match and3 _ _ _ (lift2 _ (fun _ => number_kinds) _ t_empty_number op k Ho Hk) with
    | conj H1 (conj H2 H3) => conj (ok_elim _ _ _ H1) (conj (ok_elim _ _ _ H2) H3)
    end).
Qed.
Print Assumptions C08_empty_with_number_yields_number_except_open_findings.

Theorem C08_empty_is_zero_for_subtraction :
  forall op k, In op empty_minus_ops -> In k number_kinds ->
    has2 gen_binary op KVoid k (CNegArg 2) = true /\ has2 gen_binary op k KVoid (CArg 1) = true /\ has2 gen_binary op KVoid KVoid CVoid = true.
Proof. exact (fun op k Ho Hk => and3 _ _ _ (lift2 _ (fun _ => number_kinds) _ t_empty_minus op k Ho Hk)). Qed.
Print Assumptions C08_empty_is_zero_for_subtraction.

Theorem C08_empty_absorbs_other_operators :
  forall op k, In op empty_absorbing_ops -> In k number_kinds ->
    has2 gen_binary op KVoid k CVoid = true /\ has2 gen_binary op k KVoid CVoid = true /\ has2 gen_binary op KVoid KVoid CVoid = true.
Proof. exact (fun op k Ho Hk => and3 _ _ _ (lift2 _ (fun _ => number_kinds) _ t_empty_absorbs op k Ho Hk)). Qed.
Print Assumptions C08_empty_absorbs_other_operators.

(* ---- the tables printed in reference-main-null-data.md, cell by cell ---- *)
Theorem C08_documented_plus_table :
  forall i j, In i six -> In j six -> r_doc_table gen_binary "+" doc_plus i j = true.
Proof. exact (lift2 _ (fun _ => six) _ t_doc_plus). Qed.
Print Assumptions C08_documented_plus_table.

Theorem C08_documented_and_table :
  forall i j, In i six -> In j six -> r_doc_logical gen_dsl_logical "&&" doc_and i j = true.
Proof. exact (lift2 _ (fun _ => six) _ t_doc_and). Qed.
Print Assumptions C08_documented_and_table.

Theorem C08_documented_or_table :
  forall i j, In i six -> In j six -> r_doc_logical gen_dsl_logical "||" doc_or i j = true.
Proof. exact (lift2 _ (fun _ => six) _ t_doc_or). Qed.
Print Assumptions C08_documented_or_table.

(* ---- is_* predicates ---- *)
Theorem C08_is_predicates_classify_every_kind :
  forall k, r_predicates gen_unary k = true.
Proof. exact (fun k => lift1 _ _ t_predicates k (all_kinds_complete k)). Qed.
Print Assumptions C08_is_predicates_classify_every_kind.

Theorem C08_is_predicates_relations :
  forall k, r_pred_relations gen_unary k = true.
Proof. exact (fun k => lift1 _ _ t_pred_relations k (all_kinds_complete k)). Qed.
Print Assumptions C08_is_predicates_relations.

Theorem C08_is_predicates_partition :
  forall k, r_partition gen_unary k = true.
Proof. exact (fun k => lift1 _ _ t_partition k (all_kinds_complete k)). Qed.
Print Assumptions C08_is_predicates_partition.

(* ---- the classification itself: kind-uniform, and no BIF panics on any kind pair ---- *)
Theorem C08_disposition_cells_kind_uniform :
  forall op k1 k2, In op matrix_ops -> r_uniform gen_binary op k1 k2 = true.
Proof.
  intros op k1 k2 Ho. unfold r_uniform. rewrite <- (lookup2_row_of gen_binary op).
  exact (lift3 _ _ _ _ t_uniform op k1 k2 Ho (all_kinds_complete k1) (all_kinds_complete k2)).
Qed.
Print Assumptions C08_disposition_cells_kind_uniform.

Theorem C08_no_cell_panics :
  (forall op k1 k2, In op (map fst gen_binary) -> no_panic (lookup2 gen_binary op k1 k2) = true)
  /\ (forall op k, In op (map fst gen_unary) -> no_panic (lookup1 gen_unary op k) = true).
Proof.
  split.
  - intros op k1 k2 Ho. rewrite <- (lookup2_row_of gen_binary op).
    exact (lift3 _ _ _ _ t_no_panic2 op k1 k2 Ho (all_kinds_complete k1) (all_kinds_complete k2)).
  - intros op k Ho. rewrite <- (lookup1_row_of gen_unary op).
    exact (lift2 _ (fun _ => all_kinds) (fun op k => no_panic (lookup1 (row_of op gen_unary) op k)) t_no_panic1 op k Ho (all_kinds_complete k)).
Qed.
Print Assumptions C08_no_cell_panics.

(* ---- every deviation listed as open is exhibited by the table (nothing is excluded by an outdated list) ---- *)
Theorem C08_open_findings_are_refutations :
  forall f, In f open_findings -> refuted gen_binary f = true.
Proof. exact (lift1 _ _ t_open_refuted). Qed.
Print Assumptions C08_open_findings_are_refutations.

(* ================= Part 1c: absent through the DSL evaluator (tables regenerated from `mlr -n put`: gen/Gen_AbsentDSL.v) ================= *)

(* a ?? b is b exactly when a is absent, a ??? b exactly when a is absent or empty -- for every kind of a a DSL expression can
   denote (11) and right-hand sides of 4 kinds; co_expected is that rule, lookup_co reads the regenerated table *)
Theorem C08_coalescing_operators_over_all_kinds :
  forall op a b, In op coalesce_ops -> In a dsl_kinds -> In b rhs_kinds ->
    exists c, lookup_co gen_coalesce op a b = Some c /\ cls_eqb c (co_expected op a) = true.
Proof.
  exact (fun op a b Ho Ha Hb =>
    match lookup_co gen_coalesce op a b as o
      return (match o with Some c => cls_eqb c (co_expected op a) | None => false end = true -> exists c, o = Some c /\ cls_eqb c (co_expected op a) = true) with
    | Some c => fun H => ex_intro _ c (conj eq_refl H)
    | None => fun H => match Bool.diff_false_true H with end
    end (lift3 _ _ _ _ t_coalesce op a b Ho Ha Hb)).
Qed.
Print Assumptions C08_coalescing_operators_over_all_kinds.

(* "absent in, absent out" for the listed string / math / formatting functions (first argument absent) *)
Theorem C08_functions_of_absent_are_absent :
  (forall f, In f absent_out_1 -> fn_is_absent gen_fn1_absent f = true) /\ (forall f, In f absent_out_n -> fn_is_absent gen_fnn_absent f = true).
Proof. exact (conj (lift1 _ _ t_fn1_absent) (lift1 _ _ t_fnn_absent)). Qed.
Print Assumptions C08_functions_of_absent_are_absent.

(* EVERY one-argument function of the built-in function table applied to absent gives absent or an error value, except the
   is_* predicates (a boolean) and the listed functions fn1_other; none stops the process *)
Theorem C08_one_argument_functions_of_absent_classified :
  forall e, In e gen_fn1_absent -> r_fn1_class e = true.
Proof. exact (lift1 _ _ t_fn1_class). Qed.
Print Assumptions C08_one_argument_functions_of_absent_classified.

(* asserting_p(v) returns exactly when is_p(v) is true; every predicate is observed on an absent argument *)
Theorem C08_asserting_agrees_with_is_predicates :
  (forall e, In e gen_asserting -> r_asserting e = true) /\ (forall p, In p asserting_preds -> asserting_covers_absent p = true).
Proof. exact (conj (lift1 _ _ t_asserting) (lift1 _ _ t_asserting_cover)). Qed.
Print Assumptions C08_asserting_agrees_with_is_predicates.

(* absent in statements: print/dump/emit print "" or nothing, unset of absent things and absent map keys/values change nothing,
   typed locals stay unset (the skip rule precedes the type gate) while typed parameters/returns reject absent, positional names,
   $* and ENV are not assigned, absent as a condition is an error (if / ?:) and drops the record (filter) *)
Theorem C08_absent_in_statements :
  forall e, In e expected_stmt -> r_stmt e = true.
Proof. exact (lift1 _ _ t_stmt). Qed.
Print Assumptions C08_absent_in_statements.

(* ================= Part 2: assignment (model of AssignmentNode.Execute + every lvalue node), all states ================= *)

(* an assignment whose right-hand side evaluates to absent changes nothing -- for every lvalue form (field, indirect
   field, positional name/value, $*, oosvar, indirect oosvar, @*, local, ENV; indexed or not) *)
Theorem C08_assignment_of_absent_is_skipped :
  forall st l e, eval st e = VAbsent -> exec st (SAssign l e) = Ok st.
Proof. exact exec_absent_noop. Qed.
Print Assumptions C08_assignment_of_absent_is_skipped.

(* ... hence it never creates a key, in the record, the oosvars, the locals or the environment *)
Theorem C08_assignment_of_absent_creates_no_key :
  forall st l e st', eval st e = VAbsent -> exec st (SAssign l e) = Ok st' ->
    map fst (srec st') = map fst (srec st) /\ map fst (oos st') = map fst (oos st)
    /\ map fst (loc st') = map fst (loc st) /\ map fst (env st') = map fst (env st).
Proof. exact exec_absent_keys. Qed.
Print Assumptions C08_assignment_of_absent_creates_no_key.

(* a whole program of such assignments, of any length *)
Theorem C08_program_of_absent_assignments_is_identity :
  forall p st, Forall (fun s => match s with SAssign _ e => eval st e = VAbsent end) p -> run st p = Ok st.
Proof. exact run_absent_noop. Qed.
Print Assumptions C08_program_of_absent_assignments_is_identity.

(* an absent index (or ENV name) skips the assignment as well, whatever the value *)
Theorem C08_assignment_with_absent_index_is_skipped :
  forall st l x e, direct_indexed l = true -> In e (lval_indices l) -> eval st e = VAbsent -> exec st (SAssign l x) = Ok st.
Proof. exact exec_absent_index. Qed.
Print Assumptions C08_assignment_with_absent_index_is_skipped.

(* compound assignment `lhs op= rhs` (op in +, ??, ???; built as `lhs = lhs op rhs`): with lhs unset and rhs absent nothing is
   assigned, so `@sum += $x` / `@v ??= $x` leave the variable unset on records lacking the field *)
Theorem C08_compound_assignment_of_absent_operands_is_skipped :
  forall st l o e le, lval_as_expr l = Some le -> eval st le = VAbsent -> eval st e = VAbsent ->
    exists s, compound l o e = Some s /\ exec st s = Ok st.
Proof. exact compound_absent_noop. Qed.
Print Assumptions C08_compound_assignment_of_absent_operands_is_skipped.

(* a ?? b is b exactly when a is absent *)
Theorem C08_absent_coalescing :
  forall st a b, (eval st a <> VAbsent -> eval st (ECoalesce a b) = eval st a)
              /\ (eval st a = VAbsent -> eval st (ECoalesce a b) = eval st b).
Proof. exact (fun st a b => conj (coalesce_keeps_present st a b) (coalesce_absent st a b)). Qed.
Print Assumptions C08_absent_coalescing.

(* map literals drop absent values: no absent is ever stored through `x = {...}` *)
Theorem C08_map_literal_holds_no_absent :
  forall st kvs m, eval st (EMapLit kvs) = VMap m -> Forall (fun kv => snd kv <> VAbsent) m.
Proof. exact maplit_no_absent. Qed.
Print Assumptions C08_map_literal_holds_no_absent.

(* `@sum[$a] += $x` over a stream of ANY length, started from an unset @sum: the run succeeds and, for every key s,
   @sum[s] is the first-principles total of $x over the records having $a = s and an $x (records lacking either field
   are ignored), and is unset when no record contributes.  rec_ok: $a, when present, is a string and $x, when present,
   an int (int overflow is C07's subject: the model adds in Z). *)
Theorem C08_accumulation_from_unset_variable :
  forall recs o e, Forall rec_ok recs -> get "sum" o = None ->
    exists o', stream o e [accumulate] recs = Some o' /\ forall s, lookup_sum o' s = total s recs.
Proof. exact accumulate_from_unset. Qed.
Print Assumptions C08_accumulation_from_unset_variable.

(* the `+` of the assignment model is the `+` of the regenerated table, at kind level, on the listed sample values *)
Theorem C08_model_plus_matches_table :
  forall a b, In a plus_samples -> In b plus_samples -> plus_agrees a b = true.
Proof. exact (lift2 _ (fun _ => plus_samples) _ plus_model_matches_table). Qed.
Print Assumptions C08_model_plus_matches_table.

(* non-vacuity: the tables are populated, the quantified domains are non-empty, cells carry real classes *)
Example C08_nonvacuous :
  List.length gen_binary = 34 /\ List.length gen_unary >= 50 /\ List.length accumulate_ops = 21
  /\ has2 gen_binary "+" KAbsent KInt (CArg 2) = true /\ has2 gen_binary "+" KAbsent KInt (CArg 1) = false
  /\ has2 gen_binary "+" KInt KAbsent (CArg 1) = true /\ has2 gen_binary "nosuch" KInt KInt (CArg 1) = false
  /\ excluded open_findings ("+", KAbsent, KInt) = false
  /\ lookup2 gen_binary "==" KInt KBool <> None
  (* assignment: a concrete state and program meeting the hypotheses, and the same lvalues DO assign present values *)
  /\ (let st := mkstate [("x", VInt 3)] [] [] [] in
      eval st (EPlus (EField "nosuch") (EOosvar "sum")) = VAbsent
      /\ exec st (SAssign (LField "new" []) (EField "x")) = Ok (mkstate [("x", VInt 3); ("new", VInt 3)] [] [] [])
      /\ exec st (SAssign (LOosvar "sum" [ELit (VStr "k")]) (EPlus (EIndex (EOosvar "sum") (ELit (VStr "k"))) (EField "x")))
         = Ok (mkstate [("x", VInt 3)] [("sum", VMap [("k", VInt 3)])] [] [])
      /\ direct_indexed (LOosvar "sum" [EField "nosuch"]) = true)
  /\ (let recs := [[("a", VStr "p"); ("x", VInt 7)]; [("a", VStr "q")]; [("x", VInt 5)]; [("a", VStr "p"); ("x", VInt 9)]] in
      rec_ok (hd [] recs) /\ total "p" recs = Some 16%Z /\ total "q" recs = None
      /\ stream [] [] [accumulate] recs = Some [("sum", VMap [("p", VInt 16)])]).
Proof.
  vm_compute. repeat split; try reflexivity; try (apply Nat.leb_le; reflexivity); try discriminate;
    try (right; eexists; reflexivity).
Qed.
