(* C08 -- proofs about the assignment model: for ALL states, lvalues, expressions, programs. *)
From Coq Require Import List String Bool Arith ZArith Lia.
From Miller Require Import C08.Assign.
Import ListNotations.
Local Open Scope string_scope.

(* an absent right-hand side: nothing happens, whatever the lvalue *)
Lemma exec_absent_noop st l e : eval st e = VAbsent -> exec st (SAssign l e) = Ok st.
Proof. intro H. unfold exec. rewrite H. reflexivity. Qed.

Lemma run_absent_noop p : forall st,
  Forall (fun s => match s with SAssign _ e => eval st e = VAbsent end) p -> run st p = Ok st.
Proof.
  induction p as [|[l e] p IH]; intros st H; [reflexivity|].
  inversion H as [|? ? He Hp]; subst. cbn [run]. rewrite (exec_absent_noop st l e He). exact (IH st Hp).
Qed.

Lemma eval_keys_absent st idx e : In e idx -> eval st e = VAbsent -> eval_keys st idx = None.
Proof.
  induction idx as [|x idx IH]; intros Hin He; [contradiction|].
  cbn [eval_keys]. destruct Hin as [->|Hin].
  - rewrite He. reflexivity.
  - destruct (is_absent (eval st x)); [reflexivity|]. rewrite (IH Hin He). reflexivity.
Qed.

(* an absent index / ENV name: skipped too, whatever the (non-absent) value.  The lvalue forms with an index list *)
Definition direct_indexed (l : lval) : bool :=
  match l with LField _ _ | LSrec _ | LOosvar _ _ | LFullOosvar _ | LLocal _ _ | LEnv _ => true | _ => false end.

Lemma do_assign_absent_index st l v e :
  direct_indexed l = true -> In e (lval_indices l) -> eval st e = VAbsent -> do_assign st l v = Ok st.
Proof.
  intros Hd Hin He. destruct l as [n idx|ne idx|i|i|idx|n idx|ne idx|idx|n idx|ne]; try discriminate Hd;
    cbn [lval_indices] in Hin; cbn [do_assign].
  1-5: rewrite (eval_keys_absent st idx e Hin He); reflexivity.
  destruct Hin as [->|[]]. rewrite He. reflexivity.
Qed.

Lemma exec_absent_index st l x e :
  direct_indexed l = true -> In e (lval_indices l) -> eval st e = VAbsent -> exec st (SAssign l x) = Ok st.
Proof.
  intros Hd Hin He. unfold exec. destruct (is_absent (eval st x)); [reflexivity|].
  exact (do_assign_absent_index st l _ e Hd Hin He).
Qed.

Lemma exec_absent_keys st l e st' :
  eval st e = VAbsent -> exec st (SAssign l e) = Ok st' ->
  map fst (srec st') = map fst (srec st) /\ map fst (oos st') = map fst (oos st)
  /\ map fst (loc st') = map fst (loc st) /\ map fst (env st') = map fst (env st).
Proof. intros H E. rewrite (exec_absent_noop st l e H) in E. inversion E; subst. repeat split. Qed.

(* map literals never hold an absent value at their top level *)
Definition no_absent (m : amap) : Prop := Forall (fun kv => snd kv <> VAbsent) m.

Lemma put_no_absent k v m : v <> VAbsent -> no_absent m -> no_absent (put k v m).
Proof.
  intros Hv H. induction H as [|[k' v'] m H1 H2 IH]; cbn [put]; [now repeat constructor|].
  destruct (String.eqb k' k); constructor; assumption.
Qed.

Lemma is_absent_false v : is_absent v = false -> v <> VAbsent.
Proof. destruct v; cbn; congruence. Qed.

Lemma maplit_no_absent st kvs m : eval st (EMapLit kvs) = VMap m -> no_absent m.
Proof.
  cbn [eval]. intros [= <-].
  (* for any accumulator, not only [] *)
  assert (Ha : no_absent []) by constructor. revert Ha. generalize (@nil (string * val)).
  induction kvs as [|[k x] kvs IH]; intros acc Ha; [exact Ha|].
  apply IH. destruct (is_absent (eval st x)) eqn:E; [exact Ha|]. apply put_no_absent; [now apply is_absent_false|exact Ha].
Qed.

(* compound assignments: `lhs op= rhs` with BOTH sides absent is skipped (absent op absent = absent for +, ??, ???), so an
   accumulator stays unset until a present value arrives; and `lhs ??= rhs` never overwrites a present lhs with a different value *)
Lemma compound_absent_noop st l o e le :
  lval_as_expr l = Some le -> eval st le = VAbsent -> eval st e = VAbsent ->
  exists s, compound l o e = Some s /\ exec st s = Ok st.
Proof.
  intros Hl Ha He. unfold compound. rewrite Hl. eexists. split; [reflexivity|].
  apply exec_absent_noop. destruct o; cbn [apply_cop eval]; rewrite Ha, He; reflexivity.
Qed.

Lemma coalesce_keeps_present st a b : eval st a <> VAbsent -> eval st (ECoalesce a b) = eval st a.
Proof. intro H. cbn [eval]. destruct (eval st a); try reflexivity. contradiction. Qed.

Lemma coalesce_absent st a b : eval st a = VAbsent -> eval st (ECoalesce a b) = eval st b.
Proof. intro H. cbn [eval]. rewrite H. reflexivity. Qed.
