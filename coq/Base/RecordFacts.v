(* Facts about records as association lists that several directories use: beqb, mem, get, has, put, remove, keys under
   unique names, filter on records and a selection that rejects the names an operation touches. *)
From Miller Require Import Base.Bytes Base.Record.
From Miller Require Export Base.ListFacts.

Lemma code_inj a b : code a = code b -> a = b.
Proof. unfold code. intros H. rewrite <- (ascii_N_embedding a), <- (ascii_N_embedding b). now rewrite H. Qed.

Lemma beqb_true a b : beqb a b = true <-> a = b.
Proof. destruct (beqb_spec a b); split; congruence. Qed.

Lemma beqb_false a b : beqb a b = false <-> a <> b.
Proof. destruct (beqb_spec a b); split; congruence. Qed.

Lemma beqb_sym a b : beqb a b = beqb b a.
Proof. destruct (beqb_spec a b), (beqb_spec b a); congruence. Qed.

Lemma prefixb_app p s : prefixb p (p ++ s) = true.
Proof. induction p as [|c p IH]; cbn; [reflexivity|]. rewrite IH. destruct (Ascii.eqb_spec c c); [reflexivity|congruence]. Qed.

Lemma mem_false k l : mem k l = false <-> ~ In k l.
Proof. rewrite <- mem_In. destruct (mem k l); split; congruence. Qed.

Lemma mem_app k a b : mem k (a ++ b) = mem k a || mem k b.
Proof. unfold mem. apply existsb_app. Qed.

Lemma in_keys k v (r : record) : In (k, v) r -> In k (keys r).
Proof. apply (in_map fst). Qed.

Lemma keys_app (a b : record) : keys (a ++ b) = keys a ++ keys b.
Proof. apply map_app. Qed.

Lemma keys_combine (ns vs : list bytes) : List.length ns = List.length vs -> keys (combine ns vs) = ns.
Proof. revert vs. induction ns as [|n ns IH]; intros [|v vs] L; cbn in *; try discriminate; [reflexivity|]. f_equal. apply IH. lia. Qed.

Lemma get_None_notin k r : get k r = None <-> ~ In k (keys r).
Proof.
  induction r as [|[k' v] r IH]; cbn; [tauto|].
  destruct (beqb_spec k k') as [->|Hne]; [split; [discriminate|tauto]|].
  rewrite IH. split; [intros H [E|H']; [congruence|tauto]|tauto].
Qed.

Lemma get_Some_in k v r : get k r = Some v -> In (k, v) r.
Proof.
  induction r as [|[k' v'] r IH]; cbn; [discriminate|].
  destruct (beqb_spec k k') as [->|Hne]; [intros [= ->]; auto|auto].
Qed.

Lemma get_own k v r : NoDup (keys r) -> In (k, v) r -> get k r = Some v.
Proof.
  induction r as [|[k' v'] r IH]; intros Hnd Hin; [contradiction|]. cbn.
  destruct Hin as [[= -> ->]|Hin]; [now rewrite beqb_refl|].
  inversion Hnd as [|? ? Hni Hnd']; subst.
  destruct (beqb_spec k k') as [->|Hne]; [|exact (IH Hnd' Hin)].
  destruct (Hni (in_keys _ _ _ Hin)).
Qed.

Lemma has_true_in k r : has k r = true <-> In k (keys r).
Proof.
  unfold has. destruct (get k r) eqn:E.
  - split; [intros _|reflexivity]. eapply in_keys, get_Some_in, E.
  - split; [discriminate|]. intros H. apply get_None_notin in E. contradiction.
Qed.

Lemma has_false_notin k r : has k r = false <-> ~ In k (keys r).
Proof. rewrite <- has_true_in. destruct (has k r); split; congruence. Qed.

Lemma get_app k a b : get k (a ++ b) = match get k a with Some v => Some v | None => get k b end.
Proof. induction a as [|[k' v'] a IH]; cbn; [reflexivity|]. destruct (beqb k k'); auto. Qed.

Lemma keys_filter_incl p r k : In k (keys (filter p r)) -> In k (keys r).
Proof. unfold keys. rewrite !in_map_iff. intros (x & <- & Hx). apply filter_In in Hx. exists x; tauto. Qed.

Lemma get_filter_keep (p : field -> bool) k r : (forall v, p (k, v) = true) -> get k (filter p r) = get k r.
Proof.
  intros Hp. induction r as [|[k' v'] r IH]; cbn; [reflexivity|].
  destruct (beqb_spec k k') as [->|Hne].
  - rewrite Hp. cbn. now rewrite beqb_refl.
  - destruct (p (k', v')); cbn; [destruct (beqb_spec k k'); [congruence|]|]; exact IH.
Qed.

Lemma keys_put k v r : keys (put k v r) = if mem k (keys r) then keys r else keys r ++ [k].
Proof.
  destruct (mem k (keys r)) eqn:M.
  - apply keys_put_present, has_true_in, mem_In, M.
  - apply keys_put_absent, has_false_notin, mem_false, M.
Qed.

Lemma put_absent k v r : ~ In k (keys r) -> put k v r = r ++ [(k, v)].
Proof.
  induction r as [|[k' v'] r IH]; cbn; intros H; [reflexivity|].
  destruct (beqb_spec k k') as [->|Hne]; [exfalso; apply H; left; reflexivity|]. f_equal. apply IH. tauto.
Qed.

Lemma put_put_same f p q r : put f q (put f p r) = put f q r.
Proof.
  induction r as [|[k v] r IH]; cbn; [now rewrite beqb_refl|].
  destruct (beqb f k) eqn:E; cbn; rewrite E; [reflexivity|]. now rewrite IH.
Qed.

Lemma put_get_same f v r : get f r = Some v -> put f v r = r.
Proof.
  induction r as [|[k v'] r IH]; cbn; [discriminate|].
  destruct (beqb f k) eqn:E; [intros [= ->]; reflexivity|]. intros H. now rewrite IH.
Qed.

Lemma fold_put_appends (ps : record) : forall acc,
  NoDup (keys ps) -> (forall k, In k (keys ps) -> ~ In k (keys acc)) ->
  fold_left (fun o kv => put (fst kv) (snd kv) o) ps acc = acc ++ ps.
Proof.
  induction ps as [|[k v] ps IH]; intros acc Hnd Hfresh; cbn [fold_left]; [now rewrite app_nil_r|].
  inversion Hnd as [|? ? Hni Hnd']; subst.
  cbn [fst snd]. rewrite put_absent by (apply Hfresh; left; reflexivity).
  rewrite IH; [now rewrite <- app_assoc|exact Hnd'|].
  intros k' Hk'. rewrite keys_app, in_app_iff. cbn. intros [H|[H|[]]].
  - apply (Hfresh k'); [right; exact Hk'|exact H].
  - subst. exact (Hni Hk').
Qed.

Lemma remove_put_same f p r : has f r = true -> remove f (put f p r) = remove f r.
Proof.
  unfold has. induction r as [|[k v] r IH]; cbn; [discriminate|].
  destruct (beqb f k) eqn:E; cbn; rewrite E; [reflexivity|]. intros H. now rewrite IH.
Qed.

Lemma remove_app_absent k a b : ~ In k (keys a) -> remove k (a ++ b) = a ++ remove k b.
Proof.
  induction a as [|[k' v'] a IH]; cbn; intros H; [reflexivity|].
  destruct (beqb_spec k k') as [->|Hne]; [exfalso; apply H; left; reflexivity|]. f_equal. apply IH. tauto.
Qed.

Lemma remove_absent k r : ~ In k (keys r) -> remove k r = r.
Proof. intros H. rewrite <- (app_nil_r r). now rewrite remove_app_absent. Qed.

Lemma remove_app_present k (a b : record) : In k (keys a) -> remove k (a ++ b) = remove k a ++ b.
Proof.
  induction a as [|[k' v'] a IH]; cbn; intros H; [contradiction|].
  destruct (beqb_spec k k') as [->|Hne]; [reflexivity|]. cbn. f_equal. apply IH. destruct H as [H|H]; [congruence|exact H].
Qed.

Lemma get_remove_other k k' r : k <> k' -> get k' (remove k r) = get k' r.
Proof.
  intros Hne. induction r as [|[k2 v2] r IH]; cbn; [reflexivity|].
  destruct (beqb_spec k k2) as [->|Hk]; cbn; [destruct (beqb_spec k' k2); [congruence|reflexivity]|].
  destruct (beqb k' k2); auto.
Qed.

Lemma remove_filter f r : NoDup (keys r) -> remove f r = filter (fun kv => negb (beqb f (fst kv))) r.
Proof.
  induction r as [|[k v] r IH]; intros Hnd; cbn; [reflexivity|].
  inversion Hnd as [|? ? Hni Hnd']; subst.
  destruct (beqb_spec f k) as [->|Hne]; cbn; [|f_equal; exact (IH Hnd')].
  symmetry. apply filter_all_true. intros [k' v'] Hin. cbn. apply negb_true_iff, beqb_false. intros ->.
  exact (Hni (in_keys _ _ _ Hin)).
Qed.

(* Bystanders.  Most verbs touch a record only through put, remove, cons and snoc on a few names.  A selection p of
   fields that rejects those names comes out of the verb as it went in: same fields, same relative order. *)
Definition rejects (p : field -> bool) (k : bytes) : Prop := forall v, p (k, v) = false.

Lemma filter_put_out p k v r : rejects p k -> filter p (put k v r) = filter p r.
Proof.
  intros Hp. induction r as [|[k' v'] r IH]; cbn; [now rewrite Hp|].
  destruct (beqb_spec k k') as [->|Hne]; cbn; [now rewrite !Hp|]. now rewrite IH.
Qed.

Lemma filter_remove_out p k r : rejects p k -> filter p (remove k r) = filter p r.
Proof.
  intros Hp. induction r as [|[k' v] r IH]; cbn; [reflexivity|].
  destruct (beqb_spec k k') as [->|Hne]; cbn; [now rewrite Hp|]. now rewrite IH.
Qed.

Lemma filter_cons_out p k v r : rejects p k -> filter p ((k, v) :: r) = filter p r.
Proof. intros Hp. cbn. now rewrite Hp. Qed.

Lemma filter_snoc_out p k v r : rejects p k -> filter p (r ++ [(k, v)]) = filter p r.
Proof. intros Hp. rewrite filter_app. cbn. now rewrite Hp, app_nil_r. Qed.

Lemma filter_fold_out {A} p (step : record -> A -> record) l :
  (forall x, In x l -> forall r, filter p (step r x) = filter p r) ->
  forall r, filter p (fold_left step l r) = filter p r.
Proof.
  induction l as [|x l IH]; intros H r; cbn; [reflexivity|].
  rewrite IH by (intros; apply H; right; auto). apply H. left; auto.
Qed.
