(* Byte strings as lists of ascii; helpers shared by every model. One lemma, [beqb_spec]. *)
From Coq Require Export List Ascii String ZArith NArith Bool Lia.
Export ListNotations.
Open Scope char_scope.

Definition bytes := list ascii.
Definition B (s : string) : bytes := list_ascii_of_string s.
Definition S_ (b : bytes) : string := string_of_list_ascii b.
(* arbitrary bytes given as numbers, used by generated case files *)
Definition bs (l : list N) : bytes := map ascii_of_N l.
Definition code (c : ascii) : N := N_of_ascii c.

Definition cle (a b : ascii) : bool := (code a <=? code b)%N.
Definition in_range (lo hi c : ascii) : bool := cle lo c && cle c hi.

Fixpoint beqb (a b : bytes) : bool :=
  match a, b with
  | [], [] => true
  | x :: a', y :: b' => Ascii.eqb x y && beqb a' b'
  | _, _ => false
  end.

Lemma beqb_spec a b : reflect (a = b) (beqb a b).
Proof.
  revert b; induction a as [|x a IH]; intros [|y b]; cbn; try (constructor; congruence).
  destruct (Ascii.eqb_spec x y) as [->|Hne]; cbn.
  - destruct (IH b) as [->|Hne]; constructor; congruence.
  - constructor; congruence.
Qed.

Fixpoint prefixb (p s : bytes) : bool :=
  match p, s with
  | [], _ => true
  | x :: p', y :: s' => Ascii.eqb x y && prefixb p' s'
  | _ :: _, [] => false
  end.

(* generic correspondence helper: indices (0-based) of cases whose check fails *)
Fixpoint mismatches_from {A} (chk : A -> bool) (i : N) (l : list A) : list N :=
  match l with
  | [] => []
  | x :: t => if chk x then mismatches_from chk (N.succ i) t else i :: mismatches_from chk (N.succ i) t
  end.
Definition mismatches {A} (chk : A -> bool) (l : list A) : list N := mismatches_from chk 0%N l.
