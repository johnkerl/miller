(* Facts about lists that the standard library lacks and several directories use: forallb, filter, flat_map, fold_left
   under pointwise hypotheses, NoDup of an append and of an image under a map injective on the list. *)
From Miller Require Import Base.Bytes.

Lemma forallb_impl {A} (P Q : A -> bool) l :
  (forall x, P x = true -> Q x = true) -> forallb P l = true -> forallb Q l = true.
Proof. intros HPQ H. rewrite forallb_forall in *. auto. Qed.

Lemma filter_all_true {A} (p : A -> bool) l : (forall x, In x l -> p x = true) -> filter p l = l.
Proof.
  induction l as [|x l IH]; intros H; cbn; [reflexivity|]. rewrite (H x) by (left; auto). f_equal. apply IH. intros; apply H; right; auto.
Qed.

Lemma filter_none {A} (p : A -> bool) l : (forall x, In x l -> p x = false) -> filter p l = [].
Proof. induction l as [|x l IH]; intros H; cbn; [reflexivity|]. rewrite (H x) by (left; auto). apply IH. intros; apply H; right; auto. Qed.

Lemma filter_filter {A} (p q : A -> bool) l : filter p (filter q l) = filter (fun x => q x && p x) l.
Proof. induction l as [|x l IH]; cbn; [reflexivity|]. destruct (q x); cbn; [destruct (p x); now rewrite IH|exact IH]. Qed.

Lemma filter_sub {A} (p q : A -> bool) l : (forall x, p x = true -> q x = true) -> filter p (filter q l) = filter p l.
Proof.
  intros H. rewrite filter_filter. apply filter_ext. intros x. destruct (p x) eqn:E; [now rewrite H|apply andb_false_r].
Qed.

Lemma flat_map_ext_in {A B} (f g : A -> list B) l : (forall x, In x l -> f x = g x) -> flat_map f l = flat_map g l.
Proof. induction l as [|x l IH]; intros H; cbn; [reflexivity|]. rewrite H by (left; auto). rewrite IH; auto. intros; apply H; right; auto. Qed.

Lemma NoDup_app_iff {A} (a b : list A) :
  NoDup (a ++ b) <-> NoDup a /\ NoDup b /\ (forall x, In x a -> ~ In x b).
Proof.
  induction a as [|y a IH]; cbn.
  - split; [intros H; repeat split; [constructor|exact H|tauto]|tauto].
  - rewrite !NoDup_cons_iff, IH, in_app_iff. split.
    + intros (Hy & Ha & Hb & Hd). repeat split; try tauto. intros x [<-|Hx]; [tauto|now apply Hd].
    + intros ((Hy & Ha) & Hb & Hd). repeat split; auto. intros [H|H]; [auto|exact (Hd y (or_introl eq_refl) H)].
Qed.

Lemma NoDup_snoc {A} (s : list A) k : NoDup s -> ~ In k s -> NoDup (s ++ [k]).
Proof.
  intros Hs Hk. apply NoDup_app_iff. repeat split; [exact Hs|constructor; [intros []|constructor]|].
  intros x Hx [<-|[]]. exact (Hk Hx).
Qed.

Lemma NoDup_map_inj_in {A B} (f : A -> B) (l : list A) :
  NoDup l -> (forall x y, In x l -> In y l -> f x = f y -> x = y) -> NoDup (map f l).
Proof.
  induction l as [|x l IH]; cbn; intros Hn Hinj; [constructor|].
  inversion Hn as [|? ? Hx Hn']; subst. constructor.
  - rewrite in_map_iff. intros (y & Hy & Hin). apply Hx.
    assert (y = x) by (apply Hinj; auto). now subst.
  - apply IH; auto.
Qed.

Lemma fold_left_ext_in {A B} (f g : A -> B -> A) l : (forall x, In x l -> forall a, f a x = g a x) -> forall a, fold_left f l a = fold_left g l a.
Proof.
  induction l as [|x l IH]; intros H a; cbn [fold_left]; [reflexivity|].
  rewrite H by (now left). apply IH. intros y Hy. apply H. now right.
Qed.

Lemma fold_left_ext {A B} (f g : A -> B -> A) l : (forall a x, f a x = g a x) -> forall a, fold_left f l a = fold_left g l a.
Proof. intros H. apply fold_left_ext_in. intros x _ a. apply H. Qed.
