(* C07 lemmas: int ** int.  int_power is the exact integer power with overflow detection (ALL int64 bases, ALL
   non-negative int64 exponents); otherwise the result is the float math.Pow of the converted operands. *)
From Coq Require Import Floats.
From Miller Require Import Base.Bytes C06.Model C07.Model C07.Proofs C07.ProofsInt.
Open Scope Z_scope.

(* hi != 0 || lo > 2^63 *)
Lemma hi_lo_gt p : 0 <= p -> negb (p / two64 =? 0) || (two63 <? p mod two64) = (two63 <? p).
Proof.
  intros Hp. pose proof (hi_lo_le p Hp) as H.
  destruct (p / two64 =? 0); cbn [negb orb andb] in *.
  - rewrite Z.ltb_antisym, H, <- Z.ltb_antisym. reflexivity.
  - symmetry. rewrite Z.ltb_antisym, <- H. reflexivity.
Qed.

Lemma ipow_loop_spec ua : 1 <= ua ->
  forall n mag, 1 <= mag <= two63 ->
  ipow_loop n mag ua = if mag * ua ^ Z.of_nat n <=? two63 then Some (mag * ua ^ Z.of_nat n) else None.
Proof.
  intros Hua. induction n as [|k IH]; intros mag Hmag.
  - cbn [ipow_loop Z.of_nat]. rewrite Z.pow_0_r, Z.mul_1_r.
    destruct (Z.leb_spec mag two63); [reflexivity|lia].
  - cbn [ipow_loop]. cbv zeta.
    assert (Hp : 0 <= mag * ua) by nia.
    rewrite (hi_lo_gt _ Hp).
    rewrite Nat2Z.inj_succ, Z.pow_succ_r, Z.mul_assoc by lia.
    assert (Hpk : 1 <= ua ^ Z.of_nat k) by (apply Z.lt_pred_le, Z.pow_pos_nonneg; lia).
    destruct (Z.ltb_spec two63 (mag * ua)) as [Hgt|Hle].
    + destruct (Z.leb_spec (mag * ua * ua ^ Z.of_nat k) two63) as [Hc|_]; [exfalso; nia|reflexivity].
    + rewrite (Z.mod_small (mag * ua)) by lia64. apply IH. nia.
Qed.

(* b & 1 on a two's-complement int is its parity *)
Lemma land1 b : Z.land b 1 = if Z.odd b then 1 else 0.
Proof. change 1 with (Z.ones 1) at 1. rewrite Z.land_ones by lia. apply Zmod_odd. Qed.

Lemma land1_odd b : (Z.land b 1 =? 1) = Z.odd b.
Proof. rewrite land1. destruct (Z.odd b); reflexivity. Qed.

Lemma pow_sign a b : 0 <= b -> a ^ b = if (a <? 0) && Z.odd b then - Z.abs a ^ b else Z.abs a ^ b.
Proof.
  intros Hb. destruct (Z.ltb_spec a 0) as [Hn|Hp]; cbn [andb]; [|rewrite Z.abs_eq by lia; reflexivity].
  replace a with (- Z.abs a) at 1 by lia. destruct (Z.odd b) eqn:Eo.
  - apply Z.pow_opp_odd, Z.odd_spec, Eo.
  - apply Z.pow_opp_even, Z.even_spec. rewrite <- Z.negb_odd, Eo. reflexivity.
Qed.

Lemma minus_one_pow b : 0 <= b -> (-1) ^ b = if Z.odd b then -1 else 1.
Proof. intros Hb. rewrite (pow_sign (-1) b Hb). cbn [Z.ltb Z.compare andb Z.abs]. rewrite Z.pow_1_l by lia. reflexivity. Qed.

(* int_power is the exact power exactly when it fits *)
Lemma int_power_spec a b : in64 a = true -> 0 <= b ->
  int_power a b = if in64 (a ^ b) then Some (a ^ b) else None.
Proof.
  intros Ha Hb. unfold int_power.
  destruct (Z.eqb_spec b 0) as [->|Hb0]; [reflexivity|].
  destruct (Z.eqb_spec a 0) as [->|Ha0]; cbn [orb]; [rewrite Z.pow_0_l by lia; reflexivity|].
  destruct (Z.eqb_spec a 1) as [->|Ha1]; [rewrite Z.pow_1_l by lia; reflexivity|].
  destruct (Z.eqb_spec a (-1)) as [->|Ham1].
  { rewrite land1_odd, minus_one_pow by lia. destruct (Z.odd b); reflexivity. }
  rewrite (pow_sign a b Hb), land1_odd. set (M := Z.abs a ^ b). set (neg := (a <? 0) && Z.odd b).
  assert (HM : 1 <= M) by (apply Z.lt_pred_le, Z.pow_pos_nonneg; lia).
  assert (Hover : two63 < M -> None = if in64 (if neg then - M else M) then Some (if neg then - M else M) else None).
  { intros H. rewrite (proj2 (in64_false_iff _)); [reflexivity|]. destruct neg; lia. }
  destruct (Z.leb_spec 64 b) as [Hbig|Hsmall].
  - (* |a|^b >= 2^b >= 2^64 *)
    apply Hover, Z.lt_le_trans with two64; [lia64|]. change two64 with (2 ^ 64).
    transitivity (2 ^ b); [apply Z.pow_le_mono_r|apply Z.pow_le_mono_l]; lia.
  - rewrite (umag_abs a Ha), (ipow_loop_spec (Z.abs a)) by lia64.
    rewrite Z2Nat.id, Z.mul_1_l by lia. fold M.
    destruct (Z.leb_spec M two63) as [Hle|Hgt]; [|apply Hover, Hgt]. destruct neg.
    + rewrite wrap64_neg, (proj2 (in64_iff (- M))) by lia64. reflexivity.
    + destruct (Z.eqb_spec M two63) as [He|Hne]; [rewrite (proj2 (in64_false_iff M)) by lia; reflexivity|].
      assert (Hi : in64 M = true) by (apply in64_iff; lia64). rewrite (wrap64_id M Hi), Hi. reflexivity.
Qed.

Lemma pow_exact a b : in64 a = true -> 0 <= b -> in64 (a ^ b) = true ->
  eval_bin OPow (NInt a) (NInt b) = RInt (a ^ b).
Proof.
  intros Ha Hb Hf. cbn [eval_bin]. unfold pow_ii.
  destruct (Z.leb_spec 0 b); [|lia]. rewrite (int_power_spec a b Ha Hb), Hf. reflexivity.
Qed.

Lemma pow_overflow_float a b : in64 a = true -> 0 <= b -> in64 (a ^ b) = false ->
  eval_bin OPow (NInt a) (NInt b) = pow_float a b.
Proof.
  intros Ha Hb Hf. cbn [eval_bin]. unfold pow_ii.
  destruct (Z.leb_spec 0 b); [|lia]. rewrite (int_power_spec a b Ha Hb), Hf. reflexivity.
Qed.

(* an int result of ** is never a wrapped or rounded value *)
Lemma pow_float_not_int a b n : pow_float a b <> RInt n.
Proof. unfold pow_float. destruct (go_pow _ _); discriminate. Qed.

Lemma pow_int_is_exact a b n : in64 a = true -> 0 <= b -> eval_bin OPow (NInt a) (NInt b) = RInt n -> n = a ^ b.
Proof.
  intros Ha Hb H. destruct (in64 (a ^ b)) eqn:E.
  - rewrite (pow_exact a b Ha Hb E) in H. congruence.
  - rewrite (pow_overflow_float a b Ha Hb E) in H. exfalso. exact (pow_float_not_int _ _ _ H).
Qed.

(* negative exponent: a float, except for the bases 1 and -1 (the only ints with an int reciprocal) *)
Lemma pow_negative_exponent_float a b : b < 0 -> a <> 1 -> a <> -1 ->
  eval_bin OPow (NInt a) (NInt b) = pow_float a b.
Proof.
  intros Hb H1 Hm1. cbn [eval_bin]. unfold pow_ii. destruct (Z.leb_spec 0 b); [lia|].
  destruct (Z.eqb_spec a 1); [contradiction|]. destruct (Z.eqb_spec a (-1)); [contradiction|]. reflexivity.
Qed.

Lemma pow_negative_exponent_unit_base b : b < 0 ->
  eval_bin OPow (NInt 1) (NInt b) = RInt 1 /\ eval_bin OPow (NInt (-1)) (NInt b) = RInt (if Z.odd b then -1 else 1).
Proof.
  intros Hb. cbn [eval_bin]. unfold pow_ii. destruct (Z.leb_spec 0 b); [lia|]. cbn [Z.eqb orb Pos.eqb].
  rewrite land1. destruct (Z.odd b); split; reflexivity.
Qed.

(* the RPanic branch of pow_ii (Go discards int_power's flag for the bases +-1) is unreachable *)
Lemma pow_ii_no_panic a b : pow_ii a b <> RPanic.
Proof.
  unfold pow_ii. destruct (0 <=? b).
  - destruct (int_power a b); [discriminate|]. unfold pow_float. destruct (go_pow _ _); discriminate.
  - destruct (Z.eqb_spec a 1) as [->|H1]; cbn [orb].
    + unfold int_power. destruct (Z.land b 1 =? 0); discriminate.
    + destruct (Z.eqb_spec a (-1)) as [->|Hm1].
      * unfold int_power. destruct (Z.land b 1 =? 0); discriminate.
      * unfold pow_float. destruct (go_pow _ _); discriminate.
Qed.

(* former defect witnesses, now exact / float *)
Lemma pow_former_witnesses :
  eval_bin OPow (NInt 3) (NInt 39) = RInt 4052555153018976267 /\ 3 ^ 39 = 4052555153018976267
  /\ eval_bin OPow (NInt 7) (NInt 22) = RInt (7 ^ 22)
  /\ eval_bin OPow (NInt (-1)) (NInt 9007199254740993) = RInt (-1)
  /\ eval_bin OPow (NInt 9223372036854775807) (NInt 1) = RInt 9223372036854775807
  /\ eval_bin OPow (NInt (-2)) (NInt 63) = RInt min_int64
  /\ (exists f, eval_bin OPow (NInt 2) (NInt 63) = RFloat f /\ bits_of_f f = float_of_int two63)
  /\ (exists f, eval_bin OPow (NInt 2) (NInt (-1075)) = RFloat f /\ bits_of_f f = 0)
  /\ (exists f, eval_bin OPow (NInt 2) (NInt (-1)) = RFloat f /\ bits_of_f f = 4602678819172646912).
Proof.
  do 6 (split; [vm_compute; reflexivity|]).
  repeat apply conj; (eexists; split; [vm_compute; reflexivity|vm_compute; reflexivity]).
Qed.
