(* C07 lemmas: no operator or function of the C07 scope can reach RPanic (the model's outcome for a Go run-time
   panic: integer division by zero), on any int64 / float64 operands. *)
From Coq Require Import Floats.
From Miller Require Import Base.Bytes C06.Model C07.Model C07.Proofs C07.ProofsInt C07.ProofsPow C07.ProofsMod.
Open Scope Z_scope.

(* a number as the implementation can hold it: ints are int64 *)
Definition num_ok (x : num) : Prop := match x with NInt n => in64 n = true | NFloat _ => True end.

Ltac top_cases :=
  cbv zeta;
  repeat (match goal with
          | |- (if ?c then _ else _) <> _ => destruct c
          | |- (match ?c with Some _ => _ | None => _ end) <> _ => destruct c
          end; cbv zeta);
  try (intros HH; discriminate HH).

Lemma un_no_panic op x : eval_un op x <> RPanic.
Proof.
  destruct op as [| | | |u]; destruct x as [a|f]; cbn [eval_un]; try discriminate.
  destruct u; unfold math_unary_i; top_cases.
Qed.

(* the division ux / um in roundm_f_ii cannot see um = 0: the magnitude of a non-zero int64 is non-zero *)
Lemma roundm_ii_no_panic x m : in64 m = true -> roundm_ii x m <> RPanic.
Proof.
  intros Hm. unfold roundm_ii. destruct (Z.eqb_spec m 0) as [|Hm0]; [discriminate|].
  rewrite (umag_abs m Hm). destruct (Z.eqb_spec (Z.abs m) 0) as [Hz|_]; [lia|]. top_cases.
Qed.

Lemma bin_no_panic op x y : num_ok x -> num_ok y -> eval_bin op x y <> RPanic.
Proof.
  intros Hx Hy.
  destruct op; destruct x as [a|fa], y as [b|fb];
    cbn [eval_bin min_variadic2 max_variadic2 min_bin max_bin num_of_res to_f];
    try (intros H; discriminate H);
    (* every other kernel but int ** int and roundm is a nest of conditionals with int and float leaves *)
    try (unfold plus_ii, minus_ii, times_ii, divide_ii, int_divide_ii, modulus_ii, pow_ff, dotdivide_ii, lsh_ii, srsh_ii, ursh_ii;
         top_cases; fail).
  - apply pow_ii_no_panic.
  - apply roundm_ii_no_panic. exact Hy.
Qed.

(* the explicit list of what the three evaluators cover *)
Definition all_binops : list binop :=
  [OPlus; OMinus; OTimes; ODivide; OIntDivide; OMod; OPow; ODotPlus; ODotMinus; ODotTimes; ODotDivide;
   OAnd; OOr; OXor; OLsh; OSrsh; OUrsh; ORoundm; OMin; OMax].
Definition all_unops : list unop :=
  [UNeg; UPos; UNot; UBitcount; UMath FAbs; UMath FCeil; UMath FFloor; UMath FRound; UMath FSgn].
Definition all_ternops : list ternop := [TMadd; TMsub; TMmul; TMexp].

Lemma all_binops_complete op : In op all_binops.
Proof. destruct op; cbn; tauto. Qed.
Lemma all_unops_complete op : In op all_unops.
Proof. destruct op as [| | | |u]; [| | | |destruct u]; cbn; tauto. Qed.
Lemma all_ternops_complete op : In op all_ternops.
Proof. destruct op; cbn; tauto. Qed.

Definition is_value (r : res) : Prop :=
  match r with RInt _ | RFloat _ | RError | RUnmodelled => True | RPanic => False end.

Lemma not_panic_is_value r : r <> RPanic -> is_value r.
Proof. intros H. destruct r; try exact I. apply H. reflexivity. Qed.

Lemma never_panics_all :
  (forall op x y, In op all_binops -> num_ok x -> num_ok y -> is_value (eval_bin op x y))
  /\ (forall op x, In op all_unops -> num_ok x -> is_value (eval_un op x))
  /\ (forall op x y z, In op all_ternops -> num_ok x -> num_ok y -> num_ok z -> is_value (eval_tern op x y z))
  /\ (forall op, In op all_binops) /\ (forall op, In op all_unops) /\ (forall op, In op all_ternops).
Proof.
  split; [|split; [|split; [|split; [|split]]]].
  - intros op x y _ Hx Hy. apply not_panic_is_value, bin_no_panic; assumption.
  - intros op x _ _. apply not_panic_is_value, un_no_panic.
  - intros op x y z _ _ _ _. apply not_panic_is_value, tern_no_panic.
  - exact all_binops_complete.
  - exact all_unops_complete.
  - exact all_ternops_complete.
Qed.
