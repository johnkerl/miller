(* C07 lemmas: (1) float64(int64 n) as the model computes it (C06.Model.float_of_int, exact integer arithmetic) is the
   correctly rounded value -- round to nearest, ties to even, at 53 bits of precision -- for ALL int64 n, stated over Z
   (no real-number library, no axioms): exact for |n| < 2^53; for 2^53 <= |n| <= 2^63 the significand q in [2^52, 2^53]
   and the unit 2^s of n's binade satisfy 2 |n - q 2^s| <= 2^s with ties giving an even q.
   (2) mixed int/float min and max: the result is always the float math.Min/Max of the converted operands. *)
From Coq Require Import Floats.
From Miller Require Import Base.Bytes C06.Model C09.FloatMono C07.Model C07.Proofs C07.ProofsMixed.
Open Scope Z_scope.

(* the bit pattern of the positive double q * 2^s, 2^52 <= q <= 2^53 (q = 2^53 is renormalised to 2^52 * 2^(s+1)) *)
Definition enc_q (q s : Z) : Z :=
  if q =? 2 ^ 53 then (s + 1 + 52 + 1023) * 2 ^ 52 else (s + 52 + 1023) * 2 ^ 52 + (q - 2 ^ 52).

(* round to nearest, ties to even, of n / 2^s *)
Definition rne_q (n s : Z) : Z :=
  let q := n / 2 ^ s in let r := n mod 2 ^ s in
  if 2 * r <? 2 ^ s then q else if 2 ^ s <? 2 * r then q + 1 else if Z.even q then q else q + 1.

Lemma rne_q_range n s : 2 ^ 52 <= n / 2 ^ s < 2 ^ 53 -> 2 ^ 52 <= rne_q n s <= 2 ^ 53.
Proof.
  intros H. unfold rne_q. cbv zeta.
  destruct (2 * (n mod 2 ^ s) <? 2 ^ s); [lia|]. destruct (2 ^ s <? 2 * (n mod 2 ^ s)); [lia|]. destruct (Z.even _); lia.
Qed.

(* the 53 leading bits of a number with L + 1 bits *)
Lemma binade_quot n L : 52 <= L -> 2 ^ L <= n < 2 ^ (L + 1) -> 2 ^ 52 <= n / 2 ^ (L - 52) < 2 ^ 53.
Proof.
  intros HL Hn. assert (Hp : 0 < 2 ^ (L - 52)) by (apply Z.pow_pos_nonneg; lia).
  assert (H1 : 2 ^ L = 2 ^ 52 * 2 ^ (L - 52)) by (rewrite <- Z.pow_add_r by lia; f_equal; lia).
  assert (H2 : 2 ^ (L + 1) = 2 ^ 53 * 2 ^ (L - 52)) by (rewrite <- Z.pow_add_r by lia; f_equal; lia).
  split; [apply Z.div_le_lower_bound|apply Z.div_lt_upper_bound]; lia.
Qed.

Lemma rpr_large n L : 53 <= L <= 63 -> 2 ^ L <= n < 2 ^ (L + 1) ->
  round_pos_rational n 1 = Some (enc_q (rne_q n (L - 52)) (L - 52)).
Proof.
  intros HL Hn.
  assert (Hl : Z.log2 n = L) by (apply Z.log2_unique; lia).
  pose proof (rne_q_range n _ (binade_quot n L ltac:(lia) Hn)) as Hr.
  unfold round_pos_rational. rewrite Hl. change (Z.log2 1) with 0. rewrite Z.sub_0_r. cbv zeta.
  rewrite (proj2 (Z.leb_le 0 L)), (proj2 (Z.leb_le (1 * 2 ^ L) n)), Z.max_l, (proj2 (Z.leb_le 0 (L - 52))) by lia.
  cbv iota beta. rewrite Z.mul_1_l. fold (rne_q n (L - 52)). unfold enc_q.
  destruct (Z.eqb_spec (rne_q n (L - 52)) (2 ^ 53)) as [He|Hne].
  - change (2 ^ 52 <? 2 ^ 52) with false. cbv iota. rewrite (proj2 (Z.leb_gt _ _)) by lia. f_equal. lia.
  - rewrite (proj2 (Z.ltb_ge _ _)), (proj2 (Z.leb_gt _ _)) by lia. reflexivity.
Qed.

(* rne_q is round-to-nearest-even: within half a unit, an exact half only towards the even significand *)
Lemma rne_q_nearest n s : 0 <= s -> 0 <= n ->
  2 * Z.abs (n - rne_q n s * 2 ^ s) <= 2 ^ s
  /\ (2 * Z.abs (n - rne_q n s * 2 ^ s) = 2 ^ s -> Z.even (rne_q n s) = true).
Proof.
  intros Hs Hn. assert (Hp : 0 < 2 ^ s) by (apply Z.pow_pos_nonneg; lia).
  pose proof (Z.div_mod n (2 ^ s) ltac:(lia)) as Hdm. pose proof (Z.mod_pos_bound n (2 ^ s) Hp) as Hb.
  unfold rne_q. cbv zeta. set (q := n / 2 ^ s) in *. set (r := n mod 2 ^ s) in *. set (p := 2 ^ s) in *.
  destruct (Z.ltb_spec (2 * r) p); [split; [|intros Ht]; lia|].
  destruct (Z.ltb_spec p (2 * r)); [split; [|intros Ht]; lia|].
  destruct (Z.even q) eqn:Ev; (split; [lia|intros _]); [exact Ev|rewrite Z.even_add, Ev; reflexivity].
Qed.

(* the decoded value of enc_q: f_of_bits unfolds to the primitive float with significand q2 and exponent s2, q2 2^s2 = q 2^s *)
Lemma enc_q_decodes q s : 2 ^ 52 <= q <= 2 ^ 53 -> 1 <= s <= 11 ->
  exists q2 s2, f_of_bits (enc_q q s) = SF2Prim (S754_finite false (Z.to_pos q2) s2)
             /\ 2 ^ 52 <= q2 < 2 ^ 53 /\ q2 * 2 ^ s2 = q * 2 ^ s.
Proof.
  intros Hq Hs. unfold enc_q.
  assert (Hdec : forall e m, 1 <= e < 2047 -> 0 <= m < 2 ^ 52 ->
                 f_of_bits (e * 2 ^ 52 + m) = SF2Prim (S754_finite false (Z.to_pos (m + 2 ^ 52)) (e - 1075))).
  { intros e m He Hm. unfold f_of_bits.
    rewrite (Z.div_small (e * 2 ^ 52 + m) two63) by (cbv [two63]; lia). cbn [Z.odd].
    rewrite <- (Z.div_unique_pos _ (2 ^ 52) e m), <- (Z.mod_unique_pos _ (2 ^ 52) e m), (Z.mod_small e) by lia.
    destruct (Z.eqb_spec e 2047); [lia|]. destruct (Z.eqb_spec e 0); [lia|]. reflexivity. }
  destruct (Z.eqb_spec q (2 ^ 53)) as [->|Hne].
  - exists (2 ^ 52), (s + 1). replace ((s + 1 + 52 + 1023) * 2 ^ 52) with ((s + 1 + 52 + 1023) * 2 ^ 52 + 0) by lia.
    rewrite Hdec by lia. split; [f_equal; f_equal; lia|]. split; [lia|].
    rewrite Z.pow_add_r by lia. change (2 ^ 53) with (2 ^ 52 * 2). change (2 ^ 1) with 2. ring.
  - exists q, s. rewrite Hdec by lia. split; [f_equal; f_equal; [f_equal; lia|lia]|]. split; [lia|reflexivity].
Qed.

(* float64(int64 n) for 2^53 <= |n| <= 2^63: correctly rounded *)
Lemma float_of_int_rne n : in64 n = true -> 2 ^ 53 <= Z.abs n ->
  let s := Z.log2 (Z.abs n) - 52 in
  let q := rne_q (Z.abs n) s in
  float_of_int n = (if n <? 0 then two63 else 0) + enc_q q s
  /\ 1 <= s <= 11 /\ 2 ^ 52 <= q <= 2 ^ 53
  /\ 2 * Z.abs (Z.abs n - q * 2 ^ s) <= 2 ^ s
  /\ (2 * Z.abs (Z.abs n - q * 2 ^ s) = 2 ^ s -> Z.even q = true).
Proof.
  intros Hn Hbig. cbv zeta. apply in64_iff in Hn. change two63 with (2 ^ 63) in Hn at 1 2.
  set (m := Z.abs n) in *. assert (Hm : 2 ^ 53 <= m <= 2 ^ 63) by (unfold m; lia).
  pose proof (Z.log2_spec m ltac:(lia)) as Hlog. rewrite <- Z.add_1_r in Hlog. set (L := Z.log2 m) in *.
  assert (HL : 53 <= L <= 63).
  { split; [apply Z.log2_le_pow2; lia|]. apply Z.lt_succ_r, Z.log2_lt_pow2; lia. }
  destruct (rne_q_nearest m (L - 52)) as (Hnear & Htie); [lia|lia|].
  split; [|split; [lia|split; [apply rne_q_range, binade_quot; [lia|exact Hlog]|split; [exact Hnear|exact Htie]]]].
  unfold float_of_int. destruct (Z.eqb_spec n 0) as [->|_]; [unfold m in Hm; lia|].
  fold m. rewrite (rpr_large m L HL Hlog). reflexivity.
Qed.

(* float64(int64 n) for |n| < 2^53: exact (the significand is n scaled to 53 bits, nothing is rounded away);
   the rounding of such an n is C09.FloatMono.rpr_enc, proved there about the same C06 model *)
Lemma float_of_int_exact_small n : n <> 0 -> Z.abs n < 2 ^ 53 ->
  let e := Z.log2 (Z.abs n) in
  float_of_int n = (if n <? 0 then two63 else 0) + ((e + 1023) * 2 ^ 52 + (Z.abs n * 2 ^ (52 - e) - 2 ^ 52))
  /\ 0 <= e <= 52 /\ 2 ^ 52 <= Z.abs n * 2 ^ (52 - e) < 2 ^ 53.
Proof.
  intros Hn0 Hsmall. cbv zeta. set (m := Z.abs n) in *. assert (Hm : 0 < m) by (unfold m; lia).
  pose proof (Z.log2_spec m Hm) as Hlog. rewrite <- Z.add_1_r in Hlog. set (e := Z.log2 m) in *.
  assert (He : 0 <= e <= 52) by (split; [apply Z.log2_nonneg|apply Z.lt_succ_r, Z.log2_lt_pow2; lia]).
  split; [|split; [exact He|]].
  - unfold float_of_int. destruct (Z.eqb_spec n 0); [contradiction|]. fold m. rewrite (rpr_enc m e He Hlog). reflexivity.
  - assert (Hp : 0 < 2 ^ (52 - e)) by (apply Z.pow_pos_nonneg; lia).
    assert (H1 : 2 ^ e * 2 ^ (52 - e) = 2 ^ 52) by (rewrite <- Z.pow_add_r by lia; f_equal; lia).
    assert (H2 : 2 ^ (e + 1) * 2 ^ (52 - e) = 2 ^ 53) by (rewrite <- Z.pow_add_r by lia; f_equal; lia).
    split; [rewrite <- H1; apply Z.mul_le_mono_nonneg_r; lia|rewrite <- H2; apply Z.mul_lt_mono_pos_r; lia].
Qed.

(* ---------------------------------------------------------------- mixed int/float min and max: float always wins *)
Lemma mixed_min_max_int_float a f :
  eval_bin OMin (NInt a) (NFloat f) = RFloat (f_min (i2f a) f) /\ eval_bin OMax (NInt a) (NFloat f) = RFloat (f_max (i2f a) f).
Proof.
  cbn [eval_bin]. unfold min_variadic2, max_variadic2, min_bin, max_bin, num_of_res, to_f. rewrite !Z.ltb_irrefl. split; reflexivity.
Qed.

Lemma mixed_min_max_float_any f y :
  eval_bin OMin (NFloat f) y = RFloat (f_min (f_min f f) (to_f y)) /\ eval_bin OMax (NFloat f) y = RFloat (f_max (f_max f f) (to_f y)).
Proof. destruct y; split; reflexivity. Qed.

(* equal values of different types: the result is the float (max(1, 1.0) = 1.0, max(2, 1.0) = 2.0 as a float, min(1.0, 1) = 1.0) *)
Lemma mixed_min_max_examples :
  eval_bin OMax (NInt 1) (NFloat 1%float) = RFloat 1%float /\ eval_bin OMax (NFloat 1%float) (NInt 1) = RFloat 1%float
  /\ eval_bin OMax (NInt 2) (NFloat 1%float) = RFloat 2%float /\ eval_bin OMin (NFloat 1%float) (NInt 1) = RFloat 1%float
  /\ eval_bin OMin (NInt 1) (NFloat 2%float) = RFloat 1%float.
Proof. vm_compute. repeat split. Qed.
