(* C07 lemmas: madd/msub/mmul/mexp against exact modular arithmetic; no-panic statements. *)
From Coq Require Import Floats Zpow_facts.
From Miller Require Import Base.Bytes C06.Model C07.Model C07.Proofs.
Open Scope Z_scope.

(* mlrmod with a positive modulus is the mathematical mod, for EVERY (unbounded) dividend *)
Lemma mlrmod_pos x m : in64 m = true -> 0 < m -> mlrmod x m = Some (x mod m).
Proof.
  intros Hm Hpos. unfold mlrmod, go_rem. destruct (Z.eqb_spec m 0) as [|Hm0]; [lia|]. f_equal.
  destruct (floor_of_trunc x m Hm0) as [_ ->]. apply in64_iff in Hm.
  pose proof (Z.rem_bound_abs x m Hm0). destruct (Z.eqb_spec (Z.rem x m) 0) as [->|Hr]; [reflexivity|].
  destruct (Z.ltb_spec (Z.rem x m) 0), (Z.ltb_spec m 0); try lia; cbn [negb andb Bool.eqb]; [|reflexivity].
  apply wrap64_id, in64_iff. lia.
Qed.

Lemma mlrmod_zero x : mlrmod x 0 = None. Proof. reflexivity. Qed.
Lemma mlrmod_nonzero x m : m <> 0 -> mlrmod x m <> None.
Proof. intros H. unfold mlrmod. destruct (Z.eqb_spec m 0); [contradiction|discriminate]. Qed.

(* madd / msub / mmul: the exact sum, difference, product is reduced (math/big intermediates): ALL operands *)
Lemma modop_exact v m : in64 m = true -> 0 < m -> (if m =? 0 then RError else of_modop (mlrmod v m)) = RInt (v mod m).
Proof. intros Hm Hpos. destruct (Z.eqb_spec m 0); [lia|]. rewrite (mlrmod_pos v m Hm Hpos). reflexivity. Qed.

Lemma madd_exact a b m : in64 m = true -> 0 < m ->
  eval_tern TMadd (NInt a) (NInt b) (NInt m) = RInt ((a + b) mod m).
Proof. apply modop_exact. Qed.
Lemma msub_exact a b m : in64 m = true -> 0 < m ->
  eval_tern TMsub (NInt a) (NInt b) (NInt m) = RInt ((a - b) mod m).
Proof. apply modop_exact. Qed.
Lemma mmul_exact a b m : in64 m = true -> 0 < m ->
  eval_tern TMmul (NInt a) (NInt b) (NInt m) = RInt ((a * b) mod m).
Proof. apply modop_exact. Qed.

(* the result is the canonical residue *)
Lemma mod_op_range op a b m r : in64 m = true -> 0 < m -> In op [TMadd; TMsub; TMmul] ->
  eval_tern op (NInt a) (NInt b) (NInt m) = RInt r -> 0 <= r < m.
Proof.
  intros Hm Hpos [<-|[<-|[<-|[]]]]; cbn [eval_tern]; unfold imodadd, imodsub, imodmul;
    rewrite (modop_exact _ m Hm Hpos); intros [= <-]; apply Z.mod_pos_bound, Hpos.
Qed.

(* mexp: repeated squaring, every product exact: invariant c * apower^u = a^e (mod m) with c reduced, no bound on a or m *)
Lemma mexp_loop_spec m : in64 m = true -> 0 < m ->
  forall fuel u ap c, 0 <= u < 2 ^ Z.of_nat fuel -> 0 <= c < m ->
  mexp_loop fuel u ap c m = Some ((c * ap ^ u) mod m).
Proof.
  intros Hm Hpos.
  induction fuel as [|k IH]; intros u ap c Hu Hc.
  - replace u with 0 by (cbn in Hu; lia). cbn [mexp_loop]. rewrite Z.pow_0_r, Z.mul_1_r, Z.mod_small by exact Hc. reflexivity.
  - cbn [mexp_loop]. destruct (Z.eqb_spec u 0) as [->|Hu0].
    { rewrite Z.pow_0_r, Z.mul_1_r, Z.mod_small by exact Hc. reflexivity. }
    unfold imodmul. rewrite !(mlrmod_pos _ _ Hm Hpos).
    pose proof (Z.div_mod u 2 ltac:(lia)) as Hdm. rewrite Zmod_odd in Hdm.
    rewrite Nat2Z.inj_succ, Z.pow_succ_r in Hu by lia.
    (* c * ap^u = (c * ap^(u mod 2)) * (ap * ap)^(u / 2) *)
    assert (Hsplit : (c * ap ^ u) mod m = ((if Z.odd u then c * ap else c) * (ap * ap mod m) ^ (u / 2)) mod m).
    { symmetry. rewrite <- Z.mul_mod_idemp_r, <- Zpower_mod, Z.mul_mod_idemp_r, <- Z.pow_2_r, <- Z.pow_mul_r by (try apply Z.div_pos; lia).
      f_equal. rewrite Hdm at 3. destruct (Z.odd u); [rewrite Z.pow_add_r, Z.pow_1_r by lia; ring|rewrite Z.add_0_r; reflexivity]. }
    rewrite Hsplit. destruct (Z.odd u).
    + rewrite IH; [rewrite Z.mul_mod_idemp_l by lia; reflexivity|lia|apply Z.mod_pos_bound, Hpos].
    + rewrite IH; [reflexivity|lia|exact Hc].
Qed.

Lemma mexp_exact a e m : in64 m = true -> 0 < m -> 0 <= e -> in64 e = true ->
  eval_tern TMexp (NInt a) (NInt e) (NInt m) = RInt (a ^ e mod m).
Proof.
  intros Hm Hpos He Hei. cbn [eval_tern]. destruct (Z.ltb_spec e 0); [lia|].
  destruct (Z.eqb_spec m 0); [lia|].
  unfold imodexp, u64. rewrite (mlrmod_pos 1 m Hm Hpos). apply in64_iff in Hei. rewrite (Z.mod_small e) by lia64.
  rewrite (mexp_loop_spec m Hm Hpos 64 e a (1 mod m)); [|change (2 ^ Z.of_nat 64) with two64; lia64|apply Z.mod_pos_bound, Hpos].
  rewrite Z.mul_mod_idemp_l, Z.mul_1_l by lia. reflexivity.
Qed.

(* exponents 0 and 1 are reduced like every other exponent *)
Lemma mexp_small_exponent_examples :
  eval_tern TMexp (NInt 10) (NInt 1) (NInt 3) = RInt 1 /\ 10 ^ 1 mod 3 = 1 /\
  eval_tern TMexp (NInt 5) (NInt 0) (NInt 1) = RInt 0 /\ 5 ^ 0 mod 1 = 0.
Proof. repeat split. Qed.

Lemma mexp_negative_exponent_error a e m : e < 0 -> eval_tern TMexp (NInt a) (NInt e) (NInt m) = RError.
Proof. intros H. cbn [eval_tern]. destruct (Z.ltb_spec e 0); [reflexivity|lia]. Qed.

(* the former reduce-after-wrap witnesses are now exact (regression anchors) *)
Lemma mop_former_wrap_witnesses :
  eval_tern TMadd (NInt (2 ^ 62)) (NInt (2 ^ 62)) (NInt 3) = RInt 2 /\ (2 ^ 62 + 2 ^ 62) mod 3 = 2 /\
  eval_tern TMmul (NInt (2 ^ 32)) (NInt (2 ^ 32)) (NInt 7) = RInt 2 /\ (2 ^ 32 * 2 ^ 32) mod 7 = 2 /\
  eval_tern TMexp (NInt (2 ^ 32)) (NInt 3) (NInt 3) = RInt 1 /\ (2 ^ 32) ^ 3 mod 3 = 1.
Proof. repeat split. Qed.

(* ---------------------------------------------------------------- panics *)
Lemma mexp_loop_no_panic m : m <> 0 -> forall fuel u ap c, mexp_loop fuel u ap c m <> None.
Proof.
  intros Hm. induction fuel as [|k IH]; intros u ap c; cbn [mexp_loop]; [discriminate|].
  destruct (u =? 0); [discriminate|]. unfold imodmul.
  destruct (mlrmod (ap * ap) m) eqn:E2; [|destruct (mlrmod_nonzero _ _ Hm E2)].
  destruct (Z.odd u); [|apply IH].
  destruct (mlrmod (c * ap) m) eqn:E1; [apply IH|destruct (mlrmod_nonzero _ _ Hm E1)].
Qed.

Lemma modop_no_panic (r : option Z) : r <> None -> of_modop r <> RPanic.
Proof. destruct r; [discriminate|contradiction]. Qed.

Lemma tern_no_panic op x y z : eval_tern op x y z <> RPanic.
Proof.
  destruct op, x as [a|fa], y as [b|fb], z as [m|fm]; cbn [eval_tern]; try discriminate;
    try (destruct (b <? 0); [discriminate|]); try discriminate;
    (destruct (Z.eqb_spec m 0) as [|Hz]; [discriminate|]); apply modop_no_panic; try apply (mlrmod_nonzero _ _ Hz).
  unfold imodexp. destruct (mlrmod 1 m) eqn:E; [apply (mexp_loop_no_panic m Hz)|destruct (mlrmod_nonzero _ _ Hz E)].
Qed.

(* a zero modulus is an error value *)
Lemma tern_zero_modulus_error op a b : eval_tern op (NInt a) (NInt b) (NInt 0) = RError.
Proof. destruct op; cbn [eval_tern]; try reflexivity. destruct (b <? 0); reflexivity. Qed.
