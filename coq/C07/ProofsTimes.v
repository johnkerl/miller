(* C07 lemmas: int * int by the 128-bit product of the magnitudes (times_n_ii): the exact product whenever
   it fits in an int64, the float product of the converted operands otherwise, for ALL int64 operands. *)
From Coq Require Import Floats.
From Miller Require Import Base.Bytes C06.Model C07.Model C07.Proofs C07.ProofsInt.
Open Scope Z_scope.

Lemma times_ii_fit a b : in64 a = true -> in64 b = true -> times_ii a b = fit (a * b) (i2f a * i2f b).
Proof.
  intros Ha Hb. unfold times_ii. rewrite (umag_abs a Ha), (umag_abs b Hb). cbv zeta.
  rewrite fit_of_magnitude by (apply Z.mul_nonneg_nonneg; lia). f_equal.
  destruct (Z.ltb_spec a 0), (Z.ltb_spec b 0); cbn [Bool.eqb negb]; rewrite <- Z.abs_mul; lia.
Qed.

(* the witnesses of the former threshold band (products within 1024 of 2^63 were floats) and of the first repair
   (948308289: the wrapped product), and the products of magnitude exactly 2^63 *)
Lemma times_band_witnesses :
  times_ii 9223372036854775807 1 = RInt 9223372036854775807
  /\ times_ii (-2147483648) 4294967296 = RInt min_int64
  /\ times_ii 3037000499 3037000499 = RInt 9223372030926249001
  /\ times_ii min_int64 1 = RInt min_int64 /\ times_ii (-1) min_int64 = RFloat (i2f (-1) * i2f min_int64)%float
  /\ times_ii 2147483648 4294967296 = RFloat (i2f 2147483648 * i2f 4294967296)%float
  /\ times_ii (-2) (-4611686018427387904) = RFloat (i2f (-2) * i2f (-4611686018427387904))%float
  /\ bits_of_f (i2f 2147483648 * i2f 4294967296)%float = float_of_int two63.
Proof. vm_compute. repeat split. Qed.
