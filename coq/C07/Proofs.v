(* C07 lemmas, integer side: no floating-point reasoning; float results are opaque values. *)
From Coq Require Import Floats.
From Miller Require Import Base.Bytes C06.Model C07.Model.
Open Scope Z_scope.

Lemma two63_gt_1 : 1 < two63. Proof. reflexivity. Qed.
Lemma two64_double : two64 = 2 * two63. Proof. reflexivity. Qed.

(* linear arithmetic that knows of 2^63 and 2^64 only the two facts above: the bounds stay symbolic, so no
   twenty-digit literal enters a certificate *)
Ltac lia64 := pose proof two63_gt_1; pose proof two64_double; lia.

Lemma in64_iff n : in64 n = true <-> - two63 <= n < two63.
Proof. unfold in64. rewrite andb_true_iff, Z.leb_le, Z.ltb_lt. tauto. Qed.

Lemma in64_false_iff n : in64 n = false <-> n < - two63 \/ two63 <= n.
Proof. unfold in64. rewrite andb_false_iff, Z.leb_gt, Z.ltb_ge. tauto. Qed.

(* ---------------------------------------------------------------- wrap64: the int64 congruent to n modulo 2^64 *)
Lemma wrap64_in64 n : in64 (wrap64 n) = true.
Proof.
  apply in64_iff. unfold wrap64. pose proof (Z.mod_pos_bound (n + two63) two64 ltac:(lia64)). lia64.
Qed.

Lemma wrap64_id n : in64 n = true -> wrap64 n = n.
Proof. intros H. apply in64_iff in H. unfold wrap64. rewrite Z.mod_small by lia64. lia. Qed.

Lemma wrap64_period n k : wrap64 (n + k * two64) = wrap64 n.
Proof. unfold wrap64. rewrite <- Z.add_assoc, (Z.add_comm (k * two64)), Z.add_assoc, Z.mod_add by lia64. reflexivity. Qed.

Lemma wrap64_congr n : (wrap64 n) mod two64 = n mod two64.
Proof. unfold wrap64. rewrite Zminus_mod_idemp_l. f_equal. lia. Qed.

Lemma wrap64_unique n r : in64 r = true -> r mod two64 = n mod two64 -> r = wrap64 n.
Proof.
  intros Hr Hm. rewrite <- (wrap64_id r Hr). unfold wrap64.
  rewrite <- (Zplus_mod_idemp_l r), Hm, Zplus_mod_idemp_l. reflexivity.
Qed.

(* a value less than one period above (below) the int64 range has gone out of range exactly when its wrapped
   image is negative (non-negative): the sign tests of the + and - kernels *)
Lemma overflow_pos x : 0 <= x < two64 -> (wrap64 x <? 0) = negb (in64 x).
Proof.
  intros Hx. destruct (in64 x) eqn:F.
  - rewrite (wrap64_id x F). apply Z.ltb_ge. lia.
  - apply in64_false_iff in F. rewrite <- (wrap64_period x (-1)), wrap64_id by (apply in64_iff; lia64).
    apply Z.ltb_lt. lia64.
Qed.

Lemma overflow_neg x : - two64 <= x < 0 -> (0 <=? wrap64 x) = negb (in64 x) /\ (x <> - two64 -> (0 <? wrap64 x) = negb (in64 x)).
Proof.
  intros Hx. destruct (in64 x) eqn:F.
  - rewrite (wrap64_id x F). split; [apply Z.leb_gt|intros _; apply Z.ltb_ge]; lia.
  - apply in64_false_iff in F. rewrite <- (wrap64_period x 1), wrap64_id by (apply in64_iff; lia64).
    split; [apply Z.leb_le|intros Hne; apply Z.ltb_lt]; lia64.
Qed.

(* ---------------------------------------------------------------- the exact result when it fits, else the float *)
Definition fit (v : Z) (f : float) : res := if in64 v then RInt v else RFloat f.

Section Fit.
  (* a result r known to be fit v f *)
  Variables (r : res) (v : Z) (f : float).
  Hypothesis Hr : r = fit v f.

  Lemma fit_exact : in64 v = true -> r = RInt v.
  Proof. intros H. rewrite Hr. unfold fit. rewrite H. reflexivity. Qed.

  Lemma fit_overflow : in64 v = false -> r = RFloat f.
  Proof. intros H. rewrite Hr. unfold fit. rewrite H. reflexivity. Qed.

  Lemma fit_int_inv n : r = RInt n -> n = v /\ in64 v = true.
  Proof. rewrite Hr. unfold fit. destruct (in64 v); [intros [= <-]; split; reflexivity|discriminate]. Qed.

  (* an int result is never a wrapped value *)
  Lemma fit_never_wraps n : r = RInt n -> n = v.
  Proof. intros H. apply (fit_int_inv n H). Qed.

  Lemma fit_int_iff : (exists n, r = RInt n) <-> in64 v = true.
  Proof. split; [intros [n H]; apply (fit_int_inv n H)|intros H; exists v; apply fit_exact, H]. Qed.
End Fit.

(* a kernel that computes the wrapped value and an overflow flag *)
Lemma fit_of_flag (ov : bool) v f : ov = negb (in64 v) -> (if ov then RFloat f else RInt (wrap64 v)) = fit v f.
Proof. intros ->. unfold fit. destruct (in64 v) eqn:F; [rewrite (wrap64_id v F)|]; reflexivity. Qed.

Lemma negb_in64_false v : - two63 <= v < two63 -> false = negb (in64 v).
Proof. intros H. apply in64_iff in H. rewrite H. reflexivity. Qed.

(* ---------------------------------------------------------------- + and - *)
Lemma plus_ii_fit a b : in64 a = true -> in64 b = true -> plus_ii a b = fit (a + b) (i2f a + i2f b).
Proof.
  intros Ha Hb. apply in64_iff in Ha, Hb. apply fit_of_flag.
  destruct (Z.ltb_spec 0 a); [|destruct (Z.ltb_spec a 0)].
  - destruct (Z.ltb_spec 0 b); [apply overflow_pos; lia64|apply negb_in64_false; lia].
  - destruct (Z.ltb_spec b 0); [apply overflow_neg; lia64|apply negb_in64_false; lia].
  - apply negb_in64_false. lia.
Qed.

Lemma minus_ii_fit a b : in64 a = true -> in64 b = true -> minus_ii a b = fit (a - b) (i2f a - i2f b).
Proof.
  intros Ha Hb. apply in64_iff in Ha, Hb. apply fit_of_flag.
  destruct (Z.leb_spec 0 a).
  - destruct (Z.ltb_spec b 0); [apply overflow_pos; lia64|apply negb_in64_false; lia].
  - destruct (Z.ltb_spec 0 b); [apply overflow_neg; lia64|apply negb_in64_false; lia].
Qed.

Lemma plus_exact a b : in64 a = true -> in64 b = true -> in64 (a + b) = true -> plus_ii a b = RInt (a + b).
Proof. intros Ha Hb. exact (fit_exact _ _ _ (plus_ii_fit a b Ha Hb)). Qed.

(* the two corners the sign test used to miss *)
Lemma plus_minus_corners :
  plus_ii min_int64 min_int64 = RFloat (i2f min_int64 + i2f min_int64)%float /\
  minus_ii 0 min_int64 = RFloat (i2f 0 - i2f min_int64)%float.
Proof.
  split; [apply (fit_overflow _ _ _ (plus_ii_fit min_int64 min_int64 eq_refl eq_refl))
         |apply (fit_overflow _ _ _ (minus_ii_fit 0 min_int64 eq_refl eq_refl))]; reflexivity.
Qed.

(* ---------------------------------------------------------------- Go division: truncated; Miller's // and %: floored *)
Lemma quot_abs_le a b : b <> 0 -> Z.abs (a ÷ b) <= Z.abs a.
Proof.
  intros Hb. rewrite <- Z.quot_abs, Z.quot_div_nonneg by lia. apply Z.div_le_upper_bound; nia.
Qed.

Lemma div_abs_le a b : b <> 0 -> Z.abs (a / b) <= Z.abs a.
Proof. intros Hb. pose proof (Z.div_mod a b Hb). pose proof (Z.mod_bound_or a b Hb). nia. Qed.

(* floor quotient and modulus from the truncated pair: one less, and one divisor more, exactly when the remainder is
   non-zero and its sign is not the divisor's *)
Lemma floor_of_trunc a b : b <> 0 ->
  let adj := negb (Z.rem a b =? 0) && negb (Bool.eqb (Z.rem a b <? 0) (b <? 0)) in
  a / b = (if adj then a ÷ b - 1 else a ÷ b) /\ a mod b = (if adj then Z.rem a b + b else Z.rem a b).
Proof.
  intros Hb. cbv zeta.
  pose proof (Z.quot_rem' a b) as E. pose proof (Z.rem_bound_abs a b Hb) as B.
  assert (U : forall q r, a = b * q + r -> 0 <= r < b \/ b < r <= 0 -> a / b = q /\ a mod b = r).
  { intros q r E' B'. apply (Z.div_mod_unique b); [apply Z.mod_bound_or, Hb|exact B'|].
    rewrite <- E'. symmetry. apply Z.div_mod, Hb. }
  destruct (Z.eqb_spec (Z.rem a b) 0), (Z.ltb_spec (Z.rem a b) 0), (Z.ltb_spec b 0); cbn [negb andb Bool.eqb]; apply U; lia.
Qed.

Definition div_hole (a b : Z) : Prop := (a, b) = (min_int64, -1).

Lemma hole_test a b : reflect (div_hole a b) ((b =? -1) && (a =? min_int64)).
Proof.
  unfold div_hole. destruct (Z.eqb_spec b (-1)) as [->|Hb], (Z.eqb_spec a min_int64) as [->|Ha]; constructor;
    congruence.
Qed.

(* a quotient of an int64 is no larger than the dividend, so among the quotients of int64s only -2^63 / -1 = 2^63 is
   out of range; this serves the truncated and the floor quotient alike *)
Lemma quotient_in64 a b q r : in64 a = true -> ~ div_hole a b ->
  a = b * q + r -> Z.abs r < Z.abs b -> Z.abs q <= Z.abs a -> in64 q = true.
Proof.
  intros Ha Hh E Hr Hq. apply in64_iff in Ha. apply in64_iff.
  assert (q <> two63); [intros ->|lia].
  apply Hh. unfold div_hole, min_int64. cbv [two63] in *. f_equal; lia.
Qed.

Lemma quot_in64 a b : in64 a = true -> b <> 0 -> ~ div_hole a b -> in64 (a ÷ b) = true.
Proof.
  intros Ha Hb Hh.
  exact (quotient_in64 a b _ _ Ha Hh (Z.quot_rem' a b) (Z.rem_bound_abs a b Hb) (quot_abs_le a b Hb)).
Qed.

Lemma div_in64 a b : in64 a = true -> b <> 0 -> ~ div_hole a b -> in64 (a / b) = true.
Proof.
  intros Ha Hb Hh.
  exact (quotient_in64 a b _ _ Ha Hh (Z.div_mod a b Hb) (Z.mod_bound_abs a b Hb) (div_abs_le a b Hb)).
Qed.

Lemma go_quot_exact a b : in64 a = true -> b <> 0 -> ~ div_hole a b -> go_quot a b = a ÷ b.
Proof. intros Ha Hb Hh. apply wrap64_id, quot_in64; assumption. Qed.

(* the hole is exactly where the floor quotient does not fit *)
Lemma floor_quotient_fits a b : in64 a = true -> in64 b = true -> b <> 0 -> (in64 (a / b) = false <-> div_hole a b).
Proof.
  intros Ha _ Hb. split; [|intros [= -> ->]; reflexivity].
  intros Hq. destruct (hole_test a b) as [Hh|Hh]; [exact Hh|]. rewrite (div_in64 a b Ha Hb Hh) in Hq. discriminate.
Qed.

(* ---------------------------------------------------------------- / *)
(* an exact quotient, as an int when it fits (the float of the hole is 2^63 = - float64(-2^63)); else the float quotient *)
Lemma divide_ii_quot a b : in64 a = true -> b <> 0 ->
  divide_ii a b = if Z.rem a b =? 0 then fit (a ÷ b) (- i2f a) else RFloat (i2f a / i2f b)%float.
Proof.
  intros Ha Hb. unfold divide_ii, go_rem. destruct (Z.eqb_spec b 0) as [|_]; [contradiction|].
  destruct (hole_test a b) as [[= -> ->]|Hh]; [reflexivity|].
  rewrite (go_quot_exact a b Ha Hb Hh), (fit_exact _ _ _ eq_refl (quot_in64 a b Ha Hb Hh)). reflexivity.
Qed.

Lemma divide_exact a b q : in64 a = true -> in64 b = true -> b <> 0 -> a = b * q -> in64 q = true ->
  divide_ii a b = RInt q.
Proof.
  intros Ha _ Hb -> Hq. rewrite (divide_ii_quot _ b Ha Hb).
  rewrite Z.mul_comm, Z.rem_mul, Z.quot_mul by exact Hb. apply (fit_exact _ _ _ eq_refl Hq).
Qed.

Lemma divide_inexact_float a b : b <> 0 -> (forall q, a <> b * q) ->
  divide_ii a b = RFloat (i2f a / i2f b)%float.
Proof.
  intros Hb Hq. unfold divide_ii, go_rem. destruct (Z.eqb_spec b 0) as [|_]; [contradiction|].
  destruct (hole_test a b) as [[= -> ->]|_]; [destruct (Hq two63); reflexivity|].
  destruct (Z.eqb_spec (Z.rem a b) 0) as [Hr|_]; [|reflexivity].
  destruct (Hq (a ÷ b)). pose proof (Z.quot_rem' a b). lia.
Qed.

(* an int result exactly when b divides a and the quotient fits *)
Lemma divide_int_iff_divisible a b : in64 a = true -> in64 b = true -> b <> 0 ->
  forall n, divide_ii a b = RInt n <-> (a = b * n /\ in64 n = true).
Proof.
  intros Ha Hb Hb0 n. split; [|intros [Hq Hi]; exact (divide_exact a b n Ha Hb Hb0 Hq Hi)].
  rewrite (divide_ii_quot a b Ha Hb0). destruct (Z.eqb_spec (Z.rem a b) 0) as [Hr|_]; [|discriminate].
  intros H. apply (fit_int_inv _ _ _ eq_refl) in H as [-> Hi]. split; [|exact Hi]. pose proof (Z.quot_rem' a b). lia.
Qed.

Lemma divide_float_iff_not_divisible a b : in64 a = true -> in64 b = true -> b <> 0 ->
  (forall q, ~ (a = b * q /\ in64 q = true)) -> exists f, divide_ii a b = RFloat f.
Proof.
  intros Ha _ Hb Hn. rewrite (divide_ii_quot a b Ha Hb).
  destruct (Z.eqb_spec (Z.rem a b) 0) as [Hr|_]; [|eexists; reflexivity].
  destruct (in64 (a ÷ b)) eqn:Hi; [|eexists; apply (fit_overflow _ _ _ eq_refl Hi)].
  destruct (Hn (a ÷ b)). split; [|exact Hi]. pose proof (Z.quot_rem' a b). lia.
Qed.

Lemma divide_by_zero_float a : divide_ii a 0 = RFloat (i2f a / i2f 0)%float.
Proof. reflexivity. Qed.

(* the one exact quotient that does not fit is the float 2^63 *)
Lemma divide_hole_float :
  divide_ii min_int64 (-1) = RFloat (- i2f min_int64)%float /\ int_divide_ii min_int64 (-1) = RFloat (- i2f min_int64)%float
  /\ min_int64 = -1 * two63 /\ in64 two63 = false /\ bits_of_f (- i2f min_int64)%float = float_of_int two63.
Proof. repeat split; vm_compute; reflexivity. Qed.

Lemma divide_examples :
  divide_ii 6 2 = RInt 3 /\ (exists f, divide_ii 7 2 = RFloat f /\ bits_of_f f = 4615063718147915776)
  /\ divide_ii (-6) 3 = RInt (-2) /\ divide_ii min_int64 1 = RInt min_int64 /\ divide_ii 0 5 = RInt 0.
Proof.
  split; [vm_compute; reflexivity|]. split; [eexists; split; [vm_compute; reflexivity|vm_compute; reflexivity]|].
  repeat apply conj; vm_compute; reflexivity.
Qed.

(* ---------------------------------------------------------------- // and % *)
(* a non-zero remainder has the sign of the dividend, so both kernels make the same test *)
Lemma floor_test a b : b <> 0 ->
  let r := Z.rem a b in
  (if a <? 0 then (0 <? b) && negb (r =? 0) else (b <? 0) && negb (r =? 0))
  = negb (r =? 0) && negb (Bool.eqb (r <? 0) (b <? 0)).
Proof.
  intros Hb. cbv zeta. pose proof (Z.rem_sign_nz a b Hb) as Hs.
  destruct (Z.eqb_spec (Z.rem a b) 0) as [|Hr]; [rewrite !andb_false_r; destruct (a <? 0); reflexivity|]. specialize (Hs Hr).
  destruct (Z.ltb_spec a 0), (Z.ltb_spec (Z.rem a b) 0), (Z.ltb_spec b 0), (Z.ltb_spec 0 b); try reflexivity; lia.
Qed.

Lemma int_divide_floor a b : in64 a = true -> in64 b = true -> b <> 0 -> ~ div_hole a b ->
  int_divide_ii a b = RInt (a / b).
Proof.
  intros Ha _ Hb Hh. unfold int_divide_ii, go_rem. destruct (Z.eqb_spec b 0) as [|_]; [contradiction|].
  destruct (hole_test a b) as [|_]; [contradiction|].
  pose proof (div_in64 a b Ha Hb Hh) as Hd. destruct (floor_of_trunc a b Hb) as [Hq _]. rewrite Hq in *.
  rewrite (go_quot_exact a b Ha Hb Hh), (floor_test a b Hb).
  destruct (_ && _); [rewrite (wrap64_id _ Hd)|]; reflexivity.
Qed.

Lemma modulus_floor_mod a b : in64 a = true -> in64 b = true -> b <> 0 -> modulus_ii a b = RInt (a mod b).
Proof.
  intros _ Hb Hb0. unfold modulus_ii, go_rem. destruct (Z.eqb_spec b 0) as [|_]; [contradiction|].
  destruct (floor_of_trunc a b Hb0) as [_ Hm]. rewrite Hm.
  destruct (_ && _) eqn:E; [|reflexivity].
  rewrite wrap64_id; [reflexivity|]. rewrite <- Hm. apply in64_iff in Hb. apply in64_iff.
  pose proof (Z.mod_bound_or a b Hb0). lia.
Qed.

Lemma modulus_sign a b m : in64 a = true -> in64 b = true -> b <> 0 ->
  modulus_ii a b = RInt m -> (0 < b -> 0 <= m < b) /\ (b < 0 -> b < m <= 0).
Proof.
  intros Ha Hb Hb0. rewrite (modulus_floor_mod a b Ha Hb Hb0). intros [= <-].
  split; [apply Z.mod_pos_bound|apply Z.mod_neg_bound].
Qed.

Lemma divmod_identity a b q m : in64 a = true -> in64 b = true -> b <> 0 ->
  int_divide_ii a b = RInt q -> modulus_ii a b = RInt m -> a = b * q + m.
Proof.
  intros Ha Hb Hb0 Hq. destruct (hole_test a b) as [[= -> ->]|Hh]; [discriminate Hq|].
  rewrite (int_divide_floor a b Ha Hb Hb0 Hh) in Hq. rewrite (modulus_floor_mod a b Ha Hb Hb0).
  injection Hq as <-. intros [= <-]. apply Z.div_mod, Hb0.
Qed.

Lemma modulus_examples :
  modulus_ii (-10) 5 = RInt 0 /\ modulus_ii 6 (-3) = RInt 0 /\ modulus_ii 0 (-1) = RInt 0
  /\ modulus_ii (-17) 10 = RInt 3 /\ modulus_ii 13 10 = RInt 3 /\ modulus_ii 7 (-3) = RInt (-2).
Proof. repeat split. Qed.

Lemma modulus_by_zero_float a : modulus_ii a 0 = RFloat (i2f a / i2f 0)%float.
Proof. reflexivity. Qed.
Lemma int_divide_by_zero_float a : int_divide_ii a 0 = RFloat (i2f a / i2f 0)%float.
Proof. reflexivity. Qed.

(* ---------------------------------------------------------------- dot operators: 64-bit two's complement *)
Lemma dotplus_wrap a b : dotplus_ii a b = RInt (wrap64 (a + b)). Proof. reflexivity. Qed.
Lemma dotminus_wrap a b : dotminus_ii a b = RInt (wrap64 (a - b)). Proof. reflexivity. Qed.
Lemma dottimes_wrap a b : dottimes_ii a b = RInt (wrap64 (a * b)). Proof. reflexivity. Qed.
Lemma dotdivide_trunc a b : b <> 0 -> dotdivide_ii a b = RInt (wrap64 (Z.quot a b)).
Proof. intros Hb. unfold dotdivide_ii. destruct (Z.eqb_spec b 0); [contradiction|reflexivity]. Qed.
Lemma dotdivide_zero_float a : dotdivide_ii a 0 = RFloat (i2f a / i2f 0)%float. Proof. reflexivity. Qed.

Lemma float_literal_values : bits_of_f 0x1p+53%float = float_of_int (2 ^ 53) /\ bits_of_f 0x1p+63%float = float_of_int (2 ^ 63).
Proof. vm_compute. repeat split. Qed.
