(* C07 lemmas: bit operators and shifts are 64-bit two's complement; min/max/unary int-ness. *)
From Coq Require Import Floats.
From Miller Require Import Base.Bytes C06.Model C07.Model C07.Proofs.
Open Scope Z_scope.

(* an int64 is a Z that is sign-extended from bit 63: x >> 63 is 0 or -1, all its bits alike *)
Lemma in64_shiftr x : in64 x = true <-> Z.shiftr x 63 = 0 \/ Z.shiftr x 63 = -1.
Proof.
  rewrite in64_iff, Z.shiftr_div_pow2 by lia. change (2 ^ 63) with two63. pose proof two63_gt_1.
  pose proof (Z.div_mod x two63 ltac:(lia)). pose proof (Z.mod_pos_bound x two63 ltac:(lia)). nia.
Qed.

Lemma in64_bits x : in64 x = true <-> (forall i, 63 <= i -> Z.testbit x i = Z.testbit x 63).
Proof.
  rewrite in64_shiftr.
  assert (Hs : forall i, 63 <= i -> Z.testbit x i = Z.testbit (Z.shiftr x 63) (i - 63)).
  { intros i Hi. rewrite Z.shiftr_spec by lia. f_equal. lia. }
  split.
  - intros H i Hi. rewrite (Hs i Hi), (Hs 63) by lia.
    destruct H as [-> | ->]; [rewrite !Z.bits_0|rewrite !Z.bits_m1 by lia]; reflexivity.
  - intros H. destruct (Z.testbit x 63); [right|left]; apply Z.bits_inj'; intros n Hn;
      rewrite Z.shiftr_spec, H by lia; symmetry; [apply Z.bits_m1, Hn|apply Z.bits_0].
Qed.

(* ---------------------------------------------------------------- & | ^ ~ *)
Section Bitwise.
  (* an operation computed bit by bit: Z.land, Z.lor, Z.lxor *)
  Variables (f : Z -> Z -> Z) (g : bool -> bool -> bool).
  Hypothesis f_spec : forall a b i, Z.testbit (f a b) i = g (Z.testbit a i) (Z.testbit b i).

  Lemma bitwise_in64 a b : in64 a = true -> in64 b = true -> in64 (f a b) = true.
  Proof.
    intros Ha Hb. apply in64_bits. intros i Hi.
    rewrite !f_spec, (proj1 (in64_bits a) Ha i Hi), (proj1 (in64_bits b) Hb i Hi). reflexivity.
  Qed.

  (* the result is an int64 whose every bit is the boolean operation of the operand bits *)
  Lemma bitwise_spec a b : in64 a = true -> in64 b = true ->
    exists r, RInt (f a b) = RInt r /\ in64 r = true /\ forall i, 0 <= i -> Z.testbit r i = g (Z.testbit a i) (Z.testbit b i).
  Proof. intros Ha Hb. exists (f a b). split; [reflexivity|]. split; [apply bitwise_in64; assumption|]. intros i _. apply f_spec. Qed.

  (* the unsigned 64-bit patterns correspond *)
  Lemma u64_bitwise a b : g false false = false -> u64 (f a b) = f (u64 a) (u64 b).
  Proof.
    intros Hg. unfold u64, two64. rewrite <- !Z.land_ones by lia. apply Z.bits_inj'. intros n _.
    rewrite f_spec, !Z.land_spec, f_spec.
    destruct (Z.testbit (Z.ones 64) n); [rewrite !andb_true_r|rewrite !andb_false_r, Hg]; reflexivity.
  Qed.
End Bitwise.

Lemma bitand_spec a b : in64 a = true -> in64 b = true ->
  exists r, bitand_ii a b = RInt r /\ in64 r = true /\ forall i, 0 <= i -> Z.testbit r i = Z.testbit a i && Z.testbit b i.
Proof. exact (bitwise_spec _ _ Z.land_spec a b). Qed.
Lemma bitor_spec a b : in64 a = true -> in64 b = true ->
  exists r, bitor_ii a b = RInt r /\ in64 r = true /\ forall i, 0 <= i -> Z.testbit r i = Z.testbit a i || Z.testbit b i.
Proof. exact (bitwise_spec _ _ Z.lor_spec a b). Qed.
Lemma bitxor_spec a b : in64 a = true -> in64 b = true ->
  exists r, bitxor_ii a b = RInt r /\ in64 r = true /\ forall i, 0 <= i -> Z.testbit r i = xorb (Z.testbit a i) (Z.testbit b i).
Proof. exact (bitwise_spec _ _ Z.lxor_spec a b). Qed.

Lemma bitnot_spec a : in64 a = true ->
  exists r, bitnot_i a = RInt r /\ in64 r = true /\ r = - a - 1 /\ forall i, 0 <= i -> Z.testbit r i = negb (Z.testbit a i).
Proof.
  intros Ha. exists (Z.lnot a). split; [reflexivity|]. unfold Z.lnot at 1 2.
  split; [apply in64_iff in Ha; apply in64_iff; lia|]. split; [lia|]. intros i Hi. apply Z.lnot_spec, Hi.
Qed.

Lemma u64_land a b : u64 (Z.land a b) = Z.land (u64 a) (u64 b).
Proof. exact (u64_bitwise _ _ Z.land_spec a b eq_refl). Qed.
Lemma u64_lor a b : u64 (Z.lor a b) = Z.lor (u64 a) (u64 b).
Proof. exact (u64_bitwise _ _ Z.lor_spec a b eq_refl). Qed.
Lemma u64_lxor a b : u64 (Z.lxor a b) = Z.lxor (u64 a) (u64 b).
Proof. exact (u64_bitwise _ _ Z.lxor_spec a b eq_refl). Qed.

(* ---------------------------------------------------------------- shifts *)
(* the count as Go reads it, uint64(b): b itself from 0 to 63, at least 64 otherwise; x is the everything-shifted-out
   result, y the shift proper *)
Lemma shift_count (x : res) (y : Z -> res) b : in64 b = true ->
  (if 64 <=? u64 b then x else y (u64 b)) = if (0 <=? b) && (b <? 64) then y b else x.
Proof.
  intros Hb. apply in64_iff in Hb. unfold u64. cbv [two63 two64] in *. destruct (Z.leb_spec 0 b); cbn [andb].
  - rewrite Z.mod_small by lia. destruct (Z.leb_spec 64 b), (Z.ltb_spec b 64); reflexivity || lia.
  - rewrite <- (Z.mod_add b 1), Z.mod_small by lia. destruct (Z.leb_spec 64 (b + 1 * 2 ^ 64)); [reflexivity|lia].
Qed.

Lemma lsh_spec a b : in64 b = true ->
  lsh_ii a b = RInt (if (0 <=? b) && (b <? 64) then wrap64 (a * 2 ^ b) else 0).
Proof.
  intros Hb. unfold lsh_ii. cbv zeta. rewrite (shift_count (RInt 0) (fun u => RInt (wrap64 (Z.shiftl a u))) b Hb).
  destruct (Z.leb_spec 0 b); [|reflexivity]. rewrite Z.shiftl_mul_pow2 by assumption. destruct (_ && _); reflexivity.
Qed.

Lemma srsh_spec a b : in64 b = true ->
  srsh_ii a b = RInt (if (0 <=? b) && (b <? 64) then a / 2 ^ b else if a <? 0 then -1 else 0).
Proof.
  intros Hb. unfold srsh_ii. cbv zeta. rewrite (shift_count (RInt (if a <? 0 then -1 else 0)) (fun u => RInt (Z.shiftr a u)) b Hb).
  destruct (Z.leb_spec 0 b); [|reflexivity]. rewrite Z.shiftr_div_pow2 by assumption. destruct (_ && _); reflexivity.
Qed.

Lemma ursh_spec a b : in64 b = true ->
  ursh_ii a b = RInt (if (0 <=? b) && (b <? 64) then wrap64 (u64 a / 2 ^ b) else 0).
Proof.
  intros Hb. unfold ursh_ii. cbv zeta. rewrite (shift_count (RInt 0) (fun u => RInt (wrap64 (Z.shiftr (u64 a) u))) b Hb).
  destruct (Z.leb_spec 0 b); [|reflexivity]. rewrite Z.shiftr_div_pow2 by assumption. destruct (_ && _); reflexivity.
Qed.

(* a signed right shift of an int64 is an int64 (no wrap needed): floor(a / 2^b) *)
Lemma srsh_in64 a b : in64 a = true -> 0 <= b -> in64 (a / 2 ^ b) = true.
Proof.
  intros Ha Hb. pose proof (Z.pow_pos_nonneg 2 b ltac:(lia) Hb).
  apply (div_in64 a (2 ^ b) Ha); [lia|]. intros [= _ H1]. lia.
Qed.

(* ---------------------------------------------------------------- min / max keep ints ints (abs..roundm: ProofsInt.v) *)
Lemma min_ints a b : min_variadic2 (NInt a) (NInt b) = RInt (Z.min a b).
Proof.
  unfold min_variadic2, min_bin, num_of_res. rewrite Z.ltb_irrefl.
  destruct (Z.ltb_spec a b); f_equal; lia.
Qed.
Lemma max_ints a b : max_variadic2 (NInt a) (NInt b) = RInt (Z.max a b).
Proof.
  unfold max_variadic2, max_bin, num_of_res. rewrite Z.ltb_irrefl.
  destruct (Z.ltb_spec b a); f_equal; lia.
Qed.

Lemma neg_wrap a : eval_un UNeg (NInt a) = RInt (wrap64 (- a)). Proof. reflexivity. Qed.
