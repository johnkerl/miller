(* C07 property theorems, each followed by Print Assumptions; the lemmas behind them are in the Proofs*.v files of C07.
   All are stated over C07.Model (the definitions C07.Harness evaluates against the implementation).
   Ints are Z constrained by in64; float results are opaque (no floating-point reasoning here). *)
(* Floats is deliberately not imported here: the primitive float operations then print fully qualified
   (PrimFloat.add ...) in Print Assumptions, which lists kernel primitives under "Axioms:". *)
From Miller Require Import Base.Bytes C06.Model C07.Model C07.Proofs C07.ProofsBits C07.ProofsInt C07.ProofsPow C07.ProofsTimes C07.ProofsMod C07.ProofsPanic C07.ProofsWit C07.ProofsMixed C07.ProofsConv.
Open Scope Z_scope.

(* ---- + and - : exact when the result fits ---- *)
Theorem C07_plus_exact_when_fits :
  forall a b, in64 a = true -> in64 b = true -> in64 (a + b) = true -> eval_bin OPlus (NInt a) (NInt b) = RInt (a + b).
Proof. exact plus_exact. Qed.
Print Assumptions C07_plus_exact_when_fits.

Theorem C07_minus_exact_when_fits :
  forall a b, in64 a = true -> in64 b = true -> in64 (a - b) = true -> eval_bin OMinus (NInt a) (NInt b) = RInt (a - b).
Proof. exact (fun a b Ha Hb => fit_exact _ _ _ (minus_ii_fit a b Ha Hb)). Qed.
Print Assumptions C07_minus_exact_when_fits.

(* ---- + and - : overflow gives the float sum / difference of the converted operands, for ALL int64 operands
   (the -2^63 corners included) ---- *)
Theorem C07_plus_overflows_to_float :
  forall a b, in64 a = true -> in64 b = true -> in64 (a + b) = false ->
  eval_bin OPlus (NInt a) (NInt b) = RFloat (PrimFloat.add (i2f a) (i2f b)).
Proof. exact (fun a b Ha Hb => fit_overflow _ _ _ (plus_ii_fit a b Ha Hb)). Qed.
Print Assumptions C07_plus_overflows_to_float.

Theorem C07_minus_overflows_to_float :
  forall a b, in64 a = true -> in64 b = true -> in64 (a - b) = false ->
  eval_bin OMinus (NInt a) (NInt b) = RFloat (PrimFloat.sub (i2f a) (i2f b)).
Proof. exact (fun a b Ha Hb => fit_overflow _ _ _ (minus_ii_fit a b Ha Hb)). Qed.
Print Assumptions C07_minus_overflows_to_float.

(* never a wrapped integer *)
Theorem C07_plus_never_wraps :
  forall a b n, in64 a = true -> in64 b = true -> eval_bin OPlus (NInt a) (NInt b) = RInt n -> n = a + b.
Proof. exact (fun a b n Ha Hb => fit_never_wraps _ _ _ (plus_ii_fit a b Ha Hb) n). Qed.
Print Assumptions C07_plus_never_wraps.

Theorem C07_minus_never_wraps :
  forall a b n, in64 a = true -> in64 b = true -> eval_bin OMinus (NInt a) (NInt b) = RInt n -> n = a - b.
Proof. exact (fun a b n Ha Hb => fit_never_wraps _ _ _ (minus_ii_fit a b Ha Hb) n). Qed.
Print Assumptions C07_minus_never_wraps.

(* ---- * : the exact product whenever it fits in 64 bits, the float product of the converted operands otherwise, for ALL
   int64 operands (the 128-bit product of the magnitudes by math/bits.Mul64 decides) ---- *)
Theorem C07_times_exact_when_fits :
  forall a b, in64 a = true -> in64 b = true -> in64 (a * b) = true -> eval_bin OTimes (NInt a) (NInt b) = RInt (a * b).
Proof. exact (fun a b Ha Hb => fit_exact _ _ _ (times_ii_fit a b Ha Hb)). Qed.
Print Assumptions C07_times_exact_when_fits.

Theorem C07_times_never_wraps :
  forall a b n, in64 a = true -> in64 b = true -> eval_bin OTimes (NInt a) (NInt b) = RInt n -> n = a * b.
Proof. exact (fun a b n Ha Hb => fit_never_wraps _ _ _ (times_ii_fit a b Ha Hb) n). Qed.
Print Assumptions C07_times_never_wraps.

Theorem C07_times_overflows_to_float :
  forall a b, in64 a = true -> in64 b = true -> in64 (a * b) = false ->
  eval_bin OTimes (NInt a) (NInt b) = RFloat (PrimFloat.mul (i2f a) (i2f b)).
Proof. exact (fun a b Ha Hb => fit_overflow _ _ _ (times_ii_fit a b Ha Hb)). Qed.
Print Assumptions C07_times_overflows_to_float.

Theorem C07_times_int_iff_product_fits :
  forall a b, in64 a = true -> in64 b = true -> ((exists n, eval_bin OTimes (NInt a) (NInt b) = RInt n) <-> in64 (a * b) = true).
Proof. exact (fun a b Ha Hb => fit_int_iff _ _ _ (times_ii_fit a b Ha Hb)). Qed.
Print Assumptions C07_times_int_iff_product_fits.

Theorem C07_times_former_defect_witnesses :
  eval_bin OTimes (NInt 9223372036854775807) (NInt 1) = RInt 9223372036854775807
  /\ eval_bin OTimes (NInt (-2147483648)) (NInt 4294967296) = RInt min_int64
  /\ eval_bin OTimes (NInt 3037000499) (NInt 3037000499) = RInt 9223372030926249001
  /\ eval_bin OTimes (NInt min_int64) (NInt 1) = RInt min_int64
  /\ eval_bin OTimes (NInt (-1)) (NInt min_int64) = RFloat (PrimFloat.mul (i2f (-1)) (i2f min_int64))
  /\ eval_bin OTimes (NInt 2147483648) (NInt 4294967296) = RFloat (PrimFloat.mul (i2f 2147483648) (i2f 4294967296))
  /\ eval_bin OTimes (NInt (-2)) (NInt (-4611686018427387904)) = RFloat (PrimFloat.mul (i2f (-2)) (i2f (-4611686018427387904)))
  /\ bits_of_f (PrimFloat.mul (i2f 2147483648) (i2f 4294967296)) = float_of_int two63.
Proof. exact times_band_witnesses. Qed.
Print Assumptions C07_times_former_defect_witnesses.

(* ---- / : exact quotient when one exists (and fits), float otherwise ---- *)
Theorem C07_divide_exact_quotient :
  forall a b q, in64 a = true -> in64 b = true -> b <> 0 -> a = b * q -> in64 q = true ->
  eval_bin ODivide (NInt a) (NInt b) = RInt q.
Proof. exact divide_exact. Qed.
Print Assumptions C07_divide_exact_quotient.

Theorem C07_divide_inexact_is_float :
  forall a b, b <> 0 -> (forall q, a <> b * q) -> eval_bin ODivide (NInt a) (NInt b) = RFloat (PrimFloat.div (i2f a) (i2f b)).
Proof. exact divide_inexact_float. Qed.
Print Assumptions C07_divide_inexact_is_float.

(* an int result exactly when the divisor divides the dividend and the quotient fits (6/2 is int 3, 7/2 is float 3.5) *)
Theorem C07_divide_int_iff_divisible :
  forall a b n, in64 a = true -> in64 b = true -> b <> 0 ->
  (eval_bin ODivide (NInt a) (NInt b) = RInt n <-> (a = b * n /\ in64 n = true)).
Proof. exact (fun a b n Ha Hb Hb0 => divide_int_iff_divisible a b Ha Hb Hb0 n). Qed.
Print Assumptions C07_divide_int_iff_divisible.

Theorem C07_divide_not_divisible_is_float :
  forall a b, in64 a = true -> in64 b = true -> b <> 0 -> (forall q, ~ (a = b * q /\ in64 q = true)) ->
  exists f, eval_bin ODivide (NInt a) (NInt b) = RFloat f.
Proof. exact divide_float_iff_not_divisible. Qed.
Print Assumptions C07_divide_not_divisible_is_float.

Theorem C07_divide_examples :
  eval_bin ODivide (NInt 6) (NInt 2) = RInt 3 /\ (exists f, eval_bin ODivide (NInt 7) (NInt 2) = RFloat f /\ bits_of_f f = 4615063718147915776)
  /\ eval_bin ODivide (NInt (-6)) (NInt 3) = RInt (-2) /\ eval_bin ODivide (NInt min_int64) (NInt 1) = RInt min_int64 /\ eval_bin ODivide (NInt 0) (NInt 5) = RInt 0.
Proof. exact divide_examples. Qed.
Print Assumptions C07_divide_examples.

(* the one exact quotient of two int64s that does not fit, -2^63 / -1 = 2^63, is the float 2^63 for / and // *)
Theorem C07_divide_min_by_minus_one_is_float :
  eval_bin ODivide (NInt min_int64) (NInt (-1)) = RFloat (PrimFloat.opp (i2f min_int64))
  /\ eval_bin OIntDivide (NInt min_int64) (NInt (-1)) = RFloat (PrimFloat.opp (i2f min_int64))
  /\ min_int64 = -1 * two63 /\ in64 two63 = false /\ bits_of_f (PrimFloat.opp (i2f min_int64)) = float_of_int two63.
Proof. exact divide_hole_float. Qed.
Print Assumptions C07_divide_min_by_minus_one_is_float.

(* zero divisors of / // % give a float (Inf or NaN), not a crash *)
Theorem C07_zero_divisor_is_float :
  forall a, eval_bin ODivide (NInt a) (NInt 0) = RFloat (PrimFloat.div (i2f a) (i2f 0))
         /\ eval_bin OIntDivide (NInt a) (NInt 0) = RFloat (PrimFloat.div (i2f a) (i2f 0))
         /\ eval_bin OMod (NInt a) (NInt 0) = RFloat (PrimFloat.div (i2f a) (i2f 0)).
Proof. exact (fun a => conj (divide_by_zero_float a) (conj (int_divide_by_zero_float a) (modulus_by_zero_float a))). Qed.
Print Assumptions C07_zero_divisor_is_float.

(* ---- // floors (Z.div is the floor quotient); the excluded pair is exactly the one whose floor quotient does not
   fit (second theorem) and gives the float 2^63 (theorem above) ---- *)
Theorem C07_int_divide_floors :
  forall a b, in64 a = true -> in64 b = true -> b <> 0 -> (a, b) <> (min_int64, -1) ->
  eval_bin OIntDivide (NInt a) (NInt b) = RInt (a / b).
Proof. exact int_divide_floor. Qed.
Print Assumptions C07_int_divide_floors.

Theorem C07_floor_quotient_fits_except_min_by_minus_one :
  forall a b, in64 a = true -> in64 b = true -> b <> 0 -> (in64 (a / b) = false <-> (a, b) = (min_int64, -1)).
Proof. exact floor_quotient_fits. Qed.
Print Assumptions C07_floor_quotient_fits_except_min_by_minus_one.

(* ---- % : the floor modulus (Z.modulo), for ALL int64 operands with a non-zero divisor ---- *)
Theorem C07_modulus_is_floor_mod :
  forall a b, in64 a = true -> in64 b = true -> b <> 0 -> eval_bin OMod (NInt a) (NInt b) = RInt (a mod b).
Proof. exact modulus_floor_mod. Qed.
Print Assumptions C07_modulus_is_floor_mod.

Theorem C07_modulus_takes_divisor_sign :
  forall a b m, in64 a = true -> in64 b = true -> b <> 0 ->
  eval_bin OMod (NInt a) (NInt b) = RInt m -> (0 < b -> 0 <= m < b) /\ (b < 0 -> b < m <= 0).
Proof. exact modulus_sign. Qed.
Print Assumptions C07_modulus_takes_divisor_sign.

Theorem C07_divmod_identity :
  forall a b q m, in64 a = true -> in64 b = true -> b <> 0 ->
  eval_bin OIntDivide (NInt a) (NInt b) = RInt q -> eval_bin OMod (NInt a) (NInt b) = RInt m -> a = b * q + m.
Proof. exact divmod_identity. Qed.
Print Assumptions C07_divmod_identity.

(* ---- ** : int ** int is the exact integer when it fits and a float otherwise (int_power: exact integer
power with overflow detection).
   pow_float a b is the float math.Pow(float64 a, float64 b) of the model's port of go1.25 pow.go ---- *)
Theorem C07_pow_exact_when_fits :
  forall a b, in64 a = true -> 0 <= b -> in64 (a ^ b) = true -> eval_bin OPow (NInt a) (NInt b) = RInt (a ^ b).
Proof. exact pow_exact. Qed.
Print Assumptions C07_pow_exact_when_fits.

Theorem C07_pow_overflows_to_float :
  forall a b, in64 a = true -> 0 <= b -> in64 (a ^ b) = false ->
  eval_bin OPow (NInt a) (NInt b) = pow_float a b /\ forall n, pow_float a b <> RInt n.
Proof. exact (fun a b Ha Hb Hf => conj (pow_overflow_float a b Ha Hb Hf) (pow_float_not_int a b)). Qed.
Print Assumptions C07_pow_overflows_to_float.

Theorem C07_pow_never_wraps :
  forall a b n, in64 a = true -> 0 <= b -> eval_bin OPow (NInt a) (NInt b) = RInt n -> n = a ^ b.
Proof. exact pow_int_is_exact. Qed.
Print Assumptions C07_pow_never_wraps.

(* a negative exponent gives a float (2 ** -1 = 0.5; 2 ** -1075 is the float 0), except for the
   bases 1 and -1 whose reciprocal powers are ints *)
Theorem C07_pow_negative_exponent :
  forall a b, b < 0 ->
  (a <> 1 -> a <> -1 -> eval_bin OPow (NInt a) (NInt b) = pow_float a b /\ forall n, pow_float a b <> RInt n)
  /\ eval_bin OPow (NInt 1) (NInt b) = RInt 1 /\ eval_bin OPow (NInt (-1)) (NInt b) = RInt (if Z.odd b then -1 else 1).
Proof.
  exact (fun a b Hb => conj (fun H1 Hm1 => conj (pow_negative_exponent_float a b Hb H1 Hm1) (pow_float_not_int a b))
                            (pow_negative_exponent_unit_base b Hb)).
Qed.
Print Assumptions C07_pow_negative_exponent.

Theorem C07_pow_former_defect_witnesses :
  eval_bin OPow (NInt 3) (NInt 39) = RInt 4052555153018976267 /\ 3 ^ 39 = 4052555153018976267
  /\ eval_bin OPow (NInt 7) (NInt 22) = RInt (7 ^ 22)
  /\ eval_bin OPow (NInt (-1)) (NInt 9007199254740993) = RInt (-1)
  /\ eval_bin OPow (NInt 9223372036854775807) (NInt 1) = RInt 9223372036854775807
  /\ eval_bin OPow (NInt (-2)) (NInt 63) = RInt min_int64
  /\ (exists f, eval_bin OPow (NInt 2) (NInt 63) = RFloat f /\ bits_of_f f = float_of_int two63)
  /\ (exists f, eval_bin OPow (NInt 2) (NInt (-1075)) = RFloat f /\ bits_of_f f = 0)
  /\ (exists f, eval_bin OPow (NInt 2) (NInt (-1)) = RFloat f /\ bits_of_f f = 4602678819172646912).
Proof. exact pow_former_witnesses. Qed.
Print Assumptions C07_pow_former_defect_witnesses.

(* ---- dot operators: 64-bit two's complement ---- *)
Theorem C07_dot_operators_wrap :
  forall a b, eval_bin ODotPlus (NInt a) (NInt b) = RInt (wrap64 (a + b))
           /\ eval_bin ODotMinus (NInt a) (NInt b) = RInt (wrap64 (a - b))
           /\ eval_bin ODotTimes (NInt a) (NInt b) = RInt (wrap64 (a * b))
           /\ (b <> 0 -> eval_bin ODotDivide (NInt a) (NInt b) = RInt (wrap64 (Z.quot a b)))
           /\ eval_bin ODotDivide (NInt a) (NInt 0) = RFloat (PrimFloat.div (i2f a) (i2f 0)).
Proof. exact (fun a b => conj (dotplus_wrap a b) (conj (dotminus_wrap a b) (conj (dottimes_wrap a b) (conj (dotdivide_trunc a b) (dotdivide_zero_float a))))). Qed.
Print Assumptions C07_dot_operators_wrap.

(* what wrap64 means: the unique int64 congruent to the exact value modulo 2^64 *)
Theorem C07_wrap64_is_twos_complement :
  forall n, in64 (wrap64 n) = true /\ wrap64 n mod two64 = n mod two64
         /\ (forall r, in64 r = true -> r mod two64 = n mod two64 -> r = wrap64 n)
         /\ (in64 n = true -> wrap64 n = n).
Proof. exact (fun n => conj (wrap64_in64 n) (conj (wrap64_congr n) (conj (wrap64_unique n) (wrap64_id n)))). Qed.
Print Assumptions C07_wrap64_is_twos_complement.

(* ---- & | ^ ~ : bitwise on the two's-complement representation, result again an int64 ---- *)
Theorem C07_bitand_twos_complement :
  forall a b, in64 a = true -> in64 b = true ->
  exists r, eval_bin OAnd (NInt a) (NInt b) = RInt r /\ in64 r = true /\
            forall i, 0 <= i -> Z.testbit r i = Z.testbit a i && Z.testbit b i.
Proof. exact bitand_spec. Qed.
Print Assumptions C07_bitand_twos_complement.

Theorem C07_bitor_twos_complement :
  forall a b, in64 a = true -> in64 b = true ->
  exists r, eval_bin OOr (NInt a) (NInt b) = RInt r /\ in64 r = true /\
            forall i, 0 <= i -> Z.testbit r i = Z.testbit a i || Z.testbit b i.
Proof. exact bitor_spec. Qed.
Print Assumptions C07_bitor_twos_complement.

Theorem C07_bitxor_twos_complement :
  forall a b, in64 a = true -> in64 b = true ->
  exists r, eval_bin OXor (NInt a) (NInt b) = RInt r /\ in64 r = true /\
            forall i, 0 <= i -> Z.testbit r i = xorb (Z.testbit a i) (Z.testbit b i).
Proof. exact bitxor_spec. Qed.
Print Assumptions C07_bitxor_twos_complement.

Theorem C07_bitnot_twos_complement :
  forall a, in64 a = true ->
  exists r, eval_un UNot (NInt a) = RInt r /\ in64 r = true /\ r = - a - 1 /\
            forall i, 0 <= i -> Z.testbit r i = negb (Z.testbit a i).
Proof. exact bitnot_spec. Qed.
Print Assumptions C07_bitnot_twos_complement.

(* the unsigned 64-bit patterns (x mod 2^64) of the results are the bitwise operations of the operand patterns *)
Theorem C07_bitops_on_unsigned_patterns :
  forall a b, u64 (Z.land a b) = Z.land (u64 a) (u64 b) /\ u64 (Z.lor a b) = Z.lor (u64 a) (u64 b)
           /\ u64 (Z.lxor a b) = Z.lxor (u64 a) (u64 b).
Proof. exact (fun a b => conj (u64_land a b) (conj (u64_lor a b) (u64_lxor a b))). Qed.
Print Assumptions C07_bitops_on_unsigned_patterns.

(* ---- shifts: counts 0..63 shift; negative counts and counts beyond 63 shift everything out ---- *)
Theorem C07_left_shift :
  forall a b, in64 b = true ->
  eval_bin OLsh (NInt a) (NInt b) = RInt (if (0 <=? b) && (b <? 64) then wrap64 (a * 2 ^ b) else 0).
Proof. exact lsh_spec. Qed.
Print Assumptions C07_left_shift.

Theorem C07_signed_right_shift :
  forall a b, in64 b = true ->
  eval_bin OSrsh (NInt a) (NInt b) = RInt (if (0 <=? b) && (b <? 64) then a / 2 ^ b else if a <? 0 then -1 else 0).
Proof. exact srsh_spec. Qed.
Print Assumptions C07_signed_right_shift.

Theorem C07_unsigned_right_shift :
  forall a b, in64 b = true ->
  eval_bin OUrsh (NInt a) (NInt b) = RInt (if (0 <=? b) && (b <? 64) then wrap64 (u64 a / 2 ^ b) else 0).
Proof. exact ursh_spec. Qed.
Print Assumptions C07_unsigned_right_shift.

(* ---- int-ness: min/max of ints are the exact int; abs/ceiling/floor/round/sgn/roundm of ints are the exact ints ---- *)
Theorem C07_min_max_of_ints_exact :
  forall a b, eval_bin OMin (NInt a) (NInt b) = RInt (Z.min a b) /\ eval_bin OMax (NInt a) (NInt b) = RInt (Z.max a b).
Proof. exact (fun a b => conj (min_ints a b) (max_ints a b)). Qed.
Print Assumptions C07_min_max_of_ints_exact.

(* abs/ceiling/floor/round/sgn of an int: the exact integer (integer kernels, no float64 round trip) *)
Theorem C07_unary_math_of_int_exact :
  forall a, in64 a = true ->
  (a <> min_int64 -> eval_un (UMath FAbs) (NInt a) = RInt (Z.abs a))
  /\ eval_un (UMath FCeil) (NInt a) = RInt a /\ eval_un (UMath FFloor) (NInt a) = RInt a /\ eval_un (UMath FRound) (NInt a) = RInt a
  /\ eval_un (UMath FSgn) (NInt a) = RInt (Z.sgn a).
Proof.
  exact (fun a Ha => conj (abs_int_exact a Ha) (conj (proj1 (ceil_floor_round_int_identity a)) (conj (proj1 (proj2 (ceil_floor_round_int_identity a)))
                     (conj (proj2 (proj2 (ceil_floor_round_int_identity a))) (sgn_int_exact a))))).
Qed.
Print Assumptions C07_unary_math_of_int_exact.

(* the one int whose absolute value does not fit: abs(-2^63) overflows to the float 2^63, like the arithmetic operators *)
Theorem C07_abs_min_int_overflows_to_float :
  eval_un (UMath FAbs) (NInt min_int64) = RFloat (PrimFloat.opp (i2f min_int64))
  /\ in64 (Z.abs min_int64) = false /\ bits_of_f (PrimFloat.opp (i2f min_int64)) = float_of_int (Z.abs min_int64).
Proof. exact abs_min_int_is_float. Qed.
Print Assumptions C07_abs_min_int_overflows_to_float.

Theorem C07_unary_math_preserves_int :
  forall u a, in64 a = true -> (u, a) <> (FAbs, min_int64) -> exists n, eval_un (UMath u) (NInt a) = RInt n /\ in64 n = true.
Proof. exact math_unary_int_stays_int. Qed.
Print Assumptions C07_unary_math_preserves_int.

(* roundm of ints: the multiple of m nearest x, ties away from zero (roundm_spec; characterised by the next theorem),
   an int whenever it fits, the float round(x/m)*m otherwise; m = 0 gives the float round(x/0)*0 = NaN
   (exact integer arithmetic) *)
Theorem C07_roundm_exact :
  forall x m, in64 x = true -> in64 m = true -> m <> 0 ->
  (in64 (roundm_spec x m) = true -> eval_bin ORoundm (NInt x) (NInt m) = RInt (roundm_spec x m))
  /\ (in64 (roundm_spec x m) = false -> eval_bin ORoundm (NInt x) (NInt m) = RFloat (mlr_roundm (i2f x) (i2f m))).
Proof. exact (fun x m Hx Hm Hm0 => conj (fit_exact _ _ _ (roundm_ii_fit x m Hx Hm Hm0)) (fit_overflow _ _ _ (roundm_ii_fit x m Hx Hm Hm0))). Qed.
Print Assumptions C07_roundm_exact.

Theorem C07_roundm_spec_is_nearest_multiple :
  forall x m, m <> 0 ->
  (exists k, roundm_spec x m = k * m)
  /\ 2 * Z.abs (x - roundm_spec x m) <= Z.abs m
  /\ (forall k, Z.abs (x - roundm_spec x m) <= Z.abs (x - k * m))
  /\ (2 * Z.abs (x - roundm_spec x m) = Z.abs m -> Z.abs x < Z.abs (roundm_spec x m)).
Proof. exact roundm_spec_nearest. Qed.
Print Assumptions C07_roundm_spec_is_nearest_multiple.

Theorem C07_roundm_zero_modulus_is_float :
  forall x, eval_bin ORoundm (NInt x) (NInt 0) = RFloat (mlr_roundm (i2f x) (i2f 0)).
Proof. exact roundm_zero_modulus_float. Qed.
Print Assumptions C07_roundm_zero_modulus_is_float.

(* ---- madd/msub/mmul/mexp = exact modular arithmetic for m > 0, for ALL int64 operands (the exact math/big
sum, difference, product is reduced).
   m = 0: error value, theorem C07_zero_modulus_is_error; m < 0: mlrmod of the exact value, not specified by the property ---- *)
Theorem C07_madd_exact :
  forall a b m, in64 m = true -> 0 < m -> eval_tern TMadd (NInt a) (NInt b) (NInt m) = RInt ((a + b) mod m).
Proof. exact madd_exact. Qed.
Print Assumptions C07_madd_exact.

Theorem C07_msub_exact :
  forall a b m, in64 m = true -> 0 < m -> eval_tern TMsub (NInt a) (NInt b) (NInt m) = RInt ((a - b) mod m).
Proof. exact msub_exact. Qed.
Print Assumptions C07_msub_exact.

Theorem C07_mmul_exact :
  forall a b m, in64 m = true -> 0 < m -> eval_tern TMmul (NInt a) (NInt b) (NInt m) = RInt ((a * b) mod m).
Proof. exact mmul_exact. Qed.
Print Assumptions C07_mmul_exact.

(* mexp by the repeated-squaring invariant c * apower^u = a^e (mod m): every base, every exponent e >= 0, every modulus m > 0 *)
Theorem C07_mexp_exact :
  forall a e m, in64 m = true -> 0 < m -> 0 <= e -> in64 e = true ->
  eval_tern TMexp (NInt a) (NInt e) (NInt m) = RInt (a ^ e mod m).
Proof. exact mexp_exact. Qed.
Print Assumptions C07_mexp_exact.

Theorem C07_mod_ops_former_defect_witnesses :
  eval_tern TMadd (NInt (2 ^ 62)) (NInt (2 ^ 62)) (NInt 3) = RInt 2 /\ (2 ^ 62 + 2 ^ 62) mod 3 = 2 /\
  eval_tern TMmul (NInt (2 ^ 32)) (NInt (2 ^ 32)) (NInt 7) = RInt 2 /\ (2 ^ 32 * 2 ^ 32) mod 7 = 2 /\
  eval_tern TMexp (NInt (2 ^ 32)) (NInt 3) (NInt 3) = RInt 1 /\ (2 ^ 32) ^ 3 mod 3 = 1.
Proof. exact mop_former_wrap_witnesses. Qed.
Print Assumptions C07_mod_ops_former_defect_witnesses.

Theorem C07_mexp_negative_exponent_is_error :
  forall a e m, e < 0 -> eval_tern TMexp (NInt a) (NInt e) (NInt m) = RError.
Proof. exact mexp_negative_exponent_error. Qed.
Print Assumptions C07_mexp_negative_exponent_is_error.

(* ---- mixed int/float and float/float operands: the IEEE-754 double operation on the converted operands
   (to_f (NInt n) = i2f n = float64(n) correctly rounded, to_f (NFloat f) = f).  Definitional in the model -- it is what
   the *_f_if/_f_fi/_f_ff kernels do; the tie to the code is the bit-exact correspondence ---- *)
Theorem C07_mixed_arithmetic_is_ieee_on_converted_operands :
  forall x y, has_float x y ->
  eval_bin OPlus x y = RFloat (PrimFloat.add (to_f x) (to_f y)) /\ eval_bin OMinus x y = RFloat (PrimFloat.sub (to_f x) (to_f y)) /\
  eval_bin OTimes x y = RFloat (PrimFloat.mul (to_f x) (to_f y)) /\ eval_bin ODivide x y = RFloat (PrimFloat.div (to_f x) (to_f y)) /\
  eval_bin ODotPlus x y = RFloat (PrimFloat.add (to_f x) (to_f y)) /\ eval_bin ODotMinus x y = RFloat (PrimFloat.sub (to_f x) (to_f y)) /\
  eval_bin ODotTimes x y = RFloat (PrimFloat.mul (to_f x) (to_f y)) /\ eval_bin ODotDivide x y = RFloat (PrimFloat.div (to_f x) (to_f y)).
Proof. exact mixed_arith_ieee. Qed.
Print Assumptions C07_mixed_arithmetic_is_ieee_on_converted_operands.

(* ---- the conversion itself: float64(int64 n) of the model (i2f n = f_of_bits (float_of_int n), float_of_int in exact integer
   arithmetic) is the correctly rounded value for ALL int64 n, stated over Z (no real-number library): below 2^53 nothing is
   rounded away (the 53-bit significand is |n| 2^(52-e), e = log2 |n|); from 2^53 to 2^63 the significand q = rne_q |n| s at the unit
   2^s of |n|'s binade is within half a unit of |n|, an exact half only when q is even (round to nearest, ties to even); enc_q q s is
   the bit pattern of q 2^s (lemma enc_q_decodes in ProofsConv.v: f_of_bits of it is SF2Prim of that significand and exponent) ---- *)
Theorem C07_int_to_float_correctly_rounded :
  forall n, in64 n = true -> 2 ^ 53 <= Z.abs n ->
  let s := Z.log2 (Z.abs n) - 52 in
  let q := rne_q (Z.abs n) s in
  float_of_int n = (if n <? 0 then two63 else 0) + enc_q q s
  /\ 1 <= s <= 11 /\ 2 ^ 52 <= q <= 2 ^ 53
  /\ 2 * Z.abs (Z.abs n - q * 2 ^ s) <= 2 ^ s
  /\ (2 * Z.abs (Z.abs n - q * 2 ^ s) = 2 ^ s -> Z.even q = true).
Proof. exact float_of_int_rne. Qed.
Print Assumptions C07_int_to_float_correctly_rounded.

Theorem C07_int_to_float_exact_below_2p53 :
  forall n, n <> 0 -> Z.abs n < 2 ^ 53 ->
  let e := Z.log2 (Z.abs n) in
  float_of_int n = (if n <? 0 then two63 else 0) + ((e + 1023) * 2 ^ 52 + (Z.abs n * 2 ^ (52 - e) - 2 ^ 52))
  /\ 0 <= e <= 52 /\ 2 ^ 52 <= Z.abs n * 2 ^ (52 - e) < 2 ^ 53.
Proof. exact float_of_int_exact_small. Qed.
Print Assumptions C07_int_to_float_exact_below_2p53.

(* mixed int/float min and max: the float math.Min / math.Max of the converted operands, whatever the values -- when an int and a
   float are equal the result is still the float (max(1, 1.0) = 1.0; lemma mixed_min_max_examples).  f_min (f_min f f) is what the
   variadic fold computes for a float first argument *)
Theorem C07_mixed_min_max_is_float :
  forall a f y,
  (eval_bin OMin (NInt a) (NFloat f) = RFloat (f_min (i2f a) f) /\ eval_bin OMax (NInt a) (NFloat f) = RFloat (f_max (i2f a) f))
  /\ (eval_bin OMin (NFloat f) y = RFloat (f_min (f_min f f) (to_f y)) /\ eval_bin OMax (NFloat f) y = RFloat (f_max (f_max f f) (to_f y))).
Proof. exact (fun a f y => conj (mixed_min_max_int_float a f) (mixed_min_max_float_any f y)). Qed.
Print Assumptions C07_mixed_min_max_is_float.

Theorem C07_mixed_result_is_never_int :
  forall op x y n, has_float x y -> eval_bin op x y <> RInt n.
Proof. exact mixed_never_int. Qed.
Print Assumptions C07_mixed_result_is_never_int.

Theorem C07_bit_operators_reject_floats :
  forall op x y, has_float x y -> In op [OAnd; OOr; OXor; OLsh; OSrsh; OUrsh] -> eval_bin op x y = RError.
Proof. exact bitops_reject_floats. Qed.
Print Assumptions C07_bit_operators_reject_floats.

Theorem C07_modular_functions_reject_floats :
  forall op x y z, (exists f, x = NFloat f) \/ (exists f, y = NFloat f) \/ (exists f, z = NFloat f) -> eval_tern op x y z = RError.
Proof. exact modops_reject_floats. Qed.
Print Assumptions C07_modular_functions_reject_floats.

(* ---- never crashes: no operator, no function, no operands (int ./ 0 is the float a/0;
a zero modulus is an error value) ---- *)
Theorem C07_binary_never_panics : forall op x y, num_ok x -> num_ok y -> eval_bin op x y <> RPanic.
Proof. exact bin_no_panic. Qed.
Print Assumptions C07_binary_never_panics.

Theorem C07_unary_never_panics : forall op x, eval_un op x <> RPanic.
Proof. exact un_no_panic. Qed.
Print Assumptions C07_unary_never_panics.

Theorem C07_ternary_never_panics : forall op x y z, eval_tern op x y z <> RPanic.
Proof. exact tern_no_panic. Qed.
Print Assumptions C07_ternary_never_panics.

(* the same with the explicit list of operators and functions in scope (and the lists are complete for the model's
   operator types): the result is always a value -- int, float or error -- never the panic outcome.
   num_ok: an int operand is an int64 *)
Theorem C07_never_panics_explicit_list :
  (forall op x y, In op [OPlus; OMinus; OTimes; ODivide; OIntDivide; OMod; OPow; ODotPlus; ODotMinus; ODotTimes; ODotDivide;
                         OAnd; OOr; OXor; OLsh; OSrsh; OUrsh; ORoundm; OMin; OMax] -> num_ok x -> num_ok y -> is_value (eval_bin op x y))
  /\ (forall op x, In op [UNeg; UPos; UNot; UBitcount; UMath FAbs; UMath FCeil; UMath FFloor; UMath FRound; UMath FSgn] -> num_ok x -> is_value (eval_un op x))
  /\ (forall op x y z, In op [TMadd; TMsub; TMmul; TMexp] -> num_ok x -> num_ok y -> num_ok z -> is_value (eval_tern op x y z))
  /\ (forall op, In op all_binops) /\ (forall op, In op all_unops) /\ (forall op, In op all_ternops).
Proof. exact never_panics_all. Qed.
Print Assumptions C07_never_panics_explicit_list.

Theorem C07_zero_modulus_is_error : forall op a b, eval_tern op (NInt a) (NInt b) (NInt 0) = RError.
Proof. exact tern_zero_modulus_error. Qed.
Print Assumptions C07_zero_modulus_is_error.

(* the witnesses of the repaired defects, as instances of the theorems above (regression anchors) *)
Theorem C07_former_defect_witnesses :
  (eval_bin OPlus (NInt min_int64) (NInt min_int64) = RFloat (PrimFloat.add (i2f min_int64) (i2f min_int64)) /\
   eval_bin OMinus (NInt 0) (NInt min_int64) = RFloat (PrimFloat.sub (i2f 0) (i2f min_int64))) /\
  (in64 (16440948372290153 * 561) = false /\
   eval_bin OTimes (NInt 16440948372290153) (NInt 561) = RFloat (PrimFloat.mul (i2f 16440948372290153) (i2f 561)) /\
   bits_of_f (PrimFloat.mul (i2f 16440948372290153) (i2f 561)) = float_of_int 9223372036854774784) /\
  (eval_bin OMod (NInt (-10)) (NInt 5) = RInt 0 /\ eval_bin OMod (NInt 6) (NInt (-3)) = RInt 0 /\ eval_bin OMod (NInt 0) (NInt (-1)) = RInt 0
   /\ eval_bin OMod (NInt (-17)) (NInt 10) = RInt 3 /\ eval_bin OMod (NInt 13) (NInt 10) = RInt 3 /\ eval_bin OMod (NInt 7) (NInt (-3)) = RInt (-2)) /\
  (eval_tern TMexp (NInt 10) (NInt 1) (NInt 3) = RInt 1 /\ 10 ^ 1 mod 3 = 1 /\
   eval_tern TMexp (NInt 5) (NInt 0) (NInt 1) = RInt 0 /\ 5 ^ 0 mod 1 = 0).
Proof. exact (conj plus_minus_corners (conj times_former_wrap_witness (conj modulus_examples mexp_small_exponent_examples))). Qed.
Print Assumptions C07_former_defect_witnesses.

(* non-vacuity: concrete non-trivial inputs meet the hypotheses *)
Example C07_nonvacuous :
  in64 9223372036854775807 = true /\ in64 1 = true /\ in64 (9223372036854775807 + 1) = false
  /\ in64 (-7) = true /\ in64 2 = true /\ (2 <> 0) /\ (-7, 2) <> (min_int64, -1) /\ Z.rem (-7) 2 <> 0
  /\ eval_bin OIntDivide (NInt (-7)) (NInt 2) = RInt (-4) /\ eval_bin OMod (NInt (-7)) (NInt 2) = RInt 1
  /\ eval_bin OLsh (NInt 1) (NInt 63) = RInt min_int64 /\ eval_bin OUrsh (NInt (-1)) (NInt 60) = RInt 15
  /\ eval_tern TMexp (NInt 3) (NInt 200) (NInt 1000007) = RInt (3 ^ 200 mod 1000007)
  /\ (forall q, 7 <> 2 * q).
Proof. vm_compute. repeat split; try reflexivity; try discriminate; try (intros q; destruct q as [|p|p]; try destruct p; discriminate). Qed.

Example C07_nonvacuous_round2 :
  in64 (3 ^ 39) = true /\ in64 (2 ^ 63) = false /\ in64 ((-2) ^ 63) = true /\ in64 7 = true /\ (0 <? 7) = true
  /\ in64 (roundm_spec 7 2) = true /\ roundm_spec 7 2 = 8 /\ roundm_spec (-7) 2 = -8 /\ in64 (roundm_spec 9223372036854775807 2) = false
  /\ (2 ^ 53 <=? Z.abs 9007199254740993) = true /\ in64 9007199254740993 = true /\ (Z.abs (-5) <? 2 ^ 53) = true
  /\ eval_tern TMmul (NInt 9223372036854775807) (NInt 9223372036854775807) (NInt 9223372036854775806) = RInt 1.
Proof. vm_compute. repeat split. Qed.
