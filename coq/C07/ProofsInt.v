(* C07 lemmas: the int-preserving functions abs ceiling floor round sgn roundm on ints are exact integer arithmetic
   (no float64 round trip), for ALL int64 operands. *)
From Coq Require Import Floats.
From Miller Require Import Base.Bytes C06.Model C07.Model C07.Proofs.
Open Scope Z_scope.

(* ---------------------------------------------------------------- uint64 magnitude / conversions *)
Lemma umag_abs a : in64 a = true -> umag a = Z.abs a.
Proof.
  intros Ha. apply in64_iff in Ha. unfold umag. destruct (Z.ltb_spec a 0).
  - rewrite <- (Z.mod_add a 1), (Z.mod_small (a + 1 * two64)) by lia64.
    rewrite <- (Z.mod_add _ 1), Z.mod_small by lia64. lia.
  - rewrite Z.mod_small by lia64. lia.
Qed.

(* hi == 0 && t(lo), where hi:lo is the 128-bit value p >= 0 and the test t fails from 2^64 on, is t(p) *)
Lemma hi_zero_test (t : Z -> bool) p : 0 <= p -> (two64 <= p -> t p = false) ->
  (p / two64 =? 0) && t (p mod two64) = t p.
Proof.
  intros Hp Ht. destruct (Z.ltb_spec p two64) as [Hlt|Hge].
  - rewrite Z.div_small, Z.mod_small by lia. reflexivity.
  - pose proof (Z.div_str_pos p two64 ltac:(lia64)). rewrite (Ht Hge). destruct (Z.eqb_spec (p / two64) 0); [lia|reflexivity].
Qed.

Lemma hi_lo_le p : 0 <= p -> (p / two64 =? 0) && (p mod two64 <=? two63) = (p <=? two63).
Proof. intros Hp. apply (hi_zero_test (fun x => x <=? two63) p Hp). intros H. apply Z.leb_gt. lia64. Qed.

Lemma hi_lo_lt p : 0 <= p -> (p / two64 =? 0) && (p mod two64 <? two63) = (p <? two63).
Proof. intros Hp. apply (hi_zero_test (fun x => x <? two63) p Hp). intros H. apply Z.ltb_ge. lia64. Qed.

Lemma wrap64_mod x : wrap64 (x mod two64) = wrap64 x.
Proof. rewrite Z.mod_eq by lia64. rewrite <- (wrap64_period x (- (x / two64))). f_equal. lia. Qed.

(* int64(-p) for a uint64 p <= 2^63 *)
Lemma wrap64_neg p : 0 <= p <= two63 -> wrap64 ((- p) mod two64) = - p.
Proof. intros Hp. rewrite wrap64_mod. apply wrap64_id, in64_iff. lia64. Qed.

Lemma pos_u64_to_int64 p : 0 <= p < two63 -> wrap64 (p mod two64) = p.
Proof. intros Hp. rewrite wrap64_mod. apply wrap64_id, in64_iff. lia. Qed.

(* sign and magnitude to int64, as * and roundm do it: a negative result may have magnitude 2^63, any other must be
   smaller; the value when it fits, else the float *)
Lemma fit_of_magnitude (neg : bool) p f : 0 <= p ->
  (if neg
   then if (p / two64 =? 0) && (p mod two64 <=? two63) then RInt (wrap64 ((- (p mod two64)) mod two64)) else RFloat f
   else if (p / two64 =? 0) && (p mod two64 <? two63) then RInt (wrap64 (p mod two64)) else RFloat f)
  = fit (if neg then - p else p) f.
Proof.
  intros Hp. rewrite (hi_lo_le p Hp), (hi_lo_lt p Hp). unfold fit. destruct neg.
  - destruct (Z.leb_spec p two63).
    + rewrite (Z.mod_small p), wrap64_neg, (proj2 (in64_iff (- p))) by lia64. reflexivity.
    + rewrite (proj2 (in64_false_iff (- p))) by lia64. reflexivity.
  - destruct (Z.ltb_spec p two63).
    + rewrite pos_u64_to_int64, (proj2 (in64_iff p)) by lia64. reflexivity.
    + rewrite (proj2 (in64_false_iff p)) by lia64. reflexivity.
Qed.

(* ---------------------------------------------------------------- abs ceiling floor round sgn *)
Lemma abs_int_exact a : in64 a = true -> a <> min_int64 -> eval_un (UMath FAbs) (NInt a) = RInt (Z.abs a).
Proof.
  intros Ha Hne. cbn [eval_un math_unary_i]. destruct (Z.eqb_spec a min_int64) as [|_]; [contradiction|].
  apply in64_iff in Ha. unfold min_int64 in Hne.
  destruct (Z.ltb_spec a 0); [rewrite wrap64_id by (apply in64_iff; lia)|]; f_equal; lia.
Qed.

(* |-2^63| = 2^63 does not fit: the float 2^63 *)
Lemma abs_min_int_is_float :
  eval_un (UMath FAbs) (NInt min_int64) = RFloat (- i2f min_int64)%float
  /\ in64 (Z.abs min_int64) = false /\ bits_of_f (- i2f min_int64)%float = float_of_int (Z.abs min_int64).
Proof. vm_compute. repeat split. Qed.

Lemma ceil_floor_round_int_identity a :
  eval_un (UMath FCeil) (NInt a) = RInt a /\ eval_un (UMath FFloor) (NInt a) = RInt a /\ eval_un (UMath FRound) (NInt a) = RInt a.
Proof. repeat split. Qed.

Lemma sgn_int_exact a : eval_un (UMath FSgn) (NInt a) = RInt (Z.sgn a).
Proof.
  cbn [eval_un math_unary_i]. f_equal.
  destruct (Z.ltb_spec 0 a); [rewrite Z.sgn_pos by lia; reflexivity|].
  destruct (Z.ltb_spec a 0); [rewrite Z.sgn_neg by lia; reflexivity|].
  replace a with 0 by lia. reflexivity.
Qed.

(* int-ness: an int unless the value does not fit (only abs of -2^63) *)
Lemma math_unary_int_stays_int u a : in64 a = true -> (u, a) <> (FAbs, min_int64) ->
  exists n, eval_un (UMath u) (NInt a) = RInt n /\ in64 n = true.
Proof.
  intros Ha Hne. destruct u; [| exists a; split; [reflexivity|exact Ha] .. |].
  - assert (a <> min_int64) by (intros ->; apply Hne; reflexivity).
    exists (Z.abs a). split; [apply abs_int_exact; assumption|].
    apply in64_iff in Ha. apply in64_iff. unfold min_int64 in *. lia.
  - exists (Z.sgn a). split; [apply sgn_int_exact|]. destruct (Z.sgn_spec a) as [[_ ->]|[[_ ->]|[_ ->]]]; reflexivity.
Qed.

(* ---------------------------------------------------------------- roundm *)
(* the multiple of m nearest x, halves away from zero: sign(x) * floor((2|x| + |m|) / (2|m|)) * |m| *)
Definition roundm_spec (x m : Z) : Z := Z.sgn x * ((2 * Z.abs x + Z.abs m) / (2 * Z.abs m)) * Z.abs m.

Lemma round_quotient ux um : 0 <= ux -> 0 < um ->
  (if um - ux mod um <=? ux mod um then ux / um + 1 else ux / um) = (2 * ux + um) / (2 * um).
Proof.
  intros Hx Hm.
  pose proof (Z.div_mod ux um ltac:(lia)) as Hdm. pose proof (Z.mod_pos_bound ux um Hm) as Hb.
  set (q := ux / um) in *. set (r := ux mod um) in *.
  destruct (Z.leb_spec (um - r) r) as [Hup|Hdn].
  - apply (Z.div_unique_pos _ _ (q + 1) (2 * r - um)); lia.
  - apply (Z.div_unique_pos _ _ q (2 * r + um)); lia.
Qed.

Lemma roundm_ii_fit x m : in64 x = true -> in64 m = true -> m <> 0 ->
  roundm_ii x m = fit (roundm_spec x m) (mlr_roundm (i2f x) (i2f m)).
Proof.
  intros Hx Hm Hm0. unfold roundm_ii, roundm_spec.
  destruct (Z.eqb_spec m 0) as [|_]; [contradiction|].
  rewrite (umag_abs x Hx), (umag_abs m Hm). apply in64_iff in Hx.
  assert (Hux : 0 <= Z.abs x <= two63) by lia. assert (Hum : 0 < Z.abs m) by lia.
  set (ux := Z.abs x) in *. set (um := Z.abs m) in *.
  destruct (Z.eqb_spec um 0) as [|_]; [lia|]. cbv zeta.
  (* the quotient is at most |x| <= 2^63: adding 1 cannot wrap *)
  assert (Hq : 0 <= ux / um <= ux) by (split; [apply Z.div_pos|apply Z.div_le_upper_bound]; nia).
  rewrite (Z.mod_small (ux / um + 1)), (round_quotient ux um (proj1 Hux) Hum) by lia64.
  set (K := (2 * ux + um) / (2 * um)). assert (HK : 0 <= K) by (apply Z.div_pos; lia).
  rewrite (fit_of_magnitude (x <? 0) (K * um)) by nia. f_equal.
  destruct (Z.sgn_spec x) as [[Hs ->]|[[<- ->]|[Hs ->]]].
  - destruct (Z.ltb_spec x 0); lia.
  - unfold K, ux. cbn [Z.abs Z.ltb Z.compare]. rewrite Z.div_small by lia. reflexivity.
  - destruct (Z.ltb_spec x 0); lia.
Qed.

Lemma roundm_zero_modulus_float x : eval_bin ORoundm (NInt x) (NInt 0) = RFloat (mlr_roundm (i2f x) (i2f 0)).
Proof. reflexivity. Qed.

(* rounding half up on magnitudes: K = floor((2 ux + um) / (2 um)) puts K um within um/2 of ux, and above ux on a tie *)
Lemma round_half_up ux um : 0 <= ux -> 0 < um ->
  let K := (2 * ux + um) / (2 * um) in
  0 <= K /\ 2 * Z.abs (ux - K * um) <= um /\ (2 * Z.abs (ux - K * um) = um -> ux < K * um).
Proof.
  intros Hx Hm. cbv zeta.
  pose proof (Z.div_mod (2 * ux + um) (2 * um) ltac:(lia)). pose proof (Z.mod_pos_bound (2 * ux + um) (2 * um) ltac:(lia)).
  assert (0 <= (2 * ux + um) / (2 * um)) by (apply Z.div_pos; lia). lia.
Qed.

(* what roundm_spec is: a multiple of m, no farther from x than any other multiple, ties resolved away from zero *)
Lemma roundm_spec_nearest x m : m <> 0 ->
  (exists k, roundm_spec x m = k * m)
  /\ 2 * Z.abs (x - roundm_spec x m) <= Z.abs m
  /\ (forall k, Z.abs (x - roundm_spec x m) <= Z.abs (x - k * m))
  /\ (2 * Z.abs (x - roundm_spec x m) = Z.abs m -> Z.abs x < Z.abs (roundm_spec x m)).
Proof.
  intros Hm0. unfold roundm_spec.
  destruct (round_half_up (Z.abs x) (Z.abs m)) as (HK & Hhalf & Htie); [lia|lia|].
  set (K := (2 * Z.abs x + Z.abs m) / (2 * Z.abs m)) in *. set (R := Z.sgn x * K * Z.abs m).
  assert (Hj : R = Z.sgn x * K * Z.sgn m * m) by (unfold R; rewrite <- (Z.sgn_abs m); ring).
  (* the distance is that of the magnitudes, and so is the size of the result (K = 0 when x = 0) *)
  assert (HD : Z.abs (x - R) = Z.abs (Z.abs x - K * Z.abs m) /\ (x <> 0 -> Z.abs R = K * Z.abs m)).
  { clear Hhalf Htie Hj. assert (0 <= K * Z.abs m) by (apply Z.mul_nonneg_nonneg; lia).
    unfold R. destruct (Z.sgn_spec x) as [[Hs ->]|[[<- ->]|[Hs ->]]]; [split; lia| |split; lia].
    replace K with 0; [split; [reflexivity|contradiction]|]. symmetry. apply Z.div_small. cbn [Z.abs]. lia. }
  destruct HD as [HD HR]. rewrite <- HD in Hhalf, Htie.
  split; [exists (Z.sgn x * K * Z.sgn m); exact Hj|]. split; [exact Hhalf|]. split.
  - (* two distinct multiples of m are at least |m| apart *)
    intros k. rewrite Hj in *. set (j := Z.sgn x * K * Z.sgn m) in *.
    destruct (Z.eq_dec k j) as [->|Hne]; [lia|].
    assert (Hgap : 1 * Z.abs m <= Z.abs ((k - j) * m)) by (rewrite Z.abs_mul; apply Z.mul_le_mono_nonneg_r; clear - Hne; lia).
    rewrite Z.mul_sub_distr_r in Hgap. clear - Hhalf Hgap. lia.
  - intros Ht. rewrite HR; [exact (Htie Ht)|]. intros ->. cbn [Z.abs] in *. lia.
Qed.
