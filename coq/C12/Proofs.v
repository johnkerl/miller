(* C12: records with unique names (wf) on top of the general facts of Base/RecordFacts.v, three facts about Model.v's
   getd / setv, then the verbs of Model.v one by one. *)
From Miller Require Import Base.Bytes Base.Record C12.Model.
From Miller Require C12.Regex.
From Coq Require Import Permutation.
From Miller Require Import Base.RecordFacts.

Lemma mem_rev k l : mem k (rev l) = mem k l.
Proof. apply eq_true_iff_eq. rewrite !mem_In. symmetry. apply in_rev. Qed.

Definition wf (r : record) : Prop := NoDup (keys r).

Lemma wf_iff r : wf_record r = true <-> wf r.
Proof. apply nodupb_NoDup. Qed.

Lemma wf_tail kv r : wf (kv :: r) -> wf r.
Proof. unfold wf; cbn. inversion 1; auto. Qed.

Lemma wf_head_notin k v r : wf ((k, v) :: r) -> ~ In k (keys r).
Proof. unfold wf; cbn. inversion 1; auto. Qed.

Lemma wf_perm r r' : Permutation r r' -> wf r -> wf r'.
Proof. intros H. apply Permutation_NoDup, Permutation_map, H. Qed.

Lemma filter_partition_perm {A} (p : A -> bool) l : Permutation (filter p l ++ filter (fun x => negb (p x)) l) l.
Proof.
  induction l as [|x l IH]; cbn; [constructor|]. destruct (p x); cbn; [now constructor|].
  symmetry. apply Permutation_cons_app. now symmetry.
Qed.

Lemma remove_perm f v r : get f r = Some v -> Permutation ((f, v) :: remove f r) r.
Proof.
  induction r as [|[k v'] r IH]; cbn; [discriminate|].
  destruct (beqb_spec f k) as [->|Hne]; [intros [= ->]; apply Permutation_refl|].
  intros H. eapply Permutation_trans; [apply perm_swap|]. constructor. auto.
Qed.

Lemma wf_skipn n r : wf r -> wf (skipn n r).
Proof.
  revert r. induction n as [|n IH]; intros r H; cbn; [auto|]. destruct r; [auto|]. apply IH. eapply wf_tail; eauto.
Qed.

Lemma get_put k k' v r : get k (put k' v r) = if beqb k k' then Some v else get k r.
Proof.
  destruct (beqb_spec k k') as [->|Hne]; [apply get_put_same|]. apply get_put_other. congruence.
Qed.

Lemma wf_filter p r : wf r -> wf (filter p r).
Proof.
  unfold wf. induction r as [|[k v] r IH]; cbn; [auto|]. inversion 1 as [|? ? Hni Hnd]; subst.
  destruct (p (k, v)); cbn; [constructor|]; auto. intros Hin. apply Hni. eapply keys_filter_incl; eauto.
Qed.

Lemma wf_put k v r : wf r -> wf (put k v r).
Proof.
  intros H. unfold wf. rewrite keys_put. destruct (mem k (keys r)) eqn:M; [exact H|].
  apply NoDup_snoc; [exact H|apply mem_false, M].
Qed.

Lemma wf_remove k r : wf r -> wf (remove k r) /\ ~ In k (keys (remove k r)).
Proof.
  intros H. rewrite remove_filter by exact H. split; [apply wf_filter, H|].
  unfold keys. rewrite in_map_iff. intros ([k' v] & <- & Hin). apply filter_In in Hin. cbn in Hin.
  now rewrite beqb_refl in Hin.
Qed.

Lemma getd_present k v r d : get k r = Some v -> getd k r d = v.
Proof. unfold getd. now intros ->. Qed.

Lemma keys_setv n v r : keys (setv n v r) = keys r.
Proof. unfold setv, keys. rewrite map_map. apply map_ext. intros [k x]. cbn. destruct (beqb n k); reflexivity. Qed.

Lemma filter_setv_out p k v r : rejects p k -> filter p (setv k v r) = filter p r.
Proof.
  intros Hp. unfold setv. induction r as [|[k' x] r IH]; cbn; [reflexivity|].
  destruct (beqb_spec k k') as [->|Hne]; cbn; [now rewrite !Hp|]. now rewrite IH.
Qed.

Definition unnamed (fs : list bytes) (kv : field) : bool := negb (mem (fst kv) fs).

Lemma unnamed_rejects fs f : In f fs -> rejects (unnamed fs) f.
Proof. intros H v. unfold unnamed. cbn. now rewrite (proj2 (mem_In f fs) H). Qed.

Lemma keys_filter_unnamed fs r k : In k fs -> ~ In k (keys (filter (unnamed fs) r)).
Proof.
  intros Hk Hin. apply in_map_iff in Hin. destruct Hin as ([k' v] & <- & Hin). apply filter_In in Hin.
  destruct Hin as [_ Hin]. apply negb_true_iff, mem_false in Hin. contradiction.
Qed.

Lemma remove_unnamed f fs r : wf r -> remove f (filter (unnamed fs) r) = filter (unnamed (f :: fs)) r.
Proof.
  intros Hwf. rewrite remove_filter by (apply wf_filter, Hwf). rewrite filter_filter. apply filter_ext.
  intros [k v]. unfold unnamed. cbn [fst]. change (mem k (f :: fs)) with (beqb k f || mem k fs).
  rewrite (beqb_sym k f). destruct (beqb f k), (mem k fs); reflexivity.
Qed.

Lemma filter_unnamed_snoc f fs (r : record) : filter (unnamed (fs ++ [f])) r = filter (unnamed (f :: fs)) r.
Proof. apply filter_ext. intros [k v]. unfold unnamed. rewrite mem_app. cbn. now rewrite orb_false_r, orb_comm. Qed.

Lemma cut_x_is_filter fs r : wf r -> cut_x fs r = filter (unnamed fs) r.
Proof.
  intros Hwf. unfold cut_x. induction fs as [|f fs IH] using rev_ind.
  - symmetry. apply filter_all_true. reflexivity.
  - rewrite fold_left_app. cbn [fold_left]. rewrite IH, remove_unnamed by exact Hwf. symmetry. apply filter_unnamed_snoc.
Qed.

Lemma cut_x_out p fs r : (forall f, In f fs -> rejects p f) -> filter p (cut_x fs r) = filter p r.
Proof. intros H. apply filter_fold_out. intros f Hf r'. apply filter_remove_out, H, Hf. Qed.

(* interleave two lists back according to a mask *)
Fixpoint unsplit {A} (mask : list bool) (a b : list A) : list A :=
  match mask with
  | [] => []
  | true :: m => match a with x :: a' => x :: unsplit m a' b | [] => [] end
  | false :: m => match b with x :: b' => x :: unsplit m a b' | [] => [] end
  end.

Lemma unsplit_filter {A} (p : A -> bool) l :
  unsplit (map p l) (filter p l) (filter (fun x => negb (p x)) l) = l.
Proof. induction l as [|x l IH]; cbn; [reflexivity|]. destruct (p x); cbn; congruence. Qed.

Lemma cut_complement fs r : wf r ->
  unsplit (map (fun kv => mem (fst kv) fs) r) (cut_f fs r) (cut_x fs r) = r.
Proof. intros Hwf. rewrite cut_x_is_filter by auto. apply unsplit_filter. Qed.

Lemma cut_f_x_partition fs r : wf r -> Permutation (cut_f fs r ++ cut_x fs r) r.
Proof. intros Hwf. rewrite cut_x_is_filter by auto. apply filter_partition_perm. Qed.

(* cut -o, template and reshape's wide-to-long build a record by putting, name by name, the values a lookup g finds *)
Section PutAll.
  Variable g : bytes -> option bytes.
  Definition put_all (fs : list bytes) (out : record) : record :=
    fold_left (fun out f => match g f with Some v => put f v out | None => out end) fs out.

  Lemma put_all_get k fs : forall out,
    get k (put_all fs out) = if mem k fs then match g k with Some v => Some v | None => get k out end else get k out.
  Proof.
    induction fs as [|f fs IH]; intros out; cbn [put_all fold_left]; [reflexivity|].
    fold (put_all fs). rewrite IH. cbn [mem existsb]. fold (mem k fs).
    destruct (beqb_spec k f) as [->|Hne]; cbn [orb].
    - destruct (g f); [rewrite get_put_same|]; destruct (mem f fs); reflexivity.
    - destruct (g f); [rewrite get_put_other by congruence|]; reflexivity.
  Qed.

  Lemma put_all_wf fs : forall out, wf out -> wf (put_all fs out).
  Proof.
    induction fs as [|f fs IH]; intros out H; cbn; [exact H|]. apply IH. destruct (g f); [apply wf_put|]; exact H.
  Qed.

  Lemma put_all_found (qs : record) : (forall k v, In (k, v) qs -> g k = Some v) ->
    forall out, put_all (keys qs) out = fold_left (fun o kv => put (fst kv) (snd kv) o) qs out.
  Proof.
    induction qs as [|[k v] qs IH]; intros H out; cbn; [reflexivity|].
    rewrite (H k v) by now left. apply IH. intros k' v' Hin. apply H. now right.
  Qed.
End PutAll.

Lemma cut_o_get fs r k : get k (cut_o fs r) = if mem k fs then get k r else None.
Proof.
  change (cut_o fs r) with (put_all (fun f => get f r) fs []). rewrite put_all_get.
  destruct (mem k fs); [destruct (get k r)|]; reflexivity.
Qed.

Lemma template_get fs fill r k : get k (template fs fill r) = if mem k fs then Some (getd k r fill) else None.
Proof.
  change (template fs fill r) with (put_all (fun f => Some (getd f r fill)) fs []). rewrite put_all_get.
  destruct (mem k fs); reflexivity.
Qed.

Lemma move_to_head_perm f r : Permutation (move_to_head f r) r.
Proof. unfold move_to_head. destruct (get f r) eqn:E; [apply remove_perm; auto|apply Permutation_refl]. Qed.

Lemma move_to_tail_perm f r : Permutation (move_to_tail f r) r.
Proof.
  unfold move_to_tail. destruct (get f r) eqn:E; [|apply Permutation_refl].
  eapply Permutation_trans; [apply Permutation_sym, Permutation_cons_append|]. apply remove_perm; auto.
Qed.

Lemma move_to_head_out p f r : rejects p f -> filter p (move_to_head f r) = filter p r.
Proof.
  intros Hp. unfold move_to_head. destruct (get f r); [|reflexivity]. cbn. rewrite Hp. now apply filter_remove_out.
Qed.

Lemma move_to_tail_out p f r : rejects p f -> filter p (move_to_tail f r) = filter p r.
Proof.
  intros Hp. unfold move_to_tail. destruct (get f r); [|reflexivity].
  rewrite filter_snoc_out by exact Hp. now apply filter_remove_out.
Qed.

Lemma fold_move_perm (mv : bytes -> record -> record) :
  (forall f r, Permutation (mv f r) r) ->
  forall fs r, Permutation (fold_left (fun r f => mv f r) fs r) r.
Proof.
  intros H fs. induction fs as [|f fs IH]; intros r; cbn; [apply Permutation_refl|].
  eapply Permutation_trans; [apply IH|apply H].
Qed.

Lemma reorder_f_perm fs r : Permutation (reorder_f fs r) r.
Proof. apply fold_move_perm. apply move_to_head_perm. Qed.

Lemma reorder_e_perm fs r : Permutation (reorder_e fs r) r.
Proof. apply fold_move_perm. apply move_to_tail_perm. Qed.

Lemma reorder_f_out p fs r : (forall f, In f fs -> rejects p f) -> filter p (reorder_f fs r) = filter p r.
Proof. intros H. apply filter_fold_out. intros f Hf r'. apply move_to_head_out, H, in_rev, Hf. Qed.

Lemma reorder_e_out p fs r : (forall f, In f fs -> rejects p f) -> filter p (reorder_e fs r) = filter p r.
Proof. intros H. apply filter_fold_out. intros f Hf r'. apply move_to_tail_out, H, Hf. Qed.

Lemma reorder_f_bystanders fs r : filter (unnamed fs) (reorder_f fs r) = filter (unnamed fs) r.
Proof. apply reorder_f_out, unnamed_rejects. Qed.

Lemma reorder_e_bystanders fs r : filter (unnamed fs) (reorder_e fs r) = filter (unnamed fs) r.
Proof. apply reorder_e_out, unnamed_rejects. Qed.

Lemma pick_keys_incl names r k : In k (keys (pick names r)) -> In k names.
Proof.
  unfold pick. induction names as [|n names IH]; cbn; [auto|]. rewrite keys_app, in_app_iff.
  intros [H|H]; [|right; apply IH; exact H]. destruct (get n r); cbn in H; [destruct H as [<-|[]]; auto|contradiction].
Qed.

Lemma pick_app a b r : pick (a ++ b) r = pick a r ++ pick b r.
Proof. unfold pick. apply flat_map_app. Qed.

Lemma pick_one_unnamed f fs r : ~ In f fs -> pick [f] (filter (unnamed fs) r) = pick [f] r.
Proof.
  intros Hf. unfold pick. cbn. rewrite get_filter_keep; [reflexivity|]. intros v. apply negb_true_iff, mem_false, Hf.
Qed.

Lemma move_to_head_app f a b : ~ In f (keys a) -> move_to_head f (a ++ b) = pick [f] b ++ a ++ remove f b.
Proof.
  intros Ha. unfold move_to_head, pick. cbn. rewrite get_app, (proj2 (get_None_notin f a) Ha).
  destruct (get f b) eqn:G; cbn.
  - now rewrite remove_app_absent.
  - now rewrite remove_absent by apply get_None_notin, G.
Qed.

Lemma move_to_tail_app f a b : ~ In f (keys a) -> move_to_tail f (b ++ a) = remove f b ++ a ++ pick [f] b.
Proof.
  intros Ha. unfold move_to_tail, pick. cbn. rewrite get_app, (proj2 (get_None_notin f a) Ha).
  destruct (get f b) eqn:G; cbn.
  - rewrite remove_app_present, <- app_assoc; [reflexivity|]. eapply in_keys, get_Some_in, G.
  - now rewrite remove_absent, app_nil_r by apply get_None_notin, G.
Qed.

Theorem reorder_f_spec fs r : NoDup fs -> wf r -> reorder_f fs r = pick fs r ++ filter (unnamed fs) r.
Proof.
  intros Hnd Hwf. induction fs as [|f fs IH].
  - cbn. symmetry. apply filter_all_true. reflexivity.
  - inversion Hnd as [|? ? Hni Hnd']; subst.
    unfold reorder_f. cbn [rev]. rewrite fold_left_app. cbn [fold_left]. fold (reorder_f fs r).
    rewrite (IH Hnd'), move_to_head_app by (intros H; apply Hni; eapply pick_keys_incl, H).
    now rewrite pick_one_unnamed, remove_unnamed, app_assoc, <- pick_app by assumption.
Qed.

Theorem reorder_e_spec fs r : NoDup fs -> wf r -> reorder_e fs r = filter (unnamed fs) r ++ pick fs r.
Proof.
  intros Hnd Hwf. induction fs as [|f fs IH] using rev_ind.
  - cbn. rewrite app_nil_r. symmetry. apply filter_all_true. reflexivity.
  - apply NoDup_remove in Hnd. rewrite app_nil_r in Hnd. destruct Hnd as [Hnd' Hni].
    unfold reorder_e. rewrite fold_left_app. cbn [fold_left]. fold (reorder_e fs r).
    rewrite (IH Hnd'), move_to_tail_app by (intros H; apply Hni; eapply pick_keys_incl, H).
    now rewrite pick_one_unnamed, remove_unnamed, pick_app, filter_unnamed_snoc by assumption.
Qed.

Lemma sparsify_f_bystanders fs filler r : filter (unnamed fs) (sparsify_f fs filler r) = filter (unnamed fs) r.
Proof.
  apply filter_sub. intros [k v]. unfold unnamed. cbn. rewrite negb_true_iff. now intros ->.
Qed.

Lemma sparsify_spec filler r kv : In kv (sparsify filler r) <-> In kv r /\ snd kv <> filler.
Proof.
  unfold sparsify. rewrite filter_In, negb_true_iff, beqb_false. tauto.
Qed.

Lemma fill_empty_keys fill r : keys (fill_empty fill r) = keys r.
Proof. unfold fill_empty, keys. rewrite map_map. apply map_ext. intros [k [|c v]]; reflexivity. Qed.

Lemma fill_empty_spec fill r :
  fill_empty fill r = map (fun kv => (fst kv, match snd kv with [] => fill | v => v end)) r.
Proof. unfold fill_empty. apply map_ext. intros [k [|c v]]; reflexivity. Qed.

Lemma unsparsify_f_out p fs fill r : (forall f, In f fs -> rejects p f) -> filter p (unsparsify_f fs fill r) = filter p r.
Proof.
  intros H. apply filter_fold_out. intros f Hf r'. destruct (has f r'); [reflexivity|]. apply filter_snoc_out, H, Hf.
Qed.

Lemma unsparsify_f_appends fs fill r :
  exists extra, unsparsify_f fs fill r = r ++ extra /\ Forall (fun kv => In (fst kv) fs /\ snd kv = fill /\ ~ In (fst kv) (keys r)) extra.
Proof.
  unfold unsparsify_f. revert r. induction fs as [|f fs IH]; intros r; cbn [fold_left].
  - exists []. rewrite app_nil_r. split; [reflexivity|constructor].
  - destruct (has f r) eqn:E.
    + destruct (IH r) as (ex & -> & Hex). exists ex. split; [reflexivity|].
      eapply Forall_impl; [|exact Hex]. cbn. tauto.
    + destruct (IH (r ++ [(f, fill)])) as (ex & -> & Hex). exists ((f, fill) :: ex). split; [now rewrite <- app_assoc|].
      constructor; [cbn; repeat split; auto; apply has_false_notin, E|].
      eapply Forall_impl; [|exact Hex]. cbn. intros kv. rewrite keys_app, in_app_iff. tauto.
Qed.

(* first-seen order of a list of names: keep the first occurrence of each *)
Definition first_seen (l : list bytes) : list bytes := fold_left (fun s k => if mem k s then s else s ++ [k]) l [].

Lemma add_new_nodup ks : forall s, NoDup s -> NoDup (add_new s ks).
Proof.
  unfold add_new. induction ks as [|k ks IH]; intros s Hs; cbn; [auto|]. apply IH.
  destruct (mem k s) eqn:E; [auto|]. apply NoDup_snoc; [exact Hs|apply mem_false, E].
Qed.

Lemma add_new_in ks k : forall s, In k (add_new s ks) <-> In k s \/ In k ks.
Proof.
  unfold add_new. induction ks as [|x ks IH]; intros s; cbn; [tauto|]. rewrite IH.
  destruct (mem x s) eqn:E.
  - apply mem_In in E. split; [tauto|]. intros [H|[H|H]]; subst; auto.
  - rewrite in_app_iff. cbn. tauto.
Qed.

Lemma first_seen_nodup l : NoDup (first_seen l).
Proof. apply (add_new_nodup l []). constructor. Qed.

Lemma first_seen_in l k : In k (first_seen l) <-> In k l.
Proof. unfold first_seen. rewrite (add_new_in l k []). cbn. tauto. Qed.

Lemma union_keys_acc rs : forall s, fold_left (fun s r => add_new s (keys r)) rs s = add_new s (List.concat (map keys rs)).
Proof. unfold add_new. induction rs as [|r rs IH]; intros s; cbn; [reflexivity|]. rewrite fold_left_app. apply IH. Qed.

Lemma union_keys_first_seen rs : union_keys rs = first_seen (List.concat (map keys rs)).
Proof. apply union_keys_acc. Qed.

Lemma unsparsify_spec fill rs :
  unsparsify fill rs = map (fun r => map (fun k => (k, getd k r fill)) (first_seen (List.concat (map keys rs)))) rs.
Proof. unfold unsparsify, fill_to. now rewrite union_keys_first_seen. Qed.

Lemma unsparsify_rectangular fill rs o : In o (unsparsify fill rs) -> keys o = first_seen (List.concat (map keys rs)).
Proof.
  rewrite unsparsify_spec. intros H. apply in_map_iff in H. destruct H as (r & <- & _).
  unfold keys. rewrite map_map. cbn. apply map_id.
Qed.

Lemma union_in rs k : In k (first_seen (List.concat (map keys rs))) <-> exists r, In r rs /\ In k (keys r).
Proof.
  rewrite first_seen_in, in_concat. split.
  - intros (ks & Hks & Hk). apply in_map_iff in Hks. destruct Hks as (r & <- & Hr). eauto.
  - intros (r & Hr & Hk). exists (keys r). split; auto. apply in_map; auto.
Qed.

Lemma keys_fold_put (h : bytes -> bytes) fs : forall out,
  keys (fold_left (fun out f => put f (h f) out) fs out) = add_new (keys out) fs.
Proof. unfold add_new. induction fs as [|f fs IH]; intros out; cbn [fold_left]; [reflexivity|]. now rewrite IH, keys_put. Qed.

Lemma template_keys fs fill r : keys (template fs fill r) = first_seen fs.
Proof. apply keys_fold_put. Qed.

Lemma insert_field_perm kv l : Permutation (insert_field kv l) (kv :: l).
Proof.
  induction l as [|x l IH]; cbn; [apply Permutation_refl|].
  destruct (bleb (fst kv) (fst x)); [apply Permutation_refl|].
  eapply Permutation_trans; [constructor; apply IH|apply perm_swap].
Qed.

Lemma sort_fields_perm r : Permutation (sort_fields r) r.
Proof.
  induction r as [|x r IH]; cbn; [constructor|].
  eapply Permutation_trans; [apply insert_field_perm|]. constructor. exact IH.
Qed.

Lemma bleb_cons x a y b :
  bleb (x :: a) (y :: b) = true <-> (code x < code y)%N \/ code x = code y /\ bleb a b = true.
Proof.
  cbn. destruct (N.ltb_spec (code x) (code y)); [intuition|].
  destruct (N.ltb_spec (code y) (code x)); [|intuition lia]. split; [discriminate|lia].
Qed.

Lemma bleb_total a b : bleb a b = false -> bleb b a = true.
Proof.
  revert b. induction a as [|x a IH]; intros [|y b]; cbn; try discriminate; try reflexivity.
  destruct (code x <? code y)%N eqn:E1; [discriminate|].
  destruct (code y <? code x)%N eqn:E2; [reflexivity|]. apply IH.
Qed.

Lemma bleb_trans a b c : bleb a b = true -> bleb b c = true -> bleb a c = true.
Proof.
  revert b c. induction a as [|x a IH]; intros [|y b] [|z c]; try discriminate; try reflexivity.
  rewrite !bleb_cons. intros [H1|[H1 H1']] [H2|[H2 H2']]; [left; lia..|].
  right. split; [lia|eapply IH; eauto].
Qed.

Inductive sorted_keys : record -> Prop :=
| sk_nil : sorted_keys []
| sk_one x : sorted_keys [x]
| sk_cons x y l : bleb (fst x) (fst y) = true -> sorted_keys (y :: l) -> sorted_keys (x :: y :: l).

Lemma insert_field_sorted kv l : sorted_keys l -> sorted_keys (insert_field kv l).
Proof.
  induction 1 as [|x|x y l Hxy Hs IH]; cbn.
  - constructor.
  - destruct (bleb (fst kv) (fst x)) eqn:E; constructor; auto using sk_one. apply bleb_total; auto.
  - destruct (bleb (fst kv) (fst x)) eqn:E.
    + constructor; auto. constructor; auto.
    + cbn in IH. destruct (bleb (fst kv) (fst y)) eqn:E2.
      * constructor; [apply bleb_total; auto|]. exact IH.
      * constructor; auto.
Qed.

Lemma sort_fields_sorted r : sorted_keys (sort_fields r).
Proof. induction r as [|x r IH]; cbn; [constructor|]. apply insert_field_sorted; auto. Qed.

Lemma pick_own_keys r : wf r -> pick (keys r) r = r.
Proof.
  induction r as [|[k v] r IH]; intros Hwf; cbn; [reflexivity|].
  rewrite beqb_refl. cbn. f_equal.
  pose proof (wf_head_notin _ _ _ Hwf) as Hni. rewrite <- (IH (wf_tail _ _ Hwf)) at 2.
  unfold pick. apply flat_map_ext_in. intros f Hf. cbn.
  destruct (beqb_spec f k) as [->|Hne]; [contradiction|reflexivity].
Qed.

Lemma pick_perm names r : wf r -> Permutation names (keys r) -> Permutation (pick names r) r.
Proof.
  intros Hwf Hp. rewrite <- (pick_own_keys r Hwf) at 2. apply Permutation_flat_map, Hp.
Qed.

Definition sig (r : record) : bytes := joinc (sortb (keys r)).

(* the table remembers, under the signature of a key set, the key order of the first record that had it; what the
   proof needs of a table is that every remembered order fits the records still to come *)
Lemma regularize_from_perm st rs :
  (forall e r, In e st -> In r rs -> sig r = fst e -> Permutation (snd e) (keys r)) ->
  (forall r, In r rs -> wf r) ->
  (forall r1 r2, In r1 rs -> In r2 rs -> sig r1 = sig r2 -> Permutation (keys r1) (keys r2)) ->
  Forall2 (fun o r => Permutation o r) (regularize_from st rs) rs.
Proof.
  revert st. induction rs as [|r rs IH]; intros st Hst Hwf Hsig; cbn; [constructor|].
  unfold regularize_step. fold (sig r).
  destruct (find (fun e => beqb (sig r) (fst e)) st) as [e|] eqn:F; constructor.
  - apply find_some in F. destruct F as [Hin Heq]. apply beqb_true in Heq.
    apply pick_perm; [|apply Hst]; auto using in_eq.
  - apply IH; auto using in_cons.
  - apply Permutation_refl.
  - apply IH; auto using in_cons. intros e r' He Hr' E. apply in_app_or in He. destruct He as [He|[<-|[]]].
    + apply Hst; auto using in_cons.
    + apply Hsig; auto using in_eq, in_cons.
Qed.

Lemma regularize_perm rs :
  (forall r, In r rs -> wf r) ->
  (forall r1 r2, In r1 rs -> In r2 rs -> sig r1 = sig r2 -> Permutation (keys r1) (keys r2)) ->
  Forall2 (fun o r => Permutation o r) (regularize rs) rs.
Proof. apply regularize_from_perm. intros e r []. Qed.

Lemma regularize_first r rs : exists t, regularize (r :: rs) = r :: t.
Proof. unfold regularize. cbn. eexists; reflexivity. Qed.

(* rename walks the live list, Mlrmap.Rename entry by entry: it is Regex.rename_walk_f, the same walk for ANY renaming f of
   names (rename -r / -g run it with a regex replacer), at the lookup in the old -> new table.  The laws hold for every f. *)
Lemma rename_walk_is_f fuel m : forall done rest,
  rename_walk fuel m done rest = Regex.rename_walk_f fuel (fun k => getd k m k) done rest.
Proof.
  induction fuel as [|fuel IH]; intros done rest; cbn [rename_walk Regex.rename_walk_f]; [reflexivity|].
  destruct rest as [|[k v] t]; [reflexivity|]. destruct (get k m) as [n|] eqn:G.
  - rewrite !(getd_present _ _ _ k G), (beqb_sym n k), !IH. reflexivity.
  - replace (getd k m k) with k by (unfold getd; now rewrite G). rewrite beqb_refl. apply IH.
Qed.

Section Walk.
  Variable f : bytes -> bytes.

  Lemma walk_f_identity fuel : forall done rest, (forall k, In k (keys rest) -> f k = k) ->
    Regex.rename_walk_f fuel f done rest = done ++ rest.
  Proof.
    induction fuel as [|fuel IH]; intros done rest H; cbn [Regex.rename_walk_f]; [reflexivity|].
    destruct rest as [|[k v] t]; [now rewrite app_nil_r|].
    rewrite (H k) by (cbn; auto). rewrite beqb_refl. rewrite IH by (intros x Hx; apply H; cbn; auto).
    now rewrite <- app_assoc.
  Qed.

  Lemma walk_f_out p fuel : forall done rest,
    (forall k, In k (keys rest) -> f k <> k -> rejects p k /\ rejects p (f k)) ->
    filter p (Regex.rename_walk_f fuel f done rest) = filter p (done ++ rest).
  Proof.
    induction fuel as [|fuel IH]; intros done rest H; cbn [Regex.rename_walk_f]; [reflexivity|].
    destruct rest as [|[k v] t]; [now rewrite app_nil_r|].
    assert (Ht : forall k', In k' (keys t) -> f k' <> k' -> rejects p k' /\ rejects p (f k')) by (intros; apply H; cbn; auto).
    destruct (beqb_spec (f k) k) as [E|Hne]; [rewrite IH by exact Ht; now rewrite <- app_assoc|].
    destruct (H k (or_introl eq_refl) Hne) as [Pk Pn].
    destruct (has (f k) (done ++ (k, v) :: t)).
    - rewrite IH by (rewrite keys_setv; exact Ht). rewrite !filter_app. cbn [filter]. rewrite Pk.
      now rewrite !filter_setv_out.
    - rewrite IH by exact Ht. rewrite !filter_app. cbn [filter app]. rewrite Pk, Pn. now rewrite app_nil_r.
  Qed.

  Lemma walk_f_no_collision fuel : forall done rest,
    (List.length rest <= fuel)%nat ->
    wf (done ++ map (fun kv => (f (fst kv), snd kv)) rest) ->
    (forall k, In k (keys rest) -> f k <> k -> ~ In (f k) (keys rest)) ->
    Regex.rename_walk_f fuel f done rest = done ++ map (fun kv => (f (fst kv), snd kv)) rest.
  Proof.
    induction fuel as [|fuel IH]; intros done [|[k v] t] Hlen Hwf Hnew; cbn [List.length] in Hlen; try lia;
      cbn [Regex.rename_walk_f map fst snd] in *; try (now rewrite !app_nil_r).
    assert (Hstep : Regex.rename_walk_f fuel f (done ++ [(f k, v)]) t = done ++ (f k, v) :: map (fun kv => (f (fst kv), snd kv)) t).
    { rewrite IH, <- app_assoc; [reflexivity|lia|now rewrite <- app_assoc|].
      intros k' Hk' Hne Hin. apply (Hnew k'); cbn; auto. }
    destruct (beqb_spec (f k) k) as [E|Hne]; [rewrite E in *; exact Hstep|].
    rewrite (proj2 (has_false_notin _ _)); [exact Hstep|].
    rewrite keys_app, in_app_iff. cbn. intros [H|[H|H]].
    - unfold wf in Hwf. rewrite keys_app in Hwf. apply NoDup_remove_2 in Hwf. apply Hwf, in_or_app. now left.
    - congruence.
    - apply (Hnew k); cbn; auto.
  Qed.
End Walk.

Definition ren (a b : bytes) (kv : field) : field := if beqb a (fst kv) then (b, snd kv) else kv.

Lemma rename_single a b r : rename [a; b] r = Regex.rename_walk_f (List.length r) (fun k => getd k [(a, b)] k) [] r.
Proof. apply rename_walk_is_f. Qed.

Lemma getd_single k a b : getd k [(a, b)] k = if beqb k a then b else k.
Proof. unfold getd. cbn. now destruct (beqb k a). Qed.

Lemma ren_wf a b r : wf r -> ~ In b (keys r) -> wf (map (ren a b) r).
Proof.
  unfold wf. induction r as [|[k v] r IH]; cbn; intros Hwf Hb; [constructor|].
  apply NoDup_cons_iff in Hwf. destruct Hwf as [Hk Hwf]. constructor; [|apply IH; tauto].
  unfold keys. rewrite map_map, in_map_iff. intros ([k' v'] & E & Hin). apply in_keys in Hin. unfold ren in E. cbn in E.
  destruct (beqb_spec a k), (beqb_spec a k'); cbn in E; subst; tauto.
Qed.

Lemma rename_fresh a b r : wf r -> ~ In b (keys r) -> rename [a; b] r = map (ren a b) r.
Proof.
  intros Hwf Hb.
  assert (E : map (fun kv => (getd (fst kv) [(a, b)] (fst kv), snd kv)) r = map (ren a b) r).
  { apply map_ext. intros [k v]. unfold ren. cbn [fst snd]. rewrite getd_single, (beqb_sym k a). now destruct (beqb a k). }
  rewrite rename_single, walk_f_no_collision; [exact E|apply Nat.le_refl|cbn [app]; rewrite E; now apply ren_wf|].
  intros k _. rewrite getd_single. destruct (beqb k a); congruence.
Qed.

Lemma rename_inverse a b r : wf r -> ~ In b (keys r) -> rename [b; a] (rename [a; b] r) = r.
Proof.
  intros Hwf Hb. rewrite (rename_fresh a b r Hwf Hb), rename_fresh.
  - rewrite map_map. rewrite <- (map_id r) at 2. apply map_ext_in. intros [k v] Hin. apply in_keys in Hin. unfold ren. cbn.
    destruct (beqb_spec a k) as [->|]; cbn; [now rewrite beqb_refl|]. destruct (beqb_spec b k); congruence.
  - now apply ren_wf.
  - unfold keys. rewrite map_map, in_map_iff. intros ([k v] & E & Hin). apply in_keys in Hin. unfold ren in E. cbn in E.
    destruct (beqb_spec a k); cbn in E; congruence.
Qed.

Lemma rename_same_name a r : rename [a; a] r = r.
Proof.
  rewrite rename_single. apply (walk_f_identity _ _ []). intros k _. rewrite getd_single. destruct (beqb_spec k a); congruence.
Qed.

Lemma rename_inverse_gen a b r : wf r -> (b = a \/ ~ In b (keys r)) -> rename [b; a] (rename [a; b] r) = r.
Proof.
  intros Hwf [->|Hb]; [now rewrite !rename_same_name|]. apply rename_inverse; auto.
Qed.

Definition rename_bystander (m : record) (kv : field) : bool := negb (mem (fst kv) (keys m)) && negb (mem (fst kv) (values m)).

Lemma rename_bystanders names r :
  filter (rename_bystander (rename_map names)) (rename names r) = filter (rename_bystander (rename_map names)) r.
Proof.
  unfold rename. rewrite rename_walk_is_f. apply (walk_f_out _ _ _ []). intros k _ Hne. unfold getd in *.
  destruct (get k (rename_map names)) as [n|] eqn:G; [|congruence]. apply get_Some_in in G.
  assert (Hk : mem k (keys (rename_map names)) = true) by apply mem_In, (in_keys _ _ _ G).
  assert (Hn : mem n (values (rename_map names)) = true) by apply mem_In, (in_map snd _ _ G).
  split; intros v; unfold rename_bystander; cbn [fst]; [now rewrite Hk|rewrite Hn; apply andb_false_r].
Qed.

Lemma split1_nonempty sep s : split1 sep s <> [].
Proof. destruct s as [|c s]; cbn; [discriminate|]. destruct (Ascii.eqb c sep); [discriminate|]. destruct (split1 sep s); discriminate. Qed.

Lemma join_split1 sep s : join_with [sep] (split1 sep s) = s.
Proof.
  induction s as [|c s IH]; [reflexivity|]. cbn [split1].
  destruct (split1 sep s) as [|h t] eqn:E; [destruct (split1_nonempty _ _ E)|].
  destruct (Ascii.eqb_spec c sep) as [->|Hc]; rewrite <- IH; [reflexivity|]. destruct t; reflexivity.
Qed.

Lemma explode_records_bystanders f sep r o : In o (explode_records f sep r) -> remove f o = remove f r /\ keys o = keys r.
Proof.
  unfold explode_records. destruct (get f r) eqn:G; [|intros [<-|[]]; auto].
  intros H. apply in_map_iff in H. destruct H as (p & <- & _).
  assert (Hh : has f r = true) by (unfold has; now rewrite G).
  split; [apply remove_put_same; auto|apply keys_put_present; auto].
Qed.

(* what reshape_w2l computes first: the -i fields that are present, in -i order, and the record without them *)
Definition w2l_pairs (ins : list bytes) (r : record) : record :=
  fold_left (fun p f => match get f r with Some v => put f v p | None => p end) ins [].
Definition w2l_others (ins : list bytes) (r : record) : record :=
  fold_left (fun o kv => remove (fst kv) o) (w2l_pairs ins r) r.

Lemma wf_w2l_pairs ins r : wf (w2l_pairs ins r).
Proof. apply (put_all_wf (fun f => get f r)). constructor. Qed.

Lemma fold_remove_keys (ps : record) : forall r, fold_left (fun o kv => remove (fst kv) o) ps r = cut_x (keys ps) r.
Proof. unfold cut_x. induction ps as [|p ps IH]; intros r; cbn; [reflexivity|]. apply IH. Qed.

Section Roundtrip.
  Variables (ko vo : bytes) (others : record).
  Hypothesis Hko : ~ In ko (keys others).
  Hypothesis Hvo : ~ In vo (keys others).
  Hypothesis Hne : ko <> vo.

  Definition long_row (kv : field) : record := put vo (snd kv) (put ko (fst kv) others).

  Lemma long_row_shape kv : long_row kv = others ++ [(ko, fst kv); (vo, snd kv)].
  Proof.
    unfold long_row. rewrite (put_absent ko) by auto. rewrite put_absent.
    - now rewrite <- app_assoc.
    - rewrite keys_app, in_app_iff. cbn. intros [H|[H|[]]]; [tauto|congruence].
  Qed.

  Lemma long_row_get kv : get ko (long_row kv) = Some (fst kv) /\ get vo (long_row kv) = Some (snd kv)
                          /\ remove vo (remove ko (long_row kv)) = others.
  Proof.
    rewrite long_row_shape. rewrite !get_app.
    rewrite (proj2 (get_None_notin ko others) Hko), (proj2 (get_None_notin vo others) Hvo). cbn.
    rewrite !beqb_refl. destruct (beqb_spec vo ko) as [E|_]; [congruence|].
    split; [reflexivity|]. split; [reflexivity|].
    rewrite remove_app_absent by auto. cbn. rewrite beqb_refl. rewrite remove_app_absent by auto. cbn. rewrite beqb_refl.
    now rewrite app_nil_r.
  Qed.

  (* every further long row lands in the bucket of [others] *)
  Lemma l2w_same_bucket ps : forall acc,
    l2w_from ko vo [(joinc (keys others), [(joinc (values others), (others, acc))])] (map long_row ps)
    = ([], [(joinc (keys others), [(joinc (values others), (others, fold_left (fun a kv => put (fst kv) (snd kv) a) ps acc))])]).
  Proof.
    induction ps as [|kv ps IH]; intros acc; cbn [map l2w_from fold_left]; [reflexivity|].
    destruct (long_row_get kv) as (G1 & G2 & G3). rewrite G1, G2, G3. cbn [upd1 upd2]. rewrite !beqb_refl. apply IH.
  Qed.

  (* the rows are put into one bucket, and that bucket into [others]: both times under names that are not there yet *)
  Lemma l2w_rows ps : ps <> [] -> wf ps -> (forall k, In k (keys ps) -> ~ In k (keys others)) ->
    reshape_l2w ko vo (map long_row ps) = [others ++ ps].
  Proof.
    intros Hps Hwp Hdis. destruct ps as [|kv ps]; [congruence|]. unfold reshape_l2w. cbn [map l2w_from].
    destruct (long_row_get kv) as (G1 & G2 & G3). rewrite G1, G2, G3. cbn [upd1 upd2].
    rewrite l2w_same_bucket. cbn [app buckets_of flat_map map fst snd].
    rewrite <- (fold_put_appends _ others Hwp Hdis). do 2 f_equal.
    apply (fold_put_appends (kv :: ps) [] Hwp). intros k _ [].
  Qed.
End Roundtrip.

Theorem reshape_w2l_l2w ins ko vo r :
  wf r -> ~ In ko (keys r) -> ~ In vo (keys r) -> ko <> vo -> w2l_pairs ins r <> [] ->
  reshape_l2w ko vo (reshape_w2l ins ko vo r) = [w2l_others ins r ++ w2l_pairs ins r].
Proof.
  intros Hwf Hko Hvo Hne Hp. unfold reshape_w2l. fold (w2l_pairs ins r). fold (w2l_others ins r).
  assert (Ho : w2l_others ins r = filter (unnamed (keys (w2l_pairs ins r))) r).
  { unfold w2l_others. rewrite fold_remove_keys. now apply cut_x_is_filter. }
  destruct (w2l_pairs ins r) as [|p ps] eqn:E; [congruence|]. rewrite <- E in *.
  apply (l2w_rows ko vo (w2l_others ins r)); auto using wf_w2l_pairs; rewrite Ho.
  - intros H. apply keys_filter_incl in H. contradiction.
  - intros H. apply keys_filter_incl in H. contradiction.
  - intros k Hk. now apply keys_filter_unnamed.
Qed.

Lemma label_zip_spec names : forall r out,
  NoDup names -> (forall n, In n names -> ~ In n (keys out)) ->
  let k := Nat.min (List.length names) (List.length r) in
  label_zip names r out = (out ++ combine (firstn k names) (values (firstn k r)), skipn k r).
Proof.
  induction names as [|n names IH]; intros r out Hnd Hfresh; cbn [label_zip].
  - cbn. now rewrite app_nil_r.
  - destruct r as [|[k0 v0] r]; [cbn; now rewrite app_nil_r|].
    inversion Hnd as [|? ? Hni Hnd']; subst.
    rewrite put_absent by (apply Hfresh; left; reflexivity).
    rewrite IH; auto.
    + cbn [List.length Nat.min firstn skipn values map combine snd]. now rewrite <- app_assoc.
    + intros m Hm. rewrite keys_app, in_app_iff. cbn. intros [H|[H|[]]].
      * apply (Hfresh m); [right; exact Hm|exact H].
      * subst. contradiction.
Qed.

Lemma label_rest_spec (rest : record) : forall out,
  wf rest ->
  fold_left (fun out kv => if has (fst kv) out then out else put (fst kv) (snd kv) out) rest out
  = out ++ filter (unnamed (keys out)) rest.
Proof.
  induction rest as [|[k v] rest IH]; intros out Hwf; cbn [fold_left filter]; [now rewrite app_nil_r|].
  unfold unnamed at 1. cbn [fst snd]. destruct (has k out) eqn:E.
  - rewrite (proj2 (mem_In _ _) (proj1 (has_true_in _ _) E)). apply IH. eapply wf_tail; eauto.
  - apply has_false_notin in E. rewrite (proj2 (mem_false _ _) E), (put_absent _ _ _ E). cbn [negb].
    rewrite IH by (eapply wf_tail; eauto). rewrite <- app_assoc. cbn. f_equal. f_equal.
    apply filter_ext_in. intros [k' v'] Hin. unfold unnamed. cbn [fst]. rewrite keys_app, mem_app. cbn.
    destruct (beqb_spec k' k) as [->|]; [|now rewrite !orb_false_r].
    destruct (wf_head_notin _ _ _ Hwf (in_keys _ _ _ Hin)).
Qed.

Theorem label_spec names r :
  NoDup names -> wf r ->
  let k := Nat.min (List.length names) (List.length r) in
  label names r = combine (firstn k names) (values (firstn k r))
                  ++ filter (fun kv => negb (mem (fst kv) (firstn k names))) (skipn k r).
Proof.
  intros Hnd Hwf k. unfold label.
  pose proof (label_zip_spec names r [] Hnd (fun _ _ H => H)) as Z. cbn zeta in Z. fold k in Z. rewrite Z. cbn [app].
  rewrite label_rest_spec by (apply wf_skipn; auto). unfold unnamed. rewrite keys_combine; [reflexivity|].
  unfold values. rewrite map_length, !firstn_length. unfold k. lia.
Qed.

Lemma explode_fields_app f sep pre r : ~ In f (keys pre) -> explode_fields f sep (pre ++ r) = pre ++ explode_fields f sep r.
Proof.
  induction pre as [|[k x] pre IH]; cbn; intros H; [reflexivity|].
  destruct (beqb_spec f k) as [->|Hne]; [exfalso; apply H; left; reflexivity|]. f_equal. apply IH. tauto.
Qed.

Lemma explode_fields_shape f sep pre v post :
  ~ In f (keys pre) -> explode_fields f sep (pre ++ (f, v) :: post) = pre ++ number_from f 1 (split1 sep v) ++ post.
Proof. intros H. rewrite explode_fields_app by exact H. cbn. now rewrite beqb_refl. Qed.

Lemma explode_fields_absent f sep r : ~ In f (keys r) -> explode_fields f sep r = r.
Proof. intros H. rewrite <- (app_nil_r r). now rewrite explode_fields_app. Qed.

(* the names explode gives out, f_1, f_2, ..., are names implode looks for *)
Lemma is_digit_digit_of d : (d < 10)%N -> is_digit (digit_of d) = true.
Proof.
  intros H. unfold is_digit, in_range, cle, code, digit_of. rewrite N_ascii_embedding by lia.
  change (N_of_ascii "0") with 48%N. change (N_of_ascii "9") with 57%N.
  apply andb_true_iff. split; apply N.leb_le; lia.
Qed.

Lemma dec_fuel_digits fuel : forall n acc,
  forallb is_digit acc = true -> forallb is_digit (dec_fuel fuel n acc) = true.
Proof.
  induction fuel as [|fuel IH]; intros n acc H; cbn [dec_fuel]; [exact H|].
  assert (H' : forallb is_digit (digit_of (n mod 10) :: acc) = true).
  { cbn [forallb]. rewrite H, andb_true_r. apply is_digit_digit_of. apply N.mod_lt. lia. }
  destruct (n / 10 =? 0)%N; [exact H'|]. apply IH. exact H'.
Qed.

Lemma dec_fuel_nonempty fuel : forall n acc, acc <> [] -> dec_fuel fuel n acc <> [].
Proof.
  induction fuel as [|fuel IH]; intros n acc H; cbn [dec_fuel]; [exact H|].
  destruct (n / 10 =? 0)%N; [discriminate|]. apply IH. discriminate.
Qed.

Lemma itoa_ok i : forallb is_digit (itoa i) = true /\ itoa i <> [].
Proof.
  unfold itoa. split; [apply dec_fuel_digits; reflexivity|].
  change 40%nat with (S 39). generalize 39%nat as fuel. intros fuel.
  cbn [dec_fuel]. destruct (i / 10 =? 0)%N; [discriminate|]. apply dec_fuel_nonempty. discriminate.
Qed.

Lemma nest_suffix_numbered f i : nest_suffix_ok f (f ++ "_"%char :: itoa i) = true.
Proof.
  unfold nest_suffix_ok. change (f ++ "_"%char :: itoa i) with (f ++ ["_"%char] ++ itoa i). rewrite app_assoc.
  rewrite prefixb_app. cbn [andb].
  replace (List.length f + 1)%nat with (List.length (f ++ ["_"%char])) by (rewrite app_length; reflexivity).
  rewrite skipn_app, skipn_all, Nat.sub_diag. cbn [skipn app]. destruct (itoa_ok i) as [H1 H2]. rewrite H1, andb_true_r.
  destruct (itoa i); [congruence|reflexivity].
Qed.

Definition no_suffix_match (f : bytes) (r : record) : Prop := forall kv, In kv r -> nest_suffix_ok f (fst kv) = false.
Definition all_suffix_match (f : bytes) (r : record) : Prop := forall kv, In kv r -> nest_suffix_ok f (fst kv) = true.

Lemma number_from_all_match f ps : forall i, all_suffix_match f (number_from f i ps).
Proof.
  induction ps as [|p ps IH]; intros i kv; cbn [number_from]; [intros []|].
  intros [<-|H]; [apply nest_suffix_numbered|exact (IH _ _ H)].
Qed.

Lemma number_from_values f ps : forall i, values (number_from f i ps) = ps.
Proof. induction ps as [|p ps IH]; intros i; cbn; [reflexivity|]. f_equal. apply IH. Qed.

Lemma take_until_match_pre f pre rest :
  no_suffix_match f pre ->
  (match rest with [] => True | kv :: _ => nest_suffix_ok f (fst kv) = true end) ->
  take_until_match f (pre ++ rest) = (pre, rest).
Proof.
  induction pre as [|[k x] pre IH]; intros H1 H2.
  - destruct rest as [|[k x] rest]; [reflexivity|]. cbn [app take_until_match]. cbn [fst] in H2. now rewrite H2.
  - cbn [app take_until_match]. rewrite (H1 (k, x) (or_introl eq_refl) : nest_suffix_ok f k = false).
    rewrite IH; auto. intros kv Hkv. apply H1. right. exact Hkv.
Qed.

Lemma drop_matching_app f (num post : record) :
  all_suffix_match f num -> no_suffix_match f post -> drop_matching f (num ++ post) = post.
Proof.
  intros Hn Hp. induction num as [|[k x] num IH]; cbn [app drop_matching].
  - destruct post as [|[k x] post]; [reflexivity|]. cbn [drop_matching]. now rewrite (Hp (k, x) (or_introl eq_refl) : nest_suffix_ok f k = false).
  - rewrite (Hn (k, x) (or_introl eq_refl) : nest_suffix_ok f k = true). apply IH. intros kv Hkv. apply Hn. now right.
Qed.

Lemma filter_matching f (num post : record) :
  all_suffix_match f num -> no_suffix_match f post ->
  filter (fun kv => nest_suffix_ok f (fst kv)) (num ++ post) = num
  /\ filter (fun kv => negb (nest_suffix_ok f (fst kv))) (num ++ post) = post.
Proof.
  intros Hn Hp. rewrite !filter_app. split.
  - rewrite filter_all_true, filter_none by assumption. apply app_nil_r.
  - rewrite filter_none, filter_all_true; [reflexivity|intros kv H; now rewrite (Hp kv H)|intros kv H; now rewrite (Hn kv H)].
Qed.

Lemma implode_fields_numbered f sep pre ps post :
  no_suffix_match f pre -> no_suffix_match f post -> ps <> [] -> (pre = [] -> ~ In f (keys post)) ->
  implode_fields f sep (pre ++ number_from f 1 ps ++ post) = pre ++ (f, join_with [sep] ps) :: post.
Proof.
  intros Hpre Hpost Hps Hhead. pose proof (number_from_all_match f ps 1) as Hnum.
  pose proof (number_from_values f ps 1) as Hval.
  destruct (number_from f 1 ps) as [|m ms] eqn:E; [destruct ps; [congruence|discriminate]|].
  unfold implode_fields. rewrite take_until_match_pre by (auto; apply Hnum; now left). cbv beta iota zeta.
  destruct (filter_matching f (m :: ms) post Hnum Hpost) as [-> ->]. rewrite Hval.
  destruct pre as [|q pre]; [|reflexivity].
  rewrite drop_matching_app by assumption.
  rewrite <- (app_nil_r post) at 1. rewrite take_until_match_pre by auto.
  now rewrite (proj2 (has_false_notin f post) (Hhead eq_refl)).
Qed.

Theorem explode_implode_fields f sep pre v post :
  ~ In f (keys pre) -> no_suffix_match f pre -> no_suffix_match f post -> (pre = [] -> ~ In f (keys post)) ->
  implode_fields f sep (explode_fields f sep (pre ++ (f, v) :: post)) = pre ++ (f, v) :: post.
Proof.
  intros H1 H2 H3 H4. rewrite explode_fields_shape by auto.
  rewrite implode_fields_numbered; auto using split1_nonempty. now rewrite join_split1.
Qed.
