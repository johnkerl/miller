(* C12 -- the regex forms of cut and rename, proved for EVERY matcher / replacer.
   The regex library is third party: here it is a function parameter ([hit]: the index of the first -f regex a field
   name matches; [f]: what sub / gsub make of a field name).  The laws below hold for all of them, hence for the matcher
   of Regex.v that the correspondence check runs ([cut_r_is_gen], [rename_r_single_is_walk]) and for Go's. *)
From Miller Require Import Base.Bytes Base.Record C12.Model C12.Proofs C12.Regex.
From Coq Require Import Permutation Lia.
From Miller Require Import Base.RecordFacts.

Section CutR.
  Variable hit : bytes -> option nat.
  Variable nrs : nat.

  Definition is_hit (kv : field) : bool := match hit (fst kv) with Some _ => true | None => false end.
  Definition hit_idx (kv : field) : nat := match hit (fst kv) with Some j => j | None => 0 end.

  Definition cut_r_gen (complement argorder : bool) (r : record) : record :=
    let kept := filter (fun kv => xorb (match hit (fst kv) with Some _ => true | None => false end) complement) r in
    if argorder
    then flat_map (fun i => filter (fun kv => match hit (fst kv) with Some j => Nat.eqb i j | None => Nat.eqb i 0 end) kept)
                  (seq 0 (Nat.max 1 nrs))
    else kept.

  Lemma cut_r_gen_filter c r : cut_r_gen c false r = filter (fun kv => xorb (is_hit kv) c) r.
  Proof. reflexivity. Qed.

  Inductive interleaved {A} : list A -> list A -> list A -> Prop :=
  | il_nil : interleaved [] [] []
  | il_left x l a b : interleaved l a b -> interleaved (x :: l) (x :: a) b
  | il_right x l a b : interleaved l a b -> interleaved (x :: l) a (x :: b).

  Lemma interleaved_perm {A} (l a b : list A) : interleaved l a b -> Permutation (a ++ b) l.
  Proof. induction 1; cbn; auto. symmetry. apply Permutation_cons_app. now symmetry. Qed.

  Lemma cut_r_complement r : interleaved r (cut_r_gen false false r) (cut_r_gen true false r).
  Proof.
    rewrite !cut_r_gen_filter. induction r as [|kv r IH]; cbn [filter]; [constructor|].
    destruct (is_hit kv); cbn; now constructor.
  Qed.

  Lemma bucket_fn_eq kv i : (match hit (fst kv) with Some j => Nat.eqb i j | None => Nat.eqb i 0 end) = Nat.eqb i (hit_idx kv).
  Proof. unfold hit_idx. destruct (hit (fst kv)); reflexivity. Qed.

  Lemma cut_r_gen_o c r :
    cut_r_gen c true r = flat_map (fun i => filter (fun kv => Nat.eqb i (hit_idx kv)) (cut_r_gen c false r)) (seq 0 (Nat.max 1 nrs)).
  Proof.
    unfold cut_r_gen. apply flat_map_ext. intros i. apply filter_ext. intros kv. apply bucket_fn_eq.
  Qed.

  (* Sorting into buckets js (pairwise distinct, every index among them): the fields of bucket j come first; the
     other buckets are those of the record without bucket j.  Hence a permutation, and stable. *)
  Definition in_bucket (j : nat) (kv : field) : bool := Nat.eqb j (hit_idx kv).

  Lemma buckets_rest j js (l : record) : ~ In j js ->
    flat_map (fun i => filter (in_bucket i) l) js = flat_map (fun i => filter (in_bucket i) (filter (fun kv => negb (in_bucket j kv)) l)) js.
  Proof.
    intros Hni. apply flat_map_ext_in. intros i Hi. symmetry. apply filter_sub.
    intros kv E. apply Nat.eqb_eq in E. subst i. apply negb_true_iff, Nat.eqb_neq. now intros ->.
  Qed.

  Lemma rest_covered j js (l : record) : (forall kv, In kv l -> In (hit_idx kv) (j :: js)) ->
    forall kv, In kv (filter (fun kv => negb (in_bucket j kv)) l) -> In (hit_idx kv) js.
  Proof.
    intros Hall kv Hkv. apply filter_In in Hkv. destruct Hkv as [Hkv E]. apply negb_true_iff, Nat.eqb_neq in E.
    destruct (Hall kv Hkv) as [->|H]; [congruence|exact H].
  Qed.

  Lemma buckets_perm js : NoDup js -> forall l : record, (forall kv, In kv l -> In (hit_idx kv) js) ->
    Permutation (flat_map (fun j => filter (in_bucket j) l) js) l.
  Proof.
    induction 1 as [|j js Hni Hnd IH]; intros l Hall; cbn [flat_map].
    - destruct l as [|kv l]; [constructor|destruct (Hall kv (or_introl eq_refl))].
    - rewrite (buckets_rest j js l Hni), (IH _ (rest_covered j js l Hall)). apply filter_partition_perm.
  Qed.

  Lemma buckets_stable js : NoDup js -> forall (l : record) i, (forall kv, In kv l -> In (hit_idx kv) js) ->
    filter (in_bucket i) (flat_map (fun j => filter (in_bucket j) l) js) = filter (in_bucket i) l.
  Proof.
    induction 1 as [|j js Hni Hnd IH]; intros l i Hall; cbn [flat_map].
    - destruct l as [|kv l]; [reflexivity|destruct (Hall kv (or_introl eq_refl))].
    - rewrite filter_app, (buckets_rest j js l Hni), (IH _ i (rest_covered j js l Hall)).
      destruct (Nat.eq_dec i j) as [->|Hne].
      + rewrite filter_sub by auto. rewrite (filter_none (in_bucket j) (filter _ l)); [apply app_nil_r|].
        intros kv Hkv. apply filter_In in Hkv. apply negb_true_iff, Hkv.
      + rewrite (filter_none (in_bucket i) (filter (in_bucket j) l)), filter_sub; [reflexivity| |].
        * intros kv E. apply Nat.eqb_eq in E. subst i. apply negb_true_iff, Nat.eqb_neq. congruence.
        * intros kv Hkv. apply filter_In in Hkv. destruct Hkv as [_ E]. apply Nat.eqb_eq in E. subst j. apply Nat.eqb_neq, Hne.
  Qed.

  Hypothesis hit_bound : forall s j, hit s = Some j -> j < nrs.

  Lemma hit_idx_in_range kv : In (hit_idx kv) (seq 0 (Nat.max 1 nrs)).
  Proof.
    apply in_seq. unfold hit_idx. destruct (hit (fst kv)) as [j|] eqn:E; [apply hit_bound in E|]; lia.
  Qed.

  Lemma cut_r_o_spec c r :
    Permutation (cut_r_gen c true r) (cut_r_gen c false r)
    /\ (forall i, filter (fun kv => Nat.eqb i (hit_idx kv)) (cut_r_gen c true r)
                  = filter (fun kv => Nat.eqb i (hit_idx kv)) (cut_r_gen c false r))
    /\ cut_r_gen c true r = flat_map (fun i => filter (fun kv => Nat.eqb i (hit_idx kv)) (cut_r_gen c false r)) (seq 0 (Nat.max 1 nrs)).
  Proof.
    split; [|split]; [| |apply cut_r_gen_o].
    - rewrite cut_r_gen_o. apply buckets_perm; [apply seq_NoDup|]. intros kv _. apply hit_idx_in_range.
    - intros i. rewrite cut_r_gen_o. apply buckets_stable; [apply seq_NoDup|]. intros kv _. apply hit_idx_in_range.
  Qed.
End CutR.

(* the model the correspondence check runs is the instance at Regex.v's matcher *)
Lemma cut_r_is_gen rs c o r : cut_r rs c o r = cut_r_gen (first_match rs 0) (List.length rs) c o r.
Proof. reflexivity. Qed.

Lemma first_match_bound rs : forall i s j, first_match rs i s = Some j -> j < i + List.length rs.
Proof.
  induction rs as [|x rs IH]; intros i s j; cbn; [discriminate|].
  destruct (matches x s); [intros H; injection H as <-; lia|]. intros H. apply IH in H. lia.
Qed.

Section RenameR.
  (* what sub (-r) or gsub (-g) with one "regex,replacement" pair makes of a field name: ANY function *)
  Variable f : bytes -> bytes.

  (* a bystander of the record r0: its name is left alone, and no renamed field of r0 lands on it *)
  Definition rr_bystander (r0 : record) (kv : field) : bool :=
    beqb (f (fst kv)) (fst kv)
    && negb (existsb (fun k' => negb (beqb (f k') k') && beqb (f k') (fst kv)) (keys r0)).

  Lemma rename_f_bystanders r :
    filter (rr_bystander r) (rename_walk_f (List.length r) f [] r) = filter (rr_bystander r) r.
  Proof.
    apply (walk_f_out f _ _ []). intros k Hk Hne. apply beqb_false in Hne. split; intros x; unfold rr_bystander; cbn [fst].
    - now rewrite Hne.
    - apply andb_false_iff. right. apply negb_false_iff, existsb_exists. exists k. now rewrite Hne, beqb_refl.
  Qed.

  Lemma rename_f_no_match r : (forall k, In k (keys r) -> f k = k) -> rename_walk_f (List.length r) f [] r = r.
  Proof. apply (walk_f_identity f _ []). Qed.
End RenameR.

(* the model the correspondence check runs: one pair = one walk with Regex.v's sub / gsub as the replacer *)
Lemma rename_r_single_is_walk ci re_ rep g r :
  rename_r [(ci, re_, rep)] g r
  = rename_walk_f (List.length r)
      (if g then (fun s => gsub_lit (S (List.length s)) ci re_ (expand rep [] []) s true) else sub1 ci re_ rep) [] r.
Proof. reflexivity. Qed.
Lemma rename_r_app specs1 specs2 g r : rename_r (specs1 ++ specs2) g r = rename_r specs2 g (rename_r specs1 g r).
Proof. unfold rename_r. apply fold_left_app. Qed.
