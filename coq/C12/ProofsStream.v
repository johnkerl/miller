(* C12: nest explode then implode (values across records) over a whole stream; nest implode across fields for every
   field name; reshape long-to-wide then wide-to-long; altkv. *)
From Miller Require Import Base.Bytes Base.Record C12.Model C12.Proofs Base.RecordFacts.

Definition okeys (f : bytes) (r : record) : bytes := joinc (keys (remove f r)).
Definition ovals (f : bytes) (r : record) : bytes := joinc (values (remove f r)).
Definition l2keys (l : @level2 (list bytes)) : list bytes := map fst l.

Lemma upd2_app ov rep (p0 : list bytes) addp (l2 t : @level2 (list bytes)) :
  ~ In ov (l2keys l2) -> upd2 ov rep p0 addp (l2 ++ t) = l2 ++ upd2 ov rep p0 addp t.
Proof.
  induction l2 as [|[ov' [rep' p]] l2 IH]; cbn; intros H; [reflexivity|].
  destruct (beqb_spec ov ov') as [->|Hne]; [exfalso; apply H; left; reflexivity|]. rewrite IH by tauto. reflexivity.
Qed.

Lemma upd2_new ov rep (p0 : list bytes) addp (l2 : @level2 (list bytes)) :
  ~ In ov (l2keys l2) -> upd2 ov rep p0 addp l2 = l2 ++ [(ov, (rep, addp p0))].
Proof. intros H. rewrite <- (app_nil_r l2) at 1. now rewrite upd2_app. Qed.

(* the pieces of one record, after the first, extend that record's bucket *)
Lemma implode_more_pieces f K r rep l2 ps : forall vs rest,
  has f r = true -> okeys f r = K -> ~ In (ovals f r) (l2keys l2) ->
  implode_records_from f [(K, l2 ++ [(ovals f r, (rep, vs))])] (map (fun p => put f p r) ps ++ rest)
  = implode_records_from f [(K, l2 ++ [(ovals f r, (rep, vs ++ ps))])] rest.
Proof.
  induction ps as [|p ps IH]; intros vs rest Hh HK Hni; cbn [map app]; [now rewrite app_nil_r|].
  cbn [implode_records_from]. rewrite get_put_same. rewrite remove_put_same by auto.
  fold (okeys f r) (ovals f r). rewrite HK. cbn [upd1]. rewrite beqb_refl, upd2_app by exact Hni. cbn [upd2].
  rewrite beqb_refl, IH by auto. now rewrite <- app_assoc.
Qed.

Definition bucket_of (f : bytes) (sep : ascii) (r : record) : bytes * (record * list bytes) :=
  let ps := split1 sep (getd f r []) in (ovals f r, (put f (hd [] ps) r, ps)).

(* all the pieces of one record: its bucket is appended to the table, which the first record of the stream opens *)
Lemma implode_record f sep K r st l2 rest :
  st = [] /\ l2 = [] \/ st = [(K, l2)] ->
  has f r = true -> okeys f r = K -> ~ In (ovals f r) (l2keys l2) ->
  implode_records_from f st (explode_records f sep r ++ rest)
  = implode_records_from f [(K, l2 ++ [bucket_of f sep r])] rest.
Proof.
  intros Hst Hh HK Hni. unfold explode_records, bucket_of, getd. pose proof Hh as Hg. unfold has in Hg.
  destruct (get f r) as [v|]; [|discriminate].
  destruct (split1 sep v) as [|p ps] eqn:E; [destruct (split1_nonempty _ _ E)|].
  cbn [map app implode_records_from hd]. rewrite get_put_same. rewrite remove_put_same by exact Hh.
  fold (okeys f r) (ovals f r). rewrite HK.
  replace (upd1 K (ovals f r) (put f p r) [] (fun vs => vs ++ [p]) st) with [(K, l2 ++ [(ovals f r, (put f p r, [p]))])].
  - now apply implode_more_pieces.
  - destruct Hst as [[-> ->]| ->]; cbn [upd1 upd2]; [reflexivity|]. now rewrite beqb_refl, upd2_new.
Qed.

Lemma implode_stream_from f sep K rs : forall l2,
  (forall r, In r rs -> has f r = true /\ okeys f r = K) ->
  NoDup (l2keys l2 ++ map (ovals f) rs) ->
  implode_records_from f [(K, l2)] (flat_map (explode_records f sep) rs)
  = ([], [(K, l2 ++ map (bucket_of f sep) rs)]).
Proof.
  induction rs as [|r rs IH]; intros l2 Hall Hnd; cbn [flat_map map]; [now rewrite app_nil_r|].
  destruct (Hall r (or_introl eq_refl)) as [Hh HK].
  rewrite (implode_record f sep K r _ l2), IH; auto using in_cons.
  - now rewrite <- app_assoc.
  - unfold l2keys in *. rewrite map_app, <- app_assoc. exact Hnd.
  - apply NoDup_remove_2 in Hnd. intros Hin. apply Hnd, in_or_app. now left.
Qed.

Theorem explode_implode_stream f sep K rs :
  (forall r, In r rs -> has f r = true /\ okeys f r = K) ->
  NoDup (map (ovals f) rs) ->
  implode_records f sep (flat_map (explode_records f sep) rs) = rs.
Proof.
  intros Hall Hnd. unfold implode_records. destruct rs as [|r rs]; [reflexivity|]. cbn [flat_map].
  destruct (Hall r (or_introl eq_refl)) as [Hh HK].
  rewrite (implode_record f sep K r [] []), implode_stream_from; auto using in_cons.
  unfold buckets_of. cbn [app flat_map snd]. change (bucket_of f sep r :: map (bucket_of f sep) rs) with (map (bucket_of f sep) (r :: rs)).
  rewrite app_nil_r, !map_map. rewrite <- (map_id (r :: rs)) at 2. apply map_ext_in. intros r' Hr'.
  destruct (Hall r' Hr') as [Hh' _]. unfold has in Hh'. destruct (get f r') as [v|] eqn:G; [|discriminate].
  unfold bucket_of. cbn [fst snd]. unfold getd. rewrite G. rewrite put_put_same, join_split1. now apply put_get_same.
Qed.

Corollary explode_implode_single f sep r v :
  get f r = Some v -> implode_records f sep (explode_records f sep r) = [r].
Proof.
  intros G. rewrite <- (app_nil_r (explode_records f sep r)).
  apply (explode_implode_stream f sep (okeys f r) [r]); [|repeat constructor; intros []].
  intros r0 [<-|[]]. unfold has. now rewrite G.
Qed.

(* a bystander of  nest --implode --values --across-fields -f F : neither literally F_<digits> nor F itself *)
Definition nomatch (f : bytes) (kv : field) : bool := negb (nest_suffix_ok f (fst kv)).
Definition implode_bystander (f : bytes) (kv : field) : bool := nomatch f kv && negb (beqb f (fst kv)).

Lemma take_until_match_app f r : fst (take_until_match f r) ++ snd (take_until_match f r) = r.
Proof.
  induction r as [|[k v] r IH]; cbn [take_until_match]; [reflexivity|].
  destruct (nest_suffix_ok f k); [reflexivity|]. destruct (take_until_match f r). cbn in *. now rewrite IH.
Qed.

Lemma bystander_nomatch f kv : implode_bystander f kv = true -> negb (nest_suffix_ok f (fst kv)) = true.
Proof. intros H. apply andb_true_iff in H. apply H. Qed.

Lemma bystander_rejects_f f : rejects (implode_bystander f) f.
Proof. intros v. unfold implode_bystander. cbn. now rewrite beqb_refl, andb_false_r. Qed.

Lemma drop_matching_bystanders f (x : record) : filter (implode_bystander f) (drop_matching f x) = filter (implode_bystander f) x.
Proof.
  induction x as [|[k v] x IH]; cbn [drop_matching]; [reflexivity|].
  destruct (nest_suffix_ok f k) eqn:E; [|reflexivity].
  rewrite IH. cbn [filter]. unfold implode_bystander at 2, nomatch. cbn [fst]. now rewrite E.
Qed.

(* every branch of implode_fields puts together fields of the record that do not match, in their order, and one
   field named f *)
Theorem implode_fields_bystanders f sep r :
  filter (implode_bystander f) (implode_fields f sep r) = filter (implode_bystander f) r.
Proof.
  unfold implode_fields. pose proof (take_until_match_app f r) as Hr.
  destruct (take_until_match f r) as [pre rest]. cbn [fst snd] in Hr. subst r. cbv beta iota zeta.
  destruct (filter (fun kv => nest_suffix_ok f (fst kv)) rest) as [|m ms]; [reflexivity|].
  destruct pre as [|q pre].
  - pose proof (take_until_match_app f (drop_matching f rest)) as Hd.
    destruct (take_until_match f (drop_matching f rest)) as [mid [|x rest2]]; cbn [fst snd app] in *.
    + destruct (has f _); [rewrite filter_setv_out|rewrite filter_cons_out]; try apply bystander_rejects_f;
        apply filter_sub, bystander_nomatch.
    + rewrite <- (drop_matching_bystanders f rest), <- Hd, !filter_app, filter_cons_out by apply bystander_rejects_f.
      f_equal. apply filter_sub, bystander_nomatch.
  - rewrite !filter_app, filter_cons_out by apply bystander_rejects_f. f_equal. apply filter_sub, bystander_nomatch.
Qed.

Lemma w2l_pairs_own (others ps : record) :
  wf ps -> (forall k, In k (keys ps) -> ~ In k (keys others)) -> w2l_pairs (keys ps) (others ++ ps) = ps.
Proof.
  intros Hwf Hdis. change (w2l_pairs (keys ps) (others ++ ps)) with (put_all (fun f => get f (others ++ ps)) (keys ps) []).
  rewrite (put_all_found _ ps).
  - apply (fold_put_appends ps [] Hwf). intros k _ [].
  - intros k v Hin. rewrite get_app, (proj2 (get_None_notin _ _) (Hdis k (in_keys _ _ _ Hin))). now apply get_own.
Qed.

Lemma w2l_others_own (others ps : record) :
  wf (others ++ ps) -> (forall k, In k (keys ps) -> ~ In k (keys others)) ->
  fold_left (fun o kv => remove (fst kv) o) ps (others ++ ps) = others.
Proof.
  intros Hwf Hdis. rewrite fold_remove_keys, cut_x_is_filter by exact Hwf. rewrite filter_app.
  rewrite (filter_all_true _ others), (filter_none _ ps); [apply app_nil_r| |].
  - intros [k v] Hin. cbn. apply negb_false_iff, mem_In, (in_keys _ _ _ Hin).
  - intros [k v] Hin. cbn. apply negb_true_iff, mem_false. intros M. exact (Hdis k M (in_keys _ _ _ Hin)).
Qed.

Theorem reshape_l2w_w2l ko vo (others ps : record) :
  wf (others ++ ps) -> wf ps -> (forall k, In k (keys ps) -> ~ In k (keys others)) ->
  ~ In ko (keys others) -> ~ In vo (keys others) -> ko <> vo -> ps <> [] ->
  flat_map (reshape_w2l (keys ps) ko vo) (reshape_l2w ko vo (map (long_row ko vo others) ps))
  = map (long_row ko vo others) ps.
Proof.
  intros Hwf Hwp Hdis Hko Hvo Hne Hps.
  rewrite (l2w_rows ko vo others Hko Hvo Hne ps Hps Hwp Hdis). cbn [flat_map]. rewrite app_nil_r.
  unfold reshape_w2l. fold (w2l_pairs (keys ps) (others ++ ps)). rewrite (w2l_pairs_own others ps Hwp Hdis).
  rewrite (w2l_others_own others ps Hwf Hdis). destruct ps; [congruence|reflexivity].
Qed.

Fixpoint pairs_vals (vs : list bytes) : list (bytes * bytes) * option bytes :=
  match vs with
  | a :: b :: t => let '(ps, last) := pairs_vals t in ((a, b) :: ps, last)
  | [a] => ([], Some a)
  | [] => ([], None)
  end.

Lemma altkv_from_spec n : forall r i out, (List.length r <= n)%nat ->
  altkv_from i r out =
    let '(ps, last) := pairs_vals (values r) in
    let o' := fold_left (fun o p => put (fst p) (snd p) o) ps out in
    match last with Some v => put (itoa (i + N.of_nat (List.length ps))) v o' | None => o' end.
Proof.
  induction n as [|n IH]; intros r i out Hlen.
  - destruct r; [reflexivity|cbn in Hlen; lia].
  - destruct r as [|[k1 v1] [|[k2 v2] t]]; [reflexivity| |].
    + cbn [altkv_from values map snd pairs_vals fold_left List.length N.of_nat]. now rewrite N.add_0_r.
    + cbn [altkv_from values map snd pairs_vals]. rewrite IH by (cbn in Hlen; lia).
      fold (values t). destruct (pairs_vals (values t)) as [ps last]. cbn [fold_left fst snd List.length].
      destruct last; [|reflexivity]. f_equal. f_equal. lia.
Qed.

Theorem altkv_spec r :
  altkv r =
    let '(ps, last) := pairs_vals (values r) in
    let o' := fold_left (fun o p => put (fst p) (snd p) o) ps [] in
    match last with Some v => put (itoa (1 + N.of_nat (List.length ps))) v o' | None => o' end.
Proof. unfold altkv. apply (altkv_from_spec (List.length r)). lia. Qed.
