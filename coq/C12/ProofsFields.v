(* C12: laws of the field-by-field rewriting verbs (Model2.v), for EVERY acceptor and EVERY key / value function, and of
   fill-down *)
From Miller Require Import Base.Bytes Base.Record C12.Model C12.Proofs C12.Model2 Base.RecordFacts.

Section MapValues.
  Variable accept : bytes -> bool.
  Variable fv : bytes -> bytes.

  Lemma map_values_keys r : keys (map_values accept fv r) = keys r.
  Proof. unfold map_values, keys. rewrite map_map. apply map_ext. intros [k v]. cbn. destruct (accept k); reflexivity. Qed.

  Lemma map_values_pointwise r :
    Forall2 (fun a b => fst b = fst a /\ (accept (fst a) = false -> b = a) /\ (accept (fst a) = true -> snd b = fv (snd a)))
            r (map_values accept fv r).
  Proof.
    induction r as [|[k v] r IH]; cbn; constructor; [|exact IH].
    cbn. destruct (accept k) eqn:E; cbn; repeat split; congruence.
  Qed.

  Lemma map_values_bystanders r :
    filter (fun kv => negb (accept (fst kv))) (map_values accept fv r) = filter (fun kv => negb (accept (fst kv))) r.
  Proof.
    unfold map_values. induction r as [|[k v] r IH]; cbn; [reflexivity|]. destruct (accept k) eqn:E; cbn; rewrite E; cbn; now rewrite IH.
  Qed.

  Lemma map_values_get k r : get k (map_values accept fv r) = if accept k then option_map fv (get k r) else get k r.
  Proof.
    unfold map_values. induction r as [|[k' v] r IH]; cbn; [now destruct (accept k)|].
    destruct (accept k') eqn:E; cbn; destruct (beqb_spec k k') as [->|Hne]; try exact IH; rewrite E; reflexivity.
  Qed.

  Lemma map_values_fixed r : (forall kv, In kv r -> accept (fst kv) = true -> fv (snd kv) = snd kv) -> map_values accept fv r = r.
  Proof.
    intros H. unfold map_values. rewrite <- (map_id r) at 2. apply map_ext_in. intros [k v] Hin. cbn.
    destruct (accept k) eqn:E; [|reflexivity]. f_equal. exact (H (k, v) Hin E).
  Qed.
End MapValues.

Lemma map_values_inverse accept f g r :
  (forall kv, In kv r -> accept (fst kv) = true -> g (f (snd kv)) = snd kv) ->
  map_values accept g (map_values accept f r) = r.
Proof.
  intros H. unfold map_values. rewrite map_map. rewrite <- (map_id r) at 2. apply map_ext_in. intros [k v] Hin. cbn.
  destruct (accept k) eqn:E; cbn; rewrite E; [|reflexivity]. f_equal. exact (H (k, v) Hin E).
Qed.

Definition rekey (accept : bytes -> bool) (fk fv : bytes -> bytes) (kv : field) : field :=
  if accept (fst kv) then (fk (fst kv), fv (snd kv)) else kv.

Lemma rebuild_as_fold (accept : bytes -> bool) (fk fv : bytes -> bytes) (r : record) : forall acc : record,
  fold_left (fun out (kv : field) => if accept (fst kv) then put (fk (fst kv)) (fv (snd kv)) out else put (fst kv) (snd kv) out) r acc
  = fold_left (fun out (kv : field) => put (fst kv) (snd kv) out) (map (rekey accept fk fv) r) acc.
Proof.
  induction r as [|[k v] r IH]; intros acc; cbn [fold_left map]; [reflexivity|].
  rewrite IH. f_equal. unfold rekey. cbn [fst snd]. destruct (accept k); reflexivity.
Qed.

Lemma rebuild_no_collision accept fk fv r :
  NoDup (keys (map (rekey accept fk fv) r)) -> rebuild accept fk fv r = map (rekey accept fk fv) r.
Proof. intros H. unfold rebuild. rewrite rebuild_as_fold. apply (fold_put_appends _ [] H). intros k _ []. Qed.

Lemma rebuild_bystanders accept fk fv r :
  NoDup (keys (map (rekey accept fk fv) r)) ->
  filter (fun kv => negb (accept (fst kv))) r
  = map snd (filter (fun p => negb (accept (fst (fst p)))) (combine r (rebuild accept fk fv r))).
Proof.
  intros H. rewrite rebuild_no_collision by assumption. clear H.
  induction r as [|[k v] r IH]; cbn; [reflexivity|]. unfold rekey at 1. cbn [fst snd].
  destruct (accept k) eqn:E; cbn; [exact IH|]. now rewrite IH.
Qed.

Lemma put_other_get k k' v (r : record) : k <> k' -> get k' (put k v r) = get k' r.
Proof. apply get_put_other. Qed.

Section FillDown.
  Variable a : bool.

  Lemma fd_field_bystanders (p : field -> bool) f sr : rejects p f ->
    filter p (snd (fd_field a f sr)) = filter p (snd sr).
  Proof.
    intros Hp. destruct sr as [st r]. unfold fd_field. destruct (fd_present a (get f r)); [reflexivity|].
    destruct (sget f st); [|reflexivity]. now apply filter_put_out.
  Qed.
  Lemma fd_field_get_other f k sr : k <> f -> get k (snd (fd_field a f sr)) = get k (snd sr).
  Proof.
    intros Hne. destruct sr as [st r]. unfold fd_field. destruct (fd_present a (get f r)); [reflexivity|].
    destruct (sget f st); [|reflexivity]. apply get_put_other. congruence.
  Qed.
  Lemma fd_field_present f st r : fd_present a (get f r) = true -> snd (fd_field a f (st, r)) = r.
  Proof. intros H. unfold fd_field. now rewrite H. Qed.

  Lemma fd_fields_bystanders (p : field -> bool) fs : (forall f, In f fs -> rejects p f) -> forall sr,
    filter p (snd (fold_left (fun sr f => fd_field a f sr) fs sr)) = filter p (snd sr).
  Proof.
    induction fs as [|f fs IH]; intros Hp sr; cbn [fold_left]; [reflexivity|].
    rewrite IH by (intros; apply Hp; cbn; auto). apply fd_field_bystanders, Hp. cbn; auto.
  Qed.
  Lemma fd_fields_get_other fs k : ~ In k fs -> forall st r,
    get k (snd (fold_left (fun sr f => fd_field a f sr) fs (st, r))) = get k r.
  Proof.
    intros Hk st r. change r with (snd (st, r)) at 2. generalize (st, r) as sr.
    induction fs as [|f fs IH]; intros sr; cbn [fold_left]; [reflexivity|].
    rewrite IH by (intros H; apply Hk; cbn; auto). apply fd_field_get_other. intros ->. apply Hk. cbn; auto.
  Qed.

  Lemma fill_down_from_bystanders fs rs : forall st,
    List.length (fill_down_from a false fs st rs) = List.length rs
    /\ map (filter (fun kv => negb (mem (fst kv) fs))) (fill_down_from a false fs st rs)
       = map (filter (fun kv => negb (mem (fst kv) fs))) rs.
  Proof.
    induction rs as [|r rs IH]; intros st; cbn [fill_down_from]; [split; reflexivity|].
    pose proof (fd_fields_bystanders (unnamed fs) fs (unnamed_rejects fs) (st, r)) as E.
    destruct (fold_left (fun sr f => fd_field a f sr) fs (st, r)) as [st' r'].
    destruct (IH st') as [IH1 IH2]. cbn [List.length map]. split; [now rewrite IH1|]. rewrite IH2. f_equal. exact E.
  Qed.

  Lemma fd_fields_all_present fs : forall st r, (forall f, In f fs -> fd_present a (get f r) = true) ->
    snd (fold_left (fun sr f => fd_field a f sr) fs (st, r)) = r.
  Proof.
    induction fs as [|f fs IH]; intros st r H; cbn [fold_left]; [reflexivity|].
    unfold fd_field at 2. rewrite (H f) by (cbn; auto). apply IH. intros g Hg. apply H. cbn. auto.
  Qed.
End FillDown.

Lemma fill_down_bystanders a fs rs :
  List.length (fill_down a false fs rs) = List.length rs
  /\ map (filter (fun kv => negb (mem (fst kv) fs))) (fill_down a false fs rs) = map (filter (fun kv => negb (mem (fst kv) fs))) rs.
Proof. apply fill_down_from_bystanders. Qed.

Lemma fill_down_complete_records (a all : bool) (fs : list bytes) (rs : list record) :
  (forall r f, In r rs -> In f (if all then keys r else fs) -> fd_present a (get f r) = true) -> fill_down a all fs rs = rs.
Proof.
  unfold fill_down. generalize (@nil (bytes * bytes)) as st. induction rs as [|r rs IH]; intros st H; cbn [fill_down_from]; [reflexivity|].
  pose proof (fd_fields_all_present a (if all then keys r else fs) st r (fun f => H r f (or_introl eq_refl))) as E.
  destruct (fold_left (fun sr f => fd_field a f sr) (if all then keys r else fs) (st, r)) as [st' r']. cbn [snd] in E.
  rewrite E. f_equal. apply IH. intros r0 f Hr0 Hf. apply (H r0 f); cbn; auto.
Qed.
