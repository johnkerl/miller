(* C12 property theorems, each followed by Print Assumptions, and non-vacuity Examples.
   All are about the definitions of C12/Model.v, C12/Model2.v and C12/Regex.v that the correspondence harness (C12/Harness.v,
   Regex.chk_r) runs; the regex and field-rewriting theorems hold for every matcher / replacer / acceptor (C12/RegexLaws.v, C12/ProofsFields.v).
   wf r = the record's field names are pairwise distinct (what every reader delivers). *)
From Miller Require Import Base.Bytes Base.Record C12.Model C12.Proofs C12.ProofsStream C12.Regex C12.RegexLaws C12.Model2 C12.ProofsFields.
From Coq Require Import Permutation.

(* ---- cut: -f keeps exactly the named fields in record order (definitional), -x -f exactly the others, and the two
   are complementary: interleaving them back by the record's own name mask gives the record *)
Theorem C12_cut_x_keeps_exactly_the_others :
  forall fs r, wf r -> cut_x fs r = filter (fun kv => negb (mem (fst kv) fs)) r.
Proof. exact cut_x_is_filter. Qed.
Print Assumptions C12_cut_x_keeps_exactly_the_others.

Theorem C12_cut_complement :
  forall fs r, wf r -> unsplit (map (fun kv => mem (fst kv) fs) r) (cut_f fs r) (cut_x fs r) = r.
Proof. exact cut_complement. Qed.
Print Assumptions C12_cut_complement.

Theorem C12_cut_partition : forall fs r, wf r -> Permutation (cut_f fs r ++ cut_x fs r) r.
Proof. exact cut_f_x_partition. Qed.
Print Assumptions C12_cut_partition.

(* cut -o: a name is in the output iff it is listed and present, with the record's value *)
Theorem C12_cut_o_values : forall fs r k, get k (cut_o fs r) = if mem k fs then get k r else None.
Proof. exact cut_o_get. Qed.
Print Assumptions C12_cut_o_values.

(* ---- reorder -f / -e: a permutation of the record; unnamed fields keep name, value and relative order *)
Theorem C12_reorder_is_permutation :
  forall fs r, Permutation (reorder_f fs r) r /\ Permutation (reorder_e fs r) r.
Proof. exact (fun fs r => conj (reorder_f_perm fs r) (reorder_e_perm fs r)). Qed.
Print Assumptions C12_reorder_is_permutation.

Theorem C12_reorder_bystanders :
  forall fs r, filter (unnamed fs) (reorder_f fs r) = filter (unnamed fs) r
            /\ filter (unnamed fs) (reorder_e fs r) = filter (unnamed fs) r.
Proof. exact (fun fs r => conj (reorder_f_bystanders fs r) (reorder_e_bystanders fs r)). Qed.
Print Assumptions C12_reorder_bystanders.

(* reorder -f a,b,...: the named fields that are present come first, in argument order, then the others in record order *)
Theorem C12_reorder_f_named_first_in_argument_order :
  forall fs r, NoDup fs -> wf r -> reorder_f fs r = pick fs r ++ filter (unnamed fs) r.
Proof. exact reorder_f_spec. Qed.
Print Assumptions C12_reorder_f_named_first_in_argument_order.

(* reorder -e -f a,b,...: the others first in record order, then the named fields that are present, in argument order *)
Theorem C12_reorder_e_named_last_in_argument_order :
  forall fs r, NoDup fs -> wf r -> reorder_e fs r = filter (unnamed fs) r ++ pick fs r.
Proof. exact reorder_e_spec. Qed.
Print Assumptions C12_reorder_e_named_last_in_argument_order.

(* ---- rename: fields that are neither an old nor a new name keep name, value and relative order (any name list);
   rename a,b then b,a is the identity when b is new *)
Theorem C12_rename_bystanders :
  forall names r,
    filter (rename_bystander (rename_map names)) (rename names r) = filter (rename_bystander (rename_map names)) r.
Proof. exact rename_bystanders. Qed.
Print Assumptions C12_rename_bystanders.

Theorem C12_rename_to_new_name_in_place :
  forall a b r, wf r -> ~ In b (keys r) -> rename [a; b] r = map (ren a b) r.
Proof. exact rename_fresh. Qed.
Print Assumptions C12_rename_to_new_name_in_place.

(* rename a,b then b,a is the identity when b is new -- or when b is a itself (Mlrmap.Rename(a, a) is a no-op) *)
Theorem C12_rename_inverse :
  forall a b r, wf r -> (b = a \/ ~ In b (keys r)) -> rename [b; a] (rename [a; b] r) = r.
Proof. exact rename_inverse_gen. Qed.
Print Assumptions C12_rename_inverse.

Theorem C12_rename_same_name_is_identity : forall a r, rename [a; a] r = r.
Proof. exact rename_same_name. Qed.
Print Assumptions C12_rename_same_name_is_identity.

(* ---- sort-within-records / regularize: per-record permutations *)
Theorem C12_sort_within_records_sorted_permutation :
  forall r, Permutation (sort_fields r) r /\ sorted_keys (sort_fields r).
Proof. exact (fun r => conj (sort_fields_perm r) (sort_fields_sorted r)). Qed.
Print Assumptions C12_sort_within_records_sorted_permutation.

(* side condition: no two records of the stream share the comma-joined sorted-key signature without having the same
   key set (the code keys its table by that joined string; names containing "," can collide) *)
Theorem C12_regularize_permutes :
  forall rs,
    (forall r, In r rs -> wf r) ->
    (forall r1 r2, In r1 rs -> In r2 rs -> sig r1 = sig r2 -> Permutation (keys r1) (keys r2)) ->
    Forall2 (fun o r => Permutation o r) (regularize rs) rs.
Proof. exact regularize_perm. Qed.
Print Assumptions C12_regularize_permutes.

(* ---- unsparsify: rectangular over the union of keys in first-seen order, own values kept, holes filled *)
Theorem C12_unsparsify_rectangular_first_seen :
  forall fill rs,
    unsparsify fill rs = map (fun r => map (fun k => (k, getd k r fill)) (first_seen (List.concat (map keys rs)))) rs
    /\ NoDup (first_seen (List.concat (map keys rs)))
    /\ (forall k, In k (first_seen (List.concat (map keys rs))) <-> exists r, In r rs /\ In k (keys r)).
Proof. exact (fun fill rs => conj (unsparsify_spec fill rs) (conj (first_seen_nodup _) (union_in rs))). Qed.
Print Assumptions C12_unsparsify_rectangular_first_seen.

Theorem C12_unsparsify_f_only_appends :
  forall fs fill r, exists extra,
    unsparsify_f fs fill r = r ++ extra
    /\ Forall (fun kv => In (fst kv) fs /\ snd kv = fill /\ ~ In (fst kv) (keys r)) extra.
Proof. exact unsparsify_f_appends. Qed.
Print Assumptions C12_unsparsify_f_only_appends.

(* ---- sparsify / fill-empty change only what they name *)
Theorem C12_sparsify_removes_exactly_filler :
  forall filler r kv, In kv (sparsify filler r) <-> In kv r /\ snd kv <> filler.
Proof. exact sparsify_spec. Qed.
Print Assumptions C12_sparsify_removes_exactly_filler.

Theorem C12_sparsify_f_bystanders :
  forall fs filler r, filter (unnamed fs) (sparsify_f fs filler r) = filter (unnamed fs) r.
Proof. exact sparsify_f_bystanders. Qed.
Print Assumptions C12_sparsify_f_bystanders.

Theorem C12_fill_empty_only_empties :
  forall fill r, fill_empty fill r = map (fun kv => (fst kv, match snd kv with [] => fill | v => v end)) r.
Proof. exact fill_empty_spec. Qed.
Print Assumptions C12_fill_empty_only_empties.

(* ---- nest: explode values across records changes only the named field, and implode undoes it.
   _partial: the explosion of ONE record (a stream of several records re-groups by the other fields, and the bucket key is
   the comma-joined text of the other fields: _stream below); across fields further down; pairs variants by correspondence only *)
Theorem C12_nest_explode_records_bystanders :
  forall f sep r o, In o (explode_records f sep r) -> remove f o = remove f r /\ keys o = keys r.
Proof. exact explode_records_bystanders. Qed.
Print Assumptions C12_nest_explode_records_bystanders.

Theorem C12_nest_implode_explode_partial :
  forall f sep r v, get f r = Some v -> implode_records f sep (explode_records f sep r) = [r].
Proof. exact explode_implode_single. Qed.
Print Assumptions C12_nest_implode_explode_partial.

(* the same over a whole stream: every record has the field, the records agree on the other fields' names (same
   comma-joined key signature K) and differ pairwise in the other fields' values (as comma-joined text): explode then
   implode is the identity on the stream, order included *)
Theorem C12_nest_implode_explode_stream :
  forall f sep K rs,
    (forall r, In r rs -> has f r = true /\ okeys f r = K) ->
    NoDup (map (ovals f) rs) ->
    implode_records f sep (flat_map (explode_records f sep) rs) = rs.
Proof. exact explode_implode_stream. Qed.
Print Assumptions C12_nest_implode_explode_stream.

Theorem C12_split_join_inverse : forall sep s, join_with [sep] (split1 sep s) = s.
Proof. exact join_split1. Qed.
Print Assumptions C12_split_join_inverse.

(* ---- label: the first n fields take the new names (n = min of the two lengths), values and order kept; later fields
   are kept unless their name is one of the new names just given (they would collide) *)
Theorem C12_label_renames_first_n :
  forall names r, NoDup names -> wf r ->
    let k := Nat.min (List.length names) (List.length r) in
    label names r = combine (firstn k names) (values (firstn k r))
                    ++ filter (fun kv => negb (mem (fst kv) (firstn k names))) (skipn k r).
Proof. exact label_spec. Qed.
Print Assumptions C12_label_renames_first_n.

(* ---- nest across fields: explode replaces the field in place by f_1..f_n and touches nothing else; implode undoes it
   when no other field is named f_<digits> (and, with f first in the record, no second field f exists) *)
Theorem C12_nest_explode_fields_in_place :
  forall f sep pre v post, ~ In f (keys pre) ->
    explode_fields f sep (pre ++ (f, v) :: post) = pre ++ number_from f 1 (split1 sep v) ++ post.
Proof. exact explode_fields_shape. Qed.
Print Assumptions C12_nest_explode_fields_in_place.

Theorem C12_nest_explode_fields_absent : forall f sep r, ~ In f (keys r) -> explode_fields f sep r = r.
Proof. exact explode_fields_absent. Qed.
Print Assumptions C12_nest_explode_fields_absent.

Theorem C12_nest_implode_explode_fields :
  forall f sep pre v post,
    ~ In f (keys pre) -> no_suffix_match f pre -> no_suffix_match f post -> (pre = [] -> ~ In f (keys post)) ->
    implode_fields f sep (explode_fields f sep (pre ++ (f, v) :: post)) = pre ++ (f, v) :: post.
Proof. exact explode_implode_fields. Qed.
Print Assumptions C12_nest_implode_explode_fields.

(* implode across fields, for EVERY field name F (regex metacharacters, any bytes): a field that is neither literally
   F_<decimal digits> nor F itself keeps its name, value and relative order (the name is taken literally
   and tested as a prefix followed by digits, without a regexp: nest_suffix_ok) *)
Theorem C12_nest_implode_fields_bystanders :
  forall f sep r, filter (implode_bystander f) (implode_fields f sep r) = filter (implode_bystander f) r.
Proof. exact implode_fields_bystanders. Qed.
Print Assumptions C12_nest_implode_fields_bystanders.

(* ---- reshape: wide-to-long then long-to-wide gives the record back with the reshaped fields moved to the end
   (others first, then the -i fields that were present, in -i order): the same fields, and the record itself when
   those fields were its last ones in that order.  Side conditions: the key/value column names are new and distinct,
   at least one -i field is present.  (long-to-wide then wide-to-long, the regex form and multi-record streams:
   correspondence and oracle only) *)
Theorem C12_reshape_wide_long_wide :
  forall ins ko vo r,
    wf r -> ~ In ko (keys r) -> ~ In vo (keys r) -> ko <> vo -> w2l_pairs ins r <> [] ->
    reshape_l2w ko vo (reshape_w2l ins ko vo r) = [w2l_others ins r ++ w2l_pairs ins r].
Proof. exact reshape_w2l_l2w. Qed.
Print Assumptions C12_reshape_wide_long_wide.

(* long-to-wide then wide-to-long (-i the new columns): a group of long rows that share their other fields and have
   pairwise distinct keys comes back row for row (key/value column names new and distinct; keys not among the other names) *)
Theorem C12_reshape_long_wide_long :
  forall ko vo others ps,
    wf (others ++ ps) -> wf ps -> (forall k, In k (keys ps) -> ~ In k (keys others)) ->
    ~ In ko (keys others) -> ~ In vo (keys others) -> ko <> vo -> ps <> [] ->
    flat_map (reshape_w2l (keys ps) ko vo) (reshape_l2w ko vo (map (long_row ko vo others) ps))
    = map (long_row ko vo others) ps.
Proof. exact reshape_l2w_w2l. Qed.
Print Assumptions C12_reshape_long_wide_long.

(* ---- altkv: values pair up as key/value (a later pair with the same key overwrites in place), an odd last value gets
   the key <number of pairs + 1> *)
Theorem C12_altkv_pairs_values :
  forall r, altkv r =
    let '(ps, last) := pairs_vals (values r) in
    let o' := fold_left (fun o p => put (fst p) (snd p) o) ps [] in
    match last with Some v => put (itoa (1 + N.of_nat (List.length ps))) v o' | None => o' end.
Proof. exact altkv_spec. Qed.
Print Assumptions C12_altkv_pairs_values.

(* ---- template: exactly the template names (first occurrence order), record values where present, fill elsewhere *)
Theorem C12_template_names_and_values :
  forall fs fill r,
    keys (template fs fill r) = first_seen fs
    /\ forall k, get k (template fs fill r) = if mem k fs then Some (getd k r fill) else None.
Proof. exact (fun fs fill r => conj (template_keys fs fill r) (template_get fs fill r)). Qed.
Print Assumptions C12_template_names_and_values.

(* non-vacuity: concrete non-trivial inputs meet the hypotheses *)
Example C12_nonvacuous :
  let r := [(B "a", B "1"); (B "x", B "p;q;r"); (B "b", B ""); (B "a.b", B "3")] in
  let s := [(B "b", B "7"); (B "a", B "8")] in
  wf r /\ ~ In (B "new") (keys r)
  /\ cut_f [B "x"; B "zz"; B "a"] r = [(B "a", B "1"); (B "x", B "p;q;r")]
  /\ cut_x [B "x"; B "zz"; B "a"] r = [(B "b", B ""); (B "a.b", B "3")]
  /\ reorder_f [B "b"; B "x"] r = [(B "b", B ""); (B "x", B "p;q;r"); (B "a", B "1"); (B "a.b", B "3")]
  /\ rename [B "a"; B "new"] r = [(B "new", B "1"); (B "x", B "p;q;r"); (B "b", B ""); (B "a.b", B "3")]
  /\ get (B "x") r = Some (B "p;q;r")
  /\ altkv r = [(B "1", B "p;q;r"); (B "", B "3")]
  /\ reshape_l2w (B "K") (B "V") (map (long_row (B "K") (B "V") [(B "id", B "7")]) [(B "x", B "1"); (B "y", B "2")])
     = [[(B "id", B "7"); (B "x", B "1"); (B "y", B "2")]]
  /\ implode_fields (B "a.b") ";" [(B "axb_1", B "p"); (B "a.b_1", B "q"); (B "z", B "3"); (B "a.b_2", B "r")]
     = [(B "axb_1", B "p"); (B "a.b", B "q;r"); (B "z", B "3")]
  /\ label [B "n1"; B "b"] r = [(B "n1", B "1"); (B "b", B "p;q;r"); (B "a.b", B "3")]
  /\ explode_fields (B "x") ";" r = [(B "a", B "1"); (B "x_1", B "p"); (B "x_2", B "q"); (B "x_3", B "r"); (B "b", B ""); (B "a.b", B "3")]
  /\ implode_fields (B "x") ";" (explode_fields (B "x") ";" r) = r
  /\ w2l_pairs [B "x"; B "b"] r = [(B "x", B "p;q;r"); (B "b", B "")]
  /\ reshape_l2w (B "K") (B "V") (reshape_w2l [B "x"; B "b"] (B "K") (B "V") r)
     = [[(B "a", B "1"); (B "a.b", B "3"); (B "x", B "p;q;r"); (B "b", B "")]]
  /\ List.length (explode_records (B "x") ";" r) = 3%nat
  /\ regularize [[(B "a", B "1"); (B "b", B "2")]; s] = [[(B "a", B "1"); (B "b", B "2")]; [(B "a", B "8"); (B "b", B "7")]]
  /\ unsparsify (B "-") [s; r] = [[(B "b", B "7"); (B "a", B "8"); (B "x", B "-"); (B "a.b", B "-")];
                                 [(B "b", B ""); (B "a", B "1"); (B "x", B "p;q;r"); (B "a.b", B "3")]].
Proof.
  cbv zeta. split; [apply wf_iff; vm_compute; reflexivity|]. split.
  - intros H. apply mem_In in H. vm_compute in H. discriminate.
  - vm_compute. repeat split; reflexivity.
Qed.

Example C12_nonvacuous_stream :
  let rs := [[(B "x", B "p;q"); (B "id", B "1")]; [(B "x", B ";"); (B "id", B "2")]] in
  (forall r0, In r0 rs -> has (B "x") r0 = true /\ okeys (B "x") r0 = B "id")
  /\ NoDup (map (ovals (B "x")) rs)
  /\ List.length (flat_map (explode_records (B "x") ";") rs) = 4%nat
  /\ implode_records (B "x") ";" (flat_map (explode_records (B "x") ";") rs) = rs.
Proof.
  cbv zeta. split; [intros r0 [<-|[<-|[]]]; split; reflexivity|].
  split; [apply nodupb_NoDup; vm_compute; reflexivity|]. split; vm_compute; reflexivity.
Qed.

(* ================================================================== regex forms, for EVERY matcher / replacer
   (the regex library is a parameter: [hit] = index of the first -f regex the field name matches, [f] = what sub / gsub
   make of a field name; the correspondence check runs the instances at Regex.v's matcher) *)

(* cut -r -f keeps exactly the fields whose name some regex matches, as they stand in the record; -x exactly the others;
   the two are complementary (each field on exactly one side, order kept on both sides, together a permutation) *)
Theorem C12_cut_regex_complement : forall (hit : bytes -> option nat) nrs r,
  cut_r_gen hit nrs false false r = filter (fun kv => is_hit hit kv) r
  /\ cut_r_gen hit nrs true false r = filter (fun kv => negb (is_hit hit kv)) r
  /\ interleaved r (cut_r_gen hit nrs false false r) (cut_r_gen hit nrs true false r)
  /\ Permutation (cut_r_gen hit nrs false false r ++ cut_r_gen hit nrs true false r) r.
Proof.
  exact (fun hit nrs r =>
    conj (eq_trans (cut_r_gen_filter hit nrs false r) (filter_ext _ _ (fun kv => Bool.xorb_false_r (is_hit hit kv)) r))
   (conj (eq_trans (cut_r_gen_filter hit nrs true r) (filter_ext _ _ (fun kv => Bool.xorb_true_r (is_hit hit kv)) r))
   (conj (cut_r_complement hit nrs r) (interleaved_perm _ _ _ (cut_r_complement hit nrs r))))).
Qed.
Print Assumptions C12_cut_regex_complement.

(* cut -r -o: the same fields (a permutation of cut -r); fields matching the same regex keep their relative order
   (the sort by regex index is stable), groups in the order of the regexes *)
Theorem C12_cut_regex_argorder_stable : forall (hit : bytes -> option nat) nrs,
  (forall s j, hit s = Some j -> j < nrs) -> forall c r,
  Permutation (cut_r_gen hit nrs c true r) (cut_r_gen hit nrs c false r)
  /\ (forall i, filter (fun kv => Nat.eqb i (hit_idx hit kv)) (cut_r_gen hit nrs c true r)
                = filter (fun kv => Nat.eqb i (hit_idx hit kv)) (cut_r_gen hit nrs c false r))
  /\ cut_r_gen hit nrs c true r
     = flat_map (fun i => filter (fun kv => Nat.eqb i (hit_idx hit kv)) (cut_r_gen hit nrs c false r)) (seq 0 (Nat.max 1 nrs)).
Proof. exact cut_r_o_spec. Qed.
Print Assumptions C12_cut_regex_argorder_stable.

(* the model run against mlr is that instance, and its matcher meets the index bound *)
Theorem C12_cut_regex_model_is_instance : forall rs c o r,
  cut_r rs c o r = cut_r_gen (first_match rs 0) (List.length rs) c o r
  /\ (forall s j, first_match rs 0 s = Some j -> j < List.length rs).
Proof. exact (fun rs c o r => conj (cut_r_is_gen rs c o r) (fun s j H => first_match_bound rs 0 s j H)). Qed.
Print Assumptions C12_cut_regex_model_is_instance.

(* rename -r / -g, one "regex,replacement" pair, any replacer f: a field whose name f leaves alone and on which no renamed
   field lands keeps its name, its value and its place among such fields; a replacer that changes no name of the record
   changes nothing; several pairs are one walk after the other *)
Theorem C12_rename_regex_bystanders : forall (f : bytes -> bytes) r,
  filter (rr_bystander f r) (rename_walk_f (List.length r) f [] r) = filter (rr_bystander f r) r
  /\ ((forall k, In k (keys r) -> f k = k) -> rename_walk_f (List.length r) f [] r = r).
Proof. exact (fun f r => conj (rename_f_bystanders f r) (rename_f_no_match f r)). Qed.
Print Assumptions C12_rename_regex_bystanders.

Theorem C12_rename_regex_model_is_instance : forall ci re_ rep g r specs1 specs2,
  rename_r [(ci, re_, rep)] g r
  = rename_walk_f (List.length r)
      (if g then (fun s => gsub_lit (S (List.length s)) ci re_ (expand rep [] []) s true) else sub1 ci re_ rep) [] r
  /\ rename_r (specs1 ++ specs2) g r = rename_r specs2 g (rename_r specs1 g r).
Proof. exact (fun ci re_ rep g r specs1 specs2 => conj (rename_r_single_is_walk ci re_ rep g r) (rename_r_app specs1 specs2 g r)). Qed.
Print Assumptions C12_rename_regex_model_is_instance.

Example C12_nonvacuous_regex :
  let r := [(B "x1", B "a"); (B "y1", B "b"); (B "x2", B "c"); (B "z", B "d"); (B "y2", B "e")] in
  let rs := [(false, Seq Bol (Chr "y")); (false, Seq Bol (Chr "x"))] in
  cut_r rs false false r = [(B "x1", B "a"); (B "y1", B "b"); (B "x2", B "c"); (B "y2", B "e")]
  /\ cut_r rs true false r = [(B "z", B "d")]
  /\ cut_r rs false true r = [(B "y1", B "b"); (B "y2", B "e"); (B "x1", B "a"); (B "x2", B "c")]
  /\ rename_r [(false, Seq Bol (Chr "x"), [inl (B "w")])] false r
     = [(B "w1", B "a"); (B "y1", B "b"); (B "w2", B "c"); (B "z", B "d"); (B "y2", B "e")]
  /\ filter (rr_bystander (sub1 false (Seq Bol (Chr "x")) [inl (B "w")]) r) r = [(B "y1", B "b"); (B "z", B "d"); (B "y2", B "e")].
Proof. vm_compute. repeat split; reflexivity. Qed.

(* ================================================================== verbs that rewrite fields one by one
   sub / gsub / ssub (-f, -a), case -v, sec2gmt, fill-empty are  map_values accept fv : pe.Value = fv(pe.Value) on the
   accepted fields.  For EVERY acceptor and EVERY value function (regex replacement, Unicode case mapping, time formatting,
   the type inference that decides whether a value is a string are third party): field names and positions are kept, a
   field that is not accepted is untouched, an accepted one holds fv of its value; bystanders keep name, value, order *)
Theorem C12_value_rewriting_verbs_change_only_accepted_values : forall (accept : bytes -> bool) (fv : bytes -> bytes) r,
  keys (map_values accept fv r) = keys r
  /\ Forall2 (fun a b => fst b = fst a /\ (accept (fst a) = false -> b = a) /\ (accept (fst a) = true -> snd b = fv (snd a)))
             r (map_values accept fv r)
  /\ filter (fun kv => negb (accept (fst kv))) (map_values accept fv r) = filter (fun kv => negb (accept (fst kv))) r
  /\ (forall k, get k (map_values accept fv r) = if accept k then option_map fv (get k r) else get k r).
Proof.
  exact (fun accept fv r => conj (map_values_keys accept fv r) (conj (map_values_pointwise accept fv r)
        (conj (map_values_bystanders accept fv r) (fun k => map_values_get accept fv k r)))).
Qed.
Print Assumptions C12_value_rewriting_verbs_change_only_accepted_values.

(* inverse pairs of value rewriting: if g undoes f on the accepted values of the record, the second verb undoes the first
   (ssub a,b then b,a when b does not occur; case -u then -l on lower-case values); a value function that fixes the accepted
   values leaves the record alone *)
Theorem C12_value_rewriting_inverse : forall accept f g r,
  ((forall kv, In kv r -> accept (fst kv) = true -> g (f (snd kv)) = snd kv) -> map_values accept g (map_values accept f r) = r)
  /\ ((forall kv, In kv r -> accept (fst kv) = true -> f (snd kv) = snd kv) -> map_values accept f r = r).
Proof. exact (fun accept f g r => conj (map_values_inverse accept f g r) (map_values_fixed accept f r)). Qed.
Print Assumptions C12_value_rewriting_inverse.

(* case -k / -k -v (and unspace) build a new record with PutReference: when the new names are pairwise distinct every
   field stays in place, accepted fields renamed (and re-valued), the others untouched *)
Theorem C12_key_rewriting_verbs_without_collision : forall accept fk fv r,
  NoDup (keys (map (rekey accept fk fv) r)) ->
  rebuild accept fk fv r = map (rekey accept fk fv) r
  /\ filter (fun kv => negb (accept (fst kv))) r
     = map snd (filter (fun p => negb (accept (fst (fst p)))) (combine r (rebuild accept fk fv r))).
Proof. exact (fun accept fk fv r H => conj (rebuild_no_collision accept fk fv r H) (rebuild_bystanders accept fk fv r H)). Qed.
Print Assumptions C12_key_rewriting_verbs_without_collision.

(* fill-down -f [-a]: one record out per record in; fields that are not named keep name, value and relative order; a stream
   in which every named field (--all: every field) is present and, without -a, non-empty passes unchanged *)
Theorem C12_fill_down_bystanders : forall a fs rs,
  List.length (fill_down a false fs rs) = List.length rs
  /\ map (filter (fun kv => negb (mem (fst kv) fs))) (fill_down a false fs rs) = map (filter (fun kv => negb (mem (fst kv) fs))) rs.
Proof. exact fill_down_bystanders. Qed.
Print Assumptions C12_fill_down_bystanders.

Theorem C12_fill_down_complete_records_unchanged : forall (a all : bool) (fs : list bytes) (rs : list record),
  (forall r f, In r rs -> In f (if all then keys r else fs) -> fd_present a (get f r) = true) -> fill_down a all fs rs = rs.
Proof. exact fill_down_complete_records. Qed.
Print Assumptions C12_fill_down_complete_records_unchanged.

Example C12_nonvacuous_fields :
  let rs := [[(B "a", B "1"); (B "b", B "x")]; [(B "a", B ""); (B "c", B "y")]; [(B "c", B "z")]] in
  fill_down false false [B "a"; B "b"] rs
  = [[(B "a", B "1"); (B "b", B "x")]; [(B "a", B "1"); (B "c", B "y"); (B "b", B "x")]; [(B "c", B "z"); (B "a", B "1"); (B "b", B "x")]]
  /\ fill_down true false [B "a"] rs = [[(B "a", B "1"); (B "b", B "x")]; [(B "a", B ""); (B "c", B "y")]; [(B "c", B "z"); (B "a", B "")]]
  /\ map (map_values (accept_names [B "b"; B "c"]) (ssub1 (B "y") (B "yy"))) rs
     = [[(B "a", B "1"); (B "b", B "x")]; [(B "a", B ""); (B "c", B "yy")]; [(B "c", B "z")]]
  /\ gssub (B "ab") (B "c") (B "xababyab") = B "xccyc"
  /\ rebuild accept_all (map Regex.upper) (fun v => v) [(B "a", B "1"); (B "b", B "2")] = [(B "A", B "1"); (B "B", B "2")]
  /\ rebuild accept_all (map Regex.upper) (fun v => v) [(B "a", B "1"); (B "A", B "2")] = [(B "A", B "2")].
Proof. vm_compute. repeat split; reflexivity. Qed.
