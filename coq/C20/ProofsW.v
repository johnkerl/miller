(* C20 proofs, per writer -- every fan-out target is ONE document of the chosen format, namely C01's document function
   applied to exactly the records routed to the target, in stream order; and (composition with C01's round-trip theorems)
   reading the target back gives exactly those records.  For every routing (any op history), any number of targets, any
   capacity, any revisit / eviction pattern, modes > >> |. *)
From Miller Require Import Base.Bytes Base.Record C20.Model C20.Generic C20.Writers.
From Miller Require Import C01.Model C01.ProofsUtil C01.ProofsTsv C01.ProofsDkvp C01.ProofsCsv C01.ModelJson C01.ProofsJson
     C01.ModelXtab C01.ProofsXtab C01.ModelLite C01.ProofsLite C01.ModelPprint C01.ProofsPprint C01.ProofsBarred C01.ModelMd.
Open Scope list_scope.

(* the records routed to t, in stream order *)
Definition routed (t : target) (ops : list op) : list record := recs_of_events (events_of t ops).

(* tee / emit / split managers carry records only (print / dump managers carry text only) *)
Definition records_only (ops : list op) : bool :=
  forallb (fun o => match snd o with ERec _ => true | EStr _ => false end) ops.

Lemma events_records_only t ops : records_only ops = true -> events_of t ops = map ERec (routed t ops).
Proof.
  unfold routed. induction ops as [|[t' e] ops IH]; cbn; [reflexivity|]. intros H. apply andb_true_iff in H as [He H].
  destruct e as [r|s]; [|discriminate]. destruct (beqb t t'); cbn; [f_equal|]; auto.
Qed.

Section PerWriter.
  Variable W : swriter.
  Variable doc : list record -> option bytes.
  Hypothesis W_doc : forall recs, sdoc W (map ERec recs) = doc recs.

  Theorem target_is_one_document md c ops fs0 :
    records_only ops = true -> g_err (runG W md c ops fs0) = false ->
    forall t,
    (touched t ops = true -> exists d, doc (routed t ops) = Some d /\ finalG W md c ops fs0 t = gbase md fs0 t ++ d) /\
    (touched t ops = false -> finalG W md c ops fs0 t = fs0 t).
  Proof.
    intros Hr He t. destruct (one_document_generic W md c ops fs0 He t) as [H1 H0]. split; [|exact H0].
    intros Ht. destruct (H1 Ht) as (d & Hd & Hf). exists d. split; [|exact Hf].
    rewrite <- W_doc, <- events_records_only; assumption.
  Qed.

  Theorem total_writer_no_error md c ops fs0 :
    records_only ops = true -> (forall recs, doc recs <> None) -> g_err (runG W md c ops fs0) = false.
  Proof.
    intros Hr Ht. apply no_error_when_documents_exist. intros t. rewrite (events_records_only t ops Hr), W_doc. apply Ht.
  Qed.

  (* reading the target back (write mode: the file is the document alone) *)
  Variable A : Type.
  Variable read : bytes -> option A.
  Variable good : list record -> Prop.
  Variable want : list record -> A.
  Hypothesis roundtrip : forall recs, good recs -> match doc recs with Some d => read d | None => None end = Some (want recs).

  Theorem target_reads_back md c ops fs0 :
    is_append md = false -> records_only ops = true -> g_err (runG W md c ops fs0) = false ->
    forall t, touched t ops = true -> good (routed t ops) -> read (finalG W md c ops fs0 t) = Some (want (routed t ops)).
  Proof.
    intros Hm Hr He t Ht Hg. destruct (target_is_one_document md c ops fs0 Hr He t) as [H1 _].
    destruct (H1 Ht) as (d & Hd & Hf). rewrite Hf. unfold gbase. rewrite Hm. cbn [app].
    specialize (roundtrip _ Hg). now rewrite Hd in roundtrip.
  Qed.
End PerWriter.

(* a writer that never fails: no error hypothesis, and the file is given outright *)
Section TotalWriter.
  Variable W : swriter.
  Variable doc : list record -> bytes.
  Hypothesis W_doc : forall recs, sdoc W (map ERec recs) = Some (doc recs).

  Theorem total_target_is_one_document md c ops fs0 :
    records_only ops = true ->
    forall t, touched t ops = true -> finalG W md c ops fs0 t = gbase md fs0 t ++ doc (routed t ops).
  Proof.
    intros Hr t Ht.
    assert (He : g_err (runG W md c ops fs0) = false) by (now apply (total_writer_no_error W _ W_doc)).
    destruct (proj1 (target_is_one_document W _ W_doc md c ops fs0 Hr He t) Ht) as (d & Hd & ->). now inversion Hd.
  Qed.

  Variable A : Type.
  Variable read : bytes -> option A.
  Variable good : list record -> Prop.
  Variable want : list record -> A.
  Hypothesis roundtrip : forall recs, good recs -> read (doc recs) = Some (want recs).

  Theorem total_target_reads_back md c ops fs0 :
    is_append md = false -> records_only ops = true ->
    forall t, touched t ops = true -> good (routed t ops) -> read (finalG W md c ops fs0 t) = Some (want (routed t ops)).
  Proof.
    intros Hm Hr t Ht Hg. rewrite total_target_is_one_document by assumption. unfold gbase. rewrite Hm. now apply roundtrip.
  Qed.
End TotalWriter.

(* ---------------------------------------------------------------- instances; only CSV and TSV can report an error (schema change) *)
Definition T_csv hl qa crlf comma := target_is_one_document (W_csv hl qa crlf comma) (write_csv hl qa crlf comma) (W_csv_doc hl qa crlf comma).
Definition T_tsv hl crlf := target_is_one_document (W_tsv hl crlf) (write_tsv hl crlf) (W_tsv_doc hl crlf).
Definition T_json_wrap ml := total_target_is_one_document (W_json_wrap ml) (write_json ml true) (W_json_wrap_doc ml).
Definition T_json_nowrap ml := target_is_one_document (W_json_nowrap ml) (fun recs => Some (write_json ml false recs)) (W_json_nowrap_doc ml).
Definition T_dkvp ofs ops crlf := target_is_one_document (W_dkvp ofs ops crlf) (fun recs => Some (write_dkvp ofs ops crlf recs)) (W_dkvp_doc ofs ops crlf).
Definition T_nidx ofs crlf := target_is_one_document (W_nidx ofs crlf) (fun recs => Some (write_nidx ofs crlf recs)) (W_nidx_doc ofs crlf).
Definition T_xtab w ops right := total_target_is_one_document (W_xtab w ops right) (write_xtab w ops right) (W_xtab_doc w ops right).
Definition T_csvlite ofs hl crlf := total_target_is_one_document (W_csvlite ofs hl crlf) (write_csvlite ofs hl crlf) (W_csvlite_doc ofs hl crlf).
Definition T_pprint w right barred hl crlf :=
  total_target_is_one_document (W_pprint w right barred hl crlf) (write_pprint_g w right barred hl crlf) (W_pprint_doc w right barred hl crlf).
Definition T_md w crlf := total_target_is_one_document (W_md crlf) (write_markdown w false crlf) (W_md_doc w crlf).
Definition T_mda w crlf := target_is_one_document (W_mda w (ors_of crlf)) (fun recs => Some (write_markdown w true crlf recs)) (W_mda_doc' w crlf).

Definition R_csv qa crlf comma lazy dedupe ragged :=
  target_reads_back (W_csv false qa crlf comma) (write_csv false qa crlf comma) (W_csv_doc false qa crlf comma)
    (list record) (read_csv false lazy dedupe ragged comma) (fun recs => wf_csv crlf comma recs = true) (fun recs => recs)
    (fun recs (H : wf_csv crlf comma recs = true) => csv_roundtrip qa crlf comma lazy dedupe ragged recs H).
Definition R_tsv crlf dedupe ragged :=
  target_reads_back (W_tsv false crlf) (write_tsv false crlf) (W_tsv_doc false crlf)
    (list record) (read_tsv dedupe ragged) (fun recs => wf_tsv recs = true) (fun recs => recs)
    (fun recs (H : wf_tsv recs = true) => tsv_roundtrip crlf dedupe ragged recs H).
Definition R_json (ml wrap : bool) :=
  total_target_reads_back (if wrap then W_json_wrap ml else W_json_nowrap ml) (write_json ml wrap)
    (if wrap as b return (forall recs, sdoc (if b then W_json_wrap ml else W_json_nowrap ml) (map ERec recs) = Some (write_json ml b recs))
     then W_json_wrap_doc ml else W_json_nowrap_doc ml)
    (list record) read_json_ref (fun recs => forallb (fun r => nodupb (keys r)) recs = true) (fun recs => recs)
    (json_roundtrip ml wrap).
Definition R_pprint w right crlf dedupe ragged :=
  total_target_reads_back (W_pprint w right false false crlf) (write_pprint_g w right false false crlf) (W_pprint_doc w right false false crlf)
    (list record) (read_pprint dedupe ragged) (fun recs => wf_pprint crlf recs = true) (fun recs => recs)
    (pprint_roundtrip w right crlf dedupe ragged).
Definition R_csvlite c crlf dedupe ragged :=
  total_target_reads_back (W_csvlite [c] false crlf) (write_csvlite [c] false crlf) (W_csvlite_doc [c] false crlf)
    (list record) (read_csvlite [c] dedupe ragged) (fun recs => wf_lite c recs = true) (fun recs => recs)
    (csvlite_roundtrip c crlf dedupe ragged).
Definition R_xtab w c dedupe :=
  total_target_reads_back (W_xtab w [c] false) (write_xtab w [c] false) (W_xtab_doc w [c] false)
    (list record) (read_xtab [c] dedupe) (fun recs => wf_xtab c recs = true) (fun recs => recs)
    (xtab_roundtrip w c dedupe).
Definition R_dkvp ifs ips crlf dedupe :=
  target_reads_back (W_dkvp ifs ips crlf) (fun recs => Some (write_dkvp ifs ips crlf recs)) (W_dkvp_doc ifs ips crlf)
    (list record) (fun b => Some (read_dkvp ifs ips false dedupe b)) (fun recs => wf_dkvp ifs ips crlf recs = true) (fun recs => recs)
    (fun recs (H : wf_dkvp ifs ips crlf recs = true) => f_equal Some (dkvp_roundtrip ifs ips crlf dedupe recs H)).
