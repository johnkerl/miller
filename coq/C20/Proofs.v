(* C20 proofs: what the output-handler manager as it was before the repair (Model.run: eviction closes the handler, a later use
   starts a fresh writer) leaves in each target file, for every op history.  One invariant ([inv], over the relation [written]);
   routing, untouched targets and the stateless formats are read off it.  Without eviction the open handlers are all there are,
   one writer per target (Handlers.sync).  The open handlers follow the LRU policy on names (Handlers.served). *)
From Miller Require Import Base.Record C20.Model C20.Handlers.
From Coq Require Import Arith PeanoNat Lia.
From Miller Require Import Base.RecordFacts.
Open Scope list_scope.

Definition names (l : list (target * wstate)) : list target := map fst l.

Lemma beqb_eq a b : beqb a b = true <-> a = b.
Proof. destruct (beqb_spec a b); split; congruence. Qed.

Lemma beqb_sym a b : beqb a b = beqb b a.
Proof. destruct (beqb_spec a b), (beqb_spec b a); congruence. Qed.

(* Model.lookup, drop, upd are Handlers.hlookup, hdrop, hupd at writer state wstate and files of items *)
Lemma upd_same t v f : upd t v f t = v.
Proof. exact (hupd_same t v f). Qed.

Lemma upd_other t v f x : x <> t -> upd t v f x = f x.
Proof. exact (hupd_other t v f x). Qed.

Lemma mem_names t l : mem t (names l) = match lookup t l with Some _ => true | None => false end.
Proof. exact (hmem_names _ t l). Qed.

Lemma lookup_none t l : lookup t l = None <-> ~ In t (names l).
Proof. exact (hlookup_none _ t l). Qed.

Lemma in_names_lookup t l : In t (names l) -> exists w, lookup t l = Some w.
Proof.
  intros H. destruct (lookup t l) eqn:E; [eauto|]. apply lookup_none in E. contradiction.
Qed.

Lemma names_drop_rm t l : NoDup (names l) -> names (drop t l) = rm t (names l).
Proof. exact (hnames_drop_rm _ t l). Qed.

Lemma drop_nodup t l : NoDup (names l) -> NoDup (t :: names (drop t l)).
Proof. exact (hdrop_nodup _ t l). Qed.

Lemma lookup_drop_other x t l : x <> t -> lookup x (drop t l) = lookup x l.
Proof. exact (hlookup_drop_other _ x t l). Qed.

Lemma lookup_app t a b : lookup t (a ++ b) = match lookup t a with Some w => Some w | None => lookup t b end.
Proof. exact (hlookup_app _ t a b). Qed.

Lemma drop_app t a b :
  drop t (a ++ b) = match lookup t a with Some _ => drop t a ++ b | None => a ++ drop t b end.
Proof. exact (hdrop_app _ t a b). Qed.

Lemma drop_notin t l : lookup t l = None -> drop t l = l.
Proof. exact (hdrop_notin _ t l). Qed.

Lemma close_all_view F m t :
  NoDup (names (m_open m)) ->
  close_all F m t = m_fs m t ++ match lookup t (m_open m) with Some w => w_end F w | None => [] end.
Proof. exact (hclose_view _ (w_end F) (m_open m) (m_fs m) t). Qed.

Lemma names_app a b : names (a ++ b) = names a ++ names b.
Proof. apply map_app. Qed.

Lemma names_length l : len (names l) = len l.
Proof. apply map_length. Qed.

Lemma touched_iff t ops : touched t ops = true <-> In t (targets_of ops).
Proof. unfold touched. apply mem_In. Qed.

Definition wev (F : fmt) (w : wstate) (e : event) : option (list item * wstate) :=
  match e with ERec r => w_rec F w r | EStr s => Some ([IRaw s], w) end.

Lemma wrun_snoc F w evs e :
  wrun F w (evs ++ [e]) =
  match wrun F w evs with
  | Some (its, w1) => match wev F w1 e with Some (i2, w2) => Some (its ++ i2, w2) | None => None end
  | None => None
  end.
Proof.
  revert w. induction evs as [|[r|s] evs IH]; intros w; cbn.
  - destruct e as [r|s]; cbn; [|reflexivity]. destruct (w_rec F w r) as [[i2 w2]|]; [now rewrite app_nil_r|reflexivity].
  - destruct (w_rec F w r) as [[i1 w1]|]; [|reflexivity]. rewrite IH.
    destruct (wrun F w1 evs) as [[its w2]|]; [|reflexivity].
    destruct (wev F w2 e) as [[i3 w3]|]; now rewrite ?app_assoc.
  - rewrite IH. destruct (wrun F w evs) as [[its w2]|]; [|reflexivity].
    destruct (wev F w2 e) as [[i3 w3]|]; reflexivity.
Qed.

Lemma run_snoc md c F ops o fs0 : run md c F (ops ++ [o]) fs0 = step md c F (run md c F ops fs0) o.
Proof. unfold run. now rewrite fold_left_app. Qed.

Lemma step_err_sticky md c F m o : m_err m = true -> step md c F m o = m.
Proof.
  intros H. destruct o as [t [r|s]]; cbn; unfold write_rec, write_str; now rewrite H.
Qed.

Lemma err_monotone md c F m o : m_err (step md c F m o) = false -> m_err m = false.
Proof.
  destruct (m_err m) eqn:E; [|reflexivity]. now rewrite step_err_sticky, E.
Qed.

Lemma run_err_prefix md c F ops more fs0 :
  m_err (run md c F (ops ++ more) fs0) = false -> m_err (run md c F ops fs0) = false.
Proof.
  revert ops. induction more as [|o more IH] using rev_ind; intros ops H; [now rewrite app_nil_r in H|].
  rewrite app_assoc, run_snoc in H. apply err_monotone in H. auto.
Qed.

Lemma step_eq md c F m t e :
  m_err m = false ->
  step md c F m (t, e) =
  let '(ws, rest, ev, fs) := acquire md c F t m in
  match wev F ws e with
  | Some (its, ws') => Mgr ((t, ws') :: rest) ev (upd t (fs t ++ its) fs) false
  | None => Mgr ((t, ws) :: rest) ev fs true
  end.
Proof.
  intros He. destruct e; cbn; unfold write_rec, write_str; rewrite He; [reflexivity|].
  now destruct (acquire md c F t m) as [[[ws rest] ev] fs].
Qed.

(* the "cache miss at capacity" test of getOutputHandlerFor, the same for the manager as it was and as repaired *)
Definition must_evict (md : mode) (c : nat) (t : target) (o : list (target * wstate)) : bool :=
  match lookup t o with Some _ => false | None => negb (is_pipe md) && Nat.leb c (len o) end.

Lemma make_room_eq md c F t m :
  make_room md c F t m = if must_evict md c t (m_open m) then evict_last F m else m.
Proof.
  unfold make_room, must_evict. destruct (lookup t (m_open m)); [reflexivity|].
  destruct (is_pipe md); [reflexivity|]. cbn. now destruct (Nat.leb c (len (m_open m))).
Qed.

(* [written F evs its st]: the events [evs], in this order, went through writers of format F and produced [its]; each time the
   handler was closed (evicted) the writer's end-of-stream text was written, and the next use started a fresh writer.
   [st] is the handler now: open with this writer state, or closed. *)
Inductive written (F : fmt) : list event -> list item -> option wstate -> Prop :=
| wr_new : written F [] [] (Some WFresh)
| wr_event evs its w e its' w' :
    written F evs its (Some w) -> wev F w e = Some (its', w') -> written F (evs ++ [e]) (its ++ its') (Some w')
| wr_close evs its w : written F evs its (Some w) -> written F evs (its ++ w_end F w) None
| wr_reopen evs its : written F evs its None -> written F evs its (Some WFresh).

Lemma wrun_written F evs : forall its w, wrun F WFresh evs = Some (its, w) -> written F evs its (Some w).
Proof.
  induction evs as [|e evs IH] using rev_ind; intros its w H.
  - inversion H. constructor.
  - rewrite wrun_snoc in H. destruct (wrun F WFresh evs) as [[i1 w1]|]; [|discriminate].
    destruct (wev F w1 e) as [[i2 w2]|] eqn:E; inversion H; subst. eapply wr_event; eauto.
Qed.

Lemma single_doc_written F evs d : single_doc F evs = Some d -> written F evs d None.
Proof.
  unfold single_doc. destruct (wrun F WFresh evs) as [[its w]|] eqn:E; [|discriminate].
  intros H. inversion H. apply wr_close. now apply wrun_written.
Qed.

(* the invariant of [run]: open handlers are distinct; a target that was written holds, after what the file started with,
   what its own events produced, and is open or remembered as evicted; the others are as they were *)
Record inv (md : mode) (F : fmt) (fs0 : fstore) (ops : list op) (m : mgr) : Prop := {
  i_nodup : NoDup (names (m_open m));
  i_file : forall t, touched t ops = true ->
           exists its, m_fs m t = base md fs0 t ++ its /\
                       written F (events_of t ops) its (lookup t (m_open m)) /\
                       (lookup t (m_open m) = None -> In t (m_evicted m));
  i_rest : forall t, touched t ops = false ->
           m_fs m t = fs0 t /\ lookup t (m_open m) = None /\ ~ In t (m_evicted m)
}.

Lemma evict_inv md F fs0 ops m : inv md F fs0 ops m -> inv md F fs0 ops (evict_last F m).
Proof.
  intros I. unfold evict_last. destruct (split_last (m_open m)) as [[rest [tl wtl]]|] eqn:E; [|exact I].
  apply split_last_spec in E.
  pose proof (i_nodup _ _ _ _ _ I) as Hnd. rewrite E, names_app in Hnd. cbn in Hnd.
  apply NoDup_remove in Hnd as [Hnd Hni]. rewrite app_nil_r in Hnd, Hni. apply lookup_none in Hni.
  assert (Hl : forall t, lookup t (m_open m) = if beqb t tl then Some wtl else lookup t rest).
  { intros t. rewrite E, lookup_app. cbn. destruct (beqb_spec t tl) as [->|_]; [now rewrite Hni|now destruct (lookup t rest)]. }
  split; cbn [m_open m_evicted m_fs].
  - exact Hnd.
  - intros t Ht. destruct (i_file _ _ _ _ _ I t Ht) as (its & Hf & Hw & Hev). rewrite Hl in Hw, Hev.
    destruct (beqb_spec t tl) as [->|Hne].
    + exists (its ++ w_end F wtl). rewrite upd_same, Hf, app_assoc, Hni.
      split; [reflexivity|]. split; [now apply wr_close|now left].
    + exists its. rewrite upd_other by exact Hne. split; [exact Hf|]. split; [exact Hw|]. right. auto.
  - intros t Ht. destruct (i_rest _ _ _ _ _ I t Ht) as (Hf & Hlk & Hev). rewrite Hl in Hlk.
    destruct (beqb_spec t tl) as [->|Hne]; [discriminate|]. rewrite upd_other by exact Hne.
    split; [exact Hf|]. split; [exact Hlk|]. intros [E'|E']; [congruence|auto].
Qed.

Lemma acquire_inv md c F fs0 ops t m :
  inv md F fs0 ops m ->
  let '(ws, rest, ev, fs) := acquire md c F t m in
  forall e its ws', wev F ws e = Some (its, ws') ->
  inv md F fs0 (ops ++ [(t, e)]) (Mgr ((t, ws') :: rest) ev (upd t (fs t ++ its) fs) false).
Proof.
  intros I0. unfold acquire.
  assert (I : inv md F fs0 ops (make_room md c F t m)).
  { rewrite make_room_eq. destruct (must_evict md c t (m_open m)); [now apply evict_inv|exact I0]. }
  set (m1 := make_room md c F t m) in *. clearbody m1. clear I0 m.
  (* t's handler is at hand with its file; nothing else has moved *)
  assert (H : let '(ws, rest, ev, fs) :=
                match lookup t (m_open m1) with
                | Some ws => (ws, drop t (m_open m1), m_evicted m1, m_fs m1)
                | None => (WFresh, m_open m1, rm t (m_evicted m1),
                           if is_append md || mem t (m_evicted m1) then m_fs m1 else upd t [] (m_fs m1))
                end in
              NoDup (t :: names rest) /\
              (exists its0, fs t = base md fs0 t ++ its0 /\ written F (events_of t ops) its0 (Some ws)) /\
              (forall x, x <> t -> fs x = m_fs m1 x /\ lookup x rest = lookup x (m_open m1) /\
                                   (In x ev <-> In x (m_evicted m1)))).
  { destruct (lookup t (m_open m1)) as [ws|] eqn:El.
    - split; [apply drop_nodup, (i_nodup _ _ _ _ _ I)|]. split.
      + destruct (touched t ops) eqn:Ht; [|destruct (i_rest _ _ _ _ _ I t Ht) as (_ & H & _); congruence].
        destruct (i_file _ _ _ _ _ I t Ht) as (its0 & Hf & Hw & _). rewrite El in Hw. eauto.
      + intros x Hx. split; [reflexivity|]. split; [now apply lookup_drop_other|tauto].
    - split; [constructor; [now apply lookup_none|apply (i_nodup _ _ _ _ _ I)]|]. split.
      + destruct (touched t ops) eqn:Ht.
        * destruct (i_file _ _ _ _ _ I t Ht) as (its0 & Hf & Hw & Hev). rewrite El in Hw.
          apply mem_In in Hev; [|exact El]. rewrite Hev, orb_true_r. exists its0. split; [exact Hf|now apply wr_reopen].
        * destruct (i_rest _ _ _ _ _ I t Ht) as (Hf & _ & Hev). apply mem_false in Hev.
          rewrite Hev, orb_false_r, (events_untouched _ _ Ht). exists []. rewrite app_nil_r. split; [|constructor].
          unfold base. destruct (is_append md); [exact Hf|apply upd_same].
      + intros x Hx. split; [|split; [reflexivity|rewrite In_rm; tauto]].
        destruct (is_append md || mem t (m_evicted m1)); [reflexivity|now apply upd_other]. }
  destruct (match lookup t (m_open m1) with Some _ => _ | None => _ end) as [[[ws rest] ev] fs].
  destruct H as (Hnd & (its0 & Hft & Hw) & Hoth). intros e its ws' He.
  split; cbn [m_open m_evicted m_fs lookup].
  - exact Hnd.
  - intros x. rewrite touched_snoc, events_snoc. destruct (beqb_spec x t) as [->|Hne]; intros Hx.
    + exists (its0 ++ its). rewrite upd_same, Hft, app_assoc. split; [reflexivity|].
      split; [eapply wr_event; eauto|discriminate].
    + rewrite orb_false_r in Hx. destruct (Hoth x Hne) as (Hf & Hl & Hev).
      destruct (i_file _ _ _ _ _ I x Hx) as (i & H1 & H2 & H3). exists i.
      rewrite upd_other, Hf, Hl, Hev, app_nil_r by exact Hne. auto.
  - intros x. rewrite touched_snoc. destruct (beqb_spec x t) as [->|Hne]; [now rewrite orb_true_r|].
    rewrite orb_false_r. intros Hx. destruct (Hoth x Hne) as (Hf & Hl & Hev).
    rewrite upd_other, Hf, Hl, Hev by exact Hne. exact (i_rest _ _ _ _ _ I x Hx).
Qed.

Theorem run_inv md c F ops fs0 :
  m_err (run md c F ops fs0) = false -> inv md F fs0 ops (run md c F ops fs0).
Proof.
  induction ops as [|[t e] ops IH] using rev_ind; intros He.
  - split; cbn; [constructor|discriminate|auto].
  - rewrite run_snoc in *. pose proof (err_monotone _ _ _ _ _ He) as He0. rewrite step_eq in * by exact He0.
    pose proof (acquire_inv md c F fs0 ops t _ (IH He0)) as H.
    destruct (acquire md c F t (run md c F ops fs0)) as [[[ws rest] ev] fs].
    destruct (wev F ws e) as [[its ws']|] eqn:Ew; [now apply H|discriminate].
Qed.

Definition holds_written (F : fmt) (md : mode) (fs0 : fstore) (ops : list op) (fin : fstore) : Prop :=
  forall t,
  (touched t ops = true -> exists d, fin t = base md fs0 t ++ d /\ written F (events_of t ops) d None) /\
  (touched t ops = false -> fin t = fs0 t).

Theorem final_written md c F ops fs0 :
  m_err (run md c F ops fs0) = false -> holds_written F md fs0 ops (final md c F ops fs0).
Proof.
  intros He t. pose proof (run_inv md c F ops fs0 He) as I. unfold final.
  rewrite close_all_view by apply (i_nodup _ _ _ _ _ I). split; intros Ht.
  - destruct (i_file _ _ _ _ _ I t Ht) as (its & -> & Hw & _).
    destruct (lookup t (m_open (run md c F ops fs0))) as [w|].
    + exists (its ++ w_end F w). rewrite app_assoc. split; [reflexivity|now apply wr_close].
    + exists its. now rewrite app_nil_r.
  - destruct (i_rest _ _ _ _ _ I t Ht) as (-> & -> & _). apply app_nil_r.
Qed.

Definition start (md : mode) (fs0 : fstore) (ops : list op) (t : target) : list item :=
  if touched t ops then base md fs0 t else fs0 t.

(* a view P of a file that does not see end-of-stream text and sees each event the same way whatever the writer state: the
   file's records, its raw strings, or (stateless formats) everything *)
Section Projection.
  Variable F : fmt.
  Variable X : Type.
  Variable P : list item -> list X.
  Variable pe : event -> list X.
  Hypothesis P_app : forall a b, P (a ++ b) = P a ++ P b.
  Hypothesis P_nil : P [] = [].
  Hypothesis P_end : forall w, P (w_end F w) = [].
  Hypothesis P_ev : forall w e its w', wev F w e = Some (its, w') -> P its = pe e.

  Lemma written_proj evs its st : written F evs its st -> P its = flat_map pe evs.
  Proof.
    induction 1 as [|evs its w e its' w' _ IH He|evs its w _ IH|]; [exact P_nil| | |assumption].
    - rewrite P_app, flat_map_app, IH, (P_ev _ _ _ _ He). cbn. now rewrite app_nil_r.
    - now rewrite P_app, P_end, app_nil_r.
  Qed.

  Lemma holds_proj md fs0 ops fin :
    holds_written F md fs0 ops fin ->
    forall t, P (fin t) = P (start md fs0 ops t) ++ flat_map pe (events_of t ops).
  Proof.
    intros H t. destruct (H t) as [H1 H0]. unfold start. destruct (touched t ops) eqn:Ht.
    - destruct (H1 eq_refl) as (d & -> & Hw). now rewrite P_app, (written_proj _ _ _ Hw).
    - now rewrite (H0 eq_refl), (events_untouched _ _ Ht), app_nil_r.
  Qed.
End Projection.

Definition pe_rec (e : event) : list record := match e with ERec r => [r] | EStr _ => [] end.
Definition pe_raw (e : event) : list bytes := match e with ERec _ => [] | EStr s => [s] end.
Definition pe_item (e : event) : list item := match e with ERec r => [IRec r 0] | EStr s => [IRaw s] end.

Lemma recs_of_app a b : recs_of (a ++ b) = recs_of a ++ recs_of b.
Proof. induction a as [|i a IH]; [reflexivity|]. destruct i; cbn; try exact IH. now rewrite IH. Qed.
Lemma raws_of_app a b : raws_of (a ++ b) = raws_of a ++ raws_of b.
Proof. induction a as [|i a IH]; [reflexivity|]. destruct i; cbn; try exact IH. now rewrite IH. Qed.

Lemma flat_pe_rec evs : flat_map pe_rec evs = recs_of_events evs.
Proof. induction evs as [|[r|s] evs IH]; cbn; congruence. Qed.
Lemma flat_pe_raw evs : flat_map pe_raw evs = strs_of_events evs.
Proof. induction evs as [|[r|s] evs IH]; cbn; congruence. Qed.

Lemma wev_contents F w e its w' : wev F w e = Some (its, w') -> recs_of its = pe_rec e /\ raws_of its = pe_raw e.
Proof.
  destruct e as [r|s]; cbn; intros H; [|inversion H; auto].
  destruct F, w; cbn in H; try (inversion H; subst; cbn; auto; fail);
    destruct (prefix_agree first_keys (keys r)); inversion H; subst; cbn; auto.
Qed.

Lemma w_end_cases F w : w_end F w = [] \/ w_end F w = [IClose].
Proof. destruct F, w; cbn; auto. Qed.

Lemma w_end_contents F w : recs_of (w_end F w) = [] /\ raws_of (w_end F w) = [].
Proof. now destruct (w_end_cases F w) as [-> | ->]. Qed.

Lemma holds_records F md fs0 ops fin :
  holds_written F md fs0 ops fin ->
  forall t, recs_of (fin t) = recs_of (start md fs0 ops t) ++ recs_of_events (events_of t ops).
Proof.
  intros H t. rewrite <- flat_pe_rec. revert t.
  apply (holds_proj F record recs_of pe_rec recs_of_app eq_refl); [| |exact H].
  - intros w. apply w_end_contents.
  - intros w e its w' He. apply (wev_contents _ _ _ _ _ He).
Qed.

Lemma holds_strings F md fs0 ops fin :
  holds_written F md fs0 ops fin ->
  forall t, raws_of (fin t) = raws_of (start md fs0 ops t) ++ strs_of_events (events_of t ops).
Proof.
  intros H t. rewrite <- flat_pe_raw. revert t.
  apply (holds_proj F bytes raws_of pe_raw raws_of_app eq_refl); [| |exact H].
  - intros w. apply w_end_contents.
  - intros w e its w' He. apply (wev_contents _ _ _ _ _ He).
Qed.

Theorem routing_records md c F ops fs0 :
  m_err (run md c F ops fs0) = false ->
  forall t, recs_of (final md c F ops fs0 t) = recs_of (start md fs0 ops t) ++ recs_of_events (events_of t ops).
Proof. intros He. apply (holds_records F), final_written, He. Qed.

Theorem routing_strings md c F ops fs0 :
  m_err (run md c F ops fs0) = false ->
  forall t, raws_of (final md c F ops fs0 t) = raws_of (start md fs0 ops t) ++ strs_of_events (events_of t ops).
Proof. intros He. apply (holds_strings F), final_written, He. Qed.

Theorem untouched_unchanged md c F ops fs0 :
  m_err (run md c F ops fs0) = false ->
  forall t, touched t ops = false -> final md c F ops fs0 t = fs0 t.
Proof. intros He t. apply (final_written md c F ops fs0 He t). Qed.

Lemma wrun_stateless F : stateless F = true ->
  forall evs w, exists w', wrun F w evs = Some (flat_map pe_item evs, w').
Proof.
  intros Hs. induction evs as [|[r|s] evs IH]; intros w; cbn.
  - eauto.
  - assert (E : exists w1, w_rec F w r = Some ([IRec r 0], w1)) by (destruct F; try discriminate; cbn; eauto).
    destruct E as [w1 E]. rewrite E. destruct (IH w1) as [w' E']. rewrite E'. eauto.
  - destruct (IH w) as [w' E']. rewrite E'. eauto.
Qed.

Lemma single_doc_stateless F evs : stateless F = true -> single_doc F evs = Some (flat_map pe_item evs).
Proof.
  intros Hs. unfold single_doc. destruct (wrun_stateless F Hs evs WFresh) as [w' E]. rewrite E.
  assert (Hw : w_end F w' = []) by (destruct F, w'; try discriminate; reflexivity).
  now rewrite Hw, app_nil_r.
Qed.

Theorem one_document_stateless md c F ops fs0 :
  stateless F = true ->
  m_err (run md c F ops fs0) = false ->
  forall t, exists d, single_doc F (events_of t ops) = Some d /\ final md c F ops fs0 t = start md fs0 ops t ++ d.
Proof.
  intros Hs He t. exists (flat_map pe_item (events_of t ops)). split; [now apply single_doc_stateless|]. revert t.
  apply (holds_proj F item (fun x => x) pe_item (fun a b => eq_refl) eq_refl); [| |now apply final_written].
  - intros w. destruct F, w; try discriminate; reflexivity.
  - intros w [r|s] its w' H; [|now inversion H]. destruct F; try discriminate; cbn in H; inversion H; reflexivity.
Qed.

(* the open handlers once room is made for t: on a miss at capacity the last one goes *)
Definition room (md : mode) (c : nat) (t : target) (o : list (target * wstate)) : list (target * wstate) :=
  if must_evict md c t o then removelast o else o.

Lemma make_room_open md c F t m : m_open (make_room md c F t m) = room md c t (m_open m).
Proof.
  rewrite make_room_eq. unfold room, evict_last. destruct (must_evict md c t (m_open m)); [|reflexivity].
  destruct (split_last (m_open m)) as [[rest [tl wtl]]|] eqn:E.
  - apply split_last_spec in E. rewrite E. symmetry. apply removelast_last.
  - apply split_last_none in E. now rewrite E.
Qed.

(* both managers hand the open handlers on as [drop t (room ...)], with t's own in front: that is [served] on the names *)
Lemma served_names md c t o : NoDup (names o) -> t :: names (drop t (room md c t o)) = served md c t (names o).
Proof.
  intros Hnd. unfold served, room, must_evict. rewrite mem_names, names_length.
  destruct (lookup t o) eqn:El; [now rewrite names_drop_rm|].
  destruct (is_pipe md); cbn [negb andb]; [now rewrite drop_notin|].
  destruct (Nat.leb c (len o)); [|now rewrite drop_notin]. f_equal.
  induction o as [|x o _] using rev_ind; [reflexivity|].
  rewrite lookup_app in El. destruct (lookup t o) eqn:El'; [discriminate|].
  rewrite names_app. cbn [names map]. rewrite !removelast_last. now rewrite drop_notin.
Qed.

Lemma step_names md c F m t e :
  NoDup (names (m_open m)) -> m_err m = false -> m_err (step md c F m (t, e)) = false ->
  names (m_open (step md c F m (t, e))) = served md c t (names (m_open m)).
Proof.
  intros Hnd He0 He. rewrite step_eq in * by exact He0. rewrite <- (served_names md c t _ Hnd), <- (make_room_open md c F).
  unfold acquire in *. destruct (lookup t (m_open (make_room md c F t m))) eqn:El.
  - destruct (wev F _ e) as [[its ws']|]; [reflexivity|discriminate].
  - rewrite (drop_notin _ _ El). destruct (wev F _ e) as [[its ws']|]; [reflexivity|discriminate].
Qed.

Theorem open_is_most_recent md c F ops fs0 :
  is_pipe md = false -> m_err (run md c F ops fs0) = false ->
  names (m_open (run md c F ops fs0)) = firstn (Nat.max c 1) (recency (targets_of ops)).
Proof.
  intros Hp. induction ops as [|[t e] ops IH] using rev_ind; intros He.
  - symmetry. apply firstn_nil.
  - rewrite run_snoc in *. pose proof (err_monotone _ _ _ _ _ He) as He0.
    rewrite (step_names md c F _ t e (i_nodup _ _ _ _ _ (run_inv md c F ops fs0 He0)) He0 He).
    rewrite (IH He0), targets_snoc, recency_snoc. apply served_recency; [exact Hp|apply recency_nodup].
Qed.

(* header / bracket formats under the manager as it was: within the capacity (or with pipes) nothing is ever evicted *)
Lemma In_distinct x l : In x (distinct l) <-> In x l.
Proof. apply nodup_In. Qed.

Definition no_evict (md : mode) (c : nat) (ops : list op) : Prop :=
  is_pipe md = true \/ len (distinct (targets_of ops)) <= c.

(* pigeonhole: a miss at capacity means more than c distinct targets *)
Lemma no_evict_room md c ops more t o :
  no_evict md c (ops ++ more) -> In t (targets_of (ops ++ more)) ->
  NoDup (names o) -> incl (names o) (targets_of ops) -> must_evict md c t o = false.
Proof.
  intros Hne Hin Hnd Hincl. unfold must_evict. destruct (lookup t o) eqn:El; [reflexivity|].
  destruct Hne as [->|Hlen]; [reflexivity|]. destruct (is_pipe md); [reflexivity|]. apply Nat.leb_gt.
  apply lookup_none in El. assert (H : NoDup (t :: names o)) by now constructor.
  apply NoDup_incl_length with (l' := distinct (targets_of (ops ++ more))) in H.
  - cbn in H. rewrite names_length in H. lia.
  - intros x [<-|Hx]; apply In_distinct; [exact Hin|].
    unfold targets_of. rewrite map_app. apply in_or_app. left. now apply Hincl.
Qed.

Lemma acquire_no_evict md c F t m :
  must_evict md c t (m_open m) = false -> m_evicted m = [] ->
  acquire md c F t m =
  (match lookup t (m_open m) with Some w => w | None => WFresh end, drop t (m_open m), [],
   match lookup t (m_open m) with Some _ => m_fs m | None => if is_append md then m_fs m else upd t [] (m_fs m) end).
Proof.
  intros Hr Hev. unfold acquire. rewrite make_room_eq, Hr, Hev. destruct (lookup t (m_open m)) eqn:El; [reflexivity|].
  rewrite (drop_notin _ _ El). cbn. now rewrite orb_false_r.
Qed.

(* the open handlers are then all the handlers there are, one writer each *)
Lemma run_sync md c F fs0 ops more :
  no_evict md c (ops ++ more) -> m_err (run md c F ops fs0) = false ->
  let m := run md c F ops fs0 in
  sync (wrun F WFresh) md fs0 ops (m_open m) (m_fs m) /\ m_evicted m = [].
Proof.
  revert more. induction ops as [|[t e] ops IH] using rev_ind; intros more Hne He; [split; [apply sync_init|reflexivity]|].
  cbn zeta. rewrite run_snoc in *. pose proof (err_monotone _ _ _ _ _ He) as He0.
  rewrite <- app_assoc in Hne. destruct (IH _ Hne He0) as [Sy Hev]. rewrite step_eq in * by exact He0.
  assert (Hroom : must_evict md c t (m_open (run md c F ops fs0)) = false).
  { apply (no_evict_room md c ops ((t, e) :: more)); [exact Hne| |apply (s_nodup Sy)|].
    - unfold targets_of. rewrite map_app. apply in_or_app. right. now left.
    - intros x Hx. apply touched_iff, (sync_names Sy), Hx. }
  rewrite (acquire_no_evict md c F t _ Hroom Hev) in *.
  destruct (wev F _ e) as [[its ws']|] eqn:Ew; [|discriminate]. split; [|reflexivity].
  exact (sync_step eq_refl (wrun_snoc F WFresh) Sy Ew).
Qed.

Theorem one_document_no_eviction md c F ops fs0 :
  no_evict md c ops -> m_err (run md c F ops fs0) = false ->
  forall t, touched t ops = true ->
  exists d, single_doc F (events_of t ops) = Some d /\ final md c F ops fs0 t = base md fs0 t ++ d.
Proof.
  intros Hne He t. rewrite <- (app_nil_r ops) in Hne. destruct (run_sync md c F fs0 ops [] Hne He) as [Sy _].
  exact (proj1 (sync_final (w_end F) Sy t)).
Qed.

Definition has_rec (evs : list event) : bool := match recs_of_events evs with [] => false | _ => true end.

Lemma count_app p a b : count p (a ++ b) = count p a + count p b.
Proof. unfold count. now rewrite filter_app, app_length. Qed.

Definition nblank (F : fmt) (n : nat) : nat := match F with FXtab => n | _ => 0 end.

Definition started (w : wstate) : bool := match w with WStarted _ => true | WFresh => false end.

(* a writer that has started adds no header and no bracket, and XTAB an empty line before every record;
   a fresh one spends its header / opening bracket on the first record *)
Lemma wrun_counts F evs : forall w its w', wrun F w evs = Some (its, w') ->
  let one := if started w then 0 else if has_rec evs then 1 else 0 in
  count is_header its = (match F with FCsv | FTsv => one | _ => 0 end) /\
  count is_open its = (match F with FJson => one | _ => 0 end) /\
  count is_close its = 0 /\
  count is_blank its = nblank F (len (recs_of_events evs) - one) /\
  started w' = started w || has_rec evs.
Proof.
  induction evs as [|[r|s] evs IH]; intros w its w' H; cbn [wrun] in H.
  - inversion H; subst. destruct F, w'; cbn; auto.
  - destruct (w_rec F w r) as [[i1 w1]|] eqn:E1; [|discriminate].
    destruct (wrun F w1 evs) as [[i2 w2]|] eqn:E2; [|discriminate]. inversion H; subst.
    destruct (IH _ _ _ E2) as (g1 & g2 & g3 & g4 & g5). rewrite !count_app, g1, g2, g3, g4, g5.
    unfold has_rec. cbn [recs_of_events len]. 
    destruct F, w; cbn in E1; try destruct (prefix_agree _ _); inversion E1; subst; cbn; rewrite ?Nat.sub_0_r; auto.
  - destruct (wrun F w evs) as [[i2 w2]|] eqn:E2; [|discriminate]. inversion H; subst.
    apply (IH _ _ _ E2).
Qed.

(* one header (CSV, TSV) / one bracket pair (JSON) iff at least one record; XTAB: one empty line BETWEEN records *)
Theorem single_doc_shape F evs d :
  single_doc F evs = Some d ->
  let one := if has_rec evs then 1 else 0 in
  count is_header d = (match F with FCsv | FTsv => one | _ => 0 end) /\
  count is_open d = (match F with FJson => one | _ => 0 end) /\
  count is_close d = (match F with FJson => one | _ => 0 end) /\
  count is_blank d = nblank F (pred (len (recs_of_events evs))).
Proof.
  unfold single_doc. destruct (wrun F WFresh evs) as [[its w]|] eqn:E; [|discriminate].
  intros H. inversion H; subst. destruct (wrun_counts _ _ _ _ _ E) as (g1 & g2 & g3 & g4 & g5).
  cbn [started orb] in *. rewrite !count_app, g1, g2, g3, g4. unfold has_rec in *.
  destruct F, w, (recs_of_events evs); cbn in *; try discriminate; rewrite ?Nat.sub_0_r; auto.
Qed.

(* beyond the capacity, header / bracket formats: the manager as it was writes a second header / bracket pair when an evicted
   target is used again; the repaired one does not *)
Definition wname (i : nat) : target := [ascii_of_nat (65 + i / 26); ascii_of_nat (97 + i mod 26)].
Definition wrec (i : nat) : record := [(B "a", [ascii_of_nat (48 + i mod 10)]); (B "b", B "x")].
(* c+1 targets once each, then the first one again (it was evicted when the last one was opened) *)
Definition witness_ops (c : nat) : list op :=
  map (fun i => (wname i, ERec (wrec i))) (seq 0 (S c)) ++ [(wname 0, ERec (wrec 1))].
Definition empty_store : fstore := fun _ => [].

(* the history through both managers, evaluated once: [set] makes the history and each manager state one shared term.
   Under the manager as it was the file holds two complete documents, one after the other *)
Lemma witness_runs :
  let ops := witness_ops 256 in
  events_of (wname 0) ops = [ERec (wrec 0); ERec (wrec 1)] /\
  (m_err (run MWrite 256 FCsv ops empty_store) = false /\
   final MWrite 256 FCsv ops empty_store (wname 0) =
     [IHeader (keys (wrec 0)); IRec (wrec 0) 0; IHeader (keys (wrec 1)); IRec (wrec 1) 0]) /\
  (m_err (run MWrite 256 FJson ops empty_store) = false /\
   final MWrite 256 FJson ops empty_store (wname 0) = [IOpen; IRec (wrec 0) 0; IClose; IOpen; IRec (wrec 1) 0; IClose]) /\
  r_err (runR MWrite 256 FCsv ops empty_store) = false.
Proof.
  cbn zeta. set (ops := witness_ops 256). unfold final. set (m := run _ _ FCsv _ _). set (m' := run _ _ FJson _ _).
  vm_compute. repeat split; reflexivity.
Qed.

Lemma distinct_snoc_in (l : list target) x : NoDup l -> In x l -> len (distinct (l ++ [x])) = len l.
Proof.
  intros Hnd Hx. apply Nat.le_antisymm; (apply NoDup_incl_length; [|intros y Hy]).
  - apply NoDup_nodup.
  - apply In_distinct, in_app_or in Hy as [Hy|[<-|[]]]; assumption.
  - exact Hnd.
  - apply In_distinct, in_or_app. now left.
Qed.

(* quotient and remainder by 26 can be read off the two letters *)
Lemma wname_inj i j : i < 26 * 10 -> j < 26 * 10 -> wname i = wname j -> i = j.
Proof.
  intros Hi Hj H. apply (f_equal (map nat_of_ascii)) in H. cbn [wname map] in H.
  assert (Hq : forall k, k < 26 * 10 -> k / 26 < 10) by (intros k Hk; now apply Nat.div_lt_upper_bound).
  pose proof (Hq i Hi). pose proof (Hq j Hj).
  pose proof (Nat.mod_upper_bound i 26). pose proof (Nat.mod_upper_bound j 26).
  rewrite !nat_ascii_embedding in H by lia.
  pose proof (f_equal (hd 0) H) as Hq1. pose proof (f_equal (fun l => hd 0 (tl l)) H) as Hq2. cbn [hd tl] in Hq1, Hq2.
  rewrite (Nat.div_mod i 26), (Nat.div_mod j 26) by lia. lia.
Qed.

Lemma witness_targets c : S c < 26 * 10 -> len (distinct (targets_of (witness_ops c))) = S c.
Proof.
  intros Hc. unfold witness_ops, targets_of. rewrite map_app, map_map. cbn [map fst].
  rewrite distinct_snoc_in.
  - rewrite map_length. apply seq_length.
  - apply NoDup_map_inj_in; [apply seq_NoDup|]. intros i j Hi Hj. apply in_seq in Hi, Hj. apply wname_inj; lia.
  - apply (in_map wname _ 0). apply in_seq. lia.
Qed.

(* the two documents against the one a single writer produces (stated over variables: the history is a large term) *)
Lemma csv_twice_shape evs f :
  evs = [ERec (wrec 0); ERec (wrec 1)] ->
  f = [IHeader (keys (wrec 0)); IRec (wrec 0) 0; IHeader (keys (wrec 1)); IRec (wrec 1) 0] ->
  exists d, single_doc FCsv evs = Some d /\ f <> d /\ count is_header d = 1 /\ count is_header f = 2.
Proof.
  intros -> ->. exists [IHeader (keys (wrec 0)); IRec (wrec 0) 0; IRec (wrec 1) 0].
  split; [reflexivity|]. split; [discriminate|]. split; reflexivity.
Qed.

Lemma json_twice_shape evs f :
  evs = [ERec (wrec 0); ERec (wrec 1)] -> f = [IOpen; IRec (wrec 0) 0; IClose; IOpen; IRec (wrec 1) 0; IClose] ->
  exists d, single_doc FJson evs = Some d /\ f <> d /\
            count is_open d = 1 /\ count is_close d = 1 /\ count is_open f = 2 /\ count is_close f = 2.
Proof.
  intros -> ->. exists [IOpen; IRec (wrec 0) 0; ISep; IRec (wrec 1) 0; IClose].
  split; [reflexivity|]. split; [discriminate|]. split; [reflexivity|]. split; [reflexivity|]. split; reflexivity.
Qed.

Lemma witness_csv_256 :
  exists c ops t,
    c = 256 /\ len (distinct (targets_of ops)) = 257 /\
    m_err (run MWrite c FCsv ops empty_store) = false /\
    exists d, single_doc FCsv (events_of t ops) = Some d /\
              final MWrite c FCsv ops empty_store t <> d /\
              count is_header d = 1 /\ count is_header (final MWrite c FCsv ops empty_store t) = 2.
Proof.
  exists 256, (witness_ops 256), (wname 0). destruct witness_runs as (Hev & [He Hf] & _). split; [reflexivity|].
  split; [apply witness_targets; cbn; lia|]. split; [exact He|]. exact (csv_twice_shape _ _ Hev Hf).
Qed.

Lemma witness_json_256 :
  exists c ops t,
    c = 256 /\
    m_err (run MWrite c FJson ops empty_store) = false /\
    exists d, single_doc FJson (events_of t ops) = Some d /\
              final MWrite c FJson ops empty_store t <> d /\
              count is_open d = 1 /\ count is_close d = 1 /\
              count is_open (final MWrite c FJson ops empty_store t) = 2 /\
              count is_close (final MWrite c FJson ops empty_store t) = 2.
Proof.
  exists 256, (witness_ops 256), (wname 0). destruct witness_runs as (Hev & _ & [He Hf] & _). split; [reflexivity|].
  split; [exact He|]. exact (json_twice_shape _ _ Hev Hf).
Qed.

(* the smallest instance, readable: capacity 1, targets Aa Ab Aa *)
Lemma witness_csv_small :
  render FCsv (final MWrite 1 FCsv (witness_ops 1) empty_store (wname 0)) = B "a,b
0,x
a,b
1,x
".
Proof. vm_compute. reflexivity. Qed.

(* XTAB beyond the capacity: the re-opened writer does not know a record was written before, the separating empty
   line is missing and the two records read back as ONE (capacity 1, targets Aa Ab Aa) *)
Lemma witness_xtab_small :
  render FXtab (final MWrite 1 FXtab (witness_ops 1) empty_store (wname 0)) = B "a 0
b x
a 1
b x
" /\ (forall d, single_doc FXtab (events_of (wname 0) (witness_ops 1)) = Some d -> render FXtab d = B "a 0
b x

a 1
b x
").
Proof. split; [vm_compute; reflexivity|]. intros d H. vm_compute in H. inversion H. vm_compute. reflexivity. Qed.

Lemma tee_first_delivers_all rest cut recs : delivered (VTee :: rest) cut recs = recs.
Proof. reflexivity. Qed.

Theorem tee_then_head n rest cut recs :
  run_chain (VTee :: VHead n :: rest) cut recs =
  (recs :: fst (chain rest (firstn n recs)), snd (chain rest (firstn n recs))).
Proof.
  unfold run_chain. rewrite tee_first_delivers_all. cbn. destruct (chain rest (firstn n recs)); reflexivity.
Qed.

(* without the tee, the reader is allowed to stop early: this is what the tee's special case prevents *)
Lemma head_alone_may_stop n cut recs : run_chain [VHead n] cut recs = ([], firstn n (firstn cut recs)).
Proof. reflexivity. Qed.
