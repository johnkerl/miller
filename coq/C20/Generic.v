(* C20 -- the repaired output-handler manager over an ARBITRARY streaming record writer.

   Model.mgrR / runR / finalR fix seven formats and an item alphabet; here the same manager (same code path:
   getOutputHandlerFor = hit / suspend lruTail when at capacity / resume a suspended handler / new handler) is
   parametric in the record writer, given as a state machine
        sw_init                      Create(recordWriterOptions)
        sw_rec st r = Some (bytes, st')   IRecordWriter.Write(outrec, ...)   (None = the writer returns an error)
        sw_end st                    IRecordWriter.Write(nil, ...)       (end of stream, once, at Close())
   and files are BYTES.  The writers of pkg/output (CSV, TSV, csvlite, JSON with/without list wrap and vstack, JSON
   Lines, DKVP, NIDX, XTAB, PPRINT incl. barred/right/headerless, markdown streaming and aligned) are instances
   (C20/Writers.v), each proved equal to C01's whole-document writer function. *)
From Miller Require Import Base.Bytes Base.Record C20.Model C20.Handlers.
From Coq Require Import Arith PeanoNat Lia.
Open Scope list_scope.

Record swriter := SW {
  sw_st : Type;
  sw_init : sw_st;
  sw_rec : sw_st -> record -> option (bytes * sw_st);
  sw_end : sw_st -> bytes
}.

Definition bstore := target -> bytes.
Definition bupd (t : target) (v : bytes) (f : bstore) : bstore := fun t' => if beqb t' t then v else f t'.

Section G.
  Variable W : swriter.
  Notation S := (sw_st W).
  Definition hl := list (target * S).

  Fixpoint glookup (t : target) (l : hl) : option S :=
    match l with
    | [] => None
    | (t', s) :: r => if beqb t t' then Some s else glookup t r
    end.

  Fixpoint gdrop (t : target) (l : hl) : hl :=
    match l with
    | [] => []
    | (t', s) :: r => if beqb t t' then r else (t', s) :: gdrop t r
    end.

  Record mgrG := MgrG { g_open : hl; g_susp : hl; g_fs : bstore; g_err : bool }.

  (* FileOutputHandler.suspend() on lruTail: flush + close the file, keep the handler with its record writer *)
  Definition evict_lastG (m : mgrG) : mgrG :=
    match split_last (g_open m) with
    | Some (rest, x) => MgrG rest (x :: g_susp m) (g_fs m) (g_err m)
    | None => m
    end.

  Definition make_roomG (md : mode) (c : nat) (t : target) (m : mgrG) : mgrG :=
    match glookup t (g_open m) with
    | Some _ => m
    | None => if is_pipe md then m else if Nat.leb c (List.length (g_open m)) then evict_lastG m else m
    end.

  Definition acquireG (md : mode) (c : nat) (t : target) (m : mgrG) : S * hl * hl * bstore :=
    let m1 := make_roomG md c t m in
    match glookup t (g_open m1) with
    | Some s => (s, gdrop t (g_open m1), g_susp m1, g_fs m1)
    | None =>
        match glookup t (g_susp m1) with
        | Some s => (s, g_open m1, gdrop t (g_susp m1), g_fs m1)            (* resume(): O_APPEND, same writer *)
        | None => (sw_init W, g_open m1, g_susp m1, if is_append md then g_fs m1 else bupd t [] (g_fs m1))
        end
    end.

  Definition stepG (md : mode) (c : nat) (m : mgrG) (o : op) : mgrG :=
    if g_err m then m else
    let '(t, e) := o in
    let '(s, rest, susp, fs) := acquireG md c t m in
    match e with
    | ERec r =>
        match sw_rec W s r with
        | Some (out, s') => MgrG ((t, s') :: rest) susp (bupd t (fs t ++ out) fs) false
        | None => MgrG ((t, s) :: rest) susp fs true
        end
    | EStr x => MgrG ((t, s) :: rest) susp (bupd t (fs t ++ x) fs) false
    end.

  Definition runG (md : mode) (c : nat) (ops : list op) (fs0 : bstore) : mgrG :=
    fold_left (stepG md c) ops (MgrG [] [] fs0 false).

  (* MultiOutputHandlerManager.Close(): every handler, open or suspended, ends its document *)
  Definition close_allG (l : hl) (fs : bstore) : bstore :=
    fold_left (fun fs '(t, s) => bupd t (fs t ++ sw_end W s) fs) l fs.

  Definition finalG (md : mode) (c : nat) (ops : list op) (fs0 : bstore) : bstore :=
    let m := runG md c ops fs0 in close_allG (g_open m ++ g_susp m) (g_fs m).

  (* the reference: ONE writer over the target's own events *)
  Fixpoint srun (s : S) (evs : list event) : option (bytes * S) :=
    match evs with
    | [] => Some ([], s)
    | ERec r :: t =>
        match sw_rec W s r with
        | Some (o, s1) => match srun s1 t with Some (o', s2) => Some (o ++ o', s2) | None => None end
        | None => None
        end
    | EStr x :: t => match srun s t with Some (o', s2) => Some (x ++ o', s2) | None => None end
    end.

  Definition sdoc (evs : list event) : option bytes :=
    match srun (sw_init W) evs with Some (o, s) => Some (o ++ sw_end W s) | None => None end.

  Definition gbase (md : mode) (fs0 : bstore) (t : target) : bytes := if is_append md then fs0 t else [].

  (* glookup, gdrop, bupd are Handlers.hlookup, hdrop, hupd at this writer's state and files of bytes *)
  Lemma bupd_same t v f : bupd t v f t = v.
  Proof. exact (hupd_same t v f). Qed.
  Lemma bupd_other t v f x : x <> t -> bupd t v f x = f x.
  Proof. exact (hupd_other t v f x). Qed.

  Lemma glookup_app t a b : glookup t (a ++ b) = match glookup t a with Some w => Some w | None => glookup t b end.
  Proof. exact (hlookup_app _ t a b). Qed.

  Lemma gdrop_app t a b :
    gdrop t (a ++ b) = match glookup t a with Some _ => gdrop t a ++ b | None => a ++ gdrop t b end.
  Proof. exact (hdrop_app _ t a b). Qed.

  Lemma gdrop_notin t l : glookup t l = None -> gdrop t l = l.
  Proof. exact (hdrop_notin _ t l). Qed.

  Definition gcomb (m : mgrG) : hl := g_open m ++ g_susp m.

  Lemma make_roomG_comb md c t m :
    gcomb (make_roomG md c t m) = gcomb m /\ g_fs (make_roomG md c t m) = g_fs m /\ g_err (make_roomG md c t m) = g_err m.
  Proof.
    unfold make_roomG. destruct (glookup t (g_open m)); [auto|]. destruct (is_pipe md); [auto|].
    destruct (Nat.leb c (List.length (g_open m))); [|auto]. unfold evict_lastG.
    destruct (split_last (g_open m)) as [[rest x]|] eqn:E; [|auto].
    apply split_last_spec in E. unfold gcomb. cbn. rewrite E, <- app_assoc. auto.
  Qed.

  Lemma acquireG_view md c t m :
    let '(s, rest, susp, fs) := acquireG md c t m in
    rest ++ susp = gdrop t (gcomb m) /\
    s = match glookup t (gcomb m) with Some w => w | None => sw_init W end /\
    fs = match glookup t (gcomb m) with
         | Some _ => g_fs m
         | None => if is_append md then g_fs m else bupd t [] (g_fs m)
         end.
  Proof.
    unfold acquireG. destruct (make_roomG_comb md c t m) as (Hc & Hf & _).
    set (m1 := make_roomG md c t m) in *. rewrite <- Hc, <- Hf. unfold gcomb. rewrite glookup_app, gdrop_app.
    destruct (glookup t (g_open m1)) as [w|]; [auto|].
    destruct (glookup t (g_susp m1)) as [w|] eqn:E2; [auto|]. now rewrite (gdrop_notin _ _ E2).
  Qed.

  Lemma runG_snoc md c ops o fs0 : runG md c (ops ++ [o]) fs0 = stepG md c (runG md c ops fs0) o.
  Proof. unfold runG. now rewrite fold_left_app. Qed.

  Lemma errG_monotone md c m o : g_err (stepG md c m o) = false -> g_err m = false.
  Proof. unfold stepG. destruct (g_err m) eqn:E; [now rewrite E|reflexivity]. Qed.

  Definition sev (s : S) (e : event) : option (bytes * S) :=
    match e with ERec r => sw_rec W s r | EStr x => Some (x, s) end.

  Lemma stepG_eq md c m t e :
    g_err m = false ->
    stepG md c m (t, e) =
    let '(s, rest, susp, fs) := acquireG md c t m in
    match sev s e with
    | Some (out, s') => MgrG ((t, s') :: rest) susp (bupd t (fs t ++ out) fs) false
    | None => MgrG ((t, s) :: rest) susp fs true
    end.
  Proof.
    intros He. unfold stepG. rewrite He. destruct (acquireG md c t m) as [[[s rest] susp] fs]. now destruct e.
  Qed.

  Lemma srun_app s a b :
    srun s (a ++ b) =
    match srun s a with
    | Some (o1, s1) => match srun s1 b with Some (o2, s2) => Some (o1 ++ o2, s2) | None => None end
    | None => None
    end.
  Proof.
    revert s. induction a as [|[r|x] a IH]; intros s; cbn.
    - now destruct (srun s b) as [[o2 s2]|].
    - destruct (sw_rec W s r) as [[o s1]|]; [|reflexivity]. rewrite IH. destruct (srun s1 a) as [[o1 s2]|]; [|reflexivity].
      destruct (srun s2 b) as [[o2 s3]|]; now rewrite ?app_assoc.
    - rewrite IH. destruct (srun s a) as [[o1 s2]|]; [|reflexivity]. destruct (srun s2 b) as [[o2 s3]|]; now rewrite ?app_assoc.
  Qed.

  Lemma srun_snoc s evs e :
    srun s (evs ++ [e]) =
    match srun s evs with
    | Some (o, s1) => match sev s1 e with Some (o2, s2) => Some (o ++ o2, s2) | None => None end
    | None => None
    end.
  Proof.
    rewrite srun_app. destruct (srun s evs) as [[o s1]|]; [|reflexivity].
    destruct e as [r|x]; cbn; [destruct (sw_rec W s1 r) as [[o2 s2]|]|]; now rewrite ?app_nil_r.
  Qed.

  Definition syncG (md : mode) (fs0 : bstore) (ops : list op) (m : mgrG) : Prop :=
    sync (srun (sw_init W)) md fs0 ops (gcomb m) (g_fs m).

  Lemma syncG_step md c fs0 ops o m :
    syncG md fs0 ops m -> g_err (stepG md c m o) = false -> syncG md fs0 (ops ++ [o]) (stepG md c m o).
  Proof.
    intros Sy He. pose proof (errG_monotone _ _ _ _ He) as He0. destruct o as [t e].
    rewrite stepG_eq in * by exact He0. pose proof (acquireG_view md c t m) as Hv.
    destruct (acquireG md c t m) as [[[s0 rest] susp] fs]. destruct Hv as (Hcomb & -> & ->).
    destruct (sev _ e) as [[out s']|] eqn:Ew; [|discriminate].
    unfold syncG, gcomb. cbn [g_open g_susp g_fs]. rewrite <- app_comm_cons, Hcomb.
    exact (sync_step eq_refl (srun_snoc (sw_init W)) Sy Ew).
  Qed.

  Lemma runG_sync md c fs0 ops :
    g_err (runG md c ops fs0) = false -> syncG md fs0 ops (runG md c ops fs0).
  Proof.
    induction ops as [|o ops IH] using rev_ind; intros He; [apply sync_init|].
    rewrite runG_snoc in *. apply syncG_step; [|exact He]. apply IH. eapply errG_monotone; eauto.
  Qed.

  (* ONE document per target, whatever the writer: any number of targets, any capacity, any revisit pattern, any mode *)
  Theorem one_document_generic md c ops fs0 :
    g_err (runG md c ops fs0) = false ->
    forall t,
    (touched t ops = true ->
     exists d, sdoc (events_of t ops) = Some d /\ finalG md c ops fs0 t = gbase md fs0 t ++ d) /\
    (touched t ops = false -> finalG md c ops fs0 t = fs0 t).
  Proof.
    intros He. exact (sync_final (sw_end W) (runG_sync md c fs0 ops He)).
  Qed.

  (* the manager reports an error exactly when ONE writer over some target's own events does: the error is the writer's
     (CSV/TSV schema change), never an artefact of eviction *)
  Lemma sdoc_prefix_ok a b : sdoc (a ++ b) <> None -> sdoc a <> None.
  Proof. unfold sdoc. rewrite srun_app. now destruct (srun (sw_init W) a) as [[o s]|]. Qed.

  Theorem no_error_when_documents_exist md c ops fs0 :
    (forall t, sdoc (events_of t ops) <> None) -> g_err (runG md c ops fs0) = false.
  Proof.
    induction ops as [|[t e] ops IH] using rev_ind; intros Hd; [reflexivity|].
    assert (He0 : g_err (runG md c ops fs0) = false).
    { apply IH. intros t'. specialize (Hd t'). rewrite events_snoc in Hd. now apply sdoc_prefix_ok in Hd. }
    specialize (Hd t). rewrite events_snoc, beqb_refl in Hd. unfold sdoc in Hd. rewrite srun_snoc in Hd.
    rewrite runG_snoc, stepG_eq by exact He0.
    destruct (sync_state eq_refl t (runG_sync md c fs0 ops He0)) as (o0 & Hw & _).
    pose proof (acquireG_view md c t (runG md c ops fs0)) as Hv.
    destruct (acquireG md c t (runG md c ops fs0)) as [[[s0 rest] susp] fs]. destruct Hv as (_ & -> & _).
    rewrite Hw in Hd. destruct (sev _ e) as [[out s']|]; [reflexivity|]. now elim Hd.
  Qed.
End G.

Arguments MgrG {W}.
Arguments g_open {W}. Arguments g_susp {W}. Arguments g_fs {W}. Arguments g_err {W}.
