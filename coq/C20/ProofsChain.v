(* C20 proofs: several fan-out stages upstream of an early-exit verb. *)
From Miller Require Import Base.Record C20.Model C20.Proofs.
Open Scope list_scope.

Lemma chain_tees k n recs : chain (repeat VTee k ++ [VHead n]) recs = (repeat recs k, firstn n recs).
Proof. induction k as [|k IH]; cbn; [reflexivity|]. now rewrite IH. Qed.

(* the first stage is the tee verb: it does not forward the downstream-done flag, so the reader delivers everything, and every
   fan-out stage up to the head receives every record; the main output is the first n records *)
Theorem fanouts_before_head k n cut recs :
  run_chain (repeat VTee (S k) ++ [VHead n]) cut recs = (repeat recs (S k), firstn n recs).
Proof.
  unfold run_chain. cbn [repeat app]. rewrite tee_first_delivers_all. exact (chain_tees (S k) n recs).
Qed.
