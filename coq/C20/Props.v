(* C20 property theorems, each followed by Print Assumptions.
   The first part is about Model.runR / Model.finalR -- the manager as repaired (suspend / resume of evicted handlers), the
   definitions Harness.chk evaluates against the real MultiOutputHandlerManager.  [r_err = false] excludes histories on
   which a record writer reports an error (CSV schema change); Example C20_nonvacuous shows the hypotheses are met by
   a real eviction history.  The theorems C20_unrepaired_manager_* are about the unrepaired manager
   (Model.run / Model.final: eviction closes the handler, a later use starts a fresh writer); Harness.chk does not evaluate it.  The second part is about the manager over any streaming record writer (Generic.runG / finalG, evaluated by HarnessG.chkG). *)
From Miller Require Import Base.Bytes Base.Record.
From Miller Require Import C01.Model C01.ModelJson C01.ModelXtab C01.ModelLite C01.ModelPprint C01.ModelMd C01.ProofsTsv C01.ProofsCsv C01.ProofsDkvp C01.ProofsJson C01.ProofsXtab C01.ProofsLite C01.ProofsPprint.
From Miller Require Import Base.Bytes Base.Record C20.Model C20.Proofs C20.ProofsR C20.Generic C20.Writers C20.ProofsW C20.WritersYaml C20.ProofsChain.
Open Scope list_scope.

(* LRU invariant, every history, every capacity: no target open twice or suspended twice, never more than max(c,1)
   handlers open (pipes excepted: they are never evicted), suspended names are not open, and the touched names are
   exactly the open and the suspended ones. *)
Theorem C20_lru_invariant :
  forall md c F ops fs0, let m := runR md c F ops fs0 in
  r_err m = false ->
  NoDup (map fst (r_open m)) /\ NoDup (map fst (r_susp m)) /\
  (is_pipe md = false -> List.length (r_open m) <= Nat.max c 1) /\
  (forall t, In t (map fst (r_susp m)) -> ~ In t (map fst (r_open m))) /\
  (forall t, In t (targets_of ops) <-> In t (map fst (r_open m)) \/ In t (map fst (r_susp m))).
Proof. exact lru_invariant_R. Qed.
Print Assumptions C20_lru_invariant.

(* routing is complete and ordered: after Close, the records in target t are what was there to begin with
   (kept in append mode, truncated otherwise, untouched if t was never written) followed by exactly the records
   routed to t, in stream order -- every format, every mode, ANY number of targets and revisit pattern. *)
Theorem C20_routing_complete_ordered_records :
  forall md c F ops fs0, r_err (runR md c F ops fs0) = false ->
  forall t, recs_of (finalR md c F ops fs0 t) = recs_of (start md fs0 ops t) ++ recs_of_events (events_of t ops).
Proof. exact routing_records_R. Qed.
Print Assumptions C20_routing_complete_ordered_records.

(* the same for text written by redirected print / printn / dump *)
Theorem C20_routing_complete_ordered_strings :
  forall md c F ops fs0, r_err (runR md c F ops fs0) = false ->
  forall t, raws_of (finalR md c F ops fs0 t) = raws_of (start md fs0 ops t) ++ strs_of_events (events_of t ops).
Proof. exact routing_strings_R. Qed.
Print Assumptions C20_routing_complete_ordered_strings.

(* ONE document per target: EVERY format, EVERY mode, ANY number of targets, any capacity, any revisit pattern --
   each touched target holds base ++ exactly the document a single writer produces for its sub-sequence
   (base = previous content in append mode, empty otherwise); untouched targets are unchanged.
   (For the unrepaired manager Model.run this holds only for stateless formats or within the capacity; see C20_unrepaired_manager_*.) *)
Theorem C20_one_document :
  forall md c F ops fs0, r_err (runR md c F ops fs0) = false ->
  forall t,
  (touched t ops = true ->
   exists d, single_doc F (events_of t ops) = Some d /\ finalR md c F ops fs0 t = base md fs0 t ++ d) /\
  (touched t ops = false -> finalR md c F ops fs0 t = fs0 t).
Proof. exact one_document_repaired. Qed.
Print Assumptions C20_one_document.

(* append mode (">>", tee -a, split -a) extends what the file held; write mode and pipes start from nothing *)
Theorem C20_append_mode_extends_existing :
  forall md c F ops fs0, r_err (runR md c F ops fs0) = false ->
  forall t, touched t ops = true ->
  exists d, single_doc F (events_of t ops) = Some d /\
            finalR md c F ops fs0 t = (match md with MAppend => fs0 t | _ => [] end) ++ d.
Proof. exact append_mode_extends. Qed.
Print Assumptions C20_append_mode_extends_existing.

(* what "one document" means: one header line (CSV, TSV) / one bracket pair (JSON) exactly when there is a record;
   XTAB: exactly one empty line between consecutive records *)
Theorem C20_document_has_one_header_one_bracket_pair :
  forall F evs d, single_doc F evs = Some d ->
  let one := if has_rec evs then 1 else 0 in
  count is_header d = (match F with FCsv | FTsv => one | _ => 0 end) /\
  count is_open d = (match F with FJson => one | _ => 0 end) /\
  count is_close d = (match F with FJson => one | _ => 0 end) /\
  count is_blank d = nblank F (pred (List.length (recs_of_events evs))).
Proof. exact single_doc_shape. Qed.
Print Assumptions C20_document_has_one_header_one_bracket_pair.

(* targets never written keep their content, whatever else happens *)
Theorem C20_untouched_targets_unchanged :
  forall md c F ops fs0, r_err (runR md c F ops fs0) = false ->
  forall t, touched t ops = false -> finalR md c F ops fs0 t = fs0 t.
Proof. exact (fun md c F ops fs0 He t => proj2 (one_document_repaired md c F ops fs0 He t)). Qed.
Print Assumptions C20_untouched_targets_unchanged.

(* The manager BEFORE the repair (Model.run: eviction closes, re-open starts a fresh writer), header / bracket formats beyond
   the capacity: at the real capacity 256, 257 targets written once
   and the first one written again gives a CSV file with two header lines / a JSON file with two bracket pairs
   (the handler was evicted, closed, and re-opened in append mode with a fresh record writer).
   This is finding lru-evict-reopen-repeats-header; C20_one_document is the theorem about the repaired manager (Model.runR). *)
Theorem C20_unrepaired_manager_repeats_csv_header :
  exists c ops t,
    c = 256 /\ List.length (distinct (targets_of ops)) = 257 /\
    m_err (run MWrite c FCsv ops empty_store) = false /\
    exists d, single_doc FCsv (events_of t ops) = Some d /\
              final MWrite c FCsv ops empty_store t <> d /\
              count is_header d = 1 /\ count is_header (final MWrite c FCsv ops empty_store t) = 2.
Proof. exact witness_csv_256. Qed.
Print Assumptions C20_unrepaired_manager_repeats_csv_header.

Theorem C20_unrepaired_manager_repeats_json_brackets :
  exists c ops t,
    c = 256 /\
    m_err (run MWrite c FJson ops empty_store) = false /\
    exists d, single_doc FJson (events_of t ops) = Some d /\
              final MWrite c FJson ops empty_store t <> d /\
              count is_open d = 1 /\ count is_close d = 1 /\
              count is_open (final MWrite c FJson ops empty_store t) = 2 /\
              count is_close (final MWrite c FJson ops empty_store t) = 2.
Proof. exact witness_json_256. Qed.
Print Assumptions C20_unrepaired_manager_repeats_json_brackets.

(* the same defect under XTAB loses a record BOUNDARY: the separating empty line is not written after a re-open,
   so two records read back as one (smallest instance: capacity 1, targets Aa Ab Aa) *)
Theorem C20_unrepaired_manager_loses_xtab_separator :
  render FXtab (final MWrite 1 FXtab (witness_ops 1) empty_store (wname 0)) = B "a 0
b x
a 1
b x
" /\ (forall d, single_doc FXtab (events_of (wname 0) (witness_ops 1)) = Some d -> render FXtab d = B "a 0
b x

a 1
b x
").
Proof. exact witness_xtab_small. Qed.
Print Assumptions C20_unrepaired_manager_loses_xtab_separator.

(* true LRU: at every moment the open handlers are exactly the max(c,1) most recently used distinct targets, most
   recent first -- so the handler that gets suspended on a miss at capacity is the least recently used one *)
Theorem C20_open_set_is_most_recently_used :
  forall md c F ops fs0, is_pipe md = false -> r_err (runR md c F ops fs0) = false ->
  map fst (r_open (runR md c F ops fs0)) = firstn (Nat.max c 1) (recency (targets_of ops)).
Proof. exact open_is_most_recent_R. Qed.
Print Assumptions C20_open_set_is_most_recently_used.

(* ... and on the 257-target history on which the unrepaired manager repeated the header, one header / one bracket pair *)
Theorem C20_one_document_on_old_witness :
  let ops := witness_ops 256 in
  r_err (runR MWrite 256 FCsv ops empty_store) = false /\
  count is_header (finalR MWrite 256 FCsv ops empty_store (wname 0)) = 1 /\
  count is_open (finalR MWrite 256 FJson ops empty_store (wname 0)) = 1 /\
  count is_close (finalR MWrite 256 FJson ops empty_store (wname 0)) = 1.
Proof. exact repaired_on_witness. Qed.
Print Assumptions C20_one_document_on_old_witness.

(* tee passes every record on and sees every record even when a later head stops early: the tee stage does not
   forward the downstream-done flag, so the reader is never told to stop.  _partial: this is the flag-propagation
   abstraction only (Model.delivered); the goroutine/channel mechanics are C04's subject. *)
Theorem C20_main_stream_continues_partial :
  forall n rest cut recs,
  run_chain (VTee :: VHead n :: rest) cut recs =
  (recs :: fst (chain rest (firstn n recs)), snd (chain rest (firstn n recs))).
Proof. exact tee_then_head. Qed.
Print Assumptions C20_main_stream_continues_partial.

(* hypotheses are satisfiable on a real eviction history: capacity 2, three targets, CSV, the first target revisited
   after its eviction (suspended, resumed: ONE header); append mode onto existing content *)
Example C20_nonvacuous :
  let ops := [(B "x", ERec [(B "a", B "1")]); (B "y", ERec [(B "a", B "2")]); (B "z", EStr (B "hello"));
              (B "x", ERec [(B "a", B "3")])] in
  r_err (runR MWrite 2 FCsv ops empty_store) = false /\
  map fst (r_susp (runR MWrite 2 FCsv ops empty_store)) = [B "y"] /\
  touched (B "x") ops = true /\ touched (B "q") ops = false /\
  render FCsv (finalR MWrite 2 FCsv ops empty_store (B "x")) = B "a
1
3
" /\
  render FCsv (finalR MAppend 2 FCsv ops (upd (B "x") [IRaw (B "old
")] empty_store) (B "x")) = B "old
a
1
3
" /\
  r_err (runR MAppend 3 FJson ops empty_store) = false.
Proof. vm_compute. repeat split; reflexivity. Qed.

(* ================================================================ the manager over ANY streaming record writer (Generic.v), and
   the writers of pkg/output as streaming machines (Writers.v: CSV, TSV, csvlite, JSON with / without the outer list and
   --jvstack, JSON Lines, DKVP, NIDX, XTAB, PPRINT incl. --barred-output --right --headerless-pprint-output, markdown streaming
   and --omd-aligned).  Tied to the real manager with the real writers and options by HarnessG.chkG (byte-for-byte, histories
   with heterogeneous records, also beyond the capacity). *)

(* ONE document per target for EVERY writer that is a state machine (state, step, end-of-stream text): any history of
   (target, record | text) writes, any number of targets, any capacity, modes > >> | *)
Theorem C20_one_document_any_writer :
  forall (W : swriter) md c ops fs0, g_err (runG W md c ops fs0) = false ->
  forall t,
  (touched t ops = true ->
   exists d, sdoc W (events_of t ops) = Some d /\ finalG W md c ops fs0 t = gbase md fs0 t ++ d) /\
  (touched t ops = false -> finalG W md c ops fs0 t = fs0 t).
Proof. exact one_document_generic. Qed.
Print Assumptions C20_one_document_any_writer.

(* the manager reports an error only if ONE writer over some target's own events does (CSV / TSV schema change): eviction
   never causes an error *)
Theorem C20_errors_are_the_writers :
  forall (W : swriter) md c ops fs0, (forall t, sdoc W (events_of t ops) <> None) -> g_err (runG W md c ops fs0) = false.
Proof. exact no_error_when_documents_exist. Qed.
Print Assumptions C20_errors_are_the_writers.

(* each streaming writer produces exactly C01's document for the records it is given *)
Theorem C20_streaming_writers_are_C01_documents :
  (forall hl qa crlf comma recs, sdoc (W_csv hl qa crlf comma) (map ERec recs) = write_csv hl qa crlf comma recs) /\
  (forall hl crlf recs, sdoc (W_tsv hl crlf) (map ERec recs) = write_tsv hl crlf recs) /\
  (forall ofs hl crlf recs, sdoc (W_csvlite ofs hl crlf) (map ERec recs) = Some (write_csvlite ofs hl crlf recs)) /\
  (forall ml recs, sdoc (W_json_wrap ml) (map ERec recs) = Some (write_json ml true recs)) /\
  (forall ml recs, sdoc (W_json_nowrap ml) (map ERec recs) = Some (write_json ml false recs)) /\
  (forall ofs ops crlf recs, sdoc (W_dkvp ofs ops crlf) (map ERec recs) = Some (write_dkvp ofs ops crlf recs)) /\
  (forall ofs crlf recs, sdoc (W_nidx ofs crlf) (map ERec recs) = Some (write_nidx ofs crlf recs)) /\
  (forall w ops right recs, sdoc (W_xtab w ops right) (map ERec recs) = Some (write_xtab w ops right recs)) /\
  (forall w right barred hl crlf recs, sdoc (W_pprint w right barred hl crlf) (map ERec recs) = Some (write_pprint_g w right barred hl crlf recs)) /\
  (forall w crlf recs, sdoc (W_md crlf) (map ERec recs) = Some (write_markdown w false crlf recs)) /\
  (forall w crlf recs, sdoc (W_mda w (ors_of crlf)) (map ERec recs) = Some (write_markdown w true crlf recs)).
Proof.
  exact (conj W_csv_doc (conj W_tsv_doc (conj W_csvlite_doc (conj W_json_wrap_doc (conj W_json_nowrap_doc (conj W_dkvp_doc
        (conj W_nidx_doc (conj W_xtab_doc (conj W_pprint_doc (conj W_md_doc W_mda_doc')))))))))).
Qed.
Print Assumptions C20_streaming_writers_are_C01_documents.

(* per writer: every touched target holds  base ++ <format document of exactly the records routed to it, in stream order> *)
Theorem C20_csv_target_is_one_document :
  forall hl qa crlf comma md c ops fs0,
  records_only ops = true -> g_err (runG (W_csv hl qa crlf comma) md c ops fs0) = false ->
  forall t,
  (touched t ops = true -> exists d, write_csv hl qa crlf comma (routed t ops) = Some d /\
                                     finalG (W_csv hl qa crlf comma) md c ops fs0 t = gbase md fs0 t ++ d) /\
  (touched t ops = false -> finalG (W_csv hl qa crlf comma) md c ops fs0 t = fs0 t).
Proof. exact T_csv. Qed.
Print Assumptions C20_csv_target_is_one_document.

Theorem C20_tsv_target_is_one_document :
  forall hl crlf md c ops fs0,
  records_only ops = true -> g_err (runG (W_tsv hl crlf) md c ops fs0) = false ->
  forall t,
  (touched t ops = true -> exists d, write_tsv hl crlf (routed t ops) = Some d /\ finalG (W_tsv hl crlf) md c ops fs0 t = gbase md fs0 t ++ d) /\
  (touched t ops = false -> finalG (W_tsv hl crlf) md c ops fs0 t = fs0 t).
Proof. exact T_tsv. Qed.
Print Assumptions C20_tsv_target_is_one_document.

(* JSON with the outer list: one bracket pair, commas between the records; the writer is total, so no error hypothesis *)
Theorem C20_json_target_is_one_document :
  forall ml md c ops fs0, records_only ops = true ->
  forall t, touched t ops = true ->
  finalG (W_json_wrap ml) md c ops fs0 t = gbase md fs0 t ++ write_json ml true (routed t ops).
Proof. exact T_json_wrap. Qed.
Print Assumptions C20_json_target_is_one_document.

(* PPRINT: the batch retained by the writer survives suspension; blocks of equal keys, a blank line between blocks *)
Theorem C20_pprint_target_is_one_document :
  forall w right barred hl crlf md c ops fs0, records_only ops = true ->
  forall t, touched t ops = true ->
  finalG (W_pprint w right barred hl crlf) md c ops fs0 t = gbase md fs0 t ++ write_pprint_g w right barred hl crlf (routed t ops).
Proof. exact T_pprint. Qed.
Print Assumptions C20_pprint_target_is_one_document.

Theorem C20_xtab_target_is_one_document :
  forall w o right md c ops fs0, records_only ops = true ->
  forall t, touched t ops = true ->
  finalG (W_xtab w o right) md c ops fs0 t = gbase md fs0 t ++ write_xtab w o right (routed t ops).
Proof. exact T_xtab. Qed.
Print Assumptions C20_xtab_target_is_one_document.

(* csvlite: a schema change inside one target is a blank line and a new header (not an error), also across suspensions *)
Theorem C20_csvlite_target_is_one_document :
  forall ofs hl crlf md c ops fs0, records_only ops = true ->
  forall t, touched t ops = true ->
  finalG (W_csvlite ofs hl crlf) md c ops fs0 t = gbase md fs0 t ++ write_csvlite ofs hl crlf (routed t ops).
Proof. exact T_csvlite. Qed.
Print Assumptions C20_csvlite_target_is_one_document.

Theorem C20_markdown_target_is_one_document :
  forall w crlf md c ops fs0, records_only ops = true ->
  forall t, touched t ops = true ->
  finalG (W_md crlf) md c ops fs0 t = gbase md fs0 t ++ write_markdown w false crlf (routed t ops).
Proof. exact T_md. Qed.
Print Assumptions C20_markdown_target_is_one_document.

(* well-formed = reads back: composition with C01's round-trip theorems -- each target written with > or | reads back as
   exactly the records routed to it, in order (same hypotheses on the records as C01's theorem for the format) *)
Theorem C20_csv_target_reads_back :
  forall qa crlf comma lazy dedupe ragged md c ops fs0,
  is_append md = false -> records_only ops = true -> g_err (runG (W_csv false qa crlf comma) md c ops fs0) = false ->
  forall t, touched t ops = true -> wf_csv crlf comma (routed t ops) = true ->
  read_csv false lazy dedupe ragged comma (finalG (W_csv false qa crlf comma) md c ops fs0 t) = Some (routed t ops).
Proof. exact R_csv. Qed.
Print Assumptions C20_csv_target_reads_back.

Theorem C20_tsv_target_reads_back :
  forall crlf dedupe ragged md c ops fs0,
  is_append md = false -> records_only ops = true -> g_err (runG (W_tsv false crlf) md c ops fs0) = false ->
  forall t, touched t ops = true -> wf_tsv (routed t ops) = true ->
  read_tsv dedupe ragged (finalG (W_tsv false crlf) md c ops fs0 t) = Some (routed t ops).
Proof. exact R_tsv. Qed.
Print Assumptions C20_tsv_target_reads_back.

Theorem C20_json_target_reads_back :
  forall ml md c ops fs0,
  is_append md = false -> records_only ops = true ->
  forall t, touched t ops = true -> forallb (fun r => nodupb (keys r)) (routed t ops) = true ->
  read_json_ref (finalG (W_json_wrap ml) md c ops fs0 t) = Some (routed t ops).
Proof. exact (fun ml => R_json ml true). Qed.
Print Assumptions C20_json_target_reads_back.

Theorem C20_pprint_target_reads_back :
  forall w right crlf dedupe ragged md c ops fs0,
  is_append md = false -> records_only ops = true ->
  forall t, touched t ops = true -> wf_pprint crlf (routed t ops) = true ->
  read_pprint dedupe ragged (finalG (W_pprint w right false false crlf) md c ops fs0 t) = Some (routed t ops).
Proof. exact R_pprint. Qed.
Print Assumptions C20_pprint_target_reads_back.

Theorem C20_csvlite_target_reads_back :
  forall ch crlf dedupe ragged md c ops fs0,
  is_append md = false -> records_only ops = true ->
  forall t, touched t ops = true -> wf_lite ch (routed t ops) = true ->
  read_csvlite [ch] dedupe ragged (finalG (W_csvlite [ch] false crlf) md c ops fs0 t) = Some (routed t ops).
Proof. exact R_csvlite. Qed.
Print Assumptions C20_csvlite_target_reads_back.

Theorem C20_xtab_target_reads_back :
  forall w ch dedupe md c ops fs0,
  is_append md = false -> records_only ops = true ->
  forall t, touched t ops = true -> wf_xtab ch (routed t ops) = true ->
  read_xtab [ch] dedupe (finalG (W_xtab w [ch] false) md c ops fs0 t) = Some (routed t ops).
Proof. exact R_xtab. Qed.
Print Assumptions C20_xtab_target_reads_back.

(* non-vacuous: PPRINT at capacity 1, target x revisited after its eviction with a DIFFERENT schema -- two blocks, one blank line,
   the retained batch written at Close; csvlite likewise; JSON: one bracket pair *)
Example C20_writers_nonvacuous :
  let ops := [(B "x", ERec [(B "a", B "1")]); (B "y", ERec [(B "a", B "2")]); (B "x", ERec [(B "a", B "3")]);
              (B "y", ERec [(B "b", B "4")]); (B "x", ERec [(B "b", B "55")])] in
  let W := W_pprint (@List.length Ascii.ascii) false false false false in
  g_err (runG W MWrite 1 ops (fun _ => [])) = false /\
  finalG W MWrite 1 ops (fun _ => []) (B "x") = B "a
1
3

b
55
" /\
  finalG (W_csvlite (B ",") false false) MWrite 1 ops (fun _ => []) (B "y") = B "a
2

b
4
" /\
  finalG (W_json_wrap false) MAppend 1 ops (bupd (B "x") (B "old
") (fun _ => [])) (B "x") = B "old
[
{""a"": ""1""},
{""a"": ""3""},
{""b"": ""55""}
]
" /\
  g_err (runG (W_csv false false false ","%char) MWrite 1 ops (fun _ => [])) = true.
Proof. vm_compute. repeat split; reflexivity. Qed.

(* YAML list mode (the default --oyaml): the writer buffers every record and marshals the sequence at end of stream, so ALL of a
   target's bytes are owed at Close(), also by handlers that were suspended (evicted) and never used again: each target holds
   base ++ marshal(exactly the records routed to it, in order), for every marshalling function *)
Theorem C20_yaml_list_target_is_one_document :
  forall (marshal : list record -> bytes) md c ops fs0, records_only ops = true ->
  forall t, touched t ops = true ->
  finalG (W_yaml_list marshal) md c ops fs0 t = gbase md fs0 t ++ marshal (routed t ops).
Proof. exact (fun marshal => total_target_is_one_document (W_yaml_list marshal) marshal (W_yaml_list_doc marshal)). Qed.
Print Assumptions C20_yaml_list_target_is_one_document.

(* several fan-out stages (tee verb first, then tee verbs / put 'tee > ...') upstream of head -n: every one of them receives
   EVERY record, the main output is the first n records.  (Flag-propagation abstraction, as C20_main_stream_continues_partial.) *)
Theorem C20_fanouts_before_early_exit_partial :
  forall k n cut recs, run_chain (repeat VTee (S k) ++ [VHead n]) cut recs = (repeat recs (S k), firstn n recs).
Proof. exact fanouts_before_head. Qed.
Print Assumptions C20_fanouts_before_early_exit_partial.
