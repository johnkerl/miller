(* C20 -- what the three managers (Model.run, Model.runR, Generic.runG) have in common, for any writer state S and any file
   alphabet X: lists of handlers, file stores, the LRU policy on names, and the invariant of a manager that keeps ONE writer
   per target.  Model.lookup / drop / upd and Generic.glookup / gdrop / bupd are [hlookup] / [hdrop] / [hupd] at their types
   (equal by computation), so a statement proved here holds of them as it stands. *)
From Miller Require Import Base.Record C20.Model.
From Coq Require Import Arith PeanoNat Lia.
From Miller Require Import Base.RecordFacts.
Open Scope list_scope.

Notation len := List.length.

Lemma In_rm x t l : In x (rm t l) <-> In x l /\ x <> t.
Proof.
  unfold rm. rewrite filter_In. rewrite negb_true_iff, beqb_false. intuition congruence.
Qed.

Lemma rm_cons t x l : rm t (x :: l) = if beqb t x then rm t l else x :: rm t l.
Proof. unfold rm. cbn. now destruct (beqb t x). Qed.

Lemma rm_notin t l : ~ In t l -> rm t l = l.
Proof.
  induction l as [|x l IH]; cbn; intros H; [reflexivity|].
  destruct (beqb_spec t x) as [->|Hne]; cbn; [exfalso; apply H; now left|]. f_equal. apply IH. tauto.
Qed.

Lemma split_last_none {A} (l : list A) : split_last l = None <-> l = [].
Proof.
  destruct l as [|x l]; cbn; [tauto|]. destruct (split_last l) as [[i z]|]; split; discriminate.
Qed.

Lemma split_last_app {A} (i : list A) z : split_last (i ++ [z]) = Some (i, z).
Proof.
  induction i as [|a i IH]; cbn; [reflexivity|]. now rewrite IH.
Qed.

Lemma split_last_spec {A} (l : list A) i z : split_last l = Some (i, z) <-> l = i ++ [z].
Proof.
  split; [|intros ->; apply split_last_app].
  revert i z. induction l as [|x l IH]; intros i z; cbn; [discriminate|].
  destruct (split_last l) as [[i' z']|] eqn:E.
  - intros H. inversion H; subst. cbn. f_equal. apply IH. reflexivity.
  - intros H. inversion H; subst. apply split_last_none in E. now subst.
Qed.

Lemma touched_snoc t ops t' e : touched t (ops ++ [(t', e)]) = touched t ops || beqb t t'.
Proof.
  unfold touched, targets_of, mem. rewrite map_app, existsb_app. cbn. now rewrite orb_false_r.
Qed.

Lemma events_snoc t ops t' e :
  events_of t (ops ++ [(t', e)]) = events_of t ops ++ (if beqb t t' then [e] else []).
Proof.
  induction ops as [|[t2 e2] ops IH]; cbn.
  - destruct (beqb t t'); reflexivity.
  - destruct (beqb t t2); cbn; now rewrite IH.
Qed.

Lemma events_untouched t ops : touched t ops = false -> events_of t ops = [].
Proof.
  induction ops as [|[t2 e2] ops IH]; cbn; [reflexivity|].
  unfold touched, targets_of in *. cbn. destruct (beqb t t2); cbn; [discriminate|]. exact IH.
Qed.

(* the LRU policy on names alone: the target served comes to the front; on a miss at capacity the last name goes.  Serving the
   max(c,1) most recent names of a history gives those of the history extended ([served_recency]) *)
Definition served (md : mode) (c : nat) (t : target) (o : list target) : list target :=
  t :: (if mem t o then rm t o else if is_pipe md then o else if Nat.leb c (len o) then removelast o else o).

Lemma recency_snoc ts t : recency (ts ++ [t]) = t :: rm t (recency ts).
Proof. unfold recency. now rewrite fold_left_app. Qed.

Lemma targets_snoc ops o : targets_of (ops ++ [o]) = targets_of ops ++ [fst o].
Proof. unfold targets_of. now rewrite map_app. Qed.

Lemma recency_nodup ts : NoDup (recency ts).
Proof.
  induction ts as [|t ts IH] using rev_ind; [constructor|].
  rewrite recency_snoc. constructor; [|now apply NoDup_filter]. intros H. apply In_rm in H. tauto.
Qed.

Lemma mem_cons t x l : mem t (x :: l) = beqb t x || mem t l.
Proof. reflexivity. Qed.

Lemma firstn_In' {A} n (l : list A) x : In x (firstn n l) -> In x l.
Proof. revert l. induction n; intros [|y l]; cbn; try tauto. intros [E|E]; auto. Qed.

(* the first k names once t is taken out: t taken out of the first k+1 if it is among them, the first k otherwise *)
Lemma firstn_rm t k l :
  NoDup l -> firstn k (rm t l) = if mem t (firstn (S k) l) then rm t (firstn (S k) l) else firstn k l.
Proof.
  intros Hnd. revert k. induction l as [|x l IH]; intros k; [now destruct k|].
  inversion Hnd as [|? ? Hni Hnd']; subst. rewrite !firstn_cons, rm_cons, mem_cons.
  destruct (beqb_spec t x) as [->|Hne]; cbn [orb].
  - rewrite rm_cons, beqb_refl, !rm_notin; [reflexivity| |exact Hni]. intros H. apply Hni. eapply firstn_In'; eauto.
  - destruct k as [|k]; [reflexivity|]. rewrite firstn_cons, (IH Hnd' k), rm_cons.
    apply beqb_false in Hne. rewrite Hne. now destruct (mem t (firstn (S k) l)).
Qed.

(* room for one more among at most k+1 = max(c,1) names: all but the last of a full list, all of a shorter one *)
Lemma make_room_firstn c k (o : list target) :
  Nat.max c 1 = S k -> len o <= S k -> (if Nat.leb c (len o) then removelast o else o) = firstn k o.
Proof.
  intros Hk H. destruct (Nat.leb_spec c (len o)).
  - rewrite removelast_firstn_len. f_equal. lia.
  - symmetry. apply firstn_all2. lia.
Qed.

Lemma served_recency md c t L :
  is_pipe md = false -> NoDup L ->
  served md c t (firstn (Nat.max c 1) L) = firstn (Nat.max c 1) (t :: rm t L).
Proof.
  intros Hp Hnd. unfold served. rewrite Hp. destruct (Nat.max c 1) as [|k] eqn:Hk; [lia|].
  rewrite (make_room_firstn c k) by (auto using firstn_le_length).
  rewrite firstn_firstn, Nat.min_l by lia. cbn [firstn]. now rewrite firstn_rm.
Qed.


Definition hupd {V} (t : target) (v : V) (f : target -> V) : target -> V := fun t' => if beqb t' t then v else f t'.

Lemma hupd_same {V} t (v : V) f : hupd t v f t = v.
Proof. unfold hupd. now rewrite beqb_refl. Qed.

Lemma hupd_other {V} t (v : V) f x : x <> t -> hupd t v f x = f x.
Proof. unfold hupd. intros H. apply beqb_false in H. now rewrite H. Qed.

Section Handlers.
  Variable S : Type.
  Implicit Types l a b : list (target * S).

  Fixpoint hlookup (t : target) l : option S :=
    match l with
    | [] => None
    | (t', s) :: r => if beqb t t' then Some s else hlookup t r
    end.

  Fixpoint hdrop (t : target) l : list (target * S) :=
    match l with
    | [] => []
    | (t', s) :: r => if beqb t t' then r else (t', s) :: hdrop t r
    end.

  Lemma hmem_names t l : mem t (map fst l) = match hlookup t l with Some _ => true | None => false end.
  Proof. unfold mem. induction l as [|[t' w] l IH]; cbn; [reflexivity|]. now destruct (beqb t t'). Qed.

  Lemma hlookup_none t l : hlookup t l = None <-> ~ In t (map fst l).
  Proof. rewrite <- mem_false, hmem_names. destruct (hlookup t l); split; congruence. Qed.

  Lemma hlookup_some_in t l s : hlookup t l = Some s -> In t (map fst l).
  Proof. intros H. apply mem_In. now rewrite hmem_names, H. Qed.

  Lemma hnames_drop_rm t l : NoDup (map fst l) -> map fst (hdrop t l) = rm t (map fst l).
  Proof.
    induction l as [|[t' w] l IH]; cbn; intros Hnd; [reflexivity|].
    inversion Hnd as [|? ? Hni Hnd']; subst.
    destruct (beqb_spec t t') as [->|Hne]; cbn.
    - symmetry. now apply rm_notin.
    - f_equal. now apply IH.
  Qed.

  Lemma hdrop_nodup t l : NoDup (map fst l) -> NoDup (t :: map fst (hdrop t l)).
  Proof.
    intros H. rewrite hnames_drop_rm by exact H. constructor; [rewrite In_rm; tauto|now apply NoDup_filter].
  Qed.

  Lemma hlookup_drop_other x t l : x <> t -> hlookup x (hdrop t l) = hlookup x l.
  Proof.
    intros Hne. induction l as [|[t' w'] l IH]; cbn; [reflexivity|].
    destruct (beqb_spec t t') as [->|Hn]; cbn.
    - destruct (beqb_spec x t'); [congruence|reflexivity].
    - destruct (beqb x t'); auto.
  Qed.

  Lemma hlookup_app t a b : hlookup t (a ++ b) = match hlookup t a with Some w => Some w | None => hlookup t b end.
  Proof. induction a as [|[t' w] a IH]; cbn; [reflexivity|]. destruct (beqb t t'); auto. Qed.

  Lemma hdrop_app t a b :
    hdrop t (a ++ b) = match hlookup t a with Some _ => hdrop t a ++ b | None => a ++ hdrop t b end.
  Proof.
    induction a as [|[t' w'] a IH]; cbn; [reflexivity|]. destruct (beqb t t'); [reflexivity|].
    rewrite IH. now destruct (hlookup t a).
  Qed.

  Lemma hdrop_notin t l : hlookup t l = None -> hdrop t l = l.
  Proof.
    induction l as [|[t' w'] l IH]; cbn; [reflexivity|]. destruct (beqb t t'); [discriminate|]. intros H. f_equal. auto.
  Qed.

  (* Close(): every handler of the list writes its end-of-stream text *)
  Lemma hclose_view {X} (fin : S -> list X) l fs t :
    NoDup (map fst l) ->
    fold_left (fun fs '(t, s) => hupd t (fs t ++ fin s) fs) l fs t =
    fs t ++ match hlookup t l with Some s => fin s | None => [] end.
  Proof.
    revert fs. induction l as [|[t' w'] l IH]; intros fs Hnd; cbn.
    - now rewrite app_nil_r.
    - inversion Hnd as [|? ? Hni Hnd']; subst. rewrite IH by exact Hnd'.
      destruct (beqb_spec t t') as [->|Hne].
      + rewrite hupd_same. apply hlookup_none in Hni. now rewrite Hni, app_nil_r.
      + rewrite hupd_other by exact Hne. reflexivity.
  Qed.
End Handlers.

Arguments hlookup {S}. Arguments hdrop {S}.

(* ONE writer per target.  [sev s e]: one event through a writer in state s; [run evs]: an event list through one writer from
   its initial state.  A manager that never ends a writer before Close() is described by its handlers all together (open or
   suspended) and its files: [sync] says each touched target's handler holds the state of one writer run over the target's own
   events, and the file holds what it started with followed by that writer's output so far. *)
Section OneWriter.
  Variables S X : Type.
  Variable init : S.
  Variable sev : S -> event -> option (list X * S).
  Variable run : list event -> option (list X * S).
  Hypothesis run_nil : run [] = Some ([], init).
  Hypothesis run_snoc : forall evs e,
    run (evs ++ [e]) =
    match run evs with
    | Some (o, s1) => match sev s1 e with Some (o2, s2) => Some (o ++ o2, s2) | None => None end
    | None => None
    end.
  Implicit Types (l : list (target * S)) (fs : target -> list X).

  Definition hbase (md : mode) fs0 (t : target) : list X := if is_append md then fs0 t else [].

  (* what getOutputHandlerFor t hands out: t's writer, a fresh one if t has none; and the files once t's is open (a new
     handler truncates unless appending) *)
  Definition hstate (t : target) l : S := match hlookup t l with Some s => s | None => init end.
  Definition hfile (md : mode) (t : target) l fs : target -> list X :=
    match hlookup t l with Some _ => fs | None => if is_append md then fs else hupd t [] fs end.

  Record sync (md : mode) fs0 (ops : list op) l fs : Prop := {
    s_nodup : NoDup (map fst l);
    s_open : forall t, touched t ops = true ->
             exists o s, run (events_of t ops) = Some (o, s) /\ hlookup t l = Some s /\ fs t = hbase md fs0 t ++ o;
    s_rest : forall t, touched t ops = false -> fs t = fs0 t /\ hlookup t l = None
  }.

  Lemma sync_init md fs0 : sync md fs0 [] [] fs0.
  Proof. split; cbn; [constructor|discriminate|auto]. Qed.

  Lemma sync_names md fs0 ops l fs : sync md fs0 ops l fs -> forall t, touched t ops = true <-> In t (map fst l).
  Proof.
    intros Sy t. destruct (touched t ops) eqn:Ht.
    - destruct (s_open _ _ _ _ _ Sy t Ht) as (o & s & _ & Hl & _). apply hlookup_some_in in Hl. tauto.
    - destruct (s_rest _ _ _ _ _ Sy t Ht) as [_ Hl]. apply hlookup_none in Hl. split; [discriminate|contradiction].
  Qed.

  Lemma sync_state md fs0 ops l fs t :
    sync md fs0 ops l fs ->
    exists o, run (events_of t ops) = Some (o, hstate t l) /\ hfile md t l fs t = hbase md fs0 t ++ o /\
              (forall x, x <> t -> hfile md t l fs x = fs x).
  Proof.
    intros Sy. unfold hstate, hfile. destruct (touched t ops) eqn:Ht.
    - destruct (s_open _ _ _ _ _ Sy t Ht) as (o & s & Hr & -> & Hf). eauto.
    - destruct (s_rest _ _ _ _ _ Sy t Ht) as [Hf ->]. rewrite (events_untouched _ _ Ht). exists []. rewrite app_nil_r.
      split; [exact run_nil|]. unfold hbase. destruct (is_append md); [auto|]. split; [apply hupd_same|].
      intros x Hx. now apply hupd_other.
  Qed.

  Lemma sync_step md fs0 ops l fs t e out s' :
    sync md fs0 ops l fs -> sev (hstate t l) e = Some (out, s') ->
    sync md fs0 (ops ++ [(t, e)]) ((t, s') :: hdrop t l) (hupd t (hfile md t l fs t ++ out) (hfile md t l fs)).
  Proof.
    intros Sy He. destruct (sync_state md fs0 ops l fs t Sy) as (o & Hr & Hft & Hoth).
    split; cbn [map fst hlookup].
    - apply hdrop_nodup, (s_nodup _ _ _ _ _ Sy).
    - intros x Hx. rewrite touched_snoc in Hx. rewrite events_snoc. destruct (beqb_spec x t) as [Ext|Hxt]; [subst x|].
      + exists (o ++ out), s'. rewrite run_snoc, Hr, He, hupd_same, Hft, app_assoc. auto.
      + rewrite orb_false_r in Hx. rewrite app_nil_r, hlookup_drop_other, hupd_other, Hoth by exact Hxt.
        exact (s_open _ _ _ _ _ Sy x Hx).
    - intros x Hx. rewrite touched_snoc in Hx. apply orb_false_iff in Hx as [Hx Hb]. rewrite Hb. apply beqb_false in Hb.
      rewrite hlookup_drop_other, hupd_other, Hoth by exact Hb. exact (s_rest _ _ _ _ _ Sy x Hx).
  Qed.

  Lemma sync_final md fs0 ops l fs (fin : S -> list X) :
    sync md fs0 ops l fs ->
    forall t,
    let doc := match run (events_of t ops) with Some (o, s) => Some (o ++ fin s) | None => None end in
    let ff := fold_left (fun fs '(t, s) => hupd t (fs t ++ fin s) fs) l fs in
    (touched t ops = true -> exists d, doc = Some d /\ ff t = hbase md fs0 t ++ d) /\
    (touched t ops = false -> ff t = fs0 t).
  Proof.
    intros Sy t. cbn zeta. rewrite hclose_view by apply (s_nodup _ _ _ _ _ Sy). split; intros Ht.
    - destruct (s_open _ _ _ _ _ Sy t Ht) as (o & s & -> & -> & ->). eexists. split; [reflexivity|symmetry; apply app_assoc].
    - destruct (s_rest _ _ _ _ _ Sy t Ht) as [-> ->]. apply app_nil_r.
  Qed.
End OneWriter.

Arguments hbase {X}. Arguments hstate {S}. Arguments hfile {S X}.
Arguments sync {S X}.
Arguments s_nodup {S X run md fs0 ops l fs}.
Arguments s_open {S X run md fs0 ops l fs}.
Arguments s_rest {S X run md fs0 ops l fs}.
Arguments sync_init {S X}.
Arguments sync_names {S X run md fs0 ops l fs}.
Arguments sync_state {S X init run} _ {md fs0 ops l fs}.
Arguments sync_step {S X init sev run} _ _ {md fs0 ops l fs t e out s'}.
Arguments sync_final {S X run md fs0 ops l fs}.
