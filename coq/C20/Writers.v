(* C20 -- the record writers of pkg/output as STREAMING state machines (what a FileOutputHandler's writer goroutine
   does record by record, and at end of stream), each proved equal to C01's whole-document writer function:
        sdoc W (records) = C01.write_<format> ... records
   so that, composed with Generic.one_document_generic, every fan-out target holds  base ++ C01.write_<format>(records routed
   to it), and C01's round-trip theorems apply to each target file.

   State of each machine = the fields of the Go struct:
     DKVP / NIDX / JSON Lines / JSON without list wrap      none
     JSON with list wrap    wroteAnyRecords
     CSV / TSV              firstRecordKeys (None until the first record; needToPrintHeader = not headerless and None)
     csvlite                lastJoinedHeader (option), justWroteEmptyLine
     XTAB                   onFirst
     PPRINT                 batch (reversed) with lastJoinedHeader
     markdown (streaming)   lastJoinedHeader ("" = header to be written)
     markdown (aligned)     numBatchesOutput = 0 ?, batch with batchJoinedHeader *)
From Miller Require Import Base.Bytes Base.Record C20.Model C20.Generic.
From Miller Require Import C01.Model C01.ModelXtab C01.ModelLite C01.ModelPprint C01.ModelMd C01.ModelJson C01.ProofsUtil.
Open Scope list_scope.

Notation cjoin := C01.Model.join.

Notation recs_events recs := (map ERec recs) (only parsing).

(* ---------------------------------------------------------------- generic: a writer given by "text from a state" *)
Section Ref.
  Variable W : swriter.
  (* whole-document function from a state, None on writer error *)
  Variable ref : sw_st W -> list record -> option bytes.
  Hypothesis ref_nil : forall s, ref s [] = Some (sw_end W s).
  Hypothesis ref_cons : forall s r t,
    ref s (r :: t) = match sw_rec W s r with
                     | Some (o, s1) => match ref s1 t with Some d => Some (o ++ d) | None => None end
                     | None => None
                     end.

  Lemma srun_ref s recs :
    match srun W s (recs_events recs) with Some (o, s') => Some (o ++ sw_end W s') | None => None end = ref s recs.
  Proof.
    revert s. induction recs as [|r t IH]; intros s; cbn.
    - now rewrite ref_nil.
    - rewrite ref_cons. destruct (sw_rec W s r) as [[o s1]|]; [|reflexivity]. rewrite <- IH.
      destruct (srun W s1 (recs_events t)) as [[o' s2]|]; [|reflexivity]. now rewrite app_assoc.
  Qed.

  Lemma sdoc_ref recs : sdoc W (recs_events recs) = ref (sw_init W) recs.
  Proof. unfold sdoc. apply srun_ref. Qed.
End Ref.

(* ---------------------------------------------------------------- line-oriented stateless writers *)
Definition line_writer (line : record -> bytes) : swriter :=
  SW unit tt (fun _ r => Some (line r, tt)) (fun _ => []).

Lemma line_writer_doc line recs : sdoc (line_writer line) (recs_events recs) = Some (List.concat (map line recs)).
Proof.
  rewrite (sdoc_ref (line_writer line) (fun _ recs => Some (List.concat (map line recs)))); [reflexivity|reflexivity|].
  intros s r t. cbn. reflexivity.
Qed.

(* record_writer_dkvp.go *)
Definition W_dkvp (ofs ops : bytes) (crlf : bool) := line_writer (fun r => dkvp_line ofs ops r ++ ors_of crlf).
(* record_writer_nidx.go *)
Definition W_nidx (ofs : bytes) (crlf : bool) := line_writer (fun r => cjoin ofs (values r) ++ ors_of crlf).
(* record_writer_json_jsonl.go writeWithoutListWrap (--ojsonl; --ojson --no-jlistwrap, with or without --jvstack) *)
Definition W_json_nowrap (multiline : bool) := line_writer (fun r => json_obj multiline r ++ [LF]).

Lemma concat_map_unlines {A} (f : A -> bytes) ors l : List.concat (map (fun x => f x ++ ors) l) = unlines ors (map f l).
Proof. unfold unlines. now rewrite map_map. Qed.

Theorem W_dkvp_doc ofs ops crlf recs :
  sdoc (W_dkvp ofs ops crlf) (recs_events recs) = Some (write_dkvp ofs ops crlf recs).
Proof. unfold W_dkvp. rewrite line_writer_doc. unfold write_dkvp. now rewrite concat_map_unlines. Qed.

Theorem W_nidx_doc ofs crlf recs : sdoc (W_nidx ofs crlf) (recs_events recs) = Some (write_nidx ofs crlf recs).
Proof. unfold W_nidx. rewrite line_writer_doc. unfold write_nidx. now rewrite concat_map_unlines. Qed.

Theorem W_json_nowrap_doc ml recs : sdoc (W_json_nowrap ml) (recs_events recs) = Some (write_json ml false recs).
Proof. unfold W_json_nowrap. rewrite line_writer_doc. reflexivity. Qed.

(* ---------------------------------------------------------------- JSON with the outer list (--ojson, --jlistwrap) *)
Definition W_json_wrap (multiline : bool) : swriter :=
  SW bool false
     (fun wrote r => Some ((if wrote then "," :: [LF] else B "[" ++ [LF]) ++ json_obj multiline r, true))
     (fun wrote => if wrote then [LF] ++ B "]" ++ [LF] else []).     (* context.JSONHadBrackets is false for a handler *)

Lemma join_cons_concat sep x (l : list bytes) : cjoin sep (x :: l) = x ++ List.concat (map (fun y => sep ++ y) l).
Proof.
  revert x. induction l as [|y l IH]; intros x; [cbn; now rewrite app_nil_r|].
  rewrite join_cons2, IH. cbn [map List.concat]. now rewrite <- !app_assoc.
Qed.

Definition json_wrap_ref (ml : bool) (wrote : bool) (recs : list record) : option bytes :=
  Some (if wrote
        then List.concat (map (fun r => ("," :: [LF]) ++ json_obj ml r) recs) ++ [LF] ++ B "]" ++ [LF]
        else write_json ml true recs).

Theorem W_json_wrap_doc ml recs : sdoc (W_json_wrap ml) (recs_events recs) = Some (write_json ml true recs).
Proof.
  rewrite (sdoc_ref (W_json_wrap ml) (json_wrap_ref ml)); [reflexivity| |].
  - intros [|]; reflexivity.
  - intros s r t. unfold json_wrap_ref. cbn [sw_rec W_json_wrap]. f_equal. destruct s.
    + cbn [map List.concat]. now rewrite <- !app_assoc.
    + unfold write_json. cbn [map]. rewrite join_cons_concat. rewrite map_map. now rewrite <- !app_assoc.
Qed.

(* ---------------------------------------------------------------- CSV and TSV: header once, "unset fill", schema-change error *)
Section HeaderRows.
  Variable headerless : bool.
  Variable row : list bytes -> bytes.      (* one line with its line ending *)

  Definition hr_rec (st : option (list bytes)) (r : record) : option (bytes * option (list bytes)) :=
    let first := match st with Some f => f | None => keys r end in
    if check_keys first r
    then Some ((match st with None => if headerless then [] else row first | Some _ => [] end)
               ++ row (pad_values first (values r)), Some first)
    else None.
  Definition W_hr : swriter := SW (option (list bytes)) None hr_rec (fun _ => []).

  Definition hr_ref (st : option (list bytes)) (recs : list record) : option bytes :=
    match st with
    | Some first =>
        if forallb (check_keys first) recs then Some (List.concat (map (fun r => row (pad_values first (values r))) recs)) else None
    | None =>
        match rows_of recs with
        | None => None
        | Some (hdr, rows) => Some (List.concat (map row ((if headerless || is_nil recs then [] else [hdr]) ++ rows)))
        end
    end.

  Lemma W_hr_doc recs : sdoc W_hr (recs_events recs) = hr_ref None recs.
  Proof.
    apply (sdoc_ref W_hr hr_ref).
    - intros [f|]; [reflexivity|]. unfold hr_ref. cbn. now rewrite orb_true_r.
    - intros s r t. cbn [sw_rec W_hr]. unfold hr_rec, hr_ref. destruct s as [first|].
      + cbn [forallb]. destruct (check_keys first r); [|reflexivity]. cbn [andb].
        destruct (forallb (check_keys first) t); [|reflexivity]. cbn [map List.concat]. reflexivity.
      + unfold rows_of. cbn [forallb]. rewrite check_keys_refl. cbn [andb is_nil].
        destruct (forallb (check_keys (keys r)) t); [|reflexivity]. rewrite orb_false_r.
        cbn [map]. destruct headerless; cbn [app map List.concat orb]; now rewrite map_map, <- ?app_assoc.
  Qed.
End HeaderRows.

(* record_writer_csv.go *)
Definition csv_row (qa crlf : bool) (comma : ascii) (cells : list bytes) : bytes :=
  csv_row_q crlf crlf comma (map (miller_q qa comma) cells).
Definition W_csv (headerless qa crlf : bool) (comma : ascii) := W_hr headerless (csv_row qa crlf comma).

Theorem W_csv_doc headerless qa crlf comma recs :
  sdoc (W_csv headerless qa crlf comma) (recs_events recs) = write_csv headerless qa crlf comma recs.
Proof.
  unfold W_csv. rewrite W_hr_doc. unfold hr_ref, write_csv. destruct (rows_of recs) as [[hdr rows]|]; [|reflexivity].
  f_equal. unfold csv_text_q, csv_row. now rewrite map_map.
Qed.

(* record_writer_tsv.go *)
Definition W_tsv (headerless crlf : bool) := W_hr headerless (fun cells => tsv_line cells ++ ors_of crlf).

Theorem W_tsv_doc headerless crlf recs : sdoc (W_tsv headerless crlf) (recs_events recs) = write_tsv headerless crlf recs.
Proof.
  unfold W_tsv. rewrite W_hr_doc. unfold hr_ref, write_tsv. destruct (rows_of recs) as [[hdr rows]|]; [|reflexivity].
  f_equal. rewrite concat_map_unlines. f_equal. rewrite map_app. f_equal.
  destruct (headerless || is_nil recs); reflexivity.
Qed.

(* ---------------------------------------------------------------- csvlite: schema change = blank line + new header *)
Definition lite_rec (ofs : bytes) (headerless : bool) (ors : bytes) (st : option bytes * bool) (r : record)
  : option (bytes * (option bytes * bool)) :=
  let '(last, jwel) := st in
  if is_nil r then Some (unlines ors (if jwel then [] else [[]]), (Some [], true))
  else
    let j := cjoin [","%char] (keys r) in
    let changed := match last with None => true | Some l => negb (beqb l j) end in
    let sep := match last with Some _ => if changed && negb jwel then [[]] else [] | None => [] end in
    let hdr := if changed && negb headerless then [cjoin ofs (keys r)] else [] in
    Some (unlines ors (sep ++ hdr ++ [cjoin ofs (values r)]), (Some j, false)).
Definition W_csvlite (ofs : bytes) (headerless crlf : bool) : swriter :=
  SW (option bytes * bool) (None, false) (lite_rec ofs headerless (ors_of crlf)) (fun _ => []).

Theorem W_csvlite_doc ofs headerless crlf recs :
  sdoc (W_csvlite ofs headerless crlf) (recs_events recs) = Some (write_csvlite ofs headerless crlf recs).
Proof.
  rewrite (sdoc_ref (W_csvlite ofs headerless crlf)
             (fun st recs => Some (unlines (ors_of crlf) (csvlite_lines ofs headerless (fst st) (snd st) recs)))); [reflexivity| |].
  - intros [l j]. reflexivity.
  - intros [last jwel] r t. cbn [sw_rec W_csvlite fst snd]. unfold lite_rec. cbn [csvlite_lines].
    destruct (is_nil r).
    + cbn [fst snd]. now rewrite unlines_app.
    + cbn [fst snd]. now rewrite !unlines_app, <- !app_assoc.
Qed.

(* ---------------------------------------------------------------- XTAB: an empty line BETWEEN records *)
Definition W_xtab (w : bytes -> nat) (ops : bytes) (right : bool) : swriter :=
  SW bool true
     (fun on_first r => Some ((if on_first then [] else [LF]) ++ unlines [LF] (xtab_rec_lines w ops right r), false))
     (fun _ => []).

Theorem W_xtab_doc w ops right recs : sdoc (W_xtab w ops right) (recs_events recs) = Some (write_xtab w ops right recs).
Proof.
  rewrite (sdoc_ref (W_xtab w ops right)
             (fun on_first recs =>
                Some (if on_first then write_xtab w ops right recs
                      else unlines [LF] (List.concat (map (fun r' => [] :: xtab_rec_lines w ops right r') recs))))); [reflexivity| |].
  - intros [|]; reflexivity.
  - intros s r t. cbn [sw_rec W_xtab]. f_equal. destruct s.
    + unfold write_xtab, xtab_all_lines. now rewrite unlines_app.
    + cbn [map List.concat]. rewrite unlines_app. unfold unlines at 1. cbn [map List.concat]. now rewrite <- !app_assoc.
Qed.

(* ---------------------------------------------------------------- PPRINT: batches of records with the same joined keys; a batch is written
   when the keys change (followed by an ORS if it wrote anything) and at end of stream *)
Section Batch.
  Variable f : list record -> bytes.        (* writeHeterogenousList *)
  Variable ors : bytes.

  Definition pp_rec (st : option (list record * bytes)) (r : record) : option (bytes * option (list record * bytes)) :=
    let j := cjoin [","%char] (keys r) in
    match st with
    | None => Some ([], Some ([r], j))
    | Some (cur, curj) =>
        if beqb j curj then Some ([], Some (r :: cur, curj))
        else Some (f (rev cur) ++ (if forallb is_nil (rev cur) then [] else ors), Some ([r], j))
    end.
  Definition W_batch : swriter :=
    SW (option (list record * bytes)) None pp_rec (fun st => match st with Some (cur, _) => f (rev cur) | None => [] end).

  Lemma pp_batches_nonempty cur curj recs : pp_batches cur curj recs <> [].
  Proof. revert cur curj. induction recs as [|r t IH]; intros; cbn; [discriminate|]. destruct (beqb _ curj); [apply IH|discriminate]. Qed.

  Lemma pp_texts_cons b t : t <> [] -> pp_texts f ors (b :: t) = f b ++ (if forallb is_nil b then [] else ors) ++ pp_texts f ors t.
  Proof. destruct t; [congruence|reflexivity]. Qed.

  Definition batch_ref (st : option (list record * bytes)) (recs : list record) : option bytes :=
    Some (match st with
          | None => pp_texts f ors (pp_all_batches recs)
          | Some (cur, curj) => pp_texts f ors (pp_batches cur curj recs)
          end).

  Lemma W_batch_doc recs : sdoc W_batch (recs_events recs) = Some (pp_texts f ors (pp_all_batches recs)).
  Proof.
    rewrite (sdoc_ref W_batch batch_ref); [reflexivity| |].
    - intros [[cur curj]|]; reflexivity.
    - intros s r t. cbn [sw_rec W_batch]. unfold pp_rec, batch_ref. destruct s as [[cur curj]|].
      + cbn [pp_batches]. destruct (beqb (cjoin [","%char] (keys r)) curj); [reflexivity|].
        rewrite pp_texts_cons by apply pp_batches_nonempty. now rewrite <- !app_assoc.
      + reflexivity.
  Qed.
End Batch.

(* record_writer_pprint.go, all of --right --barred-output --headerless-pprint-output *)
Definition pp_block (w : bytes -> nat) (right barred headerless crlf : bool) (b : list record) : bytes :=
  if barred then barred_batch_text w right headerless (ors_of crlf) b
  else unlines (ors_of crlf) (pp_batch_lines_g w right headerless b).
Definition W_pprint (w : bytes -> nat) (right barred headerless crlf : bool) : swriter :=
  W_batch (pp_block w right barred headerless crlf) (ors_of crlf).

Theorem W_pprint_doc w right barred headerless crlf recs :
  sdoc (W_pprint w right barred headerless crlf) (recs_events recs) = Some (write_pprint_g w right barred headerless crlf recs).
Proof. unfold W_pprint. rewrite W_batch_doc. reflexivity. Qed.

(* ---------------------------------------------------------------- markdown, streaming (default) *)
Definition md_rec (ors : bytes) (last : bytes) (r : record) : option (bytes * bytes) :=
  let cur := cjoin [","%char] (keys r) in
  let changed := negb (is_nil last) && negb (beqb cur last) in
  let last1 := if changed then [] else last in
  Some (unlines ors ((if changed then [[]] else [])
                     ++ (if is_nil last1 then [md_row (keys r); md_row (map (fun _ => DASHES) r)] else [])
                     ++ [md_row (map md_escape (values r))]),
        if is_nil last1 then cur else last1).
Definition W_md (crlf : bool) : swriter := SW bytes [] (md_rec (ors_of crlf)) (fun _ => []).

Theorem W_md_doc w crlf recs : sdoc (W_md crlf) (recs_events recs) = Some (write_markdown w false crlf recs).
Proof.
  rewrite (sdoc_ref (W_md crlf) (fun last recs => Some (unlines (ors_of crlf) (md_lines last recs)))); [reflexivity| |].
  - reflexivity.
  - intros last r t. cbn [sw_rec W_md]. unfold md_rec. cbn [md_lines]. now rewrite !unlines_app, <- !app_assoc.
Qed.

(* markdown --omd-aligned: batches as in PPRINT; every batch but the first is preceded by an ORS *)
Section MdAligned.
  Variable w : bytes -> nat.
  Variable ors : bytes.
  Definition mda_st := (bool * option (list record * bytes))%type.      (* numBatchesOutput = 0, batch *)
  Definition mda_flush (first : bool) (cur : list record) : bytes :=
    unlines ors ((if first then [] else [[]]) ++ md_batch_lines w (rev cur)).
  Definition mda_rec (st : mda_st) (r : record) : option (bytes * mda_st) :=
    let j := cjoin [","%char] (keys r) in
    match st with
    | (first, None) => Some ([], (first, Some ([r], j)))
    | (first, Some (cur, curj)) =>
        if beqb j curj then Some ([], (first, Some (r :: cur, curj)))
        else Some (mda_flush first cur, (false, Some ([r], j)))
    end.
  Definition W_mda : swriter :=
    SW mda_st (true, None) mda_rec (fun st => match st with (first, Some (cur, _)) => mda_flush first cur | _ => [] end).

  Lemma W_mda_doc recs : sdoc W_mda (recs_events recs) = Some (unlines ors (md_aligned_lines w true (pp_all_batches recs))).
  Proof.
    rewrite (sdoc_ref W_mda
               (fun st recs => Some (unlines ors (match st with
                                                  | (first, None) => md_aligned_lines w first (pp_all_batches recs)
                                                  | (first, Some (cur, curj)) => md_aligned_lines w first (pp_batches cur curj recs)
                                                  end)))); [reflexivity| |].
    - intros [first [[cur curj]|]]; cbn; [|reflexivity]. unfold mda_flush. now rewrite app_nil_r.
    - intros [first [[cur curj]|]] r t; cbn [sw_rec W_mda]; unfold mda_rec.
      + cbn [pp_batches]. destruct (beqb (cjoin [","%char] (keys r)) curj); [reflexivity|].
        cbn [md_aligned_lines]. unfold mda_flush. now rewrite !unlines_app, <- !app_assoc.
      + reflexivity.
  Qed.
End MdAligned.

Theorem W_mda_doc' w crlf recs :
  sdoc (W_mda w (ors_of crlf)) (recs_events recs) = Some (write_markdown w true crlf recs).
Proof. apply W_mda_doc. Qed.
