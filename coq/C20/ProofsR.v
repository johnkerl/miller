(* C20 proofs: the manager as repaired (Model.runR / finalR -- the model tied to the implementation).  Suspension moves a handler
   from the open list to the suspended one and nothing else, so with the two lists taken together ([comb]) the manager keeps ONE
   writer per target (Handlers.sync): one document per target, routing, append mode.  The open list follows the LRU policy
   on names (Handlers.served): the most-recently-used theorem and the bookkeeping invariant. *)
From Miller Require Import Base.Record Base.ListFacts C20.Model C20.Handlers C20.Proofs.
From Coq Require Import Arith PeanoNat Lia.
Open Scope list_scope.

Definition comb (m : mgrR) : list (target * wstate) := r_open m ++ r_susp m.

Lemma make_roomR_eq md c t m :
  make_roomR md c t m = if must_evict md c t (r_open m) then evict_lastR m else m.
Proof.
  unfold make_roomR, must_evict. destruct (lookup t (r_open m)); [reflexivity|].
  destruct (is_pipe md); [reflexivity|]. cbn. now destruct (Nat.leb c (len (r_open m))).
Qed.

Lemma make_roomR_comb md c t m :
  comb (make_roomR md c t m) = comb m /\ r_fs (make_roomR md c t m) = r_fs m.
Proof.
  rewrite make_roomR_eq. destruct (must_evict md c t (r_open m)); [|auto]. unfold evict_lastR.
  destruct (split_last (r_open m)) as [[rest x]|] eqn:E; [|auto].
  apply split_last_spec in E. unfold comb. cbn. rewrite E, <- app_assoc. auto.
Qed.

Lemma acquireR_view md c t m :
  let '(ws, rest, susp, fs) := acquireR md c t m in
  rest ++ susp = drop t (comb m) /\
  ws = match lookup t (comb m) with Some w => w | None => WFresh end /\
  fs = match lookup t (comb m) with
       | Some _ => r_fs m
       | None => if is_append md then r_fs m else upd t [] (r_fs m)
       end.
Proof.
  unfold acquireR. destruct (make_roomR_comb md c t m) as [Hc Hf].
  set (m1 := make_roomR md c t m) in *. rewrite <- Hc, <- Hf. unfold comb. rewrite lookup_app, drop_app.
  destruct (lookup t (r_open m1)) as [w|]; [auto|].
  destruct (lookup t (r_susp m1)) as [w|] eqn:E2; [auto|]. now rewrite (drop_notin _ _ E2).
Qed.

Lemma runR_snoc md c F ops o fs0 : runR md c F (ops ++ [o]) fs0 = stepR md c F (runR md c F ops fs0) o.
Proof. unfold runR. now rewrite fold_left_app. Qed.

Lemma errR_monotone md c F m o : r_err (stepR md c F m o) = false -> r_err m = false.
Proof. unfold stepR. destruct (r_err m) eqn:E; [now rewrite E|reflexivity]. Qed.

Lemma stepR_eq md c F m t e :
  r_err m = false ->
  stepR md c F m (t, e) =
  let '(ws, rest, susp, fs) := acquireR md c t m in
  match wev F ws e with
  | Some (its, ws') => MgrR ((t, ws') :: rest) susp (upd t (fs t ++ its) fs) false
  | None => MgrR ((t, ws) :: rest) susp fs true
  end.
Proof.
  intros He. unfold stepR. rewrite He. destruct (acquireR md c t m) as [[[ws rest] susp] fs]. now destruct e.
Qed.

Definition syncR (md : mode) (F : fmt) (fs0 : fstore) (ops : list op) (m : mgrR) : Prop :=
  sync (wrun F WFresh) md fs0 ops (comb m) (r_fs m).

Lemma runR_sync md c F fs0 ops :
  r_err (runR md c F ops fs0) = false -> syncR md F fs0 ops (runR md c F ops fs0).
Proof.
  induction ops as [|[t e] ops IH] using rev_ind; intros He; [apply sync_init|].
  rewrite runR_snoc in *. pose proof (errR_monotone _ _ _ _ _ He) as He0. rewrite stepR_eq in * by exact He0.
  pose proof (acquireR_view md c t (runR md c F ops fs0)) as Hv.
  destruct (acquireR md c t (runR md c F ops fs0)) as [[[ws rest] susp] fs]. destruct Hv as (Hcomb & -> & ->).
  destruct (wev F _ e) as [[its ws']|] eqn:Ew; [|discriminate].
  unfold syncR, comb. cbn [r_open r_susp r_fs]. rewrite <- app_comm_cons, Hcomb.
  exact (sync_step eq_refl (wrun_snoc F WFresh) (IH He0) Ew).
Qed.

Theorem one_document_repaired md c F ops fs0 :
  r_err (runR md c F ops fs0) = false ->
  forall t,
  (touched t ops = true ->
   exists d, single_doc F (events_of t ops) = Some d /\ finalR md c F ops fs0 t = base md fs0 t ++ d) /\
  (touched t ops = false -> finalR md c F ops fs0 t = fs0 t).
Proof. intros He. exact (sync_final (w_end F) (runR_sync md c F fs0 ops He)). Qed.

Lemma make_roomR_open md c t m : r_open (make_roomR md c t m) = room md c t (r_open m).
Proof.
  rewrite make_roomR_eq. unfold room, evict_lastR. destruct (must_evict md c t (r_open m)); [|reflexivity].
  destruct (split_last (r_open m)) as [[rest x]|] eqn:E.
  - apply split_last_spec in E. rewrite E. symmetry. apply removelast_last.
  - apply split_last_none in E. now rewrite E.
Qed.

(* the open handlers follow the same policy on names as before the repair *)
Lemma stepR_names md c F m t e :
  NoDup (names (r_open m)) -> r_err m = false -> r_err (stepR md c F m (t, e)) = false ->
  names (r_open (stepR md c F m (t, e))) = served md c t (names (r_open m)).
Proof.
  intros Hnd He0 He. rewrite stepR_eq in * by exact He0. rewrite <- (served_names md c t _ Hnd), <- make_roomR_open.
  unfold acquireR in *. destruct (lookup t (r_open (make_roomR md c t m))) eqn:El.
  - destruct (wev F _ e) as [[its ws']|]; [reflexivity|discriminate].
  - rewrite (drop_notin _ _ El).
    destruct (lookup t (r_susp (make_roomR md c t m))); (destruct (wev F _ e) as [[its ws']|]; [reflexivity|discriminate]).
Qed.

Theorem open_is_most_recent_R md c F ops fs0 :
  is_pipe md = false -> r_err (runR md c F ops fs0) = false ->
  names (r_open (runR md c F ops fs0)) = firstn (Nat.max c 1) (recency (targets_of ops)).
Proof.
  intros Hp. induction ops as [|[t e] ops IH] using rev_ind; intros He.
  - symmetry. apply firstn_nil.
  - rewrite runR_snoc in *. pose proof (errR_monotone _ _ _ _ _ He) as He0.
    pose proof (s_nodup (runR_sync md c F fs0 ops He0)) as Hnd. unfold comb in Hnd. rewrite map_app in Hnd.
    rewrite (stepR_names md c F _ t e (proj1 (proj1 (NoDup_app_iff _ _) Hnd)) He0 He).
    rewrite (IH He0), targets_snoc, recency_snoc. apply served_recency; [exact Hp|apply recency_nodup].
Qed.

Theorem lru_invariant_R md c F ops fs0 :
  let m := runR md c F ops fs0 in
  r_err m = false ->
  NoDup (names (r_open m)) /\ NoDup (names (r_susp m)) /\
  (is_pipe md = false -> len (r_open m) <= Nat.max c 1) /\
  (forall t, In t (names (r_susp m)) -> ~ In t (names (r_open m))) /\
  (forall t, In t (targets_of ops) <-> In t (names (r_open m)) \/ In t (names (r_susp m))).
Proof.
  cbn zeta. intros He. pose proof (runR_sync md c F fs0 ops He) as Sy.
  pose proof (s_nodup Sy) as Hnd. unfold comb in Hnd. rewrite map_app in Hnd.
  apply NoDup_app_iff in Hnd as (Ho & Hs & Hd).
  split; [exact Ho|]. split; [exact Hs|]. split; [|split].
  - intros Hp. rewrite <- names_length, (open_is_most_recent_R md c F ops fs0 Hp He). apply firstn_le_length.
  - intros t Ht Ho'. exact (Hd t Ho' Ht).
  - intros t. rewrite <- touched_iff, (sync_names Sy t). unfold comb. rewrite map_app. apply in_app_iff.
Qed.

Lemma repaired_written md c F ops fs0 :
  r_err (runR md c F ops fs0) = false -> holds_written F md fs0 ops (finalR md c F ops fs0).
Proof.
  intros He t. destruct (one_document_repaired md c F ops fs0 He t) as [H1 H0]. split; [|exact H0].
  intros Ht. destruct (H1 Ht) as (d & Hd & Hf). exists d. split; [exact Hf|now apply single_doc_written].
Qed.

Theorem routing_records_R md c F ops fs0 :
  r_err (runR md c F ops fs0) = false ->
  forall t, recs_of (finalR md c F ops fs0 t) = recs_of (start md fs0 ops t) ++ recs_of_events (events_of t ops).
Proof. intros He. apply (holds_records F), repaired_written, He. Qed.

Theorem routing_strings_R md c F ops fs0 :
  r_err (runR md c F ops fs0) = false ->
  forall t, raws_of (finalR md c F ops fs0 t) = raws_of (start md fs0 ops t) ++ strs_of_events (events_of t ops).
Proof. intros He. apply (holds_strings F), repaired_written, He. Qed.

(* append mode extends what is there; write mode replaces it *)
Theorem append_mode_extends md c F ops fs0 :
  r_err (runR md c F ops fs0) = false ->
  forall t, touched t ops = true ->
  exists d, single_doc F (events_of t ops) = Some d /\
            finalR md c F ops fs0 t = (match md with MAppend => fs0 t | _ => [] end) ++ d.
Proof.
  intros He t Ht. destruct (one_document_repaired md c F ops fs0 He t) as [H1 _].
  destruct (H1 Ht) as (d & Hd & Hf). exists d. split; [exact Hd|]. rewrite Hf. unfold base. destruct md; reflexivity.
Qed.

Lemma total_format_no_error md c F ops fs0 :
  (forall w r, w_rec F w r <> None) -> r_err (runR md c F ops fs0) = false.
Proof.
  intros Ht. induction ops as [|[t e] ops IH] using rev_ind; [reflexivity|].
  rewrite runR_snoc, stepR_eq by exact IH. destruct (acquireR md c t (runR md c F ops fs0)) as [[[ws rest] susp] fs].
  destruct e as [r|s]; cbn; [|reflexivity]. specialize (Ht ws r). now destruct (w_rec F ws r) as [[its ws']|].
Qed.

(* on the history on which the manager as it was repeated the header: one header, one bracket pair *)
Lemma repaired_on_witness :
  let ops := witness_ops 256 in
  r_err (runR MWrite 256 FCsv ops empty_store) = false /\
  count is_header (finalR MWrite 256 FCsv ops empty_store (wname 0)) = 1 /\
  count is_open (finalR MWrite 256 FJson ops empty_store (wname 0)) = 1 /\
  count is_close (finalR MWrite 256 FJson ops empty_store (wname 0)) = 1.
Proof.
  cbn zeta.
  destruct witness_runs as (Hev & _ & _ & Hc).
  assert (Hj : r_err (runR MWrite 256 FJson (witness_ops 256) empty_store) = false).
  { apply total_format_no_error. intros [|fk] r; discriminate. }
  assert (Ht : touched (wname 0) (witness_ops 256) = true) by reflexivity.
  destruct (proj1 (one_document_repaired _ _ _ _ _ Hc (wname 0)) Ht) as (d & Hd & ->).
  destruct (proj1 (one_document_repaired _ _ _ _ _ Hj (wname 0)) Ht) as (d' & Hd' & ->).
  rewrite Hev in Hd, Hd'. inversion Hd. inversion Hd'. split; [exact Hc|]. split; [reflexivity|]. split; reflexivity.
Qed.
