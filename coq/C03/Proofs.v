(* C03 lemmas: reading a value taken from data never changes the text the writer emits. *)
From Miller Require Import Base.Bytes Base.Record C06.Model C03.Model.
Open Scope Z_scope.

Section Proofs.
  Variable inferrer : bytes -> ival.

  Definition Inv (s : bytes) (m : mlrval) : Prop := text m = s /\ valid m = true.

  Lemma inv_from_data s : Inv s (from_data s).
  Proof. split; reflexivity. Qed.

  Lemma inv_infer s m : Inv s m -> Inv s (infer_mv inferrer m).
  Proof.
    intros [Ht Hv]. unfold infer_mv.
    destruct (inferrer (text m)); cbn; split; auto.
  Qed.

  Lemma inv_force s m : Inv s m -> Inv s (force inferrer m).
  Proof.
    intros H. unfold force. destruct (ty m); auto; apply inv_infer; auto.
  Qed.

  Lemma set_print_rep_valid m : valid m = true -> set_print_rep m = m.
  Proof. intros H. unfold set_print_rep. now rewrite H. Qed.

  Lemma string_op_state ofmt m :
    valid m = true -> valid (force inferrer m) = true ->
    fst (string_op inferrer ofmt m) = m \/ fst (string_op inferrer ofmt m) = force inferrer m.
  Proof.
    intros Hv Hf. unfold string_op. destruct ofmt as [f|]; [right|left; now apply set_print_rep_valid].
    destruct (ty (force inferrer m)); cbn [fst]; try now apply set_print_rep_valid.
    destruct (pay (force inferrer m)); cbn [fst]; try now apply set_print_rep_valid. reflexivity.
  Qed.

  Lemma inv_string_op ofmt s m : Inv s m -> Inv s (fst (string_op inferrer ofmt m)).
  Proof.
    intros H. pose proof (inv_force s m H) as Hf.
    destruct (string_op_state ofmt m (proj2 H) (proj2 Hf)) as [-> | ->]; assumption.
  Qed.

  Lemma string_op_none_out s m : Inv s m -> snd (string_op inferrer None m) = Some s.
  Proof.
    intros [Ht Hv]. unfold string_op. cbn. rewrite set_print_rep_valid by exact Hv. now rewrite Ht.
  Qed.

  Lemma inv_stringify_none s m : Inv s m -> Inv s (stringify_op inferrer None m).
  Proof.
    intros H. unfold stringify_op.
    pose proof (inv_string_op None s m H) as H1. pose proof (string_op_none_out s m H) as H2.
    destruct (string_op inferrer None m) as [m1 o]. cbn in *. subst o. split; reflexivity.
  Qed.

  Definition pure_read (u : uop) : bool := match u with UStringify => false | _ => true end.
  Definition pure_bop (o : bop) : bool := true.
  Definition pure_rop (r : rop) : bool :=
    match r with OnX u | OnY u => pure_read u | Bin _ | BinSwapped _ => true end.

  Lemma inv_copy s m : Inv s m -> Inv s (MV (text m) (valid m) (ty m) (pay m)).
  Proof. intros H. exact H. Qed.

  Lemma mv_eta m : MV (text m) (valid m) (ty m) (pay m) = m.
  Proof. now destruct m. Qed.

  (* Every read operation touches its operands only through Type() (force), String() and Copy.  So a property of
     values that force and String() keep is kept along every read history; StringifyValuesRecursively (the
     --jvquoteall rewriter) is the one operation that stores a new text: it takes part only where it keeps P too. *)
  Section Closed.
    Variable ofmt : option (Z -> bytes).
    Variable P : bytes -> mlrval -> Prop.
    Variable with_stringify : Prop.
    Hypothesis P_force : forall s m, P s m -> P s (force inferrer m).
    Hypothesis P_string : forall s m, P s m -> P s (fst (string_op inferrer ofmt m)).
    Hypothesis P_stringify : with_stringify -> forall s m, P s m -> P s (stringify_op inferrer ofmt m).

    Lemma closed_format_as_json s m : P s m -> P s (fst (format_as_json inferrer ofmt m)).
    Proof.
      intros H. pose proof (P_force s m H) as Hf. unfold format_as_json.
      destruct (ty (force inferrer m)); cbn [fst]; try exact Hf.
      - destruct (pay (force inferrer m)); exact Hf.
      - pose proof (P_string s _ Hf) as H1. destruct (string_op inferrer ofmt (force inferrer m)); exact H1.
    Qed.

    Lemma closed_uop u s m :
      (with_stringify \/ pure_read u = true) -> P s m -> P s (fst (apply_uop inferrer ofmt u m)).
    Proof.
      intros Hp H. pose proof (P_force s m H) as Hf. pose proof (P_string s m H) as Hs.
      destruct u; cbn [apply_uop fst]; try exact H; try exact Hf.
      - destruct (string_op inferrer ofmt m); exact Hs.
      - unfold original_string_op. destruct (valid m); [exact H|]. destruct (string_op inferrer ofmt m); exact Hs.
      - unfold string_maybe_quoted_op. destruct (string_op inferrer ofmt m); exact Hs.
      - pose proof (closed_format_as_json s m H) as H1. destruct (format_as_json inferrer ofmt m); exact H1.
      - destruct Hp as [Hp|Hp]; [now apply P_stringify|discriminate].
      - destruct via_string; [exact Hs|exact Hf].
      - destruct forces, strings; auto.
      - now rewrite mv_eta.
    Qed.

    Lemma closed_bop o s1 s2 a b :
      P s1 a -> P s2 b ->
      let r := apply_bop inferrer ofmt o a b in P s1 (fst (fst r)) /\ P s2 (snd (fst r)).
    Proof.
      intros Ha Hb.
      pose proof (P_force s1 a Ha) as Hfa. pose proof (P_force s2 b Hb) as Hfb.
      pose proof (P_string s1 a Ha) as Hsa. pose proof (P_string s2 b Hb) as Hsb.
      destruct o; cbn -[string_op force cmp_forced]; auto;
        try (destruct (string_op inferrer ofmt a), (string_op inferrer ofmt b); cbn in *; auto; fail).
      destruct strings; cbn -[string_op force]; auto.
    Qed.

    Lemma closed_rop r s1 s2 x y :
      (with_stringify \/ pure_rop r = true) -> P s1 x -> P s2 y ->
      let st := fst (apply_rop inferrer ofmt r (x, y)) in P s1 (fst st) /\ P s2 (snd st).
    Proof.
      intros Hp Hx Hy. destruct r; cbn -[apply_uop apply_bop].
      - pose proof (closed_uop u s1 x Hp Hx). destruct (apply_uop inferrer ofmt u x); cbn in *; auto.
      - pose proof (closed_uop u s2 y Hp Hy). destruct (apply_uop inferrer ofmt u y); cbn in *; auto.
      - pose proof (closed_bop o s1 s2 x y Hx Hy) as H. cbv zeta in H.
        destruct (apply_bop inferrer ofmt o x y) as [[a b] ob]; cbn in *; auto.
      - pose proof (closed_bop o s2 s1 y x Hy Hx) as H. cbv zeta in H.
        destruct (apply_bop inferrer ofmt o y x) as [[a b] ob]; cbn in *; tauto.
    Qed.

    Lemma closed_run ops : forall s1 s2 x y,
      (with_stringify \/ forallb pure_rop ops = true) -> P s1 x -> P s2 y ->
      let st := fst (run inferrer ofmt ops (x, y)) in P s1 (fst st) /\ P s2 (snd st).
    Proof.
      induction ops as [|r t IH]; intros s1 s2 x y Hp Hx Hy; cbn -[apply_rop]; [auto|].
      assert (Hp' : (with_stringify \/ pure_rop r = true) /\ (with_stringify \/ forallb pure_rop t = true)).
      { destruct Hp as [?|Hp]; [auto|]. cbn in Hp. apply andb_true_iff in Hp. tauto. }
      pose proof (closed_rop r s1 s2 x y (proj1 Hp') Hx Hy) as H. cbv zeta in H.
      destruct (apply_rop inferrer ofmt r (x, y)) as [[x1 y1] o]. cbn [fst snd] in H. destruct H as [H1 H2].
      specialize (IH s1 s2 x1 y1 (proj2 Hp') H1 H2). cbv zeta in IH.
      destruct (run inferrer ofmt t (x1, y1)) as [st2 os]. exact IH.
    Qed.
  End Closed.

  (* every unary read operation keeps the invariant; StringifyValuesRecursively keeps it when no --ofmt is in force *)
  Lemma inv_uop ofmt u s m :
    (ofmt = None \/ pure_read u = true) -> Inv s m -> Inv s (fst (apply_uop inferrer ofmt u m)).
  Proof.
    apply (closed_uop ofmt Inv); [apply inv_force|intros; now apply inv_string_op|]. intros ->. apply inv_stringify_none.
  Qed.

  Lemma inv_run ofmt ops : forall s1 s2 x y,
    (ofmt = None \/ forallb pure_rop ops = true) -> Inv s1 x -> Inv s2 y ->
    let st := fst (run inferrer ofmt ops (x, y)) in Inv s1 (fst st) /\ Inv s2 (snd st).
  Proof.
    apply (closed_run ofmt Inv); [apply inv_force|intros; now apply inv_string_op|]. intros ->. apply inv_stringify_none.
  Qed.

  Lemma read_ops_preserve_text s1 s2 ops :
    let st := fst (run inferrer None ops (from_data s1, from_data s2)) in
    output_text inferrer None (fst st) = Some s1 /\ output_text inferrer None (snd st) = Some s2.
  Proof.
    pose proof (inv_run None ops s1 s2 _ _ (or_introl eq_refl) (inv_from_data s1) (inv_from_data s2)) as H.
    cbv zeta in *. destruct H as [H1 H2]. unfold output_text. split; now apply string_op_none_out.
  Qed.

  (* the only states a pure read history can reach: untouched, or inferred once *)
  Definition Reach (s : bytes) (m : mlrval) : Prop := m = from_data s \/ m = infer_mv inferrer (from_data s).

  Lemma reach_inv s m : Reach s m -> Inv s m.
  Proof. intros [->| ->]; [apply inv_from_data|apply inv_infer, inv_from_data]. Qed.

  Lemma reach_force s m : Reach s m -> force inferrer m = infer_mv inferrer (from_data s).
  Proof.
    intros [->| ->]; [reflexivity|]. unfold force, infer_mv. cbn [text from_data]. destruct (inferrer s); try reflexivity; destruct s; reflexivity.
  Qed.

  Lemma reach_forced s m : Reach s m -> Reach s (force inferrer m).
  Proof. intros H. right. now apply reach_force. Qed.

  Lemma reach_string_op ofmt s m : Reach s m -> Reach s (fst (string_op inferrer ofmt m)).
  Proof.
    intros H. pose proof (reach_forced s m H) as Hf.
    destruct (string_op_state ofmt m (proj2 (reach_inv s m H)) (proj2 (reach_inv s _ Hf))) as [-> | ->]; assumption.
  Qed.

  Lemma reach_run ofmt ops : forall s1 s2 x y,
    forallb pure_rop ops = true -> Reach s1 x -> Reach s2 y ->
    let st := fst (run inferrer ofmt ops (x, y)) in Reach s1 (fst st) /\ Reach s2 (snd st).
  Proof.
    intros s1 s2 x y Hp. apply (closed_run ofmt Reach False); [apply reach_forced|intros; now apply reach_string_op|intros []|now right].
  Qed.

  Lemma reach_output_ofmt f s m :
    Reach s m -> output_text inferrer (Some f) m = match inferrer s with VFloat b => Some (f b) | _ => Some s end.
  Proof.
    intros H. unfold output_text, string_op. rewrite (reach_force s m H). unfold infer_mv. cbn [text from_data].
    destruct (inferrer s); try reflexivity; destruct s; reflexivity.
  Qed.

  Lemma read_ops_ofmt_only_floats f s1 s2 ops :
    forallb pure_rop ops = true ->
    let st := fst (run inferrer (Some f) ops (from_data s1, from_data s2)) in
    output_text inferrer (Some f) (fst st) = match inferrer s1 with VFloat b => Some (f b) | _ => Some s1 end
    /\ output_text inferrer (Some f) (snd st) = match inferrer s2 with VFloat b => Some (f b) | _ => Some s2 end.
  Proof.
    intros Hp.
    pose proof (reach_run (Some f) ops s1 s2 _ _ Hp (or_introl eq_refl) (or_introl eq_refl)) as H.
    cbv zeta in *. destruct H as [H1 H2]. split; now apply reach_output_ofmt.
  Qed.

  (* JSON output of a value that was only read: closed form in terms of the input text and its inference *)
  Definition json_of_text (s : bytes) : jout :=
    match inferrer s with
    | VInt n => JDecimal (format_int n)
    | VFloat _ => if is_valid_json_number s then JSame s else JRerendered
    | VString | VEmpty => JQuoted
    end.

  Lemma reach_json s m : Reach s m -> snd (format_as_json inferrer None m) = json_of_text s.
  Proof.
    intros H. unfold format_as_json, json_of_text. rewrite (reach_force s m H). unfold infer_mv. cbn [text from_data].
    destruct (inferrer s) eqn:E; cbn; try reflexivity; try (destruct s; reflexivity).
  Qed.

  Lemma json_rerender_only_when_invalid s1 s2 ops :
    forallb pure_rop ops = true ->
    let st := fst (run inferrer None ops (from_data s1, from_data s2)) in
    snd (format_as_json inferrer None (fst st)) = json_of_text s1 /\ snd (format_as_json inferrer None (snd st)) = json_of_text s2.
  Proof.
    intros Hp. pose proof (reach_run None ops s1 s2 _ _ Hp (or_introl eq_refl) (or_introl eq_refl)) as H.
    cbv zeta in *. destruct H as [H1 H2]. split; now apply reach_json.
  Qed.

  Lemma read_ops_two_states ofmt s1 s2 ops :
    forallb pure_rop ops = true ->
    let st := fst (run inferrer ofmt ops (from_data s1, from_data s2)) in Reach s1 (fst st) /\ Reach s2 (snd st).
  Proof. intros Hp. apply reach_run; auto; now left. Qed.
End Proofs.
