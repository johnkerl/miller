(* C03 property theorems, each followed by Print Assumptions.
   The value-level theorems quantify over EVERY inferrer (hence every inference flag -S/-A/-O/default and any
   future one), every pair of input strings and every history of read operations of C03.Model. *)
From Miller Require Import Base.Bytes Base.Record C06.Model C06.Harness C03.Model C03.Proofs C03.RecordProofs C03.MovedProofs C03.Harness.
From Miller Require Import C03.Verbs C03.VerbProofs C03.ReaderProofs.
From Miller Require C05.Model C11.Model C12.Model.
Open Scope Z_scope.

(* reading never changes what the writer emits: for all byte strings s1 s2, all inference behaviours, all histories
   of read operations (type tests, getters, String/OriginalString/StringMaybeQuoted, Copy, JSON formatting,
   fmtnum-style formatters, built-in functions, all comparators of sort, --jvquoteall's stringifier) *)
Theorem C03_read_ops_preserve_text :
  forall (inferrer : bytes -> ival) (s1 s2 : bytes) (ops : list rop),
  let st := fst (run inferrer None ops (from_data s1, from_data s2)) in
  output_text inferrer None (fst st) = Some s1 /\ output_text inferrer None (snd st) = Some s2.
Proof. exact read_ops_preserve_text. Qed.
Print Assumptions C03_read_ops_preserve_text.

(* the same under the four concrete flags, with C06's inferrer over the regenerated digit tables *)
Theorem C03_read_ops_preserve_text_all_flags :
  forall (f : iflag) (s1 s2 : bytes) (ops : list rop),
  let st := fst (run (ginfer f) None ops (from_data s1, from_data s2)) in
  output_text (ginfer f) None (fst st) = Some s1 /\ output_text (ginfer f) None (snd st) = Some s2.
Proof. exact (fun f => read_ops_preserve_text (ginfer f)). Qed.
Print Assumptions C03_read_ops_preserve_text_all_flags.

(* the internal invariant: printrep = input text and printrepValid = true after any read history *)
Theorem C03_printrep_retained :
  forall (inferrer : bytes -> ival) ofmt (s1 s2 : bytes) (ops : list rop),
  (ofmt = None \/ forallb pure_rop ops = true) ->
  let st := fst (run inferrer ofmt ops (from_data s1, from_data s2)) in
  (text (fst st) = s1 /\ valid (fst st) = true) /\ (text (snd st) = s2 /\ valid (snd st) = true).
Proof. exact (fun inferrer ofmt s1 s2 ops H => inv_run inferrer ofmt ops s1 s2 _ _ H (inv_from_data s1) (inv_from_data s2)). Qed.
Print Assumptions C03_printrep_retained.

(* a value that was only read is in one of exactly two states: untouched, or inferred once from its own text *)
Theorem C03_read_ops_two_states :
  forall (inferrer : bytes -> ival) ofmt (s1 s2 : bytes) (ops : list rop),
  forallb pure_rop ops = true ->
  let st := fst (run inferrer ofmt ops (from_data s1, from_data s2)) in
  Reach inferrer s1 (fst st) /\ Reach inferrer s2 (snd st).
Proof. exact read_ops_two_states. Qed.
Print Assumptions C03_read_ops_two_states.

(* --ofmt is the only re-rendering and it applies to floats only *)
Theorem C03_ofmt_applies_to_floats_only :
  forall (inferrer : bytes -> ival) (fmt : Z -> bytes) (s1 s2 : bytes) (ops : list rop),
  forallb pure_rop ops = true ->
  let st := fst (run inferrer (Some fmt) ops (from_data s1, from_data s2)) in
  output_text inferrer (Some fmt) (fst st) = match inferrer s1 with VFloat b => Some (fmt b) | _ => Some s1 end
  /\ output_text inferrer (Some fmt) (snd st) = match inferrer s2 with VFloat b => Some (fmt b) | _ => Some s2 end.
Proof. exact read_ops_ofmt_only_floats. Qed.
Print Assumptions C03_ofmt_applies_to_floats_only.

(* record level: fields outside the write set of a program keep key, bytes and relative order *)
Theorem C03_unassigned_fields_pass_through :
  forall (inferrer : bytes -> ival) (prog : list ract) (r : record),
  let W := write_set prog ++ move_set prog in
  outside W (run_program inferrer None prog r) = map known_cell (outside W r).
Proof. exact unassigned_fields_pass_through. Qed.
Print Assumptions C03_unassigned_fields_pass_through.

(* fields that are only moved (reorder) or merely read keep their bytes: for every key outside the write set the output
   cell is the input text (records have unique keys, as every Mlrmap does) *)
Theorem C03_moved_fields_keep_bytes :
  forall (inferrer : bytes -> ival) (prog : list ract) (r : record),
  wf_record r = true ->
  forall k, mem k (write_set prog) = false ->
  aget k (run_program inferrer None prog r) = option_map CKnown (get k r).
Proof. exact moved_fields_keep_bytes. Qed.
Print Assumptions C03_moved_fields_keep_bytes.

(* the documented JSON re-rendering: after any pure read history the JSON writer keeps a float's text iff it is a legal
   JSON number, always prints ints in decimal, and quotes everything else -- a function of the input text alone *)
Theorem C03_json_rerender_only_when_invalid :
  forall (inferrer : bytes -> ival) (s1 s2 : bytes) (ops : list rop),
  forallb pure_rop ops = true ->
  let st := fst (run inferrer None ops (from_data s1, from_data s2)) in
  snd (format_as_json inferrer None (fst st)) = json_of_text inferrer s1
  /\ snd (format_as_json inferrer None (snd st)) = json_of_text inferrer s2.
Proof. exact json_rerender_only_when_invalid. Qed.
Print Assumptions C03_json_rerender_only_when_invalid.

(* non-vacuity: concrete numerals of every spelling class, a read history touching type tests, getters, comparators in
   both orders, Copy and the stringifier; a record program with reads, derived assignments, rename, unset, reorder *)
Example C03_nonvacuous :
  let ops := [OnX UType; OnY UIsNumeric; Bin BCmp; BinSwapped BLexicalAscending; OnX UGetNumericToFloatValue;
              OnX UCopy; OnY UFormatAsJSON; Bin BNumericDescending; OnX UStringify; OnY (UBif true true)] in
  forallb pure_rop [OnX UType; Bin BCmp; OnY UCopy; OnX UString] = true
  /\ map fst (snd (run (ginfer FDefault) None ops (from_data (B "0xff"), from_data (B "1.500"))))
     = [0; 1; 1; 1; 4643176031446892544; 0; 0; -1; 0; -7]
  /\ ty (fst (fst (run (ginfer FDefault) None ops (from_data (B "0xff"), from_data (B "1.500"))))) = TString
  /\ ty (snd (fst (run (ginfer FA) None [OnY UType] (from_data (B "0xff"), from_data (B "+5"))))) = TFloat
  /\ json_of_text (ginfer FDefault) (B "1.500") = JSame (B "1.500") /\ json_of_text (ginfer FDefault) (B "+.5e1") = JRerendered
  /\ json_of_text (ginfer FDefault) (B "0xff") = JDecimal (B "255") /\ json_of_text (ginfer FDefault) (B "007") = JQuoted
  /\ wf_record [(B "a", B "0xff"); (B "b", B "007"); (B "c", B "x"); (B "d", B "1e3"); (B "e", B "1.500")] = true
  /\ run_program (ginfer FDefault) None
       [RRead (B "a") [UType; UIsNumeric]; RDerive (B "a") [UGetIntValue] DTypeof (B "t"); RRename (B "b") (B "bb");
        RRemove (B "c"); RMoveToHead (B "d")]
       [(B "a", B "0xff"); (B "b", B "007"); (B "c", B "x"); (B "d", B "1e3"); (B "e", B "1.500")]
     = [(B "d", CKnown (B "1e3")); (B "a", CKnown (B "0xff")); (B "bb", CKnown (B "007")); (B "e", CKnown (B "1.500"));
        (B "t", CKnown (B "int"))].
Proof. vm_compute. repeat split; reflexivity. Qed.

(* ---------------------------------------------------------------------------------------------------------------
   Concrete verbs.  The per-verb Gallina models that C05, C11 and C12 tie to the Go code are imported unchanged
   (C05.Model.verb_of: 22 `then`-chain state machines incl. put '$z = $x . "s"', sort -f, sort -nf/-nr, count-similar,
   fill-down, cat -n; C11.Model: 13 record selectors; C12.Model.run_verb: cut -f/-o/-x, reorder -f/-e, rename,
   sort-within-records, unsparsify -f, sparsify -f, nest explode across records / across fields).
   For each of them: every output record descends from an input record with which it agrees on every field outside
   the verb's declared write set -- same names, same bytes, same relative order. *)
Theorem C03_verb_bystander :
  forall v : cverb, supported v = true -> bystander (wof v) (sem v).
Proof. exact verb_bystander. Qed.
Print Assumptions C03_verb_bystander.

(* ... and for every chain of them, of any length, over streams of any length *)
Theorem C03_chain_bystander :
  forall vs : list cverb, forallb supported vs = true -> bystander (wchain vs) (run_chain vs).
Proof. exact chain_bystander. Qed.
Print Assumptions C03_chain_bystander.

(* field by field: a name outside the chain's write set is looked up with the same bytes in the output record and in
   the input record it descends from *)
Theorem C03_chain_unassigned_bytes :
  forall (vs : list cverb) (l : list record) (o : record) (k : bytes),
  forallb supported vs = true -> In o (run_chain vs l) -> wchain vs k = false ->
  exists i, In i l /\ get k o = get k i /\ outs (wchain vs) o = outs (wchain vs) i.
Proof. exact chain_unassigned_bytes. Qed.
Print Assumptions C03_chain_unassigned_bytes.

(* the stream-by-stream chain used above is C05's `then` chain (state machines composed record by record) *)
Theorem C03_then_chain_is_run_chain :
  forall (cs : list C05.Model.vcode) (l : list record),
  C05.Model.run (C05.Model.chain_list (map C05.Model.verb_of cs)) l = run_chain (map V05 cs) l.
Proof. exact chain05_is_run_chain. Qed.
Print Assumptions C03_then_chain_is_run_chain.

(* the reader side (RecordArena.PutDeferred as modelled by C05): a line whose names are distinct is read as it stands;
   without de-duplication a repeated name keeps its first position and every other field keeps its bytes *)
Theorem C03_reader_distinct_names_identity :
  forall (dedupe : bool) (l : record), wf_record l = true -> read_line dedupe l = l.
Proof. exact read_line_distinct. Qed.
Print Assumptions C03_reader_distinct_names_identity.

Theorem C03_reader_nodedupe_other_fields :
  forall (l : record) (k v : bytes) (k' : bytes), k' <> k ->
  get k' (read_line false (l ++ [(k, v)])) = get k' (read_line false l)
  /\ get k (read_line false (l ++ [(k, v)])) = Some v.
Proof. exact read_line_nodedupe_snoc. Qed.
Print Assumptions C03_reader_nodedupe_other_fields.

Example C03_verbs_nonvacuous :
  let chain := [V05 (C05.Model.VPutDot (B "z") (B "x") (B "!")); V05 (C05.Model.VSortN true (B "x"));
                V11 (SHead 2 None); V12 7 [B "y"; B "yy"] []; V05 (C05.Model.VCountSimilar (B "x")); V12 5 [B "z"] []] in
  let input := [[(B "x", B "007"); (B "y", B "0xff"); (B "w", B "1e3")];
                [(B "x", B "10"); (B "y", B "+5"); (B "w", B "1.500")];
                [(B "x", B "3"); (B "y", B ".5"); (B "w", B "5.")]] in
  forallb supported chain = true
  /\ wchain chain (B "x") = false /\ wchain chain (B "w") = false /\ wchain chain (B "z") = true /\ wchain chain (B "y") = true
  /\ run_chain chain input
     = [[(B "z", B "007!"); (B "x", B "007"); (B "yy", B "0xff"); (B "w", B "1e3"); (B "count", B "1")];
        [(B "z", B "10!"); (B "x", B "10"); (B "yy", B "+5"); (B "w", B "1.500"); (B "count", B "1")]]
  /\ read_line false [(B "a", B "0x01"); (B "a", B "0x1F"); (B "b", B "+7.50")] = [(B "a", B "0x1F"); (B "b", B "+7.50")]
  /\ read_line true [(B "a", B "0x01"); (B "a", B "0x1F"); (B "b", B "+7.50")] = [(B "a", B "0x01"); (B "a_2", B "0x1F"); (B "b", B "+7.50")].
Proof. vm_compute. repeat split; reflexivity. Qed.
