(* C03: bystander theorems for the concrete verb models of C05 / C11 / C12 (imported unchanged) and for every chain of
   them, by induction on the chain. *)
From Miller Require Import Base.Bytes Base.Record C03.Verbs.
From Miller Require C05.Model C05.Proofs C11.Model C11.Proofs2 C12.Model C12.Proofs C03.RecordProofs Base.RecordFacts.
Open Scope Z_scope.

Lemma outs_rejects (W : wset) k : W k = true -> RecordFacts.rejects (fun kv => negb (W (fst kv))) k.
Proof. intros Hk v. cbn. now rewrite Hk. Qed.

Lemma same_outside_weaken (W W' : wset) o i :
  (forall k, W k = true -> W' k = true) -> same_outside W o i -> same_outside W' o i.
Proof.
  intros Hsub H. unfold same_outside, outs in *.
  assert (E : forall x : record, filter (fun kv => negb (W' (fst kv))) (filter (fun kv => negb (W (fst kv))) x)
                                 = filter (fun kv => negb (W' (fst kv))) x).
  { intros x. apply ListFacts.filter_sub. intros kv Hkv. destruct (W (fst kv)) eqn:Ek; [|reflexivity]. now rewrite (Hsub _ Ek) in Hkv. }
  now rewrite <- (E o), <- (E i), H.
Qed.

Lemma outs_wall r : outs wall r = [].
Proof. unfold outs, wall. induction r; cbn; auto. Qed.
Lemma outs_wnone r : outs wnone r = r.
Proof. unfold outs, wnone. induction r as [|x r IH]; cbn [filter negb]; [reflexivity|f_equal; exact IH]. Qed.

Lemma get_outs W k r : W k = false -> get k (outs W r) = get k r.
Proof. intros Hk. apply RecordFacts.get_filter_keep. intros v. cbn. now rewrite Hk. Qed.
Lemma same_outside_get W o i k : same_outside W o i -> W k = false -> get k o = get k i.
Proof. intros H Hk. rewrite <- (get_outs W k o Hk), <- (get_outs W k i Hk). f_equal. exact H. Qed.

Lemma tracks_refl_incl (R : record -> record -> Prop) (v : stream) :
  (forall r, R r r) -> (forall l, incl (v l) l) -> tracks R v.
Proof. intros Hr Hi l o Ho. exists o. split; [apply (Hi l); exact Ho|apply Hr]. Qed.

Lemma tracks_map (R : record -> record -> Prop) f : (forall r, R (f r) r) -> tracks R (map f).
Proof. intros H l o Ho. apply in_map_iff in Ho. destruct Ho as (i & <- & Hi). exists i. auto. Qed.

Lemma tracks_flat_map (R : record -> record -> Prop) f : (forall r o, In o (f r) -> R o r) -> tracks R (flat_map f).
Proof. intros H l o Ho. apply in_flat_map in Ho. destruct Ho as (i & Hi & Hoi). exists i. auto. Qed.

Lemma tracks_comp (R : record -> record -> Prop) (v1 v2 : stream) :
  (forall a b c, R a b -> R b c -> R a c) -> tracks R v1 -> tracks R v2 -> tracks R (fun l => v2 (v1 l)).
Proof.
  intros Ht H1 H2 l o Ho. destruct (H2 _ _ Ho) as (m & Hm & Rom). destruct (H1 _ _ Hm) as (i & Hi & Rmi).
  exists i. split; [exact Hi|eapply Ht; eauto].
Qed.

Lemma outs_put W k v r : W k = true -> outs W (put k v r) = outs W r.
Proof. intros Hk. apply RecordFacts.filter_put_out, outs_rejects, Hk. Qed.
Lemma outs_cons_in W k v r : W k = true -> outs W ((k, v) :: r) = outs W r.
Proof. intros Hk. unfold outs. cbn. now rewrite Hk. Qed.
Lemma outs_app W a b : outs W (a ++ b) = outs W a ++ outs W b.
Proof. apply filter_app. Qed.
Lemma wlist_hd k l : wlist (k :: l) k = true.
Proof. unfold wlist. cbn. now rewrite beqb_refl. Qed.

Section Closed.
  Import C05.Model.
  Variable Q : record -> Prop.

  Lemma feed_inv (v : verb) (SI : vstate v -> Prop) :
    (forall s r, SI s -> Q r -> SI (fst (vstep v s r)) /\ Forall Q (snd (vstep v s r))) ->
    forall xs s, SI s -> Forall Q xs -> SI (fst (feed v s xs)) /\ Forall Q (snd (feed v s xs)).
  Proof.
    intros Hs. induction xs as [|x t IH]; intros s Hsi Hq; cbn [feed].
    - split; [exact Hsi|constructor].
    - inversion Hq as [|? ? Hx Ht]; subst. destruct (Hs s x Hsi Hx) as [H3 H4].
      destruct (vstep v s x) as [s1 o1]. cbn [fst snd] in *.
      specialize (IH s1 H3 Ht). destruct (feed v s1 t) as [s2 o2]. cbn [fst snd] in *.
      destruct IH as [I1 I2]. split; [exact I1|]. apply Forall_app. split; assumption.
  Qed.

  Lemma run_inv (v : verb) (SI : vstate v -> Prop) :
    SI (vinit v) ->
    (forall s r, SI s -> Q r -> SI (fst (vstep v s r)) /\ Forall Q (snd (vstep v s r))) ->
    (forall s, SI s -> Forall Q (vfinish v s)) ->
    forall xs, Forall Q xs -> Forall Q (run v xs).
  Proof.
    intros Hi Hs Hf xs Hq. unfold run. destruct (feed_inv v SI Hs xs (vinit v) Hi Hq) as [H1 H2].
    destruct (feed v (vinit v) xs) as [s out]. cbn [fst snd] in *. apply Forall_app. split; [exact H2|apply Hf; exact H1].
  Qed.

  Lemma Forall_one r : Q r -> Forall Q [r].
  Proof. intros H. constructor; [exact H|constructor]. Qed.

  (* verbs whose state holds no record *)
  Lemma stateless_closed (v : verb) :
    (forall s r, Q r -> Forall Q (snd (vstep v s r))) -> (forall s, vfinish v s = []) ->
    forall xs, Forall Q xs -> Forall Q (run v xs).
  Proof.
    intros Hs Hf. apply (run_inv v (fun _ => True)); [exact I| |intros s _; rewrite Hf; constructor].
    intros s r _ Hr. split; [exact I|apply Hs, Hr].
  Qed.

  Lemma map_closed (f : record -> record) : (forall r, Q r -> Q (f r)) -> forall xs, Forall Q xs -> Forall Q (run (v_map f) xs).
  Proof. intros Hf. apply stateless_closed; [|reflexivity]. intros s r Hr. apply Forall_one, Hf, Hr. Qed.

  Lemma Forall_lastn n l : Forall Q l -> Forall Q (lastn n l).
  Proof.
    induction l as [|x l IH]; intros H; cbn [lastn].
    - destruct (Nat.leb (List.length (@nil record)) n); constructor.
    - destruct (Nat.leb (List.length (x :: l)) n); [exact H|]. inversion H; subst. now apply IH.
  Qed.

  Definition groups_ok (gs : list (bytes * list record)) : Prop := Forall (fun g => Forall Q (snd g)) gs.

  Lemma group_add_ok key r gs : Q r -> groups_ok gs -> groups_ok (group_add key r gs).
  Proof.
    intros Hr. unfold groups_ok. induction gs as [|[k rs] t IH]; intros H; cbn [group_add].
    - constructor; [cbn; constructor; [exact Hr|constructor]|constructor].
    - inversion H as [|? ? Hg Ht]; subst. destruct (beqb k key).
      + constructor; [cbn in *; apply Forall_app; split; [exact Hg|constructor; [exact Hr|constructor]]|exact Ht].
      + constructor; [exact Hg|apply IH; exact Ht].
  Qed.

  Lemma insert_group_ok lt g gs : Forall Q (snd g) -> groups_ok gs -> groups_ok (insert_group lt g gs).
  Proof.
    intros Hg. unfold groups_ok. induction gs as [|h t IH]; intros H; cbn [insert_group].
    - constructor; [exact Hg|constructor].
    - inversion H; subst. destruct (lt (fst g) (fst h)); constructor; auto.
  Qed.

  Lemma sort_groups_ok lt gs : groups_ok gs -> groups_ok (sort_groups lt gs).
  Proof.
    unfold sort_groups. assert (G : forall gs acc, groups_ok gs -> groups_ok acc -> groups_ok (fold_left (fun acc g => insert_group lt g acc) gs acc)).
    { induction gs0 as [|g t IH]; intros acc H Ha; cbn [fold_left]; [exact Ha|].
      inversion H; subst. apply IH; [assumption|]. apply insert_group_ok; assumption. }
    intros H. apply G; [exact H|constructor].
  Qed.

  Lemma sort_by_closed lt k xs : Forall Q xs -> Forall Q (run (v_sort_by lt k) xs).
  Proof.
    apply (run_inv (v_sort_by lt k) (fun s => groups_ok (fst s) /\ Forall Q (snd s))).
    - split; constructor.
    - intros s r [H1 H2] Hr. cbn [vstep v_sort_by]. destruct (get k r) as [v|]; cbn [fst snd].
      + split; [split; [apply group_add_ok; assumption|exact H2]|constructor].
      + split; [split; [exact H1|apply Forall_app; split; [exact H2|constructor; [exact Hr|constructor]]]|constructor].
    - intros s [H1 H2]. cbn [vfinish v_sort_by]. apply Forall_app. split; [apply Forall_flat_map, sort_groups_ok; exact H1|exact H2].
  Qed.

  (* what a verb of C05 may do to a record it emits *)
  Definition modif05 (c : vcode) (r r' : record) : Prop :=
    match c with
    | VRename a b => r' = rename_rec a b r
    | VCutKeep ks => r' = filter (fun kv => mem (fst kv) ks) r
    | VCutDrop ks => r' = filter (fun kv => negb (mem (fst kv) ks)) r
    | VReorderHead k => r' = match get k r with Some v => (k, v) :: remove k r | None => r end
    | VReorderTail k => r' = match get k r with Some v => remove k r ++ [(k, v)] | None => r end
    | VFillDown _ k => r' = r \/ exists p, r' = put k p r
    | VPutDot z _ _ => exists v, r' = put z v r
    | VCatN => exists v, r' = if has (B "n") r then put (B "n") v r else (B "n", v) :: r
    | VCountSimilar _ => exists v, r' = put (B "count") v r
    | VLabel _ | VRegularize | VFillEmpty _ | VFillDownAll _ => True
    | VCatNG _ => exists v, r' = if has (B "n") r then put (B "n") v r else (B "n", v) :: r
    | _ => r' = r
    end.

  Lemma run05_closed (c : vcode) :
    (forall r r', Q r -> modif05 c r r' -> Q r') -> forall xs, Forall Q xs -> Forall Q (run (verb_of c) xs).
  Proof.
    intros Hm.
    (* the verbs that are a map over the records (cat and tee map the identity) *)
    destruct c; cbn [verb_of]; try (apply map_closed; intros r Hr; apply (Hm r _ Hr); cbn; eauto; fail).
    - (* tac *) apply (run_inv v_tac (fun s => Forall Q s)); [constructor| |intros s H; exact H].
      intros s r Hs Hr. cbn. split; constructor; assumption.
    - (* head *) apply stateless_closed; [|reflexivity]. intros s r Hr. cbn. destruct (s <? n); [now apply Forall_one|constructor].
    - (* tail *) apply (run_inv (v_tail n) (fun s => Forall Q s)); [constructor| |intros s H; cbn; apply Forall_lastn; exact H].
      intros s r Hs Hr. cbn. split; [apply Forall_app; split; [exact Hs|now apply Forall_one]|constructor].
    - (* fill-down *) apply stateless_closed; [|reflexivity]. intros s r Hr. cbn [vstep v_fill_down].
      match goal with |- context [if ?b then _ else _] => destruct b end; [now apply Forall_one|].
      destruct s as [p|]; apply Forall_one; [|exact Hr]. apply (Hm r _ Hr). right. now exists p.
    - (* cat -n *) apply stateless_closed; [|reflexivity]. intros s r Hr. apply Forall_one, (Hm r _ Hr). eexists. reflexivity.
    - (* count-similar *) apply (run_inv (v_count_similar k) groups_ok); [constructor| |].
      + intros s r Hs Hr. cbn [vstep v_count_similar]. destruct (get k r); cbn [fst snd]; split; try constructor; try assumption.
        apply group_add_ok; assumption.
      + intros s Hs. cbn [vfinish v_count_similar]. apply Forall_flat_map. eapply Forall_impl; [|exact Hs].
        intros g Hg. apply Forall_map. eapply Forall_impl; [|exact Hg]. intros i Hi. apply (Hm i _ Hi). eexists. reflexivity.
    - (* sort -f *) apply sort_by_closed.
    - (* nothing *) apply stateless_closed; [|reflexivity]. intros s r Hr. constructor.
    - (* sort -nf / -nr *) apply sort_by_closed.
    - (* regularize *) apply stateless_closed; [|reflexivity]. intros s r Hr. cbn [vstep v_regularize]. cbv zeta.
      destruct (lookup_keys _ s); apply Forall_one; [apply (Hm r _ Hr), I|exact Hr].
    - (* fill-down --all *) apply stateless_closed; [|reflexivity]. intros s r Hr. cbn [vstep v_fill_down_all].
      destruct (fda_fields only_if_absent s r) as [st1 r1]. apply Forall_one, (Hm r _ Hr), I.
    - (* cat -n -g *) apply stateless_closed; [|reflexivity]. intros s r Hr. cbn [vstep v_cat_n_g].
      match goal with |- context [let '(c, st1) := ?e in _] => destruct e as [c st1] end.
      apply Forall_one, (Hm r _ Hr). eexists. reflexivity.
  Qed.
End Closed.

Lemma modif05_outside c r r' : modif05 c r r' -> same_outside (w05 c) r' r.
Proof.
  unfold same_outside. destruct c; cbn [modif05 w05]; intros H; subst; try reflexivity.
  - (* rename *) apply C03.RecordProofs.rename_rec_out; apply outs_rejects; unfold wlist; cbn; now rewrite beqb_refl, ?orb_true_r.
  - (* cut keep *) apply ListFacts.filter_sub. intros [k v]. unfold wcompl. cbn. now rewrite negb_involutive.
  - (* cut drop *) apply ListFacts.filter_sub. now intros [k v].
  - (* reorder head *) apply C12.Proofs.move_to_head_out, outs_rejects, wlist_hd.
  - (* reorder tail *) apply C12.Proofs.move_to_tail_out, outs_rejects, wlist_hd.
  - (* fill-down *) destruct H as [->|[p ->]]; [reflexivity|apply outs_put, wlist_hd].
  - (* put dot *) destruct H as [v ->]. apply outs_put, wlist_hd.
  - (* cat -n *) destruct H as [v ->]. destruct (has (B "n") r); [apply outs_put, wlist_hd|apply outs_cons_in, wlist_hd].
  - (* count-similar *) destruct H as [v ->]. apply outs_put, wlist_hd.
  - (* label *) now rewrite !outs_wall.
  - (* regularize *) now rewrite !outs_wall.
  - (* fill-empty *) now rewrite !outs_wall.
  - (* fill-down --all *) now rewrite !outs_wall.
  - (* cat -n -g *) destruct H as [v ->]. destruct (has (B "n") r); [apply outs_put, wlist_hd|apply outs_cons_in, wlist_hd].
Qed.

Lemma v05_bystander c : bystander (w05 c) (sem (V05 c)).
Proof.
  intros l o Ho. cbn [sem] in Ho.
  set (Q := fun o : record => exists i, In i l /\ same_outside (w05 c) o i).
  assert (HQ : Forall Q (C05.Model.run (C05.Model.verb_of c) l)).
  { apply run05_closed.
    - intros r r' (i & Hi & Hri) Hm. exists i. split; [exact Hi|]. apply modif05_outside in Hm.
      unfold same_outside in *. congruence.
    - apply Forall_forall. intros r Hr. exists r. split; [exact Hr|reflexivity]. }
  rewrite Forall_forall in HQ. exact (HQ o Ho).
Qed.

Lemma v11_incl s l : incl (sem11 s l) l.
Proof.
  destruct (C11.Proofs2.selects_only l) as (H1 & H2 & H3 & _ & H5 & H6 & H7 & H8 & H9 & H10 & H11 & H12 & H13 & H14).
  destruct s; cbn [sem11]; auto.
Qed.
Lemma v11_bystander s : bystander wnone (sem (V11 s)).
Proof. apply tracks_refl_incl; [reflexivity|apply v11_incl]. Qed.

Lemma wlist_rejects fs f : In f fs -> RecordFacts.rejects (fun kv => negb (wlist fs (fst kv))) f.
Proof. intros H. apply outs_rejects, mem_In, H. Qed.

Lemma cut_x_outs fs r : outs (wlist fs) (C12.Model.cut_x fs r) = outs (wlist fs) r.
Proof. apply C12.Proofs.cut_x_out, wlist_rejects. Qed.

Lemma unsparsify_f_outs fs fill r : outs (wlist fs) (C12.Model.unsparsify_f fs fill r) = outs (wlist fs) r.
Proof. apply C12.Proofs.unsparsify_f_out, wlist_rejects. Qed.

Lemma number_from_outs f ps : forall i, outs (wexplode f) (C12.Model.number_from f i ps) = [].
Proof.
  induction ps as [|p t IH]; intros i; cbn [C12.Model.number_from]; [reflexivity|].
  rewrite outs_cons_in; [apply IH|]. unfold wexplode.
  replace (f ++ "_"%char :: C12.Model.itoa i) with ((f ++ ["_"%char]) ++ C12.Model.itoa i) by (now rewrite <- app_assoc).
  rewrite RecordFacts.prefixb_app. apply orb_true_r.
Qed.

Lemma explode_fields_outs f sep : forall r, outs (wexplode f) (C12.Model.explode_fields f sep r) = outs (wexplode f) r.
Proof.
  induction r as [|[k v] r IH]; cbn [C12.Model.explode_fields]; [reflexivity|].
  destruct (beqb f k) eqn:E.
  - rewrite outs_app, number_from_outs. cbn [app]. symmetry. apply outs_cons_in. unfold wexplode. now rewrite E.
  - unfold outs in *. cbn. now rewrite IH.
Qed.

Lemma wall_map_bystander (f : record -> record) : bystander wall (map f).
Proof. apply tracks_map. intros r. unfold same_outside. now rewrite !outs_wall. Qed.

Lemma supported12_codes code : supported12 code = true -> In code [1; 2; 3; 5; 6; 7; 10; 12; 14; 16; 17].
Proof.
  destruct code as [|p|p]; try discriminate. repeat (destruct p as [p|p|]; try discriminate); cbn; tauto.
Qed.

Lemma v12_bystander code a b : supported12 code = true -> bystander (w12 code a b) (sem (V12 code a b)).
Proof.
  intros Hs. apply supported12_codes in Hs.
  repeat (destruct Hs as [<-|Hs]); [..|destruct Hs]; cbn [sem C12.Model.run_verb w12].
  - (* cut -f *) apply tracks_map. intros r. apply ListFacts.filter_sub. intros [k v]. unfold wcompl. cbn. now rewrite negb_involutive.
  - (* cut -o *) apply wall_map_bystander.
  - (* cut -x -f *) apply tracks_map. intros r. apply cut_x_outs.
  - (* reorder -f *) apply tracks_map. intros r. apply C12.Proofs.reorder_f_bystanders.
  - (* reorder -e -f *) apply tracks_map. intros r. apply C12.Proofs.reorder_e_bystanders.
  - (* rename *) apply tracks_map. intros r. unfold same_outside. set (m := C12.Model.rename_map a).
    assert (E : forall x : record, outs (wunion (wlist (keys m)) (wlist (values m))) x = filter (C12.Proofs.rename_bystander m) x).
    { intros x. apply filter_ext. intros [k v]. unfold C12.Proofs.rename_bystander, wunion, wlist. cbn. now rewrite negb_orb. }
    rewrite !E. apply C12.Proofs.rename_bystanders.
  - (* sort-within-records *) apply wall_map_bystander.
  - (* unsparsify -f *) apply tracks_map. intros r. apply unsparsify_f_outs.
  - (* sparsify -f *) apply tracks_map. intros r. apply C12.Proofs.sparsify_f_bystanders.
  - (* nest --explode --values --across-records *) apply tracks_flat_map. intros r o Ho. unfold C12.Model.explode_records in Ho.
    destruct (get (C12.Model.hd_b a) r); [|destruct Ho as [<-|[]]; reflexivity].
    apply in_map_iff in Ho. destruct Ho as (p' & <- & _). apply outs_put, wlist_hd.
  - (* nest --explode --values --across-fields *) apply tracks_map. intros r. apply explode_fields_outs.
Qed.

Theorem verb_bystander v : supported v = true -> bystander (wof v) (sem v).
Proof.
  destruct v as [c|s|code a b]; intros Hs.
  - apply v05_bystander.
  - apply v11_bystander.
  - apply v12_bystander. exact Hs.
Qed.

Lemma bystander_weaken (W W' : wset) v : (forall k, W k = true -> W' k = true) -> bystander W v -> bystander W' v.
Proof.
  intros Hsub H l o Ho. destruct (H l o Ho) as (i & Hi & E). exists i. split; [exact Hi|]. now apply (same_outside_weaken W).
Qed.

Theorem chain_bystander : forall vs, forallb supported vs = true -> bystander (wchain vs) (run_chain vs).
Proof.
  induction vs as [|v t IH]; intros Hs.
  - intros l o Ho. exists o. split; [exact Ho|reflexivity].
  - cbn [forallb] in Hs. apply andb_true_iff in Hs. destruct Hs as [Hv Ht]. cbn [wchain run_chain].
    apply (tracks_comp _ (sem v) (run_chain t)).
    + unfold same_outside. intros; congruence.
    + apply (bystander_weaken (wof v)); [intros k Hk; unfold wunion; now rewrite Hk|apply verb_bystander, Hv].
    + apply (bystander_weaken (wchain t)); [intros k Hk; unfold wunion; rewrite Hk; apply orb_true_r|apply IH, Ht].
Qed.

Theorem chain_unassigned_bytes vs l o k :
  forallb supported vs = true -> In o (run_chain vs l) -> wchain vs k = false ->
  exists i, In i l /\ get k o = get k i /\ outs (wchain vs) o = outs (wchain vs) i.
Proof.
  intros Hs Ho Hk. destruct (chain_bystander vs Hs l o Ho) as (i & Hi & E).
  exists i. split; [exact Hi|]. split; [eapply same_outside_get; eauto|exact E].
Qed.

Lemma chain05_is_run_chain (cs : list C05.Model.vcode) l :
  C05.Model.run (C05.Model.chain_list (map C05.Model.verb_of cs)) l = run_chain (map V05 cs) l.
Proof.
  rewrite C05.Proofs.chain_list_run. revert l. induction cs as [|c t IH]; intros l; cbn; [reflexivity|apply IH].
Qed.
