(* C03 record level, second theorem: a field that no action assigns keeps its bytes even when reorder verbs move it.
   Needs the key-uniqueness invariant of Mlrmap (NoDup keys), which every action preserves. *)
From Miller Require Import Base.Bytes Base.Record C06.Model C03.Model C03.Proofs C03.RecordProofs.
From Miller Require C05.Model C12.Model.
From Miller Require Import C12.Proofs Base.RecordFacts.
Open Scope Z_scope.

Lemma get_rename_key_other old new k r : k <> old -> k <> new -> get k (C05.Model.rename_key old new r) = get k r.
Proof.
  intros H1 H2. induction r as [|[k2 v2] r IH]; cbn; [reflexivity|].
  destruct (beqb_spec k2 old) as [->|Hk]; cbn.
  - destruct (beqb_spec k new); [congruence|]. destruct (beqb_spec k old); [congruence|reflexivity].
  - destruct (beqb k k2); auto.
Qed.

Lemma keys_rename_key_in old new r x : In x (keys (C05.Model.rename_key old new r)) -> x = new \/ In x (keys r).
Proof. induction r as [|[k v] r IH]; cbn; [auto|]. destruct (beqb k old); cbn; intuition. Qed.

Lemma wf_rename_key old new r : wf r -> ~ In new (keys r) -> wf (C05.Model.rename_key old new r).
Proof.
  unfold wf. induction r as [|[k2 v2] r IH]; cbn; intros Hn Hnew; [constructor|].
  apply NoDup_cons_iff in Hn. destruct Hn as [Hni Hnd]. destruct (beqb k2 old); cbn; [constructor; tauto|].
  constructor; [|apply IH; tauto]. intros H. destruct (keys_rename_key_in _ _ _ _ H) as [->|H']; tauto.
Qed.

Lemma rename_rec_moved old new r : wf r ->
  wf (C05.Model.rename_rec old new r) /\ forall k, k <> old -> k <> new -> get k (C05.Model.rename_rec old new r) = get k r.
Proof.
  intros Hwf. unfold C05.Model.rename_rec. destruct (get old r); [|auto]. destruct (beqb old new); [auto|].
  destruct (has new r) eqn:Eh; split.
  - apply wf_remove, wf_put, Hwf.
  - intros k H1 H2. now rewrite get_remove_other, get_put_other by congruence.
  - apply wf_rename_key; [exact Hwf|now apply has_false_notin].
  - intros k H1 H2. now apply get_rename_key_other.
Qed.

Lemma text_step_moved (W : list bytes) a r r' :
  (forall k, In k (writes a) -> mem k W = true) -> text_step a r r' -> wf r ->
  wf r' /\ forall k, mem k W = false -> get k r' = get k r.
Proof.
  intros Hw Hs Hwf.
  assert (Hne : forall k k', In k' (writes a) -> mem k W = false -> k' <> k) by (intros k k' H1 H2 ->; rewrite Hw in H2; congruence).
  destruct a; cbn [text_step writes] in *.
  - subst. auto.
  - destruct Hs as [->|[s ->]]; [auto|]. split; [now apply wf_put|]. intros k' Hk'. apply get_put_other, Hne; [now left|exact Hk'].
  - subst. split; [now apply wf_put|]. intros k' Hk'. apply get_put_other, Hne; [now left|exact Hk'].
  - subst. split; [now apply wf_remove|]. intros k' Hk'. apply get_remove_other, Hne; [now left|exact Hk'].
  - subst. destruct (rename_rec_moved old new r Hwf) as [H1 H2]. split; [exact H1|].
    intros k Hk. apply H2; apply not_eq_sym, Hne; cbn; auto.
  - subst. split; [exact (wf_perm _ _ (Permutation.Permutation_sym (move_to_head_perm k r)) Hwf)|].
    intros k' _. unfold C12.Model.move_to_head. destruct (get k r) as [v|] eqn:G; [|reflexivity]. cbn.
    destruct (beqb_spec k' k) as [->|Hk']; [now rewrite G|]. apply get_remove_other. congruence.
  - subst. split; [exact (wf_perm _ _ (Permutation.Permutation_sym (move_to_tail_perm k r)) Hwf)|].
    intros k' _. unfold C12.Model.move_to_tail. destruct (get k r) as [v|] eqn:G; [|reflexivity]. rewrite get_app. cbn.
    destruct (beqb_spec k' k) as [->|Hk'].
    + now rewrite (proj2 (get_None_notin _ _) (proj2 (wf_remove k r Hwf))), G.
    + rewrite get_remove_other by congruence. now destruct (get k' r).
Qed.

Lemma write_record_get (inferrer : bytes -> ival) (W : list bytes) r anys k :
  good r -> anys_in W anys -> mem k W = false ->
  aget k (write_record inferrer None (r, anys)) = option_map CKnown (get k (map kt r)).
Proof.
  intros Hg Ha Hk. unfold write_record. cbn [fst snd]. induction r as [|[k' v] r IH]; cbn [map aget get kt fst snd]; [reflexivity|].
  inversion Hg as [|? ? Hv Hr]; subst. cbn in Hv. destruct (beqb_spec k k') as [<-|Hne]; [|now apply IH].
  now rewrite (write_record_cell inferrer W).
Qed.

Lemma moved_fields_keep_bytes (inferrer : bytes -> ival) (prog : list ract) (r : record) :
  wf_record r = true ->
  forall k, mem k (write_set prog) = false ->
  aget k (run_program inferrer None prog r) = option_map CKnown (get k r).
Proof.
  intros Hwf k Hk. unfold run_program. set (W := write_set prog).
  assert (Hw : forall a, In a prog -> forall k, In k (writes a) -> mem k W = true).
  { intros a Ha k0 Hk0. apply mem_In. unfold W, write_set. apply in_flat_map; eauto. }
  destruct (run_program_text inferrer W (fun r' => wf r' /\ forall k, mem k W = false -> get k r' = get k r) prog r Hw)
    as (r1 & anys & -> & Hg & Ha & _ & Hget).
  - intros a r0 r' Ha Hs [Hwf0 Hget0]. destruct (text_step_moved W a r0 r' (Hw a Ha) Hs Hwf0) as [H1 H2].
    split; [exact H1|]. intros k0 Hk0. now rewrite H2, Hget0.
  - split; [now apply wf_iff|reflexivity].
  - now rewrite (write_record_get inferrer W r1 anys k Hg Ha Hk), Hget.
Qed.
