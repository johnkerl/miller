(* C03: the record a reader builds from the (name, value) pairs of a line (C05's model of RecordArena.PutDeferred,
   imported unchanged through C03.Harness.read_line). *)
From Miller Require Import Base.Bytes Base.Record C03.Harness.
From Miller Require C05.Model Base.RecordFacts.

Lemma of_pairs_app d l1 : forall l2 acc,
  C05.Model.of_pairs d (l1 ++ l2) acc = C05.Model.of_pairs d l2 (C05.Model.of_pairs d l1 acc).
Proof. induction l1 as [|[k v] t IH]; intros l2 acc; cbn [C05.Model.of_pairs app]; [reflexivity|apply IH]. Qed.

Lemma of_pairs_distinct d : forall l acc, NoDup (keys acc ++ keys l) -> C05.Model.of_pairs d l acc = acc ++ l.
Proof.
  induction l as [|[k v] t IH]; intros acc Hn; cbn [C05.Model.of_pairs]; [now rewrite app_nil_r|].
  assert (Hk : ~ In k (keys acc)).
  { intros Hin. cbn in Hn. apply NoDup_remove_2 in Hn. apply Hn. apply in_or_app. now left. }
  unfold C05.Model.put_deferred. rewrite (proj2 (RecordFacts.has_false_notin k acc) Hk), RecordFacts.put_absent by exact Hk.
  rewrite IH.
  - now rewrite <- app_assoc.
  - unfold keys in *. rewrite map_app, <- app_assoc. exact Hn.
Qed.

Lemma read_line_distinct (dedupe : bool) (l : record) : wf_record l = true -> read_line dedupe l = l.
Proof.
  intros H. unfold read_line. rewrite of_pairs_distinct; [reflexivity|]. cbn. now apply nodupb_NoDup.
Qed.

Lemma read_line_nodedupe_snoc (l : record) (k v k' : bytes) : k' <> k ->
  get k' (read_line false (l ++ [(k, v)])) = get k' (read_line false l)
  /\ get k (read_line false (l ++ [(k, v)])) = Some v.
Proof.
  intros Hne. unfold read_line. rewrite of_pairs_app. cbn [C05.Model.of_pairs].
  set (r := C05.Model.of_pairs false l []).
  assert (E : C05.Model.put_deferred false k v r = put k v r) by (unfold C05.Model.put_deferred; destruct (has k r); reflexivity).
  rewrite E. split; [apply get_put_other; congruence|apply get_put_same].
Qed.
