(* C03 record level.  A program of per-record actions is followed on the record of texts that the writer would emit
   (names with the retained text of each value): there every action is a put, a remove, Mlrmap.Rename or a move, or
   nothing at all.  Fields outside a program's write set keep key, bytes and relative order. *)
From Miller Require Import Base.Bytes Base.Record C06.Model C03.Model C03.Proofs.
From Miller Require C05.Model C12.Model C12.Proofs Base.RecordFacts.
Open Scope Z_scope.

Definition kt (kv : bytes * mlrval) : bytes * bytes := (fst kv, text (snd kv)).
Definition good (r : mrecord) : Prop := Forall (fun kv => valid (snd kv) = true) r.
Definition keeps (f : mlrval -> mlrval) : Prop :=
  forall v, valid v = true -> text (f v) = text v /\ valid (f v) = true.
Definition anys_in (W : list bytes) (anys : anyset) : Prop := forall k, In k anys -> mem k W = true.

(* what an action does to the record of texts *)
Definition text_step (a : ract) (r r' : record) : Prop :=
  match a with
  | RRead _ _ => r' = r
  | RDerive _ _ _ new => r' = r \/ exists s, r' = put new s r
  | RPut k s => r' = put k s r
  | RRemove k => r' = remove k r
  | RRename old new => r' = C05.Model.rename_rec old new r
  | RMoveToHead k => r' = C12.Model.move_to_head k r
  | RMoveToTail k => r' = C12.Model.move_to_tail k r
  end.

Lemma rename_key_out p old new r :
  RecordFacts.rejects p old -> RecordFacts.rejects p new -> filter p (C05.Model.rename_key old new r) = filter p r.
Proof.
  intros Ho Hn. induction r as [|[k v] r IH]; cbn; [reflexivity|].
  destruct (beqb_spec k old) as [->|Hne]; cbn; [now rewrite Ho, Hn|now rewrite IH].
Qed.

Lemma rename_rec_out p old new r :
  RecordFacts.rejects p old -> RecordFacts.rejects p new -> filter p (C05.Model.rename_rec old new r) = filter p r.
Proof.
  intros Ho Hn. unfold C05.Model.rename_rec. destruct (get old r); [|reflexivity]. destruct (beqb old new); [reflexivity|].
  destruct (has new r); [|now apply rename_key_out].
  now rewrite RecordFacts.filter_remove_out, RecordFacts.filter_put_out.
Qed.

Section RecordProofs.
  Variable inferrer : bytes -> ival.

  Lemma uops_keep us : keeps (apply_uops inferrer None us).
  Proof.
    induction us as [|u t IH]; intros v Hv; cbn [apply_uops]; [auto|].
    pose proof (inv_uop inferrer None u (text v) v (or_introl eq_refl) (conj eq_refl Hv)) as [H1 H2].
    destruct (IH _ H2) as [H3 H4]. split; [congruence|exact H4].
  Qed.

  Lemma derive_keeps d : keeps (fun v => fst (derive_val inferrer None d v)).
  Proof.
    intros v Hv. pose proof (conj eq_refl Hv : Inv (text v) v) as Hi.
    pose proof (inv_force inferrer _ _ Hi) as Hf.
    destruct d; cbn [derive_val fst]; auto.
    - pose proof (inv_string_op inferrer None _ _ Hf) as H. destruct (string_op inferrer None (force inferrer v)); exact H.
    - pose proof (inv_string_op inferrer None _ _ Hi) as H. destruct (string_op inferrer None v); exact H.
  Qed.

  Lemma fresh_valid s : valid (fresh s) = true.
  Proof. reflexivity. Qed.

  (* the record of texts of a record of values; every operation on values is the same operation on texts *)
  Notation al := (map kt).

  Lemma al_mget k r : get k (al r) = option_map text (mget k r).
  Proof. induction r as [|[k' v'] r IH]; cbn; [reflexivity|]. destruct (beqb k k'); auto. Qed.

  Lemma al_mhas k r : has k (al r) = mhas k r.
  Proof. unfold has, mhas. rewrite al_mget. destruct (mget k r); reflexivity. Qed.

  Lemma al_mput k v r : al (mput k v r) = put k (text v) (al r).
  Proof. induction r as [|[k' v'] r IH]; cbn; [reflexivity|]. destruct (beqb k k'); cbn; [reflexivity|now rewrite IH]. Qed.

  Lemma al_mremove k r : al (mremove k r) = remove k (al r).
  Proof. induction r as [|[k' v'] r IH]; cbn; [reflexivity|]. destruct (beqb k k'); cbn; [reflexivity|now rewrite IH]. Qed.

  Lemma al_rename_key old new r : al (rename_key old new r) = C05.Model.rename_key old new (al r).
  Proof. induction r as [|[k' v'] r IH]; cbn; [reflexivity|]. destruct (beqb k' old); cbn; [reflexivity|now rewrite IH]. Qed.

  Lemma al_mrename old new r : al (mrename old new r) = C05.Model.rename_rec old new (al r).
  Proof.
    unfold mrename, C05.Model.rename_rec. rewrite al_mget, al_mhas. destruct (mget old r) as [v|]; cbn [option_map]; [|reflexivity].
    destruct (beqb old new); [reflexivity|]. destruct (mhas new r); [now rewrite al_mremove, al_mput|apply al_rename_key].
  Qed.

  Lemma al_read_record r : al (read_record r) = r.
  Proof. unfold read_record. rewrite map_map. cbn. rewrite <- (map_id r) at 2. apply map_ext. now intros [k v]. Qed.

  Lemma mget_good k v r : good r -> mget k r = Some v -> valid v = true.
  Proof.
    induction r as [|[k' v'] r IH]; intros Hg H; cbn in *; [discriminate|].
    inversion Hg as [|? ? Hv Hr]; subst. destruct (beqb k k'); [injection H as <-; exact Hv|auto].
  Qed.

  Lemma good_mput k v r : valid v = true -> good r -> good (mput k v r).
  Proof.
    intros Hv. induction r as [|[k' v'] r IH]; intros Hg; cbn.
    - constructor; auto.
    - inversion Hg as [|? ? Hv' Hr]; subst. destruct (beqb k k'); constructor; cbn in *; auto. now apply IH.
  Qed.

  Lemma good_mremove k r : good r -> good (mremove k r).
  Proof.
    induction r as [|[k' v'] r IH]; intros Hg; cbn; [constructor|].
    inversion Hg as [|? ? Hv Hr]; subst. destruct (beqb k k'); [exact Hr|constructor; [exact Hv|now apply IH]].
  Qed.

  Lemma good_rename_key old new r : good r -> good (rename_key old new r).
  Proof.
    induction r as [|[k v] r IH]; intros Hg; cbn; [constructor|].
    inversion Hg as [|? ? Hv Hr]; subst. destruct (beqb k old); constructor; [exact Hv|exact Hr|exact Hv|now apply IH].
  Qed.

  Lemma good_mrename old new r : good r -> good (mrename old new r).
  Proof.
    intros Hg. unfold mrename. destruct (mget old r) as [v|] eqn:E; [|exact Hg].
    destruct (beqb old new); [exact Hg|]. destruct (mhas new r).
    - apply good_mremove, good_mput; [eapply mget_good; eauto|exact Hg].
    - now apply good_rename_key.
  Qed.

  Lemma good_read_record r : good (read_record r).
  Proof. apply Forall_forall. intros kv Hkv. apply in_map_iff in Hkv. destruct Hkv as (x & <- & _). reflexivity. Qed.

  Lemma mupdate_same_text k f r :
    good r -> (forall v, mget k r = Some v -> text (f v) = text v /\ valid (f v) = true) ->
    al (mupdate k f r) = al r /\ good (mupdate k f r).
  Proof.
    induction r as [|[k' v'] r IH]; intros Hg Hf; cbn in *; [split; [reflexivity|constructor]|].
    inversion Hg as [|? ? Hv Hr]; subst. destruct (beqb k k'); cbn.
    - destruct (Hf v' eq_refl) as [H1 H2]. split; [unfold kt at 1 3; cbn; now rewrite H1|constructor; auto].
    - destruct (IH Hr Hf) as [IH1 IH2]. split; [now rewrite IH1|constructor; auto].
  Qed.

  Variable W : list bytes.

  Definition StInv (st : mrecord * anyset) : Prop := good (fst st) /\ anys_in W (snd st).

  Lemma anys_filter p anys : anys_in W anys -> anys_in W (List.filter p anys).
  Proof. intros H k Hk. apply filter_In in Hk. now apply H. Qed.

  Lemma step_text a st :
    (forall k, In k (writes a) -> mem k W = true) -> StInv st ->
    StInv (apply_ract inferrer None a st) /\ text_step a (al (fst st)) (al (fst (apply_ract inferrer None a st))).
  Proof.
    intros Hw [Hg Ha]. destruct st as [r anys]. unfold StInv. cbn [fst snd] in *.
    destruct a; cbn [apply_ract writes text_step fst snd] in *.
    - (* RRead *)
      destruct (mupdate_same_text k (apply_uops inferrer None us) r Hg) as [H1 H2]; [|now rewrite H1].
      intros v Hv. apply uops_keep. exact (mget_good _ _ _ Hg Hv).
    - (* RDerive *)
      destruct (mget k r) as [v|] eqn:Eg; [|auto].
      destruct (uops_keep us v (mget_good _ _ _ Hg Eg)) as [Ht1 Hv1].
      destruct (derive_keeps d _ Hv1) as [Ht2 Hv2]. cbv beta in *.
      destruct (derive_val inferrer None d (apply_uops inferrer None us v)) as [v2 nv0]. cbn [fst] in *.
      destruct (mupdate_same_text k (fun _ => v2) r Hg) as [H1 H2]; [intros v' Hv'; rewrite Eg in Hv'; injection Hv' as <-; split; congruence|].
      assert (Hn : mem new W = true) by (apply Hw; now left).
      destruct (if mem k anys then match d with DConst s => NKnown s | _ => NAny end else nv0) as [s|];
        cbn [fst snd]; rewrite al_mput, H1; (split; [split; [now apply good_mput|]|right; eexists; reflexivity]).
      + now apply anys_filter.
      + intros k' [<-|Hk']; auto.
    - (* RPut *)
      rewrite al_mput. repeat split; [now apply good_mput|]. now apply anys_filter.
    - (* RRemove *)
      rewrite al_mremove. repeat split; [now apply good_mremove|exact Ha].
    - (* RRename *)
      rewrite al_mrename. repeat split; [now apply good_mrename|].
      destruct (mhas old r && negb (beqb old new)); [|exact Ha].
      destruct (mem old anys); [|now apply anys_filter].
      intros k' [<-|Hk']; [apply Hw; right; now left|]. apply filter_In in Hk'. now apply Ha.
    - (* RMoveToHead *)
      unfold C12.Model.move_to_head. rewrite al_mget. destruct (mget k r) as [v|] eqn:Eg; cbn [option_map]; [|auto].
      cbn [map fst]. rewrite al_mremove. repeat split; [|exact Ha].
      constructor; [exact (mget_good _ _ _ Hg Eg)|now apply good_mremove].
    - (* RMoveToTail *)
      unfold C12.Model.move_to_tail. rewrite al_mget. destruct (mget k r) as [v|] eqn:Eg; cbn [option_map]; [|auto].
      cbn [fst]. rewrite map_app, al_mremove. repeat split; [|exact Ha].
      apply Forall_app. split; [now apply good_mremove|]. constructor; [exact (mget_good _ _ _ Hg Eg)|constructor].
  Qed.

  (* a program: whatever every action's text_step keeps holds of the texts at the end *)
  Lemma steps_text (Q : record -> Prop) prog :
    (forall a, In a prog -> forall k, In k (writes a) -> mem k W = true) ->
    (forall a r r', In a prog -> text_step a r r' -> Q r -> Q r') ->
    forall st, StInv st -> Q (al (fst st)) ->
    StInv (apply_racts inferrer None prog st) /\ Q (al (fst (apply_racts inferrer None prog st))).
  Proof.
    induction prog as [|a t IH]; intros Hw HQ st Hst Hq; cbn [apply_racts]; [auto|].
    destruct (step_text a st (Hw a (or_introl eq_refl)) Hst) as [Hst' Hstep].
    apply IH; [intros a' Ha'; apply Hw; now right|intros a' r0 r' Ha'; apply HQ; now right|exact Hst'|].
    exact (HQ a _ _ (or_introl eq_refl) Hstep Hq).
  Qed.

  Lemma run_program_text (Q : record -> Prop) prog r :
    (forall a, In a prog -> forall k, In k (writes a) -> mem k W = true) ->
    (forall a r r', In a prog -> text_step a r r' -> Q r -> Q r') -> Q r ->
    exists r1 anys, apply_racts inferrer None prog (read_record r, []) = (r1, anys) /\ good r1 /\ anys_in W anys /\ Q (al r1).
  Proof.
    intros Hw HQ Hq.
    destruct (steps_text Q prog Hw HQ (read_record r, [])) as [[Hg Ha] Hq'].
    - split; [apply good_read_record|intros k []].
    - cbn [fst]. now rewrite al_read_record.
    - destruct (apply_racts inferrer None prog (read_record r, [])) as [r1 anys]. eauto 6.
  Qed.

  Lemma write_record_cell k v anys :
    valid v = true -> anys_in W anys -> mem k W = false ->
    (if mem k anys then CAny else match output_text inferrer None v with Some s => CKnown s | None => CAny end) = CKnown (text v).
  Proof.
    intros Hv Ha Hk. destruct (mem k anys) eqn:Em; [apply mem_In, Ha in Em; congruence|].
    unfold output_text. now rewrite (string_op_none_out inferrer (text v) v (conj eq_refl Hv)).
  Qed.

  Lemma write_record_out r anys :
    good r -> anys_in W anys ->
    outside W (write_record inferrer None (r, anys)) = map known_cell (outside W (al r)).
  Proof.
    intros Hg Ha. unfold write_record, outside. cbn [fst snd].
    induction r as [|[k v] r IH]; cbn [map filter fst snd kt]; [reflexivity|].
    inversion Hg as [|? ? Hv Hr]; subst. cbn in Hv. destruct (mem k W) eqn:Ek; cbn [negb]; [now apply IH|].
    cbn [map]. rewrite IH, write_record_cell by assumption. reflexivity.
  Qed.

  Lemma text_step_outside a r r' :
    (forall k, In k (writes a ++ moves a) -> mem k W = true) -> text_step a r r' -> outside W r' = outside W r.
  Proof.
    intros Hw. assert (Hr : forall k, In k (writes a ++ moves a) -> RecordFacts.rejects (fun kv => negb (mem (fst kv) W)) k).
    { intros k Hk v. cbn. now rewrite (Hw k Hk). }
    unfold outside. destruct a; cbn [text_step writes moves app] in *.
    - now intros ->.
    - intros [->|[s ->]]; [reflexivity|]. apply RecordFacts.filter_put_out, Hr. now left.
    - intros ->. apply RecordFacts.filter_put_out, Hr. now left.
    - intros ->. apply RecordFacts.filter_remove_out, Hr. now left.
    - intros ->. apply rename_rec_out; apply Hr; cbn; auto.
    - intros ->. apply C12.Proofs.move_to_head_out, Hr. now left.
    - intros ->. apply C12.Proofs.move_to_tail_out, Hr. now left.
  Qed.
End RecordProofs.

Lemma unassigned_fields_pass_through (inferrer : bytes -> ival) (prog : list ract) (r : record) :
  let W := write_set prog ++ move_set prog in
  outside W (run_program inferrer None prog r) = map known_cell (outside W r).
Proof.
  intros W. unfold run_program.
  assert (Hw : forall a, In a prog -> forall k, In k (writes a ++ moves a) -> mem k W = true).
  { intros a Ha k Hk. apply mem_In. unfold W, write_set, move_set. apply in_app_iff. apply in_app_iff in Hk.
    destruct Hk as [Hk|Hk]; [left|right]; apply in_flat_map; eauto. }
  destruct (run_program_text inferrer W (fun r' => outside W r' = outside W r) prog r) as (r1 & anys & -> & Hg & Ha & Ho).
  - intros a Ha k Hk. apply (Hw a Ha), in_or_app. now left.
  - intros a r0 r' Ha Hs <-. apply (text_step_outside W a); [now apply Hw|exact Hs].
  - reflexivity.
  - now rewrite (write_record_out inferrer W r1 anys Hg Ha), Ho.
Qed.
