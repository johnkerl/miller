(* C17: a failure anywhere (reader, any verb, writer), at any position, under any interleaving and either
   done-flag protocol, is never lost: when main exits, its return value is an error. *)
From Coq Require Import List Bool Arith.
Import ListNotations.
From Miller Require Import C04.Model C04.Search C04.Rules C04.Progress.

Definition ret_of (m : mpc) : bool := match m with MLoop r | MDrain1 r | MDrain2 r | MExit r => r end.
Definition quiet (s : state) : Prop := ret_of (mn s) = false /\ cerr (ch s) = false /\ wr s <> WErr.
Definition is_rerr (r : rpc) : bool := match r with RErr _ => true | _ => false end.
Definition verr_pc (v : vstage) : bool := match vp v with VSendE | VErrSig => true | _ => false end.

(* backward end-of-stream conservation, valid while no verb/writer failure has happened: a stage holds the marker, or
   is past reading, only if its producer has sent it *)
Definition owes (ps : bool) (v : vstage) : Prop :=
  (has_eos (vin v) = true -> ps = true) /\ (vclosed v = true -> ps = true) /\ verr_pc v = false.

Fixpoint chain_inv2 (prod_sent : bool) (vs : list vstage) (wq : list bool) (wc : bool) : Prop :=
  match vs with
  | [] => (has_eos wq = true -> prod_sent = true) /\ (wc = true -> prod_sent = true)
  | v :: rest => owes prod_sent v /\ chain_inv2 (sent_eos v) rest wq wc
  end.

Definition J (s : state) : Prop :=
  (* an error value is on its way *)
  (cfailed (ch s) = true -> ierr s = true \/ cerr (ch s) = true \/ ret_of (mn s) = true
                           \/ is_rerr (rd s) = true \/ wr s = WErr)
  /\ (doneq s = true -> wr s = WDone) /\ (in_loop (mn s) = false -> wr s = WDone)
  /\ (quiet s -> chain_inv2 (rsent (rd s)) (cvs (ch s)) (cwq (ch s)) (wclosed (wr s)))
  (* main's two drains found the error channels empty *)
  /\ match mn s with
     | MDrain2 false => cerr (ch s) = false -> ierr s = false
     | MExit false => cerr (ch s) = false /\ ierr s = false
     | _ => True
     end.

Lemma chain_inv2_fresh kinds : chain_inv2 false (map fresh_verb kinds) [] false.
Proof. induction kinds as [|y kinds IH]; cbn; [split; discriminate|]. repeat split; try discriminate. exact IH. Qed.

Lemma J_init k kinds : J (init k kinds).
Proof.
  unfold J, init; cbn. repeat split; try discriminate.
  intros _. apply chain_inv2_fresh.
Qed.

(* when everything downstream is closed and nothing failed, the whole pipeline has terminated *)
Lemma chain_inv2_all_done : forall vs ps wq,
  chain_inv2 ps vs wq true -> ps = true /\ Forall (fun v => vp v = VDone) vs.
Proof.
  induction vs as [|v rest IH]; intros ps wq H; cbn in H.
  - destruct H as [_ H]. split; [auto|constructor].
  - destruct H as ((H1 & H2 & H3) & H4). destruct (IH _ _ H4) as [Hs Hf].
    assert (Hd : vp v = VDone).
    { unfold sent_eos in Hs. unfold verr_pc in H3. destruct (vp v); try discriminate. reflexivity. }
    split; [apply H2; unfold vclosed; now rewrite Hd|]. constructor; auto.
Qed.

Lemma all_done_stuck blocking d e f vs wq c :
  chain_rule blocking d e f vs wq c -> ~ Forall (fun v => vp v = VDone) vs.
Proof.
  induction 1 as [? ? ? ? ? ? ? ? ? ? Hv|? ? ? ? ? ? ? Hs|? ? ? ? ? ? ? ? ? Hs|]; intros Hd; inversion Hd as [|? ? Hp Hd']; subst; auto.
  - destruct Hv as [| | | | | |? ? ? ? ? ? ? [-> | ->]|]; discriminate.
  - rewrite Hp in Hs. inversion Hs.
  - rewrite Hp in Hs. inversion Hs.
Qed.

Lemma verb_rule_owes blocking d e f v d' e' f' v' ps :
  verb_rule blocking d e f v d' e' f' v' -> e' = false -> owes ps v ->
  e = false /\ owes ps v' /\ sent_eos v' = sent_eos v.
Proof.
  unfold owes, vclosed, verr_pc. destruct 1 as [[]| | | | | | ? [] ? ? ? ? ? [-> | ->]|]; cbn; intuition discriminate.
Qed.

Lemma sends_owes v b p' ps : sends (vp v) b p' -> owes ps v -> owes ps (set_vp v p') /\ sent_eos (set_vp v p') = b /\ sent_eos v = false.
Proof.
  unfold owes, vclosed, verr_pc, sent_eos. destruct v as [p q dd sg sw]; cbn. destruct 1 as [[]|]; cbn; intuition discriminate.
Qed.

Lemma chain_rule_inv2 blocking d e f vs wq c : chain_rule blocking d e f vs wq c ->
  forall ps wc, chain_inv2 ps vs wq wc -> cerr c = false -> e = false /\ chain_inv2 ps (cvs c) (cwq c) wc.
Proof.
  induction 1 as [d e f v rest wq d' e' f' v' Hv|d e f v wq b p' Hs|d e f v v2 rest wq b p' Hs|d e f v rest wq c _ IH];
    intros ps wc; cbn -[has_eos].
  - intros [Hv1 Hrest] He. destruct (verb_rule_owes _ _ _ _ _ _ _ _ _ ps Hv He Hv1) as (E & Ho & ->). auto.
  - intros [Hv1 [R1 R2]] He. destruct (sends_owes _ _ _ _ Hs Hv1) as (Ho & -> & Hse). rewrite Hse in *.
    split; [exact He|]. split; [exact Ho|]. rewrite has_eos_app. split.
    + intros [H|H]%orb_true_iff; [discriminate (R1 H)|exact H].
    + intros H. discriminate (R2 H).
  - intros [Hv1 [(R1 & R2 & R3) R4]] He. destruct (sends_owes _ _ _ _ Hs Hv1) as (Ho & -> & Hse). rewrite Hse in *.
    split; [exact He|]. split; [exact Ho|]. split; [|exact R4]. unfold owes. cbn -[has_eos]. rewrite has_eos_app. split; [|split; [|exact R3]].
    + intros [H|H]%orb_true_iff; [discriminate (R1 H)|exact H].
    + intros H. discriminate (R2 H).
  - intros [Hv1 Hrest] He. destruct (IH _ _ Hrest He) as [E Hi]. auto.
Qed.

Lemma chain_rule_flags blocking d e f vs wq c : chain_rule blocking d e f vs wq c ->
  (e = true -> cerr c = true) /\ (f = true -> cfailed c = true) /\ (cfailed c = true -> f = true \/ cerr c = true).
Proof. induction 1 as [? ? ? ? ? ? ? ? ? ? Hv| | |]; cbn; auto. destruct Hv; auto. Qed.

(* the writer takes a batch off its channel *)
Lemma chain_inv2_take : forall vs ps b q, chain_inv2 ps vs (b :: q) false -> chain_inv2 ps vs q b.
Proof.
  induction vs as [|v rest IH]; intros ps b q; cbn -[has_eos]; [|intros []; auto].
  change (has_eos (b :: q)) with (b || has_eos q). intros [H _]. split; intros E; apply H; rewrite E; [apply orb_true_r|reflexivity].
Qed.

(* past its select loop, with no error taken or waiting, main has seen the whole pipeline finish *)
Lemma J_done s : J s -> in_loop (mn s) = false -> ret_of (mn s) = false -> cerr (ch s) = false ->
  wr s = WDone /\ rd s = RDone /\ Forall (fun v => vp v = VDone) (cvs (ch s)).
Proof.
  intros (_ & _ & Hw & K & _) Hl Hr Hc. specialize (Hw Hl). split; [exact Hw|].
  destruct (chain_inv2_all_done (cvs (ch s)) (rsent (rd s)) (cwq (ch s))) as [Hs Hd].
  - rewrite Hw in K. apply K. repeat split; auto. now rewrite Hw.
  - split; [|exact Hd]. now destruct (rd s).
Qed.

(* For the rules that leave most of the state alone.  The clause about the error on its way (J1, a five-way disjunction) is
   settled first and apart, so that the propositional search for the other clauses does not branch on it. *)
Ltac frame J1 :=
  split; [first [exact J1|intros _; solve [auto 7]|intros Hf; destruct (J1 Hf) as [?|[?|[?|[?|?]]]]; auto 7; congruence]
         |clear J1; intuition (discriminate || congruence)].

Lemma J_step blocking s s' : J s -> step blocking s s' -> J s'.
Proof.
  intros HJ Hs. pose proof (J_done s HJ) as Hdone. destruct HJ as (J1 & J2a & J2b & K & J5). apply step_rule in Hs. unfold J, quiet in *.
  destruct Hs as [| | |k c w dq m|k ie d e f v rest wq w dq m|s c Hc|r ie c b q dq m Hq| |r ie c dq m| | | | | |r ie c w dq ret Hg| |r ie c w dq ret Hg];
    cbn -[has_eos] in *.
  (* r_poll_flag, r_poll, r_fail; w_fail; w_fin, m_ierr, m_cerr, m_done, m_drain1_err; m_drain2_err *)
  1-3, 8, 10-14, 16: solve [frame J1].
  - (* the reader posts its error: main cannot be past its first drain, for then the reader is done *)
    split; [tauto|]. do 3 (split; [assumption|]).
    destruct m as [| |[]|[]]; trivial; [intros Hc|destruct J5 as [Hc _]]; now destruct Hdone as (_ & [=] & _).
  - (* the reader hands over a batch, the last one carrying the marker *)
    split; [destruct k; exact J1|]. do 2 (split; [assumption|]). split; [|exact J5].
    intros Hq. destruct (K Hq) as [(K1 & K2 & K3) K4]. split; [|exact K4]. unfold owes; cbn -[has_eos]. rewrite has_eos_app.
    split; [|split; [intros H; discriminate (K2 H)|exact K3]]. intros [H|H]%orb_true_iff; [discriminate (K1 H)|]. now destruct k.
  - (* a step of the chain: only a verb's failure raises the flags *)
    destruct (chain_rule_flags _ _ _ _ _ _ _ Hc) as (F1 & F2 & F3).
    assert (He : cerr c = false -> cerr (ch s) = false) by (destruct (cerr (ch s)); [rewrite F1 by reflexivity|]; trivial).
    split; [intros [Hf|Hf]%F3; [destruct (J1 Hf) as [?|[?|?]]|]; auto|]. do 2 (split; [assumption|]). split.
    + intros (Hr & Hce & Hw). eapply chain_rule_inv2; eauto.
    + (* no verb moves once main has left with no error *)
      destruct (mn s) as [| |[]|[]]; trivial; [tauto|]. destruct J5 as [Hce Hie]. destruct Hdone as (_ & _ & Hd); auto.
      now apply all_done_stuck in Hc.
  - (* the writer takes a batch *)
    assert (HK : ret_of m = false -> cerr c = false -> chain_inv2 (rsent r) (cvs c) q b).
    { intros Hr Hce. apply chain_inv2_take. rewrite <- Hq. apply K. repeat split; auto. discriminate. }
    destruct b; frame J1.
  - (* the writer posts its error, so main is still in its loop *)
    destruct m as [| |[]|[]]; cbn in *; frame J1.
  - (* main's drains that find nothing *)
    destruct ret; cbn in *; frame J1.
  - destruct ret; cbn in *; frame J1.
Qed.

Lemma J_reachable blocking k kinds s : reachable blocking (init k kinds) s -> J s.
Proof. intros Hr. induction Hr; [apply J_init|eapply J_step; eauto]. Qed.

Theorem error_never_lost blocking k kinds s r :
  reachable blocking (init k kinds) s -> mn s = MExit r -> cfailed (ch s) = true -> r = true.
Proof.
  intros HJ%J_reachable Hm Hf. destruct r; [reflexivity|exfalso].
  pose proof (J_done s HJ) as Hd. destruct HJ as (J1 & _ & _ & _ & J5). rewrite Hm in *.
  destruct J5 as [Hce Hie]. destruct Hd as (Hw & Hr & _); auto.
  rewrite Hce, Hie, Hw, Hr in J1. now destruct (J1 Hf) as [?|[?|[?|[?|?]]]].
Qed.

(* exit status 0 implies the whole input was consumed and every stage has finished *)
Theorem exit0_implies_complete blocking k kinds s :
  reachable blocking (init k kinds) s -> mn s = MExit false ->
  rd s = RDone /\ Forall (fun v => vp v = VDone) (cvs (ch s)) /\ wr s = WDone /\ cfailed (ch s) = false.
Proof.
  intros Hr Hm. pose proof (J_reachable _ _ _ _ Hr) as HJ. pose proof (J_done s HJ) as Hd.
  destruct HJ as (_ & _ & _ & _ & J5). rewrite Hm in *. destruct Hd as (Hw & Hrd & Hv); try tauto.
  repeat split; auto. destruct (cfailed (ch s)) eqn:Hf; [|reflexivity]. discriminate (error_never_lost _ _ _ _ _ Hr Hm Hf).
Qed.
