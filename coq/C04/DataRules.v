(* The transition relation of DataFlags.v as inference rules, as Rules.v does for the skeleton: the cases of
   [flocal], [fchain_succs] and [fsuccs], named once; [fstep_rule] says every step is an instance of one. *)
From Coq Require Import List Bool Arith.
Import ListNotations.
From Miller Require Import C04.Model C04.DataFlags.

Section DataRules.
  Context {rec str st : Type}.
  Notation Fstage := (@fstage rec str st).
  Notation Fstate := (@fstate rec str st).
  Notation Fbatch := (@fbatch rec str).
  Variable keep : nat.

  Lemma run_batch_eos (v : @verb rec str st) x b : snd (snd (run_batch v x b)) = snd b.
  Proof. unfold run_batch. destruct (run_items v x (fst b)) as [x1 o]. destruct (snd b); reflexivity. Qed.

  (* a verb's own steps; d: the done channel upstream of it *)
  Inductive fverb_rule (d : nat) : Fstage -> nat -> Fstage -> Prop :=
  | fv_recv v x b q dd sg : fverb_rule d (mkF v x FRecv (b :: q) dd sg) d (mkF v x (FWork b) q dd sg)
  | fv_swallow v x b q dd sg : 0 < dd -> vtee v = true ->
      fverb_rule d (mkF v x (FWork b) q dd sg) d (mkF v x (FWork b) q 0 sg)
  | fv_relay v x b q dd sg : 0 < dd -> vtee v = false ->
      fverb_rule d (mkF v x (FWork b) q dd sg) d (mkF v x (FRelay b) q 0 sg)
  | fv_own v x b q dd : vraise v (fst (run_batch v x b)) = true ->
      fverb_rule d (mkF v x (FWork b) q dd false) d (mkF v x (FOwn b) q dd true)
  | fv_run v x b q dd sg x' o : run_batch v x b = (x', o) ->
      fverb_rule d (mkF v x (FWork b) q dd sg) d (mkF v x' (FSend o) q dd sg)
  | fv_flag v x p b q dd sg : p = FRelay b \/ p = FOwn b ->
      fverb_rule d (mkF v x p q dd sg) (sf d) (mkF v x (FWork b) q dd sg).

  Lemma flocal_rule d s d' s' : In (d', s') (flocal d s) -> fverb_rule d s d' s'.
  Proof.
    unfold flocal. destruct s as [v x p q dd sg]; cbn [fp fq fd fsig fv fx].
    destruct p as [|b|b|b|o|].
    - destruct q; [intros []|]. intros [[= <- <-]|[]]. constructor.
    - rewrite !in_app_iff. intros [H|[H|H]].
      + destruct (0 <? dd) eqn:E; [apply Nat.ltb_lt in E|destruct H]. destruct H as [[= <- <-]|[]].
        destruct (vtee v) eqn:Et; now constructor.
      + destruct sg; [destruct H|]. destruct (vraise v _) eqn:Er; [|destruct H]. destruct H as [[= <- <-]|[]]. now constructor.
      + destruct H as [[= <- <-]|[]]. destruct (run_batch v x b) eqn:Eb. now constructor.
    - intros [[= <- <-]|[]]. constructor. now left.
    - intros [[= <- <-]|[]]. constructor. now right.
    - intros [].
    - intros [].
  Qed.

  Inductive fchain_rule : nat -> list Fstage -> list Fbatch -> nat -> list Fstage -> list Fbatch -> Prop :=
  | fc_verb d s rest wq d' s' : fverb_rule d s d' s' -> fchain_rule d (s :: rest) wq d' (s' :: rest) wq
  | fc_last d s wq o : fp s = FSend o -> (length wq <? chan_cap) = true ->
      fchain_rule d [s] wq d [set_fp s (if snd o then FDone else FRecv)] (wq ++ [o])
  | fc_next d s s2 rest wq o : fp s = FSend o -> (length (fq s2) <? chan_cap) = true ->
      fchain_rule d (s :: s2 :: rest) wq d (set_fp s (if snd o then FDone else FRecv) :: set_fq s2 (fq s2 ++ [o]) :: rest) wq
  | fc_deep d s rest wq d2 rest' wq' : fchain_rule (fd s) rest wq d2 rest' wq' ->
      fchain_rule d (s :: rest) wq d (set_fd s d2 :: rest') wq'.

  Lemma fchain_succs_rule : forall vs d wq d' vs' wq',
    In (d', vs', wq') (fchain_succs d vs wq) -> fchain_rule d vs wq d' vs' wq'.
  Proof.
    induction vs as [|s rest IH]; intros d wq d' vs' wq'; cbn [fchain_succs]; [intros []|].
    rewrite !in_app_iff, !in_map_iff. intros [([d1 s1] & [= <- <- <-] & H)|[H|([[d2 rest'] wq1] & [= <- <- <-] & H)]].
    - now apply fc_verb, flocal_rule.
    - destruct (fp s) eqn:Ep; try destruct H.
      destruct rest; (destruct (_ <? _) eqn:E; [|destruct H]); destruct H as [[= <- <- <-]|[]]; now constructor.
    - now apply fc_deep, IH.
  Qed.

  Inductive frule : Fstate -> Fstate -> Prop :=
  | fr_poll_flag rem dn vs wq w out dq m : 0 < dn ->
      frule (mkFS FPoll rem dn vs wq w out dq m) (mkFS FSending (firstn keep rem) 0 vs wq w out dq m)
  | fr_poll rem vs wq w out dq m : frule (mkFS FPoll rem 0 vs wq w out dq m) (mkFS FSending rem 0 vs wq w out dq m)
  | fr_marker dn v rest wq w out dq m : (length (fq v) <? reader_cap) = true ->
      frule (mkFS FSending [] dn (v :: rest) wq w out dq m)
            (mkFS FRDone [] dn (set_fq v (fq v ++ [([], true)]) :: rest) wq w out dq m)
  | fr_send b rem dn v rest wq w out dq m : (length (fq v) <? reader_cap) = true ->
      frule (mkFS FSending (b :: rem) dn (v :: rest) wq w out dq m)
            (mkFS FPoll rem dn (set_fq v (fq v ++ [(b, false)]) :: rest) wq w out dq m)
  | fr_chain s d' vs' wq' : fchain_rule (fdn s) (fvs s) (fwq s) d' vs' wq' ->
      frule s (mkFS (frd s) (frem s) d' vs' wq' (fwr s) (fout s) (fdoneq s) (fmn s))
  | fw_recv r rem dn vs b q out dq m :
      frule (mkFS r rem dn vs (b :: q) WRecv out dq m)
            (mkFS r rem dn vs q (if snd b then WFin else WRecv) (out ++ [b]) dq m)
  | fw_fin r rem dn vs wq out dq m : frule (mkFS r rem dn vs wq WFin out dq m) (mkFS r rem dn vs wq WDone out true m)
  | fm_done r rem dn vs wq w out ret :
      frule (mkFS r rem dn vs wq w out true (MLoop ret)) (mkFS r rem dn vs wq w out false (MDrain1 ret))
  | fm_drain1 r rem dn vs wq w out dq ret :
      frule (mkFS r rem dn vs wq w out dq (MDrain1 ret)) (mkFS r rem dn vs wq w out dq (MDrain2 ret))
  | fm_drain2 r rem dn vs wq w out dq ret :
      frule (mkFS r rem dn vs wq w out dq (MDrain2 ret)) (mkFS r rem dn vs wq w out dq (MExit ret)).

  Lemma fstep_rule s s' : fstep keep s s' -> frule s s'.
  Proof.
    unfold fstep, fsuccs, fchain_steps. rewrite !in_app_iff, in_map_iff. intros [H|[([[d' vs'] wq'] & <- & H)|[H|H]]].
    - unfold freader_steps in H. destruct s as [[] rem dn vs wq w out dq m]; cbn [frd frem fdn fvs fwq fwr fout fdoneq fmn] in H.
      + destruct dn; destruct H as [<-|[]]; constructor. apply Nat.lt_0_succ.
      + destruct vs; [destruct H|]. destruct (_ <? _) eqn:E; [|destruct H]. destruct rem; destruct H as [<-|[]]; now constructor.
      + destruct H.
    - now apply fr_chain, fchain_succs_rule.
    - unfold fwriter_steps in H. destruct s as [r rem dn vs wq [] out dq m]; cbn [frd frem fdn fvs fwq fwr fout fdoneq fmn] in H.
      + destruct wq; [destruct H|]. destruct H as [<-|[]]. constructor.
      + destruct H.
      + destruct H as [<-|[]]. constructor.
      + destruct H.
    - unfold fmain_steps in H. destruct s as [r rem dn vs wq w out dq [ret|ret|ret|ret]]; cbn [frd frem fdn fvs fwq fwr fout fdoneq fmn] in H.
      + destruct dq; [|destruct H]. destruct H as [<-|[]]. constructor.
      + destruct H as [<-|[]]. constructor.
      + destruct H as [<-|[]]. constructor.
      + destruct H.
  Qed.

  Lemma freach_trans (a b c : Fstate) : freach keep a b -> freach keep b c -> freach keep a c.
  Proof. intros Hab Hbc. induction Hbc; [exact Hab|eapply freach_step; eauto]. Qed.

  Lemma freach_first (s s1 s' : Fstate) : fstep keep s s1 -> freach keep s1 s' -> freach keep s s'.
  Proof. intros H. apply freach_trans. eapply freach_step; [apply freach_refl|exact H]. Qed.

  Lemma frun_sched_reach sched : forall s s' : Fstate, frun_sched keep sched s = Some s' -> freach keep s s'.
  Proof.
    induction sched as [|n rest IH]; intros s s' H; cbn in H.
    - injection H as <-. apply freach_refl.
    - destruct (nth_error (fsuccs keep s) n) as [s1|] eqn:E; [|discriminate].
      eapply freach_first; [|exact (IH _ _ H)]. eapply nth_error_In; eauto.
  Qed.
End DataRules.
