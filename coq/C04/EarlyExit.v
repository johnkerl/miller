(* C04: stdout determinism WITH early-exit verbs.  In the data-carrying model with done flags (DataFlags.v) the only
   effect of a downstream-done flag on data is that the producer stops reading: the input is truncated.  Theorem:
   for chains  Q ++ R  where every verb of Q is "quiet" (emits records only: no print/emit-to-stdout/dump text) and
   satisfies head's discard invariant (once it wants to raise its flag it emits nothing more, ever), and no verb of
   R raises a flag, every interleaving writes -- up to the cutting into batches -- exactly what the sequential
   composition of the verbs writes on the WHOLE input: the done signal only truncates input the chain would have
   discarded anyway.  (Verbs upstream of an early-exit verb which print are excluded: that is the known-finding
   class, refuted on the model in EarlyInst.v.) *)
From Coq Require Import List Bool Arith Lia.
Import ListNotations.
From Miller Require Import C04.Model C04.DataFlags C04.DataRules.

Section Early.
  Context {rec str st : Type}.
  Notation Fstage := (@fstage rec str st).
  Notation Fstate := (@fstate rec str st).
  Notation Fbatch := (@fbatch rec str).
  Notation Item := (@item rec str).
  Notation Verb := (@verb rec str st).
  Variable keep : nat.

  Definition stage_out (s : Fstage) (inc : list Fbatch) : list Fbatch :=
    match fp s with
    | FRecv | FDone => run_verb (fv s) (fx s) (fq s ++ inc)
    | FWork b | FRelay b | FOwn b => run_verb (fv s) (fx s) (b :: fq s ++ inc)
    | FSend o => o :: run_verb (fv s) (fx s) (fq s ++ inc)
    end.
  Fixpoint drain (vs : list Fstage) (inc : list Fbatch) : list Fbatch :=
    match vs with [] => inc | s :: rest => drain rest (stage_out s inc) end.
  Definition rrest (s : Fstate) : list Fbatch := match frd s with FRDone => [] | _ => whole (frem s) end.
  Definition alpha (s : Fstate) : list Fbatch := fout s ++ fwq s ++ drain (fvs s) (rrest s).

  Lemma flat_app (a b : list Fbatch) : flat (a ++ b) = flat a ++ flat b.
  Proof. unfold flat. now rewrite map_app, concat_app. Qed.

  Lemma stage_out_push (s : Fstage) b inc : stage_out (set_fq s (fq s ++ [b])) inc = stage_out s (b :: inc).
  Proof. unfold stage_out. destruct s as [v x p q d g]; cbn. destruct p; now rewrite <- app_assoc. Qed.

  Lemma fverb_rule_out d (s : Fstage) d' s' inc : fverb_rule d s d' s' -> stage_out s' inc = stage_out s inc.
  Proof.
    unfold stage_out. destruct 1 as [| | | |? ? ? ? ? ? ? ? E|? ? ? ? ? ? ? [-> | ->]]; cbn [fp fq fv fx run_verb]; trivial.
    now rewrite E.
  Qed.

  Lemma stage_out_sent (s : Fstage) o inc :
    fp s = FSend o -> stage_out s inc = o :: stage_out (set_fp s (if snd o then FDone else FRecv)) inc.
  Proof. unfold stage_out. destruct s as [v x p q d g]; cbn. intros ->. destruct (snd o); reflexivity. Qed.

  Lemma fchain_alpha d (vs : list Fstage) wq d' vs' wq' : fchain_rule d vs wq d' vs' wq' ->
    exists Y, wq' = wq ++ Y /\ forall inc, drain vs inc = Y ++ drain vs' inc.
  Proof.
    induction 1 as [d s rest wq d' s' Hv|d s wq o Ep|d s s2 rest wq o Ep|d s rest wq d2 rest' wq' _ (Y & HY & Hd)].
    - exists []. split; [now rewrite app_nil_r|]. intros inc. cbn. now rewrite (fverb_rule_out _ _ _ _ inc Hv).
    - exists [o]. split; [reflexivity|]. intros inc. cbn. now rewrite (stage_out_sent s o inc Ep).
    - exists []. split; [now rewrite app_nil_r|]. intros inc. cbn [drain app].
      now rewrite (stage_out_sent s o inc Ep), stage_out_push.
    - exists Y. split; [exact HY|]. intros inc. apply Hd.
  Qed.

  (* records-only streams ending in exactly one end-of-stream batch *)
  Definition is_rec (i : Item) : bool := match i with inl _ => true | inr _ => false end.
  Definition recs_only (l : list Item) : bool := forallb is_rec l.
  Definition data_batch (b : Fbatch) : bool := negb (snd b) && recs_only (fst b).
  Arguments recs_only : simpl never.
  Fixpoint wfb (inc : list Fbatch) : bool :=
    match inc with
    | [] => false
    | b :: t => match t with [] => snd b && recs_only (fst b) | _ => data_batch b && wfb t end
    end.

  Lemma wfb_cons b t : data_batch b = true -> wfb t = true -> wfb (b :: t) = true.
  Proof. intros Hb Ht. destruct t; [discriminate|]. cbn [wfb] in *. now rewrite Hb, Ht. Qed.

  Lemma wfb_inv b t : wfb (b :: t) = true -> recs_only (fst b) = true /\ if snd b then t = [] else wfb t = true.
  Proof.
    destruct t; cbn [wfb]; unfold data_batch; destruct (snd b), (recs_only (fst b)); cbn; intros H; try discriminate; auto.
  Qed.

  Lemma wfb_app pre t : forallb data_batch pre = true -> wfb t = true -> wfb (pre ++ t) = true.
  Proof.
    induction pre as [|b pre IH]; intros Hp Ht; [exact Ht|]. cbn in Hp. apply andb_true_iff in Hp as [Hb Hp].
    cbn [app]. apply wfb_cons; auto.
  Qed.

  Lemma wfb_whole (bs : list (list Item)) : forallb recs_only bs = true -> wfb (whole bs) = true.
  Proof.
    intros H. unfold whole. apply wfb_app; [|reflexivity].
    induction bs as [|b bs IH]; [reflexivity|]. cbn [map forallb] in *. apply andb_true_iff in H as [Hb H].
    unfold data_batch at 1; cbn [fst snd negb andb]. rewrite Hb. auto.
  Qed.

  Lemma recs_only_app a b : recs_only (a ++ b) = recs_only a && recs_only b.
  Proof. apply forallb_app. Qed.

  Lemma recs_only_inl (l : list rec) : recs_only (map inl l) = true.
  Proof. unfold recs_only. induction l; [reflexivity|assumption]. Qed.

  Lemma inl_batches_recs (bs : list (list rec)) : forallb recs_only (map (map inl) bs) = true.
  Proof. induction bs as [|b bs IH]; [reflexivity|]. cbn [map forallb]. now rewrite recs_only_inl. Qed.

  (* a chain suffix is truncation-insensitive: its flattened output does not depend on which (well-formed) stream
     is still to come *)
  Definition Tins (vs : list Fstage) : Prop :=
    forall inc1 inc2, wfb inc1 = true -> wfb inc2 = true -> flat (drain vs inc1) = flat (drain vs inc2).

  Definition quiet (v : Verb) : Prop :=
    (forall x r, recs_only (snd (vstep v x r)) = true) /\ (forall x, recs_only (vfin v x) = true).
  (* head's discard invariant *)
  Definition discards (v : Verb) : Prop :=
    forall x, vraise v x = true ->
      (forall r, snd (vstep v x r) = [] /\ vraise v (fst (vstep v x r)) = true) /\ vfin v x = [].
  Definition never_raises (v : Verb) : Prop := forall x, vraise v x = false.

  Lemma run_items_recs (v : Verb) : quiet v -> forall l x, recs_only l = true -> recs_only (snd (run_items v x l)) = true.
  Proof.
    intros [Hq _]. induction l as [|[r|s] l IH]; intros x Hl; cbn in *; [reflexivity| |discriminate].
    specialize (Hq x r). destruct (vstep v x r) as [x1 o1]. specialize (IH x1 Hl).
    destruct (run_items v x1 l) as [x2 o2]. cbn in *. rewrite recs_only_app. now rewrite Hq, IH.
  Qed.

  Lemma run_batch_data (v : Verb) x b : quiet v -> data_batch b = true -> data_batch (snd (run_batch v x b)) = true.
  Proof.
    intros Hq Hb. unfold data_batch in Hb. apply andb_true_iff in Hb as [He Hr]. unfold run_batch.
    pose proof (run_items_recs v Hq (fst b) x Hr) as H. destruct (run_items v x (fst b)) as [x1 o].
    destruct (snd b); [discriminate|]. unfold data_batch; cbn in *. exact H.
  Qed.

  Lemma run_verb_wf (v : Verb) : quiet v -> forall inc x, wfb inc = true -> wfb (run_verb v x inc) = true.
  Proof.
    intros Hq. induction inc as [|b t IH]; intros x H; [discriminate|].
    apply wfb_inv in H as [Hr Ht]. cbn [run_verb]. unfold run_batch.
    pose proof (run_items_recs v Hq (fst b) x Hr) as H1. destruct (run_items v x (fst b)) as [x1 o]. cbn [snd] in H1.
    destruct (snd b).
    - subst t. cbn. rewrite recs_only_app, H1. apply Hq.
    - apply wfb_cons; [exact H1|now apply IH].
  Qed.

  Lemma run_verb_wf_pre (v : Verb) : quiet v -> forall pre inc x,
    forallb data_batch pre = true -> wfb inc = true -> wfb (run_verb v x (pre ++ inc)) = true.
  Proof. intros Hq pre inc x Hp Hi. apply run_verb_wf; [exact Hq|]. now apply wfb_app. Qed.

  Definition hand (p : @fpc rec str) : list Fbatch :=
    match p with FRecv | FDone => [] | FWork b | FRelay b | FOwn b | FSend b => [b] end.
  Definition inflight (s : Fstage) : list Fbatch := hand (fp s) ++ fq s.
  Definition inflight_data (s : Fstage) : bool := forallb data_batch (inflight s).
  Definition noeos_stage (s : Fstage) : bool :=
    forallb (fun b => negb (snd b)) (hand (fp s)) && forallb (fun b => negb (snd b)) (fq s)
    && match fp s with FDone => false | _ => true end.

  Lemma noeos_stage_spec (s : Fstage) :
    noeos_stage s = true <-> forallb (fun b => negb (snd b)) (inflight s) = true /\ fp s <> FDone.
  Proof.
    unfold noeos_stage, inflight. rewrite forallb_app, andb_true_iff.
    destruct (fp s); intuition (discriminate || congruence).
  Qed.

  Lemma fverb_rule_inflight d (s : Fstage) d' s' : fverb_rule d s d' s' ->
    fv s' = fv s /\ fp s' <> FDone /\
    (inflight s' = inflight s \/ exists b l, inflight s = b :: l /\ inflight s' = snd (run_batch (fv s) (fx s) b) :: l).
  Proof.
    unfold inflight. destruct 1 as [| | | |? ? ? ? ? ? ? ? E|? ? ? ? ? ? ? [-> | ->]]; cbn; repeat split; try discriminate; auto.
    right. eexists _, _. split; [reflexivity|]. now rewrite E.
  Qed.

  Lemma fverb_rule_forallb (P : Fbatch -> bool) d (s : Fstage) d' s' : fverb_rule d s d' s' ->
    (forall b, P b = true -> P (snd (run_batch (fv s) (fx s) b)) = true) ->
    forallb P (inflight s) = true -> forallb P (inflight s') = true.
  Proof.
    intros Hv HP. destruct (fverb_rule_inflight _ _ _ _ Hv) as (_ & _ & [-> | (b & l & -> & ->)]); [trivial|].
    cbn. intros [Hb Hl]%andb_true_iff. now rewrite (HP b Hb).
  Qed.

  Lemma wf_stage_out (s : Fstage) inc :
    quiet (fv s) -> inflight_data s = true -> fp s <> FDone -> wfb inc = true -> wfb (stage_out s inc) = true.
  Proof.
    unfold inflight_data, inflight, stage_out. intros Hq Hi Hnd Hw.
    destruct (fp s) as [|b|b|b|o|]; cbn [hand app] in Hi; [| | | | |contradiction];
      try exact (run_verb_wf_pre (fv s) Hq _ inc _ Hi Hw).
    apply andb_true_iff in Hi as [Ho Hi]. apply wfb_cons; [exact Ho|]. now apply run_verb_wf_pre.
  Qed.

  Lemma Tins_cons (s : Fstage) rest :
    quiet (fv s) -> inflight_data s = true -> fp s <> FDone -> Tins rest -> Tins (s :: rest).
  Proof. intros Hq Hi Hnd HT inc1 inc2 H1 H2. cbn [drain]. apply HT; now apply wf_stage_out. Qed.

  (* the discard invariant: a raised verb turns its input into empty batches *)
  Definition strip (b : Fbatch) : Fbatch := ([], snd b).

  Lemma run_items_discard (v : Verb) : discards v -> forall l x, vraise v x = true -> recs_only l = true ->
    snd (run_items v x l) = [] /\ vraise v (fst (run_items v x l)) = true.
  Proof.
    intros Hd. induction l as [|[r|s] l IH]; intros x Hx Hl; cbn in *; [auto| |discriminate].
    destruct (Hd x Hx) as [Hs _]. destruct (Hs r) as [Ho Hr]. destruct (vstep v x r) as [x1 o1]. cbn in *. subst o1.
    specialize (IH x1 Hr Hl). destruct (run_items v x1 l) as [x2 o2]. cbn in *. destruct IH as [-> IH2]. auto.
  Qed.

  Lemma run_verb_discard (v : Verb) : discards v -> forall bs x, vraise v x = true ->
    forallb (fun b => recs_only (fst b)) bs = true -> run_verb v x bs = map strip bs.
  Proof.
    intros Hd. induction bs as [|b t IH]; intros x Hx Hb; [reflexivity|].
    cbn in Hb. apply andb_true_iff in Hb as [Hb Ht]. cbn [run_verb map]. unfold run_batch.
    destruct (run_items_discard v Hd (fst b) x Hx Hb) as [Ho Hr]. destruct (run_items v x (fst b)) as [x1 o]. cbn in *. subst o.
    destruct (Hd x1 Hr) as [_ Hf]. unfold strip. destruct (snd b); rewrite ?Hf; cbn; f_equal; apply IH; auto.
  Qed.

  (* empty non-end batches are invisible to every verb *)
  Definition isnoop (b : Fbatch) : bool := match b with ([], false) => true | _ => false end.
  Definition squash (bs : list Fbatch) : list Fbatch := filter (fun b => negb (isnoop b)) bs.

  Lemma squash_app a b : squash (a ++ b) = squash a ++ squash b.
  Proof. apply filter_app. Qed.

  Lemma flat_squash bs : flat (squash bs) = flat bs.
  Proof.
    induction bs as [|[l e] t IH]; [reflexivity|].
    unfold squash in *. cbn [filter]. destruct (isnoop (l, e)) eqn:E; cbn [negb].
    - destruct l; [|discriminate]. destruct e; [discriminate|]. unfold flat in *; cbn. exact IH.
    - unfold flat in *; cbn. now rewrite IH.
  Qed.

  Lemma run_verb_squash (v : Verb) : forall bs x, squash (run_verb v x bs) = squash (run_verb v x (squash bs)).
  Proof.
    induction bs as [|[l e] t IH]; intros x; [reflexivity|].
    destruct l as [|i l]; [destruct e|].
    - cbn [squash filter isnoop negb run_verb]. destruct (run_batch v x ([], true)) as [x1 o]. cbn [filter]. now rewrite IH.
    - cbn [squash filter isnoop negb run_verb]. unfold run_batch; cbn. apply IH.
    - cbn [squash filter isnoop negb run_verb]. destruct (run_batch v x (i :: l, e)) as [x1 o]. cbn [filter]. now rewrite IH.
  Qed.

  Lemma stage_out_eqv (s : Fstage) i1 i2 : squash i1 = squash i2 -> squash (stage_out s i1) = squash (stage_out s i2).
  Proof.
    intros H. unfold stage_out.
    assert (E : forall pre, squash (run_verb (fv s) (fx s) (pre ++ i1)) = squash (run_verb (fv s) (fx s) (pre ++ i2))).
    { intros pre. rewrite run_verb_squash, squash_app, H, <- squash_app, <- run_verb_squash. reflexivity. }
    destruct (fp s) as [|b|b|b|o|]; try apply E; try apply (E (b :: fq s)).
    change (o :: ?x) with ([o] ++ x). now rewrite !squash_app, E.
  Qed.

  Lemma drain_eqv : forall (vs : list Fstage) i1 i2, squash i1 = squash i2 -> squash (drain vs i1) = squash (drain vs i2).
  Proof. induction vs as [|s rest IH]; intros i1 i2 H; [exact H|]. cbn. apply IH. now apply stage_out_eqv. Qed.

  Lemma squash_strip_wf inc : wfb inc = true -> squash (map strip inc) = [([], true)].
  Proof.
    induction inc as [|b t IH]; [discriminate|]. intros [_ H]%wfb_inv. cbn [map]. unfold strip at 1.
    destruct (snd b); [now subst t|]. apply IH, H.
  Qed.

  Lemma wfb_recs inc : wfb inc = true -> forallb (fun b => recs_only (fst b)) inc = true.
  Proof.
    induction inc as [|b t IH]; [reflexivity|]. intros [Hr H]%wfb_inv. cbn [forallb]. rewrite Hr.
    destruct (snd b); [now subst t|now apply IH].
  Qed.

  (* a stage holding batch b whose processing leaves the verb raised makes the whole suffix truncation-insensitive *)
  Lemma Tins_own (s : Fstage) b rest :
    discards (fv s) -> inflight_data s = true ->
    (fp s = FWork b \/ fp s = FOwn b) -> vraise (fv s) (fst (run_batch (fv s) (fx s) b)) = true ->
    Tins (s :: rest).
  Proof.
    intros Hd Hi Hp Hr inc1 inc2 H1 H2. cbn [drain].
    rewrite <- (flat_squash (drain rest (stage_out s inc1))), <- (flat_squash (drain rest (stage_out s inc2))).
    f_equal. apply drain_eqv.
    assert (E : forall inc, wfb inc = true ->
              squash (stage_out s inc) = squash (snd (run_batch (fv s) (fx s) b) :: map strip (fq s)) ++ [([], true)]).
    { intros inc Hw. unfold inflight_data, inflight in Hi. rewrite forallb_app in Hi. apply andb_true_iff in Hi as [_ Hfq].
      assert (Hso : stage_out s inc = run_verb (fv s) (fx s) (b :: fq s ++ inc)) by (unfold stage_out; destruct Hp as [-> | ->]; reflexivity).
      rewrite Hso. cbn [run_verb]. destruct (run_batch (fv s) (fx s) b) as [x' o]. cbn [fst snd] in *.
      rewrite (run_verb_discard (fv s) Hd (fq s ++ inc) x' Hr).
      - rewrite map_app. change (o :: ?a ++ ?c) with ((o :: a) ++ c). rewrite squash_app. now rewrite squash_strip_wf.
      - apply wfb_recs. now apply wfb_app. }
    now rewrite (E inc1 H1), (E inc2 H2).
  Qed.

  (* the chain invariant (valid while the producer has not sent the end-of-stream marker) *)
  Definition is_flag_pc (p : @fpc rec str) : bool := match p with FRelay _ | FOwn _ => true | _ => false end.
  Definition qstage (s : Fstage) : Prop := quiet (fv s) /\ discards (fv s) /\ inflight_data s = true.
  Definition rstage (s : Fstage) : Prop := never_raises (fv s) /\ is_flag_pc (fp s) = false.

  (* d: the done channel upstream of the suffix.  In Q a flag that is pending upstream of a stage, or that the stage is
     about to send, means that what the suffix writes no longer depends on what is still to come; R never sees a flag *)
  Fixpoint CI (nq : nat) (d : nat) (vs : list Fstage) : Prop :=
    match vs with
    | [] => d = 0
    | s :: rest =>
        noeos_stage s = true /\
        match nq with
        | S nq' => qstage s /\ (0 < d \/ is_flag_pc (fp s) = true -> Tins (s :: rest)) /\ CI nq' (fd s) rest
        | O => d = 0 /\ rstage s /\ CI O (fd s) rest
        end
    end.

  Lemma CI_Tins nq d vs : CI nq d vs -> 0 < d -> Tins vs.
  Proof. destruct vs as [|s rest], nq; cbn; try lia; intros (_ & _ & H & _); auto. Qed.

  Lemma CI_R_zero d vs : CI 0 d vs -> d = 0.
  Proof. destruct vs; cbn; tauto. Qed.

  Lemma CI_weaken nq d vs : CI nq d vs -> CI nq 0 vs.
  Proof. destruct vs as [|s rest], nq; cbn; intuition lia. Qed.

  Lemma Tins_ext (vs vs' : list Fstage) : (forall inc, drain vs' inc = drain vs inc) -> Tins vs -> Tins vs'.
  Proof. intros E HT inc1 inc2 H1 H2. rewrite !E. now apply HT. Qed.

  Lemma Tins_cancel (vs vs' : list Fstage) Y : (forall inc, drain vs inc = Y ++ drain vs' inc) -> Tins vs -> Tins vs'.
  Proof.
    intros E HT inc1 inc2 H1 H2. specialize (HT inc1 inc2 H1 H2). rewrite !E, !flat_app in HT.
    now apply app_inv_head in HT.
  Qed.

  Lemma noeos_not_done (s : Fstage) : noeos_stage s = true -> fp s <> FDone.
  Proof. unfold noeos_stage. intros H E. rewrite E in H. now rewrite andb_false_r in H. Qed.

  Lemma inflight_push (s : Fstage) o : inflight (set_fq s (fq s ++ [o])) = inflight s ++ [o].
  Proof. unfold inflight. cbn [set_fq fp fq]. apply app_assoc. Qed.

  Lemma CI_push nq d (s : Fstage) rest o :
    CI nq d (s :: rest) -> snd o = false -> (recs_only (fst o) = true \/ nq = 0) ->
    CI nq d (set_fq s (fq s ++ [o]) :: rest).
  Proof.
    intros [Hn HC] He Ho. split.
    - apply noeos_stage_spec in Hn as [Hn Hd]. apply noeos_stage_spec. split; [|exact Hd].
      rewrite inflight_push, forallb_app. apply andb_true_iff. split; [exact Hn|]. cbn. now rewrite He.
    - destruct nq as [|n]; [exact HC|]. destruct Ho as [Hr|[=]]. destruct HC as ((Q1 & Q2 & Q3) & HF & HC).
      assert (Hd : data_batch o = true) by (unfold data_batch; now rewrite He, Hr).
      split; [|split; [|exact HC]].
      + split; [exact Q1|]. split; [exact Q2|]. unfold inflight_data in *. rewrite inflight_push, forallb_app. apply andb_true_iff. split; [exact Q3|]. cbn. now rewrite Hd.
      + intros HT%HF inc1 inc2 H1 H2. cbn [drain]. rewrite !stage_out_push. apply (HT (o :: inc1) (o :: inc2)); now apply wfb_cons.
  Qed.

  Lemma run_batch_noeos (v : Verb) x b : negb (snd b) = true -> negb (snd (snd (run_batch v x b))) = true.
  Proof. unfold run_batch. destruct (run_items v x (fst b)). now destruct (snd b). Qed.

  Lemma CI_verb nq d (s : Fstage) rest d' s' : fverb_rule d s d' s' -> CI nq d (s :: rest) -> CI nq d' (s' :: rest).
  Proof.
    intros Hv [Hn HC].
    assert (HTs : Tins (s :: rest) -> Tins (s' :: rest)).
    { apply Tins_ext. intros inc. cbn. now rewrite (fverb_rule_out _ _ _ _ inc Hv). }
    destruct (fverb_rule_inflight _ _ _ _ Hv) as (Ev & Hd' & _).
    assert (Hfd : forall n, CI n (fd s) rest -> CI n (fd s') rest) by (intros n H; destruct Hv; cbn; trivial; now apply CI_weaken in H).
    split.
    { apply noeos_stage_spec in Hn as [Hn _]. apply noeos_stage_spec. split; [|exact Hd'].
      revert Hn. apply (fverb_rule_forallb _ _ _ _ _ Hv). intros b. apply run_batch_noeos. }
    destruct nq as [|n].
    - (* R: no flag arrives, none is raised *)
      destruct HC as (-> & (R1 & R3) & HC). pose proof (CI_R_zero _ _ HC) as R2.
      destruct Hv as [| | |? ? ? ? ? Hr| |? ? ? ? ? ? ? [-> | ->]]; cbn in *; try lia; try discriminate;
        [|now rewrite R1 in Hr|]; repeat split; auto.
    - destruct HC as ((Q1 & Q2 & Q3) & HF & HC).
      assert (Q3' : inflight_data s' = true).
      { revert Q3. apply (fverb_rule_forallb _ _ _ _ _ Hv). intros b. now apply run_batch_data. }
      split; [unfold qstage; now rewrite Ev|]. split; [|apply Hfd, HC].
      destruct Hv as [| |? ? ? ? dd ? Hdd| | |? ? ? ? ? ? ? Hp]; cbn [fp fd is_flag_pc] in *.
      + intros [Hd|[=]]. apply HTs, HF. now left.
      + intros [Hd|[=]]. apply HTs, HF. now left.
      + (* the flag moves up: what this verb still emits stays well-formed, so the suffix below decides *)
        intros _. apply Tins_cons; auto. eapply CI_Tins; eauto.
      + intros _. apply (Tins_own _ b); auto.
      + intros [Hd|[=]]. apply HTs, HF. now left.
      + intros _. apply HTs, HF. right. now destruct Hp as [-> | ->].
  Qed.

  Lemma CI_sent nq d (s : Fstage) rest rest' o : fp s = FSend o -> CI nq d (s :: rest) ->
    (Tins (s :: rest) -> Tins (set_fp s (if snd o then FDone else FRecv) :: rest')) ->
    (snd o = false -> recs_only (fst o) = true \/ nq = 0 -> CI (pred nq) (fd s) rest -> CI (pred nq) (fd s) rest') ->
    CI nq d (set_fp s (if snd o then FDone else FRecv) :: rest').
  Proof.
    intros Ep [Hn HC] HT Hrest. apply noeos_stage_spec in Hn as [Hn _].
    unfold qstage, inflight_data, inflight in *. rewrite Ep in *. cbn [hand app forallb] in *.
    apply andb_true_iff in Hn as [He%negb_true_iff Hn]. rewrite He in *. split.
    { apply noeos_stage_spec. split; [exact Hn|discriminate]. }
    destruct nq as [|n]; cbn [pred] in *.
    - destruct HC as (Hd & [R1 _] & HC). repeat split; auto.
    - destruct HC as ((Q1 & Q2 & [[_ Ho]%andb_true_iff Q3]%andb_true_iff) & HF & HC).
      split; [exact (conj Q1 (conj Q2 Q3))|]. split; [intros [H|[=]]|]; auto.
  Qed.

  Lemma fchain_Tins d (vs : list Fstage) wq d' vs' wq' : fchain_rule d vs wq d' vs' wq' -> Tins vs -> Tins vs'.
  Proof. intros (Y & _ & HY)%fchain_alpha. exact (Tins_cancel _ _ _ HY). Qed.

  Lemma CI_step d (vs : list Fstage) wq d' vs' wq' : fchain_rule d vs wq d' vs' wq' -> forall nq, CI nq d vs -> CI nq d' vs'.
  Proof.
    intros Hc. pose proof (fchain_Tins _ _ _ _ _ _ Hc) as HT.
    induction Hc as [d s rest wq d' s' Hv|d s wq o Ep|d s s2 rest wq o Ep|d s rest wq d2 rest' wq' Hc IH]; intros nq HC.
    - eapply CI_verb; eauto.
    - eapply CI_sent; eauto.
    - eapply CI_sent; eauto. intros He Ho HC'. apply CI_push; auto. destruct Ho as [Ho| ->]; auto.
    - specialize (IH (fchain_Tins _ _ _ _ _ _ Hc)). destruct HC as [Hn HC]. split; [exact Hn|].
      destruct nq; [destruct HC as (Hd & R & HC)|destruct HC as (Q & HF & HC)]; auto.
  Qed.

  Definition GI (nq : nat) (s : Fstate) : Prop :=
    frd s = FRDone \/ (forallb recs_only (frem s) = true /\ CI nq (fdn s) (fvs s)).

  Lemma forallb_firstn {A} (f : A -> bool) n l : forallb f l = true -> forallb f (firstn n l) = true.
  Proof.
    revert n; induction l as [|a l IH]; intros n H; destruct n; cbn in *; auto.
    apply andb_true_iff in H as [Ha Hl]. now rewrite Ha, IH.
  Qed.

  Lemma GI_step nq (s s' : Fstate) : GI nq s -> fstep keep s s' -> GI nq s'.
  Proof.
    intros HG Hs. apply fstep_rule in Hs.
    destruct Hs as [| | |b| | | | | |]; try exact HG; destruct HG as [HG|[Hr HC]]; cbn in *; try discriminate; try (now left); right.
    - split; [now apply forallb_firstn|eapply CI_weaken; eauto].
    - now split.
    - apply andb_true_iff in Hr as [Hb Hr]. split; [exact Hr|]. apply CI_push; auto.
    - split; [exact Hr|]. eapply CI_step; eauto.
  Qed.

  Lemma drain_push (s : Fstage) rest b inc : drain (set_fq s (fq s ++ [b]) :: rest) inc = drain (s :: rest) (b :: inc).
  Proof. cbn. now rewrite stage_out_push. Qed.

  Lemma alpha_step nq (s s' : Fstate) : GI nq s -> fstep keep s s' -> flat (alpha s') = flat (alpha s).
  Proof.
    intros HG Hs. apply fstep_rule in Hs.
    destruct Hs as [rem dn ? ? ? ? ? ? Hd| | | |s d' vs' wq' Hc| | | | |]; unfold alpha, rrest; cbn [frd frem fdn fvs fwq fout];
      rewrite ?drain_push, <- ?app_assoc; try reflexivity.
    - (* the producer sees the flag and stops reading *)
      destruct HG as [[=]|[Hr HC]]. rewrite !flat_app. do 2 f_equal.
      apply (CI_Tins _ _ _ HC Hd); apply wfb_whole; [now apply forallb_firstn|exact Hr].
    - destruct (fchain_alpha _ _ _ _ _ _ Hc) as (Y & -> & HY). now rewrite HY, <- !app_assoc.
  Qed.

  Fixpoint chain_ok (nq : nat) (vs : list (Verb * st)) : Prop :=
    match vs with
    | [] => True
    | vx :: rest =>
        match nq with
        | S n => quiet (fst vx) /\ discards (fst vx) /\ chain_ok n rest
        | O => never_raises (fst vx) /\ chain_ok O rest
        end
    end.

  Lemma CI_fresh : forall (vs : list (Verb * st)) nq, chain_ok nq vs -> CI nq 0 (map ffresh vs).
  Proof.
    induction vs as [|vx rest IH]; intros nq H; [reflexivity|]. cbn [map CI]. split; [reflexivity|]. destruct nq as [|n]; cbn in H.
    - destruct H as [H1 H2]. split; [reflexivity|]. split; [split; [exact H1|reflexivity]|now apply IH].
    - destruct H as (H1 & H2 & H3). split; [exact (conj H1 (conj H2 eq_refl))|]. split; [intros [H|[=]]; lia|now apply IH].
  Qed.

  Lemma drain_fresh : forall (vs : list (Verb * st)) inc, drain (map ffresh vs) inc = seq_chain vs inc.
  Proof. induction vs as [|[v x0] vs IH]; intros inc; [reflexivity|]. cbn. apply IH. Qed.

  Theorem flat_alpha_invariant nq (vs : list (Verb * st)) bs s :
    chain_ok nq vs -> forallb recs_only bs = true -> freach keep (finit vs bs) s ->
    GI nq s /\ flat (alpha s) = flat (seq_chain vs (whole bs)).
  Proof.
    intros Hc Hb Hr. induction Hr as [|s s' _ [IG IA] Hs].
    - split; [right; split; [exact Hb|now apply CI_fresh]|]. unfold alpha, rrest, finit; cbn. now rewrite drain_fresh.
    - split; [eapply GI_step; eauto|]. rewrite (alpha_step nq s s' IG Hs). exact IA.
  Qed.

  (* a run is over when the producer has sent everything, every stage is idle with an empty queue and the writer
     channel is empty *)
  Definition fidle (s : Fstage) : Prop := (fp s = FRecv \/ fp s = FDone) /\ fq s = [].
  Definition fquiescent (s : Fstate) : Prop := frd s = FRDone /\ Forall fidle (fvs s) /\ fwq s = [].

  Lemma drain_idle (vs : list Fstage) : Forall fidle vs -> drain vs [] = [].
  Proof.
    induction 1 as [|s rest [Hp Hq] _ IH]; [reflexivity|]. cbn. unfold stage_out. rewrite Hq.
    destruct Hp as [-> | ->]; cbn; exact IH.
  Qed.

  Theorem early_exit_determinism nq (vs : list (Verb * st)) bs s :
    chain_ok nq vs -> forallb recs_only bs = true -> freach keep (finit vs bs) s -> fquiescent s ->
    flat (fout s) = flat (seq_chain vs (whole bs)).
  Proof.
    intros Hc Hb Hr (Hd & Hi & Hw). destruct (flat_alpha_invariant nq vs bs s Hc Hb Hr) as [_ H].
    unfold alpha, rrest in H. rewrite Hd, Hw, (drain_idle _ Hi) in H. cbn in H. now rewrite app_nil_r in H.
  Qed.

  Theorem early_exit_prefix nq (vs : list (Verb * st)) bs s :
    chain_ok nq vs -> forallb recs_only bs = true -> freach keep (finit vs bs) s ->
    exists rest, flat (seq_chain vs (whole bs)) = flat (fout s) ++ rest.
  Proof.
    intros Hc Hb Hr. destruct (flat_alpha_invariant nq vs bs s Hc Hb Hr) as [_ H].
    unfold alpha in H. rewrite flat_app in H. eexists. symmetry. exact H.
  Qed.
End Early.
