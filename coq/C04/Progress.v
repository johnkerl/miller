(* C04: deadlock freedom of the repaired (non-blocking done-flag) protocol, for every chain length, every
   number of batches, every verb behaviour and every interleaving; and the deadlock of the blocking protocol. *)
From Coq Require Import List Bool Arith.
Import ListNotations.
From Miller Require Import C04.Model C04.Search C04.Rules.

(* will never receive again *)
Definition vclosed (v : vstage) : bool :=
  match vp v with
  | VRecv | VWork false | VRelay false | VOwn false | VSend false => false
  | _ => true
  end.
(* has forwarded its end-of-stream marker *)
Definition sent_eos (v : vstage) : bool :=
  match vp v with VErrSig | VDone => true | _ => false end.
Definition wclosed (w : wpc) : bool := match w with WRecv => false | _ => true end.
Definition has_eos (q : list bool) : bool := existsb (fun b => b) q.

Fixpoint chain_inv (prod_sent : bool) (vs : list vstage) (wq : list bool) (wc : bool) : Prop :=
  match vs with
  | [] => prod_sent = true -> has_eos wq = true \/ wc = true
  | v :: rest => (prod_sent = true -> has_eos (vin v) = true \/ vclosed v = true)
                 /\ chain_inv (sent_eos v) rest wq wc
  end.

Definition rsent (r : rpc) : bool := match r with RDone => true | _ => false end.
Definition in_loop (m : mpc) : bool := match m with MLoop _ => true | _ => false end.

Definition Inv (s : state) : Prop :=
  chain_inv (rsent (rd s)) (cvs (ch s)) (cwq (ch s)) (wclosed (wr s))
  /\ (wr s = WDone -> doneq s = true \/ in_loop (mn s) = false)
  /\ cvs (ch s) <> [].

Lemma has_eos_app q b : has_eos (q ++ [b]) = has_eos q || b.
Proof. unfold has_eos. rewrite existsb_app. cbn. now rewrite orb_false_r. Qed.

(* a stage with an end-of-stream batch to read, or past reading: what [chain_inv] asks of it once its producer has sent *)
Definition served (v : vstage) : Prop := has_eos (vin v) = true \/ vclosed v = true.

Lemma verb_rule_served blocking d e f v d' e' f' v' :
  verb_rule blocking d e f v d' e' f' v' -> sent_eos v' = sent_eos v /\ (served v -> served v').
Proof.
  unfold served, vclosed. destruct 1 as [[]| | | | | | ? [] ? ? ? ? ? [-> | ->]|]; cbn; intuition discriminate.
Qed.

Lemma sends_served v b p' :
  sends (vp v) b p' -> (sent_eos (set_vp v p') = true -> b = true) /\ (served v -> served (set_vp v p')).
Proof. unfold served, vclosed, sent_eos. destruct v as [p q dd sg sw]; cbn. destruct 1 as [[]|]; cbn; intuition discriminate. Qed.

Lemma chain_inv_weaken ps vs wq wc : chain_inv true vs wq wc -> chain_inv ps vs wq wc.
Proof. destruct vs; cbn; [tauto|]. intros [H1 H2]. split; auto. Qed.

Lemma chain_rule_inv blocking d e f vs wq c : chain_rule blocking d e f vs wq c ->
  forall ps wc, chain_inv ps vs wq wc -> chain_inv ps (cvs c) (cwq c) wc.
Proof.
  induction 1 as [d e f v rest wq d' e' f' v' Hv|d e f v wq b p' Hs|d e f v v2 rest wq b p' Hs|d e f v rest wq c _ IH];
    intros ps wc; cbn; fold (served v).
  - apply verb_rule_served in Hv as [-> Hv]. tauto.
  - apply sends_served in Hs as [Hb Hs]. rewrite has_eos_app. intros [Hv Hw]. split; [tauto|].
    intros ->%Hb. left. apply orb_true_r.
  - apply sends_served in Hs as [Hb Hs]. rewrite has_eos_app. intros (Hv & H2 & H3). split; [tauto|]. split; [|exact H3].
    intros ->%Hb. left. apply orb_true_r.
  - intros [Hv Hrest]. split; [exact Hv|]. now apply IH.
Qed.

Lemma chain_rule_length blocking d e f vs wq c : chain_rule blocking d e f vs wq c -> length (cvs c) = length vs.
Proof. induction 1; cbn; congruence. Qed.

(* the last clause of chain_inv under a change of the writer queue / writer state *)
Lemma chain_inv_writer ps vs wq wc wq' wc' :
  (has_eos wq = true \/ wc = true -> has_eos wq' = true \/ wc' = true) ->
  chain_inv ps vs wq wc -> chain_inv ps vs wq' wc'.
Proof. revert ps; induction vs as [|v rest IH]; intros ps Himp; cbn; [tauto|]. intros [H1 H2]. split; auto. Qed.

Lemma chain_inv_fresh kinds : chain_inv false (map fresh_verb kinds) [] false.
Proof. induction kinds as [|y kinds IH]; cbn; [discriminate|]. split; [discriminate|exact IH]. Qed.

Lemma Inv_init k kinds : kinds <> [] -> Inv (init k kinds).
Proof.
  intros Hk. split; [apply chain_inv_fresh|]. split; [discriminate|]. destruct kinds; [contradiction|discriminate].
Qed.

Lemma Inv_step blocking s s' : Inv s -> step blocking s s' -> Inv s'.
Proof.
  intros (Hc & Hd & Hne) Hs. apply step_rule in Hs. unfold Inv.
  destruct Hs as [| | | |k ? ? ? ? ? ? ? ? ? ?|s c Hs|? ? ? b ? ? ? Hq|? ? ? b ? ? ? Hq| | | | | | | | |];
    cbn -[has_eos] in *; try (now auto); try rewrite Hq in Hc.
  - (* the reader hands over a batch, the last one carrying the marker *)
    split; [|now auto]. split; [|apply Hc]. rewrite has_eos_app. destruct k; [|discriminate]. left. apply orb_true_r.
  - split; [eapply chain_rule_inv; eauto|]. split; [exact Hd|].
    apply chain_rule_length in Hs. now destruct (cvs c), (cvs (ch s)).
  - (* the writer takes a batch *)
    split; [|destruct b; now auto]. eapply chain_inv_writer; [|exact Hc]. destruct b; cbn; tauto.
  - split; [|now auto]. eapply chain_inv_writer; [|exact Hc]. now right.
Qed.

Lemma Inv_reachable blocking k kinds s :
  kinds <> [] -> reachable blocking (init k kinds) s -> Inv s.
Proof. intros Hk Hr. induction Hr; [now apply Inv_init|eapply Inv_step; eauto]. Qed.

Lemma send_flag_nb_some d : exists d', send_flag false d = Some d'.
Proof. unfold send_flag. destruct (d <? 1); eauto. Qed.

(* a verb that cannot move on its own waits for input, waits for room downstream, or has finished *)
Lemma local_stuck d e f v : local_steps false d e f v = [] ->
  (vp v = VRecv /\ vin v = []) \/ after_send (vp v) <> None \/ vp v = VDone.
Proof.
  unfold local_steps, send_flag. destruct v as [p q dd sg sw]; cbn [vp vin vd vsig vswallow].
  destruct p; cbn [after_send]; auto; try (right; left; discriminate).
  - destruct q; [auto|discriminate].
  - destruct dd, sg; discriminate.
  - destruct (d <? 1); discriminate.
  - destruct (d <? 1); discriminate.
Qed.

(* with the writer still receiving on an empty channel, a chain that cannot move waits for its producer *)
Lemma chain_stuck_shape : forall vs d e f ps,
  vs <> [] -> chain_inv ps vs [] false -> chain_succs false d e f vs [] = [] ->
  exists v rest, vs = v :: rest /\ vp v = VRecv /\ vin v = [].
Proof.
  induction vs as [|v rest IH]; intros d e f ps Hne Hinv Hs; [contradiction|]. destruct Hinv as [_ Hrest].
  exists v, rest. split; [reflexivity|].
  cbn in Hs. apply app_eq_nil in Hs as [Hl%map_eq_nil [Hsend Hdeep%map_eq_nil]%app_eq_nil].
  assert (Hnext : match rest with [] => True | v2 :: _ => vp v2 = VRecv /\ vin v2 = [] end).
  { destruct rest as [|v2 rest2]; [exact I|].
    destruct (IH (vd v) e f (sent_eos v)) as (? & ? & [= <- <-] & H); [discriminate|exact Hrest|exact Hdeep|exact H]. }
  destruct (local_stuck _ _ _ _ Hl) as [H|[H|H]]; [exact H| |]; exfalso.
  - (* it wants to hand a batch on, and the channel it would use is empty *)
    destruct (after_send (vp v)) as [[b p']|]; [|contradiction]. destruct rest as [|v2 rest2]; [discriminate|].
    destruct Hnext as [_ Hq]. now rewrite Hq in Hsend.
  - (* it has forwarded the marker, which nobody holds *)
    unfold sent_eos in Hrest. rewrite H in Hrest. destruct rest as [|v2 rest2]; cbn in Hrest.
    + destruct (Hrest eq_refl); discriminate.
    + destruct Hrest as [Hr _], Hnext as [Hp Hq]. unfold vclosed in Hr. rewrite Hp, Hq in Hr. destruct (Hr eq_refl); discriminate.
Qed.

Theorem progress s : Inv s -> is_final s = false -> succs false s <> [].
Proof.
  intros (Hc & Hd & Hne) Hnf Hs. unfold succs in Hs.
  apply app_eq_nil in Hs as [Hr Hs]. apply app_eq_nil in Hs as [Hch Hs]. apply app_eq_nil in Hs as [Hw Hm].
  apply map_eq_nil in Hch.
  destruct s as [r ie c w dq m]; cbn in *.
  (* main is waiting in its select with nothing ready *)
  unfold main_steps in Hm; cbn in Hm.
  destruct m as [rr|rr|rr|rr]; try discriminate.
  2:{ destruct (negb rr && ie); discriminate. }
  2:{ destruct (negb rr && cerr c); discriminate. }
  assert (ie = false /\ cerr c = false /\ dq = false) as (-> & Hce & ->).
  { destruct ie; [discriminate|]. destruct (cerr c); [discriminate|]. destruct dq; [discriminate|]. auto. }
  (* the writer is waiting on an empty channel *)
  unfold writer_steps in Hw; cbn in Hw.
  destruct w; try discriminate.
  2:{ destruct (Hd eq_refl); discriminate. }
  unfold chain_steps in Hch.
  destruct (cwq c) as [|b q] eqn:Hq; [|discriminate].
  (* so the first verb waits on an empty channel *)
  destruct (chain_stuck_shape _ _ _ _ _ Hne Hc Hch) as (v & rest & Hvs & Hp & Hvin).
  (* and the reader can always move *)
  unfold reader_steps in Hr; cbn in Hr.
  destruct r as [k|k|k|].
  - destruct (cd c); discriminate.
  - unfold push_first in Hr. rewrite Hvs, Hvin in Hr. cbn in Hr. discriminate.
  - discriminate.
  - rewrite Hvs in Hc. cbn in Hc. destruct Hc as [Hc _]. rewrite Hvin in Hc. unfold vclosed in Hc. rewrite Hp in Hc.
    destruct (Hc eq_refl); discriminate.
Qed.

Theorem no_deadlock k kinds s :
  kinds <> [] -> reachable false (init k kinds) s -> is_final s = false -> exists s', step false s s'.
Proof.
  intros Hk Hr Hnf. pose proof (progress s (Inv_reachable _ _ _ _ Hk Hr) Hnf) as Hp.
  destruct (succs false s) as [|s' l] eqn:E; [contradiction|]. exists s'. unfold step. rewrite E. now left.
Qed.

(* the blocking protocol deadlocks: head then head, two batches *)
Definition deadlock_schedule : list nat :=
  [0; 0; 0; 0; 0; 0; 0; 0; 0; 0; 0; 0; 0; 0; 0; 0; 2; 2; 0; 0; 0; 0; 0; 0; 0; 0].

Theorem blocking_relay_deadlocks :
  exists s, reachable true (init 2 [false; false]) s /\ succs true s = [] /\ is_final s = false
            /\ cfailed (ch s) = false.
Proof.
  eexists. split; [eapply run_sched_reachable with (sched := deadlock_schedule); [apply reach_refl|vm_compute; reflexivity]|].
  repeat split.
Qed.
