(* C04: RECORD CONTEXT in the data-carrying model with done flags.
   Go: every RecordAndContext carries a Context (NR, FNR, FILENAME).  A record's context is stamped by the reader when
   the record is read and never changes: in the model a record IS its own context (the instances use rec = NR).  The
   END-OF-STREAM MARKER carries the reader's context at the moment the reader stops (pkg/input: the record reader's
   running context, NR = number of records it has handed over); every verb forwards that same marker, and put/filter
   run their end blocks with it (put_or_filter.go: runtimeState.Update(nil, &inrecAndContext.Context)).  So NR in an
   end block = the number of records the producer had handed over when it sent the marker -- one number per run, the
   same for every verb.
   Model: the state of DataFlags.v plus that counter (the second component of [cstate]); a producer hand-over adds the records of the batch;
   text produced by an end block may contain the symbol "NR" ([inr None] in the instances), rendered with the final
   counter.  Steps, capacities, flags: exactly DataFlags.v (every step here projects to a step there).
   Results: (1) for chains WITHOUT early-exit verbs (no verb ever raises the flag; printing allowed anywhere) every
   exited run has handed over every record, so NR in end blocks and the whole stdout are the same for every schedule;
   (2) with an early-exit verb upstream the statement is FALSE of the faithful model: `head -n 1 then put -q
   'end{print NR}'` has two exited runs printing different NR (the known finding). *)
From Coq Require Import List Bool Arith ZArith Lia.
Import ListNotations.
From Miller Require Import C04.Model C04.DataFlags C04.EarlyExit C04.EarlyInst C04.Drained.
Local Open Scope nat_scope.

Section Ctx.
  Context {rec str st : Type}.
  Notation Fstage := (@fstage rec str st).
  Notation Fstate := (@fstate rec str st).
  Notation Item := (@item rec str).
  Notation Verb := (@verb rec str st).
  Variable keep : nat.

  Definition count_recs (b : list Item) : nat := length (filter is_rec b).
  Fixpoint total_recs (bs : list (list Item)) : nat :=
    match bs with [] => 0 | b :: t => count_recs b + total_recs t end.

  (* records handed over by the producer step enabled in s (0 if that step is not a hand-over of a data batch) *)
  Definition delta (s : Fstate) : nat :=
    match frd s, frem s with FSending, b :: _ => count_recs b | _, _ => 0 end.

  Definition cstate := (Fstate * nat)%type.
  Definition csuccs (c : cstate) : list cstate :=
    map (fun s' => (s', snd c + delta (fst c))) (freader_steps keep (fst c))
    ++ map (fun s' => (s', snd c)) (fchain_steps (fst c) ++ fwriter_steps (fst c) ++ fmain_steps (fst c)).
  Definition cstep (c c' : cstate) : Prop := In c' (csuccs c).
  Inductive creach (c0 : cstate) : cstate -> Prop :=
  | creach_refl : creach c0 c0
  | creach_step c c' : creach c0 c -> cstep c c' -> creach c0 c'.
  Definition cinit (vs : list (Verb * st)) (bs : list (list Item)) : cstate := (finit vs bs, 0).

  Fixpoint crun_sched (sched : list nat) (c : cstate) : option cstate :=
    match sched with
    | [] => Some c
    | i :: rest => match nth_error (csuccs c) i with Some c' => crun_sched rest c' | None => None end
    end.

  Lemma crun_sched_reach sched : forall c0 c c', creach c0 c -> crun_sched sched c = Some c' -> creach c0 c'.
  Proof.
    induction sched as [|i rest IH]; intros c0 c c' Hr H; cbn in H.
    - now inversion H; subst.
    - destruct (nth_error (csuccs c) i) as [c1|] eqn:E0; [|discriminate].
      eapply IH; [|exact H]. eapply creach_step; [exact Hr|]. unfold cstep. eapply nth_error_In; eauto.
  Qed.

  (* projection: the counter is a ghost *)
  Lemma cstep_fstep (c c' : cstate) : cstep c c' -> fstep keep (fst c) (fst c').
  Proof.
    unfold cstep, csuccs, fstep, fsuccs. rewrite !in_app_iff. intros [H|H].
    - apply in_map_iff in H as (s' & <- & Hin). left. exact Hin.
    - apply in_map_iff in H as (s' & <- & Hin). right. rewrite !in_app_iff in Hin. exact Hin.
  Qed.

  Lemma creach_freach vs bs c : creach (cinit vs bs) c -> freach keep (finit vs bs) (fst c).
  Proof. induction 1 as [|c c' _ IH Hs]; [apply freach_refl|]. eapply freach_step; [exact IH|now apply cstep_fstep]. Qed.

  (* ---------- chains without early-exit verbs: the done channel of the producer stays empty ---------- *)
  Definition rd_done (s : Fstate) : bool := match frd s with FRDone => true | _ => false end.
  Definition NoFlag (s : Fstate) : Prop := rd_done s = true \/ fdn s = 0.

  Lemma GI_NoFlag (s : Fstate) : GI 0 s -> NoFlag s.
  Proof. unfold NoFlag, rd_done. intros [-> |[_ HC%CI_R_zero]]; auto. Qed.

  (* the counter: everything not handed over yet is still with the producer *)
  Definition Cnt (total : nat) (c : cstate) : Prop :=
    if rd_done (fst c) then snd c = total else snd c + total_recs (frem (fst c)) = total.

  Lemma Cnt_step total (c c' : cstate) : NoFlag (fst c) -> Cnt total c -> cstep c c' -> Cnt total c'.
  Proof.
    destruct c as [s n]. cbn [fst snd]. intros HN HC. unfold cstep, csuccs. cbn [fst snd]. rewrite in_app_iff. intros [H|H].
    - apply in_map_iff in H as (s' & <- & Hin). unfold Cnt, delta, rd_done in *. cbn [fst snd] in *.
      unfold freader_steps in Hin. unfold NoFlag, rd_done in HN. revert HC. destruct (frd s) eqn:Er; [| |destruct Hin]; intros HC.
      + destruct HN as [HN|HN]; [discriminate|]. rewrite HN in Hin. cbn in Hin. destruct Hin as [<-|[]]. cbn in *. lia.
      + destruct (fvs s) as [|v rest]; [destruct Hin|]. destruct (length (fq v) <? reader_cap); [|destruct Hin].
        destruct (frem s) as [|b r] eqn:Em; destruct Hin as [<-|[]]; cbn in *; lia.
    - apply in_map_iff in H as (s' & <- & Hin). unfold Cnt, rd_done in *. cbn [fst snd] in *.
      assert (E0 : frd s' = frd s /\ frem s' = frem s).
      { rewrite !in_app_iff in Hin. destruct Hin as [Hin|[Hin|Hin]].
        - unfold fchain_steps in Hin. apply in_map_iff in Hin as ([[d' vs'] wq'] & <- & _). auto.
        - unfold fwriter_steps in Hin. destruct (fwr s); [|destruct Hin| |destruct Hin].
          + destruct (fwq s); [destruct Hin|]. destruct Hin as [<-|[]]. auto.
          + destruct Hin as [<-|[]]. auto.
        - unfold fmain_steps in Hin. destruct (fmn s); [| | |destruct Hin].
          + destruct (fdoneq s); [|destruct Hin]. destruct Hin as [<-|[]]; auto.
          + destruct Hin as [<-|[]]; auto.
          + destruct Hin as [<-|[]]; auto. }
      destruct E0 as [-> ->]. exact HC.
  Qed.

  Lemma ctx_invariants (vs : list (Verb * st)) bs c :
    chain_ok 0 vs -> forallb recs_only bs = true -> creach (cinit vs bs) c ->
    NoFlag (fst c) /\ Cnt (total_recs bs) c.
  Proof.
    intros Hc Hb Hr.
    assert (HN : forall c, creach (cinit vs bs) c -> NoFlag (fst c)).
    { intros c0 Hr0. apply GI_NoFlag, (flat_alpha_invariant keep 0 vs bs); auto. now apply creach_freach. }
    split; [now apply HN|]. induction Hr as [|c c' Hr IC Hs]; [reflexivity|]. eapply Cnt_step; eauto.
  Qed.

  (* (1) chains without early-exit verbs: every exited run handed over every record and wrote the sequential result *)
  Theorem ctx_determinism_no_early_exit (vs : list (Verb * st)) bs c :
    chain_ok 0 vs -> forallb recs_only bs = true -> creach (cinit vs bs) c -> ffinal (fst c) = true ->
    snd c = total_recs bs /\ flat (fout (fst c)) = flat (seq_chain vs (whole bs)).
  Proof.
    intros Hc Hb Hr Hf. pose proof (creach_freach _ _ _ Hr) as Hfr. split.
    - destruct (ctx_invariants vs bs c Hc Hb Hr) as [_ HC].
      destruct (exited_run_is_drained keep vs bs (fst c) Hfr Hf) as (Hd & _ & _).
      unfold Cnt, rd_done in HC. now rewrite Hd in HC.
    - now apply (early_exit_determinism_exited keep 0 vs bs (fst c)).
  Qed.

  (* ... hence, whatever the rendering of NR into the end-block text, any two exited runs print the same *)
  Corollary ctx_two_runs_agree {out : Type} (render : nat -> list Item -> out) (vs : list (Verb * st)) bs c1 c2 :
    chain_ok 0 vs -> forallb recs_only bs = true ->
    creach (cinit vs bs) c1 -> ffinal (fst c1) = true -> creach (cinit vs bs) c2 -> ffinal (fst c2) = true ->
    render (snd c1) (flat (fout (fst c1))) = render (snd c2) (flat (fout (fst c2))).
  Proof.
    intros Hc Hb H1 F1 H2 F2.
    destruct (ctx_determinism_no_early_exit vs bs c1 Hc Hb H1 F1) as [-> ->].
    destruct (ctx_determinism_no_early_exit vs bs c2 Hc Hb H2 F2) as [-> ->]. reflexivity.
  Qed.
End Ctx.

(* ---------------- instances: rec = the record's NR; text = Some p (literal) or None (the symbol NR of an end block) *)
Definition CVerb := @verb nat (option nat) ist.
Inductive cdesc := CCat | CHead (n : nat) | CPrintNR | CEndNR | CTac.
Definition cverb_of (d : cdesc) : CVerb :=
  match d with
  | CCat => mkVerb (fun x r => (x, [inl r])) (fun _ => []) (fun _ => false) false
  | CHead n => mkVerb (fun x r => ((S (fst x), snd x), if S (fst x) <=? n then [inl r] else []))
                      (fun _ => []) (fun x => n <? fst x) false
  | CPrintNR => mkVerb (fun x r => (x, [inr (Some r); inl r])) (fun _ => []) (fun _ => false) false   (* put 'print NR': the record's own NR *)
  | CEndNR => mkVerb (fun x r => (x, [])) (fun _ => [inr None]) (fun _ => false) false                (* put -q 'end{print NR}' *)
  | CTac => mkVerb (fun x r => ((fst x, r :: snd x), [])) (fun x => map inl (snd x)) (fun _ => false) false
  end.
Definition cchain (ds : list cdesc) : list (CVerb * ist) := map (fun d => (cverb_of d, x0)) ds.
Definition cbatches (bs : list (list nat)) : list (list (@item nat (option nat))) := map (map inl) bs.

(* what is on stdout: (0, r) a record, (1, p) literal text, (2, n) the end block's NR *)
Definition render (n : nat) (l : list (@item nat (option nat))) : list (nat * nat) :=
  map (fun i => match i with inl r => (0, r) | inr (Some p) => (1, p) | inr None => (2, n) end) l.

Definition no_head (d : cdesc) : bool := match d with CHead _ => false | _ => true end.

Lemma cchain_ok0 ds : forallb no_head ds = true -> chain_ok 0 (cchain ds).
Proof.
  induction ds as [|d t IH]; intros H; [exact I|]. cbn in H. apply andb_true_iff in H as [Hd Ht]. cbn. split; [|now apply IH].
  destruct d; try discriminate; intros x; reflexivity.
Qed.

Lemma cbatches_recs bs : forallb recs_only (cbatches bs) = true.
Proof. apply inl_batches_recs. Qed.

(* (1) for chains of cat / tac / put 'print NR' / put -q 'end{print NR}' (no head), any batching, any producer shape *)
Theorem ctx_determinism_inst keep (ds : list cdesc) (bs : list (list nat)) c1 c2 :
  forallb no_head ds = true ->
  creach keep (cinit (cchain ds) (cbatches bs)) c1 -> ffinal (fst c1) = true ->
  creach keep (cinit (cchain ds) (cbatches bs)) c2 -> ffinal (fst c2) = true ->
  render (snd c1) (flat (fout (fst c1))) = render (snd c2) (flat (fout (fst c2))).
Proof.
  intros H. apply (ctx_two_runs_agree keep render); [now apply cchain_ok0|apply cbatches_recs].
Qed.

(* (2) the known finding on the faithful model: head -n 1 then put -q 'end{print NR}', six one-record batches *)
Definition head_endnr : list (CVerb * ist) := cchain [CHead 1; CEndNR].
Definition six : list (list (@item nat (option nat))) := cbatches [[1]; [2]; [3]; [4]; [5]; [6]].
Definition cschedA : list nat := Eval vm_compute in sched_first 1 400 (finit head_endnr six).
Definition cschedB : list nat := Eval vm_compute in sched_lazy 1 400 (finit head_endnr six).

Theorem end_NR_downstream_of_head_refuted :
  exists c1 c2, creach 1 (cinit head_endnr six) c1 /\ creach 1 (cinit head_endnr six) c2
                /\ ffinal (fst c1) = true /\ ffinal (fst c2) = true
                /\ render (snd c1) (flat (fout (fst c1))) <> render (snd c2) (flat (fout (fst c2))).
Proof.
  eexists _, _.
  split; [eapply crun_sched_reach with (sched := cschedA); [apply creach_refl|vm_compute; reflexivity]|].
  split; [eapply crun_sched_reach with (sched := cschedB); [apply creach_refl|vm_compute; reflexivity]|].
  split; [reflexivity|]. split; [reflexivity|]. discriminate.
Qed.

(* non-vacuity of (1): put 'print NR' then tac then put -q 'end{print NR}' has an exited run; NR in the end block is 6 *)
Definition ctx_chain : list cdesc := [CPrintNR; CTac; CEndNR].
Definition cschedC : list nat := Eval vm_compute in sched_lazy 1 600 (finit (cchain ctx_chain) six).
Example ctx_nonvacuous :
  forallb no_head ctx_chain = true /\
  exists c, crun_sched 1 cschedC (cinit (cchain ctx_chain) six) = Some c /\ ffinal (fst c) = true /\ snd c = 6
            /\ render (snd c) (flat (fout (fst c))) = [(1,1);(1,2);(1,3);(1,4);(1,5);(1,6);(2,6)].
Proof. split; [reflexivity|]. eexists. split; [vm_compute; reflexivity|]. repeat split. Qed.

(* ---- correspondence with the real binary (harness): chain, (records, batch size), observed stdout as (tag, value):
   (0, i) a record i=<i>, (1, p) the line p<NR of the record>, (2, n) the line e<NR in the end block> ---- *)
Local Open Scope Z_scope.
Definition cdesc_of (z : Z) : cdesc :=
  if z =? 0 then CCat else if z =? 1 then CPrintNR else if z =? 2 then CEndNR else if z =? 3 then CTac
  else CHead (Z.to_nat (z - 10)).
Local Open Scope nat_scope.
Definition cmodel_out (ds : list cdesc) (bs : list (list nat)) : list (nat * nat) :=
  render (length (concat bs)) (flat (seq_chain (cchain ds) (whole (cbatches bs)))).
Definition pair_eqb (a b : nat * nat) : bool := Nat.eqb (fst a) (fst b) && Nat.eqb (snd a) (snd b).
Fixpoint plist_eqb (a b : list (nat * nat)) : bool :=
  match a, b with
  | [], [] => true
  | x :: a', y :: b' => pair_eqb x y && plist_eqb a' b'
  | _, _ => false
  end.
(* outcomes the model allows: without an early-exit verb exactly the sequential result with NR = all records
   (C04_context_determinism_without_early_exit); with one, the sequential result on some truncation of the input at a
   batch boundary with NR = the records of that truncation *)
Definition ctx_chk (c : list Z * (Z * Z) * list (Z * Z)) : bool :=
  let '(ch, (n, b), obs) := c in
  let ds := map cdesc_of ch in
  let bs := chunks (S (Z.to_nat n)) (Z.to_nat b) (seq 1 (Z.to_nat n)) in
  let obs' := map (fun p => (Z.to_nat (fst p), Z.to_nat (snd p))) obs in
  if forallb no_head ds then plist_eqb obs' (cmodel_out ds bs)
  else existsb (fun j => plist_eqb obs' (cmodel_out ds (firstn j bs))) (seq 0 (S (length bs))).

Example ctx_chk_examples :
  ctx_chk ([1; 3; 2], (3, 2), [(1, 1); (1, 2); (1, 3); (2, 3)])%Z = true
  /\ ctx_chk ([2], (5, 2), [(2, 5)])%Z = true
  /\ ctx_chk ([2], (5, 2), [(2, 4)])%Z = false
  /\ ctx_chk ([11; 2], (7, 2), [(2, 4)])%Z = true
  /\ ctx_chk ([11; 2], (7, 2), [(2, 3)])%Z = false.
Proof. vm_compute. auto. Qed.
