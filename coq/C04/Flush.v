(* C04, the `tail -f` contract: proofs over FlushModel.v.
   Main results:
     tail_f_contract            with --fflush, in EVERY reachable state in which the chain and the writer are at rest, what
                                a reader of stdout sees is exactly the chain's sequential output on the batches delivered so far
                                (any chain, any verbs, any input, any batching, any schedule);
     streaming_tail_f           for chains of fully streaming verbs and one record per batch that output is the COMPLETE
                                (batch-mode) output of the chain on the records delivered so far;
     no_fflush_refuted, retaining_verb_refuted     both hypotheses are needed. *)
From Coq Require Import List Bool Arith ZArith Lia.
Import ListNotations.
From Miller Require Import C04.DataPipeline C04.Batch C04.FlushModel.

#[local] Arguments mkD {item vst}.
#[local] Arguments rrem {item vst}.
#[local] Arguments dvs {item vst}.
#[local] Arguments dwq {item vst}.
#[local] Arguments dwritten {item vst}.
#[local] Arguments din {item vst}.
#[local] Arguments dp {item vst}.
#[local] Arguments dchain_succs {item vst}.
#[local] Arguments dlocal {item vst}.
#[local] Arguments dinit {item vst}.
#[local] Arguments dsuccs {item vst}.
#[local] Arguments dstep {item vst}.
#[local] Arguments dreach {item vst}.
#[local] Arguments seq_chain {item vst}.
#[local] Arguments run_verb {item vst}.
#[local] Arguments idle {item vst}.
#[local] Arguments reader_succs {item vst}.
#[local] Arguments chain_succs {item vst}.
#[local] Arguments writer_succs {item vst}.
#[local] Arguments with_rrem {item vst}.
#[local] Arguments fd {item vst}.
#[local] Arguments flushed {item vst}.
#[local] Arguments buffered {item vst}.
#[local] Arguments mkF {item vst}.
#[local] Arguments lift {item vst}.
#[local] Arguments fwriter_succs {item vst}.
#[local] Arguments nonreader_fsuccs {item vst}.
#[local] Arguments fsuccs {item vst}.
#[local] Arguments fstep {item vst}.
#[local] Arguments freach {item vst}.
#[local] Arguments finit {item vst}.
#[local] Arguments items {item}.
#[local] Arguments idle_b {item vst}.
#[local] Arguments fquiet {item vst}.
#[local] Arguments frun {item vst}.
#[local] Arguments settle {item vst}.
#[local] Arguments deliver {item vst}.

Section FlushProofs.
  Variable item vst : Type.
  Notation dstate := (dstate item vst).
  Notation fstate := (fstate item vst).
  Notation batch := (batch item).

  Lemma dsuccs_split (s : dstate) : dsuccs s = reader_succs s ++ chain_succs s ++ writer_succs s.
  Proof. reflexivity. Qed.

  Lemma step_shift (s s' : dstate) :
    dstep s s' -> exists pre, rrem s = pre ++ rrem s' /\ forall r, dstep (with_rrem s (pre ++ r)) (with_rrem s' r).
  Proof.
    unfold dstep, dsuccs, with_rrem. intros H. apply in_app_or in H as [H|H]; [|apply in_app_or in H as [H|H]].
    - destruct (rrem s) as [|b r0]; [destruct H|]. destruct (dvs s) as [|v rest]; [destruct H|].
      destruct (length (din v) <? reader_cap) eqn:Ec; [|destruct H]. destruct H as [<-|[]].
      exists [b]. split; [reflexivity|]. intros r. apply in_or_app. left. cbn [rrem dvs dwq dwritten app]. rewrite Ec. now left.
    - apply in_map_iff in H as ([vs' wq'] & <- & H). exists []. split; [reflexivity|]. intros r. apply in_or_app. right.
      apply in_or_app. left. apply in_map_iff. now exists (vs', wq').
    - destruct (dwq s) as [|b q]; [destruct H|]. destruct H as [<-|[]].
      exists []. split; [reflexivity|]. intros r. apply in_or_app. right. apply in_or_app. right. now left.
  Qed.

  (* every run on input bs is, at every moment, also a run on any other input that agrees on what has been read *)
  Lemma reach_retarget (s0 s : dstate) :
    dreach s0 s -> exists pre, rrem s0 = pre ++ rrem s /\ forall r, dreach (with_rrem s0 (pre ++ r)) (with_rrem s r).
  Proof.
    induction 1 as [|s s' _ (pre1 & E1 & H1) Hs].
    - exists []. split; [reflexivity|]. intros r. apply dreach_refl.
    - apply step_shift in Hs as (pre2 & E2 & H2). exists (pre1 ++ pre2). split.
      + now rewrite E1, E2, app_assoc.
      + intros r. rewrite <- app_assoc. eapply dreach_step; [apply H1|apply H2].
  Qed.

  Lemma reach_truncate vs bs (s : dstate) :
    dreach (dinit vs bs) s -> exists pre, bs = pre ++ rrem s /\ dreach (dinit vs pre) (with_rrem s []).
  Proof.
    intros H. apply reach_retarget in H as (pre & E & Hr). exists pre. split; [exact E|].
    specialize (Hr []). rewrite app_nil_r in Hr. exact Hr.
  Qed.

  Lemma items_app (a b : list batch) : items (a ++ b) = items a ++ items b.
  Proof. unfold items. now rewrite map_app, concat_app. Qed.

  Lemma reader_written (s d' : dstate) : In d' (reader_succs s) -> dwritten d' = dwritten s.
  Proof.
    unfold reader_succs. destruct (rrem s); [intros []|]. destruct (dvs s); [intros []|].
    destruct (_ <? _); [|intros []]. intros [<-|[]]. reflexivity.
  Qed.

  Lemma fstep_cases fl (s s' : fstate) :
    fstep fl s s' ->
    (dstep (fd s) (fd s') /\ dwritten (fd s') = dwritten (fd s) /\ flushed s' = flushed s /\ buffered s' = buffered s)
    \/ (exists b, dstep (fd s) (fd s') /\ dwritten (fd s') = dwritten (fd s) ++ [b] /\
                  ((fl || snd b = true /\ flushed s' = flushed s ++ buffered s ++ fst b /\ buffered s' = [])
                   \/ (fl || snd b = false /\ flushed s' = flushed s /\ buffered s' = buffered s ++ fst b)))
    \/ (fd s' = fd s /\ flushed s' = flushed s ++ buffered s /\ buffered s' = []).
  Proof.
    unfold fstep, fsuccs, nonreader_fsuccs. rewrite !in_app_iff. intros [H|[[H|H]|H]].
    - apply in_map_iff in H as (d & <- & Hd). left. cbn. split; [|split; [|split]]; try reflexivity.
      + unfold dstep. rewrite dsuccs_split. apply in_or_app. now left.
      + now apply reader_written.
    - apply in_map_iff in H as (d & <- & Hd). left. cbn. split; [|split; [|split]]; try reflexivity.
      + unfold dstep. rewrite dsuccs_split. apply in_or_app. right. apply in_or_app. now left.
      + unfold chain_succs in Hd. apply in_map_iff in Hd as ([vs' wq'] & <- & _). reflexivity.
    - unfold fwriter_succs in H. destruct (dwq (fd s)) as [|b q] eqn:Eq; [destruct H|].
      right. left. exists b.
      assert (Hst : dstep (fd s) (mkD (rrem (fd s)) (dvs (fd s)) q (dwritten (fd s) ++ [b]))).
      { unfold dstep. rewrite dsuccs_split. apply in_or_app. right. apply in_or_app. right.
        unfold writer_succs. rewrite Eq. now left. }
      destruct (fl || snd b) eqn:Ef; destruct H as [<-|[]]; cbn; (split; [exact Hst|]); (split; [reflexivity|]).
      + left. repeat split; reflexivity.
      + right. repeat split; reflexivity.
    - unfold spill_succs in H. destruct (buffered s) as [|x t] eqn:Eb; [destruct H|]. destruct H as [<-|[]].
      right. right. cbn. repeat split; reflexivity.
  Qed.

  Lemma freach_proj fl (s0 s : fstate) : freach fl s0 s -> dreach (fd s0) (fd s).
  Proof.
    induction 1 as [|s s' _ IH Hs]; [apply dreach_refl|].
    apply fstep_cases in Hs as [(Hd & _)|[(b & Hd & _)|(E & _)]].
    - eapply dreach_step; eauto.
    - eapply dreach_step; eauto.
    - now rewrite E.
  Qed.

  Lemma buffer_invariant fl vs bs (s : fstate) :
    freach fl (finit vs bs) s ->
    flushed s ++ buffered s = items (dwritten (fd s)) /\ (fl = true -> buffered s = []).
  Proof.
    induction 1 as [|s s' _ (IH1 & IH2) Hs]; [split; reflexivity|].
    apply fstep_cases in Hs as [(_ & Ew & Ef & Eb)|[(b & _ & Ew & [(Ec & Ef & Eb)|(Ec & Ef & Eb)])|(E & Ef & Eb)]].
    - rewrite Ew, Ef, Eb. now split.
    - rewrite Ew, Ef, Eb, items_app, <- IH1. split; [|reflexivity].
      unfold items. cbn. now rewrite !app_nil_r, <- !app_assoc.
    - rewrite Ew, Ef, Eb, items_app, <- IH1. split.
      + unfold items. cbn. now rewrite !app_nil_r, <- !app_assoc.
      + intros ->. cbn in Ec. discriminate.
    - rewrite E, Ef, Eb, <- IH1. split; [now rewrite app_nil_r|reflexivity].
  Qed.

  Lemma idle_b_spec (st : dstage item vst) : idle_b st = true -> idle st.
  Proof.
    unfold idle_b, idle. intros H. apply andb_prop in H as [H1 H2]. split.
    - destruct (dp st); try discriminate; auto.
    - destruct (din st); [reflexivity|discriminate].
  Qed.

  Lemma fquiet_spec (s : fstate) : fquiet s = true -> Forall idle (dvs (fd s)) /\ dwq (fd s) = [].
  Proof.
    unfold fquiet. intros H. apply andb_prop in H as [H1 H2]. split.
    - rewrite forallb_forall in H1. apply Forall_forall. intros x Hx. apply idle_b_spec. now apply H1.
    - destruct (dwq (fd s)); [reflexivity|discriminate].
  Qed.

  Lemma idle_chain_stuck (vs : list (dstage item vst)) wq : Forall idle vs -> dchain_succs vs wq = [].
  Proof.
    induction 1 as [|st rest [Hp Hq] _ IH]; [reflexivity|]. cbn [dchain_succs]. rewrite IH. cbn [map].
    unfold dlocal. rewrite Hq. destruct Hp as [-> | ->]; reflexivity.
  Qed.

  (* the computable rest condition really means: nothing but the reader (and bufio itself) can move *)
  Lemma quiet_no_step fl (s : fstate) : fquiet s = true -> nonreader_fsuccs fl s = [].
  Proof.
    intros H. apply fquiet_spec in H as [Hi Hw]. unfold nonreader_fsuccs, chain_succs, fwriter_succs.
    now rewrite (idle_chain_stuck _ _ Hi), Hw.
  Qed.

  Lemma written_at_rest vs (delivered pending : list batch) (d : dstate) :
    dreach (dinit vs (delivered ++ pending)) d -> rrem d = pending ->
    Forall idle (dvs d) -> dwq d = [] ->
    dwritten d = seq_chain vs delivered.
  Proof.
    intros Hr Hrem Hi Hw. apply reach_truncate in Hr as (pre & E & Hr).
    rewrite Hrem in E. apply app_inv_tail in E. subst pre.
    apply (schedule_independence item vst vs delivered (with_rrem d [])) in Hr; [exact Hr|].
    unfold dquiescent, with_rrem. cbn. auto.
  Qed.

  (* whether or not the writer flushes, stdout + buffer is determined ... *)
  Theorem no_fflush_partial fl vs (delivered pending : list batch) (s : fstate) :
    freach fl (finit vs (delivered ++ pending)) s ->
    rrem (fd s) = pending -> fquiet s = true ->
    flushed s ++ buffered s = items (seq_chain vs delivered).
  Proof.
    intros Hr Hrem Hq. pose proof (buffer_invariant _ _ _ _ Hr) as [Hb1 _].
    apply fquiet_spec in Hq as [Hi Hw]. apply freach_proj in Hr. cbn [fd finit] in Hr.
    now rewrite (written_at_rest _ _ _ _ Hr Hrem Hi Hw) in Hb1.
  Qed.

  (* ... and with --fflush the buffer is empty *)
  Theorem tail_f_contract vs (delivered pending : list batch) (s : fstate) :
    freach true (finit vs (delivered ++ pending)) s ->
    rrem (fd s) = pending -> fquiet s = true ->
    flushed s = items (seq_chain vs delivered) /\ buffered s = [].
  Proof.
    intros Hr Hrem Hq. pose proof (no_fflush_partial _ _ _ _ _ Hr Hrem Hq) as H.
    destruct (buffer_invariant _ _ _ _ Hr) as [_ Hb]. rewrite (Hb eq_refl), app_nil_r in H. auto.
  Qed.

  Lemma freach_trans fl (a b c : fstate) : freach fl a b -> freach fl b c -> freach fl a c.
  Proof. intros H1 H2. induction H2 as [|s s' _ IH Hs]; [exact H1|]. eapply freach_step; eauto. Qed.

  Lemma frun_reach fl : forall sched (s s' : fstate), frun fl sched s = Some s' -> freach fl s s'.
  Proof.
    induction sched as [|k t IH]; intros s s' H; cbn in H.
    - injection H as <-. apply freach_refl.
    - destruct (nth_error (fsuccs fl s) k) as [s1|] eqn:E; [|discriminate].
      eapply freach_trans; [|exact (IH _ _ H)]. eapply freach_step; [apply freach_refl|]. eapply nth_error_In; eauto.
  Qed.

  Lemma settle_reach fl fuel : forall s : fstate, freach fl s (settle fl fuel s).
  Proof.
    induction fuel as [|f IH]; intros s; cbn; [apply freach_refl|].
    destruct (nonreader_fsuccs fl s) as [|s' t] eqn:E; [apply freach_refl|].
    eapply freach_trans; [|apply IH]. eapply freach_step; [apply freach_refl|].
    unfold fstep, fsuccs. rewrite E. apply in_or_app. right. now left.
  Qed.

  Lemma deliver_reach fl (s : fstate) : freach fl s (deliver s).
  Proof.
    unfold deliver. destruct (map (lift s) (reader_succs (fd s))) as [|s' t] eqn:E; [apply freach_refl|].
    eapply freach_step; [apply freach_refl|]. unfold fstep, fsuccs. rewrite E. now left.
  Qed.
End FlushProofs.

#[local] Arguments run_items {item st}.
#[local] Arguments run {item st}.
#[local] Arguments svstep {item st}.
#[local] Arguments svfin {item st}.
#[local] Arguments sv_batch {item st}.
#[local] Arguments dchain {item st}.
#[local] Arguments fully_streaming {item st}.
#[local] Arguments chain_out {item st}.
#[local] Arguments singletons {item}.
#[local] Arguments noeos {item}.

Section StreamingProofs.
  Variables item st : Type.
  Notation sverb := (sverb item st).
  Notation batch := (batch item).

  Lemma items_singletons (l : list item) : items (singletons l) = l.
  Proof. unfold items, singletons. induction l as [|r l IH]; cbn; [reflexivity|]. now f_equal. Qed.

  Lemma noeos_singletons (l : list item) : noeos (singletons l) = true.
  Proof. unfold noeos, singletons. induction l as [|r l IH]; cbn; auto. Qed.

  Lemma noeos_app (a b : list batch) : noeos (a ++ b) = noeos a && noeos b.
  Proof. unfold noeos. apply forallb_app. Qed.

  Lemma items_cons (b : batch) t : items (b :: t) = fst b ++ items t.
  Proof. reflexivity. Qed.

  Lemma run_verb_noeos (v : sverb) : forall (bs : list batch) (x : st),
    noeos bs = true ->
    noeos (run_verb (sv_batch v) x bs) = true /\
    items (run_verb (sv_batch v) x bs) = snd (run_items (svstep v) x (items bs)).
  Proof.
    induction bs as [|[l e] t IH]; intros x H; [split; reflexivity|].
    unfold noeos in H. cbn [forallb snd] in H. apply andb_prop in H as [He Ht]. destruct e; [discriminate|].
    cbn [run_verb]. unfold sv_batch at 1 3. rewrite items_cons. cbn [fst snd].
    rewrite (run_items_app item st (svstep v) x l (items t)).
    destruct (run_items (svstep v) x l) as [x1 o1]. destruct (IH x1 Ht) as [N I].
    destruct (run_items (svstep v) x1 (items t)) as [x2 o2]. cbn [snd] in *.
    split; [exact N|]. rewrite items_cons, I. cbn [fst]. now rewrite app_nil_r.
  Qed.

  Lemma streaming_run (v : sverb) x0 l :
    fully_streaming v x0 -> run (svstep v) (svfin v) x0 l = snd (run_items (svstep v) x0 l).
  Proof.
    intros H. unfold run. specialize (H l). destruct (run_items (svstep v) x0 l) as [s o]. cbn in *.
    now rewrite H, app_nil_r.
  Qed.

  Definition all_streaming (c : list (sverb * st)) : Prop := Forall (fun p => fully_streaming (fst p) (snd p)) c.

  (* for a chain of fully streaming verbs, what the open pipeline produces from the batches delivered so far is the
     COMPLETE output of the chain on the records delivered so far (as if the input had ended there) *)
  Theorem streaming_chain_visible (c : list (sverb * st)) :
    all_streaming c -> forall bs : list batch, noeos bs = true ->
    items (seq_chain (dchain c) bs) = chain_out c (items bs).
  Proof.
    induction c as [|[v x0] c IH]; intros F bs N; [reflexivity|].
    inversion F as [|p c' Hv Hc]; subst. cbn [fst snd] in Hv.
    destruct (run_verb_noeos v bs x0 N) as [N' I].
    change (items (seq_chain (dchain c) (run_verb (sv_batch v) x0 bs)) = chain_out c (run (svstep v) (svfin v) x0 (items bs))).
    rewrite (IH Hc _ N'), I. now rewrite (streaming_run v x0 _ Hv).
  Qed.

  (* THE CONTRACT, in the words of the property: --fflush, --records-per-batch 1 (each record its own batch), a
     chain of fully streaming verbs; whenever the records [delivered] have arrived, whatever arrives later
     ([pending], not yet visible to the reader), and the pipeline has come to rest, stdout already shows the
     complete output of the chain for the delivered records *)
  Theorem streaming_tail_f (c : list (sverb * st)) (delivered : list item) (pending : list batch)
          (s : fstate item st) :
    all_streaming c ->
    freach true (finit (dchain c) (singletons delivered ++ pending)) s ->
    rrem (fd s) = pending -> fquiet s = true ->
    flushed s = chain_out c delivered.
  Proof.
    intros F Hr Hrem Hq. destruct (tail_f_contract item st _ _ _ _ Hr Hrem Hq) as [H _].
    rewrite H, (streaming_chain_visible c F _ (noeos_singletons delivered)). now rewrite items_singletons.
  Qed.

  (* ... record by record: after the i-th record of ANY input has been delivered *)
  Corollary streaming_tail_f_each_record (c : list (sverb * st)) (records : list item) (i : nat) (s : fstate item st) :
    all_streaming c ->
    freach true (finit (dchain c) (singletons records)) s ->
    rrem (fd s) = singletons (skipn i records) -> fquiet s = true ->
    flushed s = chain_out c (firstn i records).
  Proof.
    intros F Hr Hrem Hq. eapply streaming_tail_f; eauto.
    unfold singletons in *. now rewrite <- map_app, firstn_skipn.
  Qed.

  Lemma fin_nil_streaming (v : sverb) x0 : (forall x, svfin v x = []) -> fully_streaming v x0.
  Proof. intros H l. apply H. Qed.
End StreamingProofs.

(* a retaining verb is not fully streaming: tac, and step -a shift_lead (one record of look-ahead) *)
Lemma tac_not_streaming : ~ fully_streaming (v_tac nat) [].
Proof. intros H. specialize (H [7]). discriminate H. Qed.
Lemma lead_not_streaming : ~ fully_streaming (v_lead nat (fun p _ => p)) None.
Proof. intros H. specialize (H [7]). discriminate H. Qed.

(* without --fflush: cat, one record delivered, pipeline at rest, and stdout shows nothing (the record sits in the
   bufio.Writer) *)
Theorem no_fflush_refuted :
  exists s : fstate nat nat,
    freach false (finit (dchain [(v_cat nat nat, 0)]) (singletons [7] ++ [])) s /\
    rrem (fd s) = [] /\ fquiet s = true /\ flushed s = [] /\ buffered s = [7]
    /\ chain_out [(v_cat nat nat, 0)] [7] = [7].
Proof.
  eexists. split; [apply frun_reach with (sched := [0;0;0;0;0]); vm_compute; reflexivity|]. repeat split.
Qed.

(* with --fflush but a retaining verb (tac): one record delivered, pipeline at rest, stdout shows nothing although
   the chain's complete output for that record is the record *)
Theorem retaining_verb_refuted :
  exists s : fstate nat (list nat),
    freach true (finit (dchain [(v_tac nat, [])]) (singletons [7] ++ [])) s /\
    rrem (fd s) = [] /\ fquiet s = true /\ flushed s = [] /\ chain_out [(v_tac nat, [])] [7] = [7].
Proof.
  eexists. split; [apply frun_reach with (sched := [0;0;0;0;0]); vm_compute; reflexivity|]. repeat split.
Qed.

(* ---- non-vacuity: the hypotheses of tail_f_contract / streaming_tail_f hold in a non-trivial run:
   cat then head -n 2, three records of which two have been delivered; both are on stdout *)
Example tail_f_nonvacuous :
  let c := [(v_cat nat nat, 0); (v_head nat 2, 0)] in
  all_streaming nat nat c /\
  exists s : fstate nat nat,
    freach true (finit (dchain c) (singletons [5; 6] ++ singletons [7])) s /\
    rrem (fd s) = singletons [7] /\ fquiet s = true /\ flushed s = [5; 6] /\ chain_out c [5; 6] = [5; 6].
Proof.
  cbv zeta. split.
  - repeat constructor; now apply fin_nil_streaming.
  - set (s0 := finit (dchain [(v_cat nat nat, 0); (v_head nat 2, 0)]) (singletons [5; 6] ++ singletons [7])).
    exists (settle true 40 (deliver (settle true 40 (deliver s0)))). split.
    + eapply freach_trans; [apply deliver_reach|]. eapply freach_trans; [apply settle_reach|].
      eapply freach_trans; [apply deliver_reach|]. apply settle_reach.
    + vm_compute. auto.
Qed.

(* The writer's flush decision, item by item (FlushModel.write_items = the loop body of channelWriterHandleBatch). *)
Section PerItem.
  Variable item vst : Type.
  Notation fstate := (fstate item vst).

  Lemma write_items_every (l fl : list item) :
    write_items item true (flush_every_item item) l fl [] = (fl ++ l, []).
  Proof.
    revert fl; induction l as [|i t IH]; intros fl; cbn [write_items flush_every_item andb].
    - now rewrite app_nil_r.
    - rewrite IH. cbn [app]. now rewrite <- !app_assoc.
  Qed.

  Lemma write_items_noflush after (l fl buf : list item) : write_items item false after l fl buf = (fl, buf ++ l).
  Proof.
    revert fl buf; induction l as [|i t IH]; intros fl buf; cbn [write_items andb].
    - now rewrite app_nil_r.
    - rewrite IH. now rewrite <- app_assoc.
  Qed.

  Lemma write_items_sum fflush after (l fl buf : list item) :
    fst (write_items item fflush after l fl buf) ++ snd (write_items item fflush after l fl buf) = fl ++ buf ++ l.
  Proof.
    revert fl buf; induction l as [|i t IH]; intros fl buf; cbn [write_items fst snd].
    - now rewrite app_nil_r.
    - destruct (fflush && after i); rewrite IH; cbn [app]; now rewrite <- !app_assoc.
  Qed.

  (* the merged writer step of the model IS the per-item loop with the code's rule (flush after every item, record
     or text), followed by stream.go's final Flush when the batch carries end of stream *)
  Theorem fwriter_succs_per_item fflush (s : fstate) b q :
    dwq (fd s) = b :: q -> (fflush = true -> buffered s = []) ->   (* with --fflush the buffer is empty between items: buffer_invariant *)
    fwriter_succs fflush s =
      let r := write_items item fflush (flush_every_item item) (fst b) (flushed s) (buffered s) in
      let d' := mkD (rrem (fd s)) (dvs (fd s)) q (dwritten (fd s) ++ [b]) in
      [if snd b then mkF d' (fst r ++ snd r) [] else mkF d' (fst r) (snd r)].
  Proof.
    intros E Hb. unfold fwriter_succs. rewrite E. cbv zeta. destruct fflush.
    - rewrite (Hb eq_refl), write_items_every. cbn [orb fst snd app]. rewrite app_nil_r. destruct (snd b); reflexivity.
    - rewrite write_items_noflush. cbn [orb fst snd]. destruct (snd b); reflexivity.
  Qed.
End PerItem.

(* a rule that flushes after records only (records = inl, print/dump/comment text = inr) leaves a text-only batch in
   the buffer although --fflush is on: nothing becomes visible.  (This is why the code's rule covers every item.) *)
Theorem flush_after_records_only_refuted :
  exists (after : nat + nat -> bool) (l : list (nat + nat)),
    (forall r, after (inl r) = true) /\ l <> [] /\
    write_items (nat + nat) true after l [] [] = ([], l) /\
    write_items (nat + nat) true (flush_every_item (nat + nat)) l [] [] = (l, []).
Proof.
  exists (fun i => match i with inl _ => true | inr _ => false end), [inr 7; inr 8].
  split; [reflexivity|]. split; [discriminate|]. split; reflexivity.
Qed.

(* "At rest" is exactly "no verb step and no writer step is enabled" while the input is open.
   quiet_no_step is one direction; here the other: while every batch handed over so far is a non-end batch (the pipe
   is still open) and the verbs pass the end-of-stream bit through unchanged (true of everything driven by
   runSingleTransformerBatch: to_dverb_pres), no stage has finished, so a state in which neither the chain nor the
   writer can move has every verb waiting on an empty channel and an empty writer channel. *)
Section StuckIdle.
  Variable item vst : Type.
  Notation dstate := (dstate item vst).
  Notation fstate := (fstate item vst).
  Notation batch := (batch item).
  Notation dstage := (dstage item vst).

  Definition ne (b : batch) : bool := negb (snd b).
  Definition pres (v : dverb item vst) : Prop := forall x b, snd (snd (dfun item vst v x b)) = snd b.
  Definition stage_ne (g : dstage) : Prop :=
    pres (dv item vst g) /\ dp g <> DDone item /\ forallb ne (din g) = true /\
    match dp g with DWork _ b | DSend _ b => snd b = false | _ => True end.

  Lemma dlocal_ne (g g' : dstage) : stage_ne g -> In g' (dlocal g) -> stage_ne g'.
  Proof.
    intros (Hp & Hd & Hq & Hh). unfold dlocal. destruct g as [v x p q]; cbn [dp din dv DataPipeline.dst] in *.
    destruct p as [|b|o|].
    - destruct q as [|b q]; [intros []|]. intros [<-|[]]. cbn in Hq. apply andb_true_iff in Hq as [Hb Hq].
      unfold stage_ne; cbn. repeat split; auto; try discriminate. unfold ne in Hb. now apply negb_true_iff in Hb.
    - pose proof (Hp x b) as He. destruct (dfun item vst v x b) as [x' o]. intros [<-|[]].
      unfold stage_ne; cbn in *. repeat split; auto; try discriminate. congruence.
    - intros [].
    - intros [].
  Qed.

  Lemma forallb_ne_app (q : list batch) o : forallb ne q = true -> snd o = false -> forallb ne (q ++ [o]) = true.
  Proof. intros Hq Ho. rewrite forallb_app, Hq. cbn. unfold ne. now rewrite Ho. Qed.

  Lemma dchain_ne : forall (vs : list dstage) wq vs' wq',
    Forall stage_ne vs -> In (vs', wq') (dchain_succs vs wq) -> Forall stage_ne vs'.
  Proof.
    induction vs as [|g rest IH]; intros wq vs' wq' Hall Hin; cbn [dchain_succs] in Hin; [destruct Hin|].
    inversion Hall as [|? ? Hg Hrest]; subst. rewrite !in_app_iff in Hin. destruct Hin as [Hin|[Hin|Hin]].
    - apply in_map_iff in Hin as (g' & [= <- <-] & Hl). constructor; [eapply dlocal_ne; eauto|exact Hrest].
    - destruct (dp g) as [|b|o|] eqn:Ep; try destruct Hin.
      assert (Ho : snd o = false) by (destruct Hg as (_ & _ & _ & Hh); now rewrite Ep in Hh).
      assert (Hg' : stage_ne (set_dp item vst g (if snd o then DDone item else DRecv item))).
      { rewrite Ho. destruct Hg as (A & B & C & D). unfold stage_ne; cbn. repeat split; auto. discriminate. }
      destruct rest as [|g2 rest2]; (destruct (_ <? _); [|destruct Hin]); destruct Hin as [[= <- <-]|[]]; constructor; auto.
      inversion Hrest as [|? ? (A & B & C & D) Hrest2]; subst. constructor; [|exact Hrest2].
      unfold stage_ne; cbn. repeat split; auto. now apply forallb_ne_app.
    - apply in_map_iff in Hin as ([rest' wq1] & [= <- <-] & Hin'). constructor; [exact Hg|eapply IH; eauto].
  Qed.

  (* no clause for the writer channel: a batch that has left the chain cannot make a stage finish *)
  Definition NE (d : dstate) : Prop := forallb ne (rrem d) = true /\ Forall stage_ne (dvs d).

  Lemma NE_step (d d' : dstate) : NE d -> dstep d d' -> NE d'.
  Proof.
    intros (Hr & Hv). unfold dstep. rewrite dsuccs_split, !in_app_iff. intros [H|[H|H]].
    - unfold reader_succs in H. destruct (rrem d) as [|b r] eqn:Er; [destruct H|]. destruct (dvs d) as [|g rest] eqn:Ev; [destruct H|].
      destruct (_ <? _); [|destruct H]. destruct H as [<-|[]]. cbn in Hr. apply andb_true_iff in Hr as [Hb%negb_true_iff Hr].
      split; [exact Hr|]. inversion Hv as [|? ? (A & B & C & D) Hrest]; subst. constructor; [|exact Hrest].
      unfold stage_ne; cbn. repeat split; auto. now apply forallb_ne_app.
    - unfold chain_succs in H. apply in_map_iff in H as ([vs' wq'] & <- & Hin). split; [exact Hr|]. eapply dchain_ne; eauto.
    - unfold writer_succs in H. destruct (dwq d); [destruct H|]. destruct H as [<-|[]]. now split.
  Qed.

  Definition all_pres (vs : list (dverb item vst * vst)) : Prop := Forall (fun p => pres (fst p)) vs.

  Lemma NE_init vs bs : all_pres vs -> forallb ne bs = true -> NE (dinit vs bs).
  Proof.
    intros Hp Hb. split; [exact Hb|]. unfold dinit; cbn.
    induction Hp as [|[v x0] vs Hv _ IH]; cbn; constructor; [|exact IH].
    unfold stage_ne, fresh; cbn. repeat split; auto. discriminate.
  Qed.

  Lemma NE_reach vs bs d : all_pres vs -> forallb ne bs = true -> dreach (dinit vs bs) d -> NE d.
  Proof. intros Hp Hb. induction 1 as [|d d' _ IH Hs]; [now apply NE_init|eapply NE_step; eauto]. Qed.

  Lemma stuck_idle_chain : forall vs : list dstage,
    Forall (fun g => dp g <> DDone item) vs -> dchain_succs vs [] = [] -> forallb idle_b vs = true.
  Proof.
    induction vs as [|g rest IH]; intros Hall Hs; [reflexivity|]. inversion Hall as [|? ? Hg Hrest]; subst.
    cbn [dchain_succs] in Hs. apply app_eq_nil in Hs as [Hl Hs]. apply app_eq_nil in Hs as [Hsend Hdeep].
    apply map_eq_nil in Hl. apply map_eq_nil in Hdeep. specialize (IH Hrest Hdeep).
    cbn [forallb]. rewrite IH, andb_true_r. unfold idle_b. unfold dlocal in Hl.
    destruct (dp g) as [|b|o|] eqn:Ep.
    - destruct (din g); [reflexivity|discriminate].
    - destruct (dfun item vst (dv item vst g) (DataPipeline.dst item vst g) b); discriminate.
    - exfalso. destruct rest as [|g2 rest2]; [cbn in Hsend; discriminate|].
      cbn [forallb] in IH. apply andb_true_iff in IH as [I2 _]. unfold idle_b in I2. apply andb_true_iff in I2 as [_ I2].
      destruct (din g2); [cbn in Hsend; discriminate|discriminate].
    - now elim Hg.
  Qed.

  Theorem stuck_is_quiet fl vs (delivered pending : list batch) (s : fstate) :
    all_pres vs -> forallb ne delivered = true ->
    freach fl (finit vs (delivered ++ pending)) s -> rrem (fd s) = pending ->
    nonreader_fsuccs fl s = [] -> fquiet s = true.
  Proof.
    intros Hp Hd Hr Hrem Hs. unfold nonreader_fsuccs in Hs. apply app_eq_nil in Hs as [Hc Hw].
    apply map_eq_nil in Hc. unfold chain_succs in Hc. apply map_eq_nil in Hc.
    assert (Hq : dwq (fd s) = []).
    { unfold fwriter_succs in Hw. destruct (dwq (fd s)); [reflexivity|]. destruct (fl || snd b); discriminate. }
    apply (freach_proj item vst) in Hr. cbn [fd finit] in Hr. apply (reach_truncate item vst) in Hr as (pre & E0 & Hr).
    rewrite Hrem in E0. apply app_inv_tail in E0. subst pre.
    pose proof (NE_reach _ _ _ Hp Hd Hr) as [_ Hv]. unfold with_rrem in Hv; cbn in Hv.
    unfold fquiet. rewrite Hq. rewrite andb_true_r. rewrite Hq in Hc. apply stuck_idle_chain; [|exact Hc].
    eapply Forall_impl; [|exact Hv]. intros g (_ & A & _). exact A.
  Qed.

  Corollary quiet_iff_no_step fl vs (delivered pending : list batch) (s : fstate) :
    all_pres vs -> forallb ne delivered = true ->
    freach fl (finit vs (delivered ++ pending)) s -> rrem (fd s) = pending ->
    (fquiet s = true <-> nonreader_fsuccs fl s = []).
  Proof. intros Hp Hd Hr Hrem. split; [apply quiet_no_step|now apply (stuck_is_quiet fl vs delivered pending)]. Qed.
End StuckIdle.

(* chains driven by runSingleTransformerBatch pass the end-of-stream bit through *)
Lemma to_dverb_pres item st (v : sverb item st) : pres item st (@to_dverb item st v).
Proof. intros x b. unfold to_dverb, sv_batch; cbn. destruct (@run_items item st (@svstep item st v) x (fst b)). reflexivity. Qed.

Lemma dchain_all_pres item st (c : list (sverb item st * st)) : all_pres item st (@dchain item st c).
Proof. induction c as [|[v x0] c IH]; cbn; constructor; [apply to_dverb_pres|exact IH]. Qed.

Lemma singletons_ne item (l : list item) : forallb (ne item) (@singletons item l) = true.
Proof. induction l; cbn; auto. Qed.

(* the tail -f contract with the rest condition stated as ENABLEDNESS: --fflush, one record per batch, a chain of
   fully streaming verbs, the records [delivered] handed over, and no verb step and no writer step possible:
   stdout shows the complete output of the chain on those records *)
Theorem streaming_tail_f_no_step item st (c : list (sverb item st * st)) (delivered : list item) (pending : list (batch item))
        (s : fstate item st) :
  all_streaming item st c ->
  freach true (finit (@dchain item st c) (@singletons item delivered ++ pending)) s ->
  rrem (fd s) = pending -> nonreader_fsuccs true s = [] ->
  flushed s = @chain_out item st c delivered /\ buffered s = [].
Proof.
  intros Ha Hr Hrem Hs.
  assert (Hq : fquiet s = true).
  { apply (stuck_is_quiet item st true (@dchain item st c) (@singletons item delivered) pending); auto.
    - apply dchain_all_pres.
    - apply singletons_ne. }
  split; [now apply (streaming_tail_f item st c delivered pending s)|].
  now destruct (tail_f_contract item st (@dchain item st c) (@singletons item delivered) pending s Hr Hrem Hq).
Qed.
