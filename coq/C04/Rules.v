(* The transition relation of Model.v as inference rules.  [succs] computes the successors of a state; every
   invariant is proved by cases on which goroutine moved and how, so the cases are named once here and
   [step_rule] says every step is an instance of one of them. *)
From Coq Require Import List Bool Arith.
Import ListNotations.
From Miller Require Import C04.Model.

Section Rules.
  Variable blocking : bool.

  (* a verb's own steps; d, e, f: the done channel upstream of it, the error channel, the failed flag *)
  Inductive verb_rule (d : nat) (e f : bool) : vstage -> nat -> bool -> bool -> vstage -> Prop :=
  | v_recv b q dd sg sw : verb_rule d e f (mkV VRecv (b :: q) dd sg sw) d e f (mkV (VWork b) q dd sg sw)
  | v_swallow b q dd sg : 0 < dd -> verb_rule d e f (mkV (VWork b) q dd sg true) d e f (mkV (VWork b) q 0 sg true)
  | v_relay b q dd sg : 0 < dd -> verb_rule d e f (mkV (VWork b) q dd sg false) d e f (mkV (VRelay b) q 0 sg false)
  | v_own b q dd sw : verb_rule d e f (mkV (VWork b) q dd false sw) d e f (mkV (VOwn b) q dd true sw)
  | v_done b q dd sg sw : verb_rule d e f (mkV (VWork b) q dd sg sw) d e f (mkV (VSend b) q dd sg sw)
  | v_fail b q dd sg sw : verb_rule d e f (mkV (VWork b) q dd sg sw) d true true (mkV VSendE q dd sg sw)
  | v_flag p b q dd sg sw d' : p = VRelay b \/ p = VOwn b -> send_flag blocking d = Some d' ->
      verb_rule d e f (mkV p q dd sg sw) d' e f (mkV (VWork b) q dd sg sw)
  | v_sig q dd sg sw : verb_rule d e f (mkV VErrSig q dd sg sw) (send_flag_nb d) e f (mkV VDone q dd sg sw).

  Lemma local_steps_rule d e f v d' e' f' v' :
    In (d', e', f', v') (local_steps blocking d e f v) -> verb_rule d e f v d' e' f' v'.
  Proof.
    unfold local_steps. destruct v as [p q dd sg sw]; cbn [vp vin vd vsig vswallow].
    destruct p as [| b | b | b | b | | |]; cbn [In]; try tauto.
    - destruct q; [intros []|]. intros [[= <- <- <- <-]|[]]. constructor.
    - rewrite !in_app_iff. intros [H|[H|[H|H]]].
      + destruct (0 <? dd) eqn:E; [apply Nat.ltb_lt in E|destruct H]. destruct H as [[= <- <- <- <-]|[]]. destruct sw; now constructor.
      + destruct sg; [destruct H|]. destruct H as [[= <- <- <- <-]|[]]. constructor.
      + destruct H as [[= <- <- <- <-]|[]]. constructor.
      + destruct H as [[= <- <- <- <-]|[]]. constructor.
    - destruct (send_flag blocking d) eqn:E; [|intros []]. intros [[= <- <- <- <-]|[]]. econstructor; eauto.
    - destruct (send_flag blocking d) eqn:E; [|intros []]. intros [[= <- <- <- <-]|[]]. econstructor; eauto.
    - intros [[= <- <- <- <-]|[]]. constructor.
  Qed.

  (* handing a batch to the next channel: pc before, end-of-stream bit of the batch, pc after *)
  Inductive sends : vpc -> bool -> vpc -> Prop :=
  | s_batch b : sends (VSend b) b (if b then VDone else VRecv)
  | s_marker : sends VSendE true VErrSig.

  Lemma after_send_sends p b p' : after_send p = Some (b, p') -> sends p b p'.
  Proof. destruct p; intros [=]; subst; constructor. Qed.

  Inductive chain_rule : nat -> bool -> bool -> list vstage -> list bool -> cst -> Prop :=
  | c_verb d e f v rest wq d' e' f' v' : verb_rule d e f v d' e' f' v' ->
      chain_rule d e f (v :: rest) wq (mkC d' e' f' (v' :: rest) wq)
  | c_last d e f v wq b p' : sends (vp v) b p' ->
      chain_rule d e f [v] wq (mkC d e f [set_vp v p'] (wq ++ [b]))
  | c_next d e f v v2 rest wq b p' : sends (vp v) b p' ->
      chain_rule d e f (v :: v2 :: rest) wq (mkC d e f (set_vp v p' :: set_vin v2 (vin v2 ++ [b]) :: rest) wq)
  | c_deep d e f v rest wq c : chain_rule (vd v) e f rest wq c ->
      chain_rule d e f (v :: rest) wq (mkC d (cerr c) (cfailed c) (set_vd v (cd c) :: cvs c) (cwq c)).

  Lemma chain_succs_rule : forall vs d e f wq c, In c (chain_succs blocking d e f vs wq) -> chain_rule d e f vs wq c.
  Proof.
    induction vs as [|v rest IH]; intros d e f wq c; cbn [chain_succs In]; [tauto|].
    rewrite !in_app_iff, !in_map_iff. intros [([[[d' e'] f'] v'] & <- & H)|[H|(c' & <- & H)]].
    - now apply c_verb, local_steps_rule.
    - destruct (after_send (vp v)) as [[b p']|] eqn:E; [apply after_send_sends in E|destruct H].
      destruct rest; (destruct (_ <? _); [|destruct H]); destruct H as [<-|[]]; now constructor.
    - now apply c_deep, IH.
  Qed.

  Inductive rule : state -> state -> Prop :=
  | r_poll_flag k ie c w dq m : 0 < cd c ->
      rule (mkS (RPoll k) ie c w dq m) (mkS (RSending (Nat.min k 1)) ie (set_cd c 0) w dq m)
  | r_poll k ie c w dq m : rule (mkS (RPoll k) ie c w dq m) (mkS (RSending k) ie c w dq m)
  | r_fail k ie c w dq m : rule (mkS (RPoll (S k)) ie c w dq m) (mkS (RErr k) ie (set_failed c) w dq m)
  | r_post k c w dq m : rule (mkS (RErr k) false c w dq m) (mkS (RPoll k) true c w dq m)
  | r_send k ie d e f v rest wq w dq m :
      rule (mkS (RSending k) ie (mkC d e f (v :: rest) wq) w dq m)
           (mkS (match k with 0 => RDone | S k' => RPoll k' end) ie
                (mkC d e f (set_vin v (vin v ++ [k =? 0]) :: rest) wq) w dq m)
  | r_chain s c : chain_rule (cd (ch s)) (cerr (ch s)) (cfailed (ch s)) (cvs (ch s)) (cwq (ch s)) c ->
      rule s (with_ch s c)
  | w_recv r ie c b q dq m : cwq c = b :: q ->
      rule (mkS r ie c WRecv dq m) (mkS r ie (set_cwq c q) (if b then WFin else WRecv) dq m)
  | w_fail r ie c b q dq m : cwq c = b :: q ->
      rule (mkS r ie c WRecv dq m) (mkS r ie (set_failed (set_cwq c q)) WErr dq m)
  | w_post r ie c dq m : rule (mkS r ie c WErr dq m) (mkS r ie (set_cerr c true) WFin dq m)
  | w_fin r ie c dq m : rule (mkS r ie c WFin dq m) (mkS r ie c WDone true m)
  | m_ierr r c w dq ret : rule (mkS r true c w dq (MLoop ret)) (mkS r false c w dq (MLoop true))
  | m_cerr r ie c w dq ret : cerr c = true ->
      rule (mkS r ie c w dq (MLoop ret)) (mkS r ie (set_cerr c false) w dq (MLoop true))
  | m_done r ie c w ret : rule (mkS r ie c w true (MLoop ret)) (mkS r ie c w false (MDrain1 ret))
  | m_drain1_err r c w dq : rule (mkS r true c w dq (MDrain1 false)) (mkS r false c w dq (MDrain2 true))
  | m_drain1 r ie c w dq ret : negb ret && ie = false ->
      rule (mkS r ie c w dq (MDrain1 ret)) (mkS r ie c w dq (MDrain2 ret))
  | m_drain2_err r ie c w dq : cerr c = true ->
      rule (mkS r ie c w dq (MDrain2 false)) (mkS r ie (set_cerr c false) w dq (MExit true))
  | m_drain2 r ie c w dq ret : negb ret && cerr c = false ->
      rule (mkS r ie c w dq (MDrain2 ret)) (mkS r ie c w dq (MExit ret)).

  Lemma step_rule s s' : step blocking s s' -> rule s s'.
  Proof.
    unfold step, succs. rewrite !in_app_iff, in_map_iff. intros [H|[(c & <- & H)|[H|H]]].
    - unfold reader_steps in H. destruct s as [[k|k|k|] ie c w dq m]; cbn [rd ierr ch wr doneq mn] in H.
      + apply in_app_iff in H as [H|H].
        * destruct (0 <? cd c) eqn:E; destruct H as [<-|[]]; constructor. now apply Nat.ltb_lt.
        * destruct k; [destruct H|]. destruct H as [<-|[]]. constructor.
      + unfold push_first in H. destruct c as [d e f [|v rest] wq]; cbn [cvs cd cerr cfailed cwq] in H; [destruct H|].
        destruct (_ <? _); [|destruct H]. destruct H as [<-|[]]. constructor.
      + destruct ie; [destruct H|]. destruct H as [<-|[]]. constructor.
      + destruct H.
    - now apply r_chain, chain_succs_rule.
    - unfold writer_steps in H. destruct s as [r ie c [] dq m]; cbn [rd ierr ch wr doneq mn] in H.
      + destruct (cwq c) eqn:E; [destruct H|]. destruct H as [<-|[<-|[]]]; [apply w_recv|eapply w_fail]; exact E.
      + destruct H as [<-|[]]. constructor.
      + destruct H as [<-|[]]. constructor.
      + destruct H.
    - unfold main_steps in H. destruct s as [r ie c w dq [ret|ret|ret|ret]]; cbn [rd ierr ch wr doneq mn] in H.
      + rewrite !in_app_iff in H. destruct H as [H|[H|H]].
        * destruct ie; [|destruct H]. destruct H as [<-|[]]. constructor.
        * destruct (cerr c) eqn:E; [|destruct H]. destruct H as [<-|[]]. now constructor.
        * destruct dq; [|destruct H]. destruct H as [<-|[]]. constructor.
      + destruct (negb ret && ie) eqn:E; destruct H as [<-|[]]; [|now constructor].
        apply andb_prop in E as [E ->]. destruct ret; [discriminate|constructor].
      + destruct (negb ret && cerr c) eqn:E; destruct H as [<-|[]]; [|now constructor].
        apply andb_prop in E as [E Hc]. destruct ret; [discriminate|now constructor].
      + destruct H.
  Qed.
End Rules.
