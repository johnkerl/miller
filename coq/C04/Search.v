(* Executable helpers over the transition system: schedules, state equality, depth-first search for stuck states. *)
From Coq Require Import List Bool Arith.
Import ListNotations.
From Miller Require Import C04.Model.

Scheme Equality for vpc.
Scheme Equality for rpc.
Scheme Equality for wpc.
Scheme Equality for mpc.

Fixpoint lbeq (a b : list bool) : bool :=
  match a, b with [], [] => true | x :: a', y :: b' => Bool.eqb x y && lbeq a' b' | _, _ => false end.

Definition vstage_eqb (a b : vstage) : bool :=
  vpc_beq (vp a) (vp b) && lbeq (vin a) (vin b) && Nat.eqb (vd a) (vd b) && Bool.eqb (vsig a) (vsig b)
  && Bool.eqb (vswallow a) (vswallow b).

Fixpoint lveq (a b : list vstage) : bool :=
  match a, b with [], [] => true | x :: a', y :: b' => vstage_eqb x y && lveq a' b' | _, _ => false end.

Definition state_eqb (a b : state) : bool :=
  rpc_beq (rd a) (rd b) && Bool.eqb (ierr a) (ierr b) && Nat.eqb (cd (ch a)) (cd (ch b))
  && Bool.eqb (cerr (ch a)) (cerr (ch b)) && Bool.eqb (cfailed (ch a)) (cfailed (ch b))
  && lveq (cvs (ch a)) (cvs (ch b)) && lbeq (cwq (ch a)) (cwq (ch b))
  && wpc_beq (wr a) (wr b) && Bool.eqb (doneq a) (doneq b) && mpc_beq (mn a) (mn b).

Definition is_final (s : state) : bool := match mn s with MExit _ => true | _ => false end.

(* follow a schedule: at each step take the n-th successor *)
Fixpoint run_sched (blocking : bool) (sched : list nat) (s : state) : option state :=
  match sched with
  | [] => Some s
  | n :: rest => match nth_error (succs blocking s) n with
                 | Some s' => run_sched blocking rest s'
                 | None => None
                 end
  end.

Lemma run_sched_reachable blocking sched : forall s0 s s',
  reachable blocking s0 s -> run_sched blocking sched s = Some s' -> reachable blocking s0 s'.
Proof.
  induction sched as [|n rest IH]; intros s0 s s' Hr H; cbn in H.
  - now inversion H; subst.
  - destruct (nth_error (succs blocking s) n) as [s1|] eqn:E; [|discriminate].
    eapply IH; [|exact H]. eapply reach_step; [exact Hr|]. unfold step. eapply nth_error_In; eauto.
Qed.

(* depth-first search for a stuck, non-final state; returns the schedule leading to it *)
Fixpoint dfs (blocking : bool) (fuel : nat) (stack : list (state * list nat)) (visited : list state)
  : option (list nat) * nat :=
  match fuel with
  | O => (None, length visited)
  | S fuel' =>
      match stack with
      | [] => (None, length visited)
      | (s, path) :: stack' =>
          if existsb (state_eqb s) visited then dfs blocking fuel' stack' visited
          else
            let nx := succs blocking s in
            match nx with
            | [] => if is_final s then dfs blocking fuel' stack' (s :: visited) else (Some (rev path), length visited)
            | _ =>
                let fix number (i : nat) (l : list state) :=
                  match l with [] => [] | x :: t => (x, i :: path) :: number (S i) t end in
                dfs blocking fuel' (number 0 nx ++ stack') (s :: visited)
            end
      end
  end.

Definition find_stuck blocking fuel s0 := dfs blocking fuel [(s0, [])] [].

(* breadth of the reachable state space (exhaustive when the stack empties before the fuel does) *)
Fixpoint explore (blocking : bool) (fuel : nat) (stack : list state) (visited : list state) (trans : nat)
  : option (nat * nat * bool * bool) :=     (* states, transitions, found stuck non-final, all finals agree with [failed] *)
  match fuel with
  | O => None
  | S fuel' =>
      match stack with
      | [] => Some (length visited, trans, false, true)
      | s :: stack' =>
          if existsb (state_eqb s) visited then explore blocking fuel' stack' visited trans
          else
            let nx := succs blocking s in
            match nx with
            | [] => if is_final s
                    then (if implb (cfailed (ch s)) (match mn s with MExit r => r | _ => false end)
                          then explore blocking fuel' stack' (s :: visited) trans
                          else Some (length visited, trans, false, false))
                    else Some (length visited, trans, true, true)
            | _ => explore blocking fuel' (nx ++ stack') (s :: visited) (trans + length nx)
            end
      end
  end.
