(* C04: every EXITED run of the data-carrying model with done flags (DataFlags.v) is DRAINED -- queue contents, not
   only control: when main has exited, the producer has sent its end-of-stream marker, every verb goroutine has
   forwarded it and holds an empty input channel, and the writer channel is empty.  Hence the early-exit determinism
   theorem (EarlyExit.v) holds for every run that has exited, without the hypothesis "the run has drained".

   Invariant (for every chain, every input, every producer shape [keep], every interleaving): the end-of-stream marker
   is the LAST batch in flight.  Walking down the pipeline with [up] = "the stage upstream has sent the marker":
     up = false : this stage has not finished and none of the batches it holds (in hand or queued) carries the marker;
     up = true  : either it has finished with an empty queue, or the marker is exactly the last of its batches.
   The writer has left its receive loop only if it took the marker, and then the writer channel is empty; main leaves
   its select loop only after the writer signalled done. *)
From Coq Require Import List Bool Arith.
Import ListNotations.
From Miller Require Import C04.Model C04.Progress C04.DataFlags C04.DataRules C04.EarlyExit.

Section Drained.
  Context {rec str st : Type}.
  Notation Fstage := (@fstage rec str st).
  Notation Fstate := (@fstate rec str st).
  Notation Fbatch := (@fbatch rec str).
  Notation Verb := (@verb rec str st).
  Variable keep : nat.

  Fixpoint noeos (l : list bool) : bool := match l with [] => true | b :: t => negb b && noeos t end.
  Fixpoint eoslast (l : list bool) : bool :=
    match l with [] => false | b :: t => match t with [] => b | _ => negb b && eoslast t end end.

  Lemma noeos_app_false l : noeos l = true -> noeos (l ++ [false]) = true.
  Proof. induction l as [|b t IH]; [reflexivity|]. cbn. intros H. apply andb_true_iff in H as [Hb Ht]. now rewrite Hb, IH. Qed.

  Lemma noeos_app_true l : noeos l = true -> eoslast (l ++ [true]) = true.
  Proof.
    induction l as [|b t IH]; [reflexivity|]. cbn [noeos app]. intros H. apply andb_true_iff in H as [Hb Ht].
    specialize (IH Ht). cbn [eoslast]. destruct (t ++ [true]) as [|x y] eqn:E0; [destruct t; discriminate|].
    rewrite Hb. exact IH.
  Qed.

  Lemma eoslast_false_cons t : eoslast (false :: t) = true -> eoslast t = true.
  Proof. destruct t; cbn; [discriminate|auto]. Qed.

  Lemma eoslast_true_cons t : eoslast (true :: t) = true -> t = [].
  Proof. destruct t; cbn; [reflexivity|discriminate]. Qed.

  Lemma map_snd_nil (l : list Fbatch) : map snd l = [] -> l = [].
  Proof. destruct l; [reflexivity|discriminate]. Qed.

  Definition sbits (s : Fstage) : list bool := map snd (inflight s).
  Definition isdone (s : Fstage) : bool := match fp s with FDone => true | _ => false end.

  (* a receiver (a verb or the writer) seen from upstream: [closed] = it has left its receive loop, [bits] = the
     end-of-stream bits of the batches it holds *)
  Definition held_ok (up closed : bool) (bits : list bool) : Prop :=
    if up then (closed = true /\ bits = []) \/ (closed = false /\ eoslast bits = true)
    else closed = false /\ noeos bits = true.

  Lemma held_push closed bits b : held_ok false closed bits -> held_ok b closed (bits ++ [b]).
  Proof. intros [A B]. destruct b; cbn; [right|]; auto using noeos_app_true, noeos_app_false. Qed.

  (* taking the first batch: the receiver leaves its loop exactly if that batch carries the marker *)
  Lemma held_take up b bits : held_ok up false (b :: bits) -> held_ok up b bits.
  Proof.
    destruct up; cbn [held_ok noeos].
    - intros [[[=] _]|[_ B]]. destruct b; [left|right]; auto using eoslast_true_cons, eoslast_false_cons.
    - intros [_ [->%negb_true_iff B]%andb_true_iff]. auto.
  Qed.

  Lemma held_closed up bits : held_ok up true bits -> up = true /\ bits = [].
  Proof. destruct up; cbn; [intros [[_ B]|[[=] _]]; auto|intros [[=] _]]. Qed.

  Definition stage_ok (up : bool) (s : Fstage) : Prop := held_ok up (isdone s) (sbits s).
  Definition writer_ok (up : bool) (wq : list Fbatch) (w : wpc) : Prop := held_ok up (wclosed w) (map snd wq).

  Fixpoint E (up : bool) (vs : list Fstage) (wq : list Fbatch) (w : wpc) : Prop :=
    match vs with
    | [] => writer_ok up wq w
    | s :: rest => stage_ok up s /\ E (isdone s) rest wq w
    end.

  Lemma fverb_rule_bits d (s : Fstage) d' s' :
    fverb_rule d s d' s' -> isdone s = false /\ isdone s' = false /\ sbits s' = sbits s.
  Proof.
    unfold isdone, sbits, inflight. destruct 1 as [| | | |v x b ? ? ? ? ? E|? ? ? ? ? ? ? [-> | ->]]; cbn; auto.
    now rewrite <- (run_batch_eos v x b), E.
  Qed.

  Lemma send_src up (s : Fstage) o :
    fp s = FSend o -> stage_ok up s ->
    stage_ok up (set_fp s (if snd o then FDone else FRecv)) /\ isdone (set_fp s (if snd o then FDone else FRecv)) = snd o.
  Proof.
    unfold stage_ok, isdone, sbits, inflight. cbn [set_fp fp fq]. intros ->. cbn [hand app map]. intros H%held_take.
    now destruct (snd o).
  Qed.

  Lemma push_stage (s : Fstage) (o : Fbatch) :
    stage_ok false s -> stage_ok (snd o) (set_fq s (fq s ++ [o])).
  Proof. unfold stage_ok, isdone, sbits. rewrite inflight_push, map_app. apply held_push. Qed.

  Lemma E_chain_step d (vs : list Fstage) wq d' vs' wq' :
    fchain_rule d vs wq d' vs' wq' -> forall up w, E up vs wq w -> E up vs' wq' w.
  Proof.
    induction 1 as [d s rest wq d' s' Hv|d s wq o Ep|d s s2 rest wq o Ep|d s rest wq d2 rest' wq' _ IH]; intros up w; cbn [E].
    - destruct (fverb_rule_bits _ _ _ _ Hv) as (A & B & C). unfold stage_ok. now rewrite A, B, C.
    - intros [[Hs' ->]%(send_src up s o Ep) Hrest]. assert (Hi : isdone s = false) by (unfold isdone; now rewrite Ep).
      rewrite Hi in Hrest. split; [exact Hs'|]. unfold writer_ok in *. rewrite map_app. now apply held_push.
    - intros [[Hs' ->]%(send_src up s o Ep) Hrest]. assert (Hi : isdone s = false) by (unfold isdone; now rewrite Ep).
      rewrite Hi in Hrest. destruct Hrest as [H2 Hrest]. split; [exact Hs'|]. split; [now apply push_stage|exact Hrest].
    - intros [Hs Hrest]. split; [exact Hs|]. now apply IH.
  Qed.

  Lemma E_writer : forall (vs : list Fstage) up wq w wq' w',
    (forall u, writer_ok u wq w -> writer_ok u wq' w') -> E up vs wq w -> E up vs wq' w'.
  Proof.
    induction vs as [|s rest IH]; intros up wq w wq' w' Hw; cbn [E]; [apply Hw|].
    intros [A B]. split; [exact A|]. eapply IH; eauto.
  Qed.

  Definition fidleb_stage (s : Fstage) : Prop := fp s = FDone /\ fq s = [].

  Lemma E_closed : forall (vs : list Fstage) up wq w,
    E up vs wq w -> wclosed w = true -> up = true /\ Forall fidleb_stage vs /\ wq = [].
  Proof.
    induction vs as [|s rest IH]; intros up wq w HE Hw; cbn [E] in HE.
    - unfold writer_ok in HE. rewrite Hw in HE. apply held_closed in HE as [-> ?%map_snd_nil]. auto.
    - destruct HE as [Hs Hrest]. destruct (IH _ _ _ Hrest Hw) as (Hd & Hall & Hq).
      unfold stage_ok, sbits, inflight in Hs. rewrite Hd in Hs. apply held_closed in Hs as [-> Hb].
      unfold isdone in Hd. destruct (fp s) eqn:Ep; try discriminate. apply map_snd_nil in Hb.
      split; [reflexivity|]. split; [|exact Hq]. constructor; [split; assumption|exact Hall].
  Qed.

  Definition rdone (s : Fstate) : bool := match frd s with FRDone => true | _ => false end.
  Definition GE (s : Fstate) : Prop :=
    E (rdone s) (fvs s) (fwq s) (fwr s)
    /\ (fdoneq s = true -> fwr s = WDone)
    /\ match fmn s with MLoop _ => True | _ => fwr s = WDone end.

  Lemma E_fresh (vs : list (Verb * st)) : E false (map ffresh vs) [] WRecv.
  Proof.
    induction vs as [|vx vs IH]; cbn [map E]; [split; reflexivity|]. split; [split; reflexivity|exact IH].
  Qed.

  Lemma GE_init vs bs : GE (finit vs bs).
  Proof. unfold GE, finit; cbn. split; [apply E_fresh|]. split; [discriminate|exact I]. Qed.

  Lemma GE_step (s s' : Fstate) : GE s -> fstep keep s s' -> GE s'.
  Proof.
    intros (HE & H2 & H3) Hs. apply fstep_rule in Hs. unfold GE, rdone in *.
    destruct Hs as [| |? v|b ? ? v|s d' vs' wq' Hc|? ? ? ? b|? ? ? ? ? ? ? m| | |]; cbn [frd fvs fwq fwr fdoneq fmn E] in *; auto.
    - split; [|auto]. destruct HE as [Hv Hrest]. split; [exact (push_stage v ([], true) Hv)|exact Hrest].
    - split; [|auto]. destruct HE as [Hv Hrest]. split; [exact (push_stage v (b, false) Hv)|exact Hrest].
    - split; [|auto]. eapply E_chain_step; eauto.
    - split; [|split; [intros [=]%H2|now destruct m]].
      eapply E_writer; [|exact HE]. intros u H%held_take. now destruct (snd b).
    - split; [|split; [reflexivity|now destruct m]]. eapply E_writer; [|exact HE]. intros u H. exact H.
  Qed.

  Lemma GE_reachable vs bs s : freach keep (finit vs bs) s -> GE s.
  Proof. induction 1 as [|s s' _ IH Hs]; [apply GE_init|eapply GE_step; eauto]. Qed.

  (* main may still be in its loop *)
  Theorem writer_done_is_drained (vs : list (Verb * st)) bs s :
    freach keep (finit vs bs) s -> fwr s = WDone -> fquiescent s /\ Forall (fun g => fp g = FDone) (fvs s).
  Proof.
    intros (HE & _ & _)%GE_reachable Hw.
    assert (Hne : wclosed (fwr s) = true) by now rewrite Hw.
    destruct (E_closed _ _ _ _ HE Hne) as (Hd & Hall & Hq). split.
    - split; [unfold rdone in Hd; now destruct (frd s)|]. split; [|exact Hq].
      eapply Forall_impl; [|exact Hall]. intros a [A B]. split; [now right|exact B].
    - eapply Forall_impl; [|exact Hall]. now intros a [A _].
  Qed.

  (* ... hence every exited run: main leaves its loop only after the writer's signal *)
  Theorem exited_run_is_drained (vs : list (Verb * st)) bs s :
    freach keep (finit vs bs) s -> ffinal s = true -> fquiescent s.
  Proof.
    intros Hr Hf. apply (writer_done_is_drained vs bs s Hr). apply GE_reachable in Hr as (_ & _ & H3).
    unfold ffinal in Hf. now destruct (fmn s).
  Qed.

  (* the early-exit determinism theorem, for every run that has EXITED: no "drained" hypothesis *)
  Theorem early_exit_determinism_exited nq (vs : list (Verb * st)) bs s :
    chain_ok nq vs -> forallb recs_only bs = true -> freach keep (finit vs bs) s -> ffinal s = true ->
    flat (fout s) = flat (seq_chain vs (whole bs)).
  Proof.
    intros Hc Hb Hr Hf. apply (early_exit_determinism keep nq vs bs s Hc Hb Hr). eapply exited_run_is_drained; eauto.
  Qed.

  Corollary early_exit_two_exited_runs_agree nq (vs : list (Verb * st)) bs s1 s2 :
    chain_ok nq vs -> forallb recs_only bs = true ->
    freach keep (finit vs bs) s1 -> ffinal s1 = true -> freach keep (finit vs bs) s2 -> ffinal s2 = true ->
    flat (fout s1) = flat (fout s2).
  Proof.
    intros Hc Hb H1 F1 H2 F2.
    rewrite (early_exit_determinism_exited nq vs bs s1 Hc Hb H1 F1), (early_exit_determinism_exited nq vs bs s2 Hc Hb H2 F2).
    reflexivity.
  Qed.
End Drained.
