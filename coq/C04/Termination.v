(* C04: every step of the transition system (either done-flag protocol, with failures) strictly decreases a
   natural-number measure: there are no infinite runs.  Together with deadlock freedom (Progress.v) every maximal
   run of the repaired protocol ends with main exited. *)
From Coq Require Import List Bool Arith Lia.
Import ListNotations.
From Miller Require Import C04.Model C04.Search C04.Rules C04.Progress.

Definition b2n (b : bool) : nat := if b then 1 else 0.

(* verb number i (0-based), m = number of verbs from this one to the end of the chain *)
Definition mu_pc (i m : nat) (p : vpc) : nat :=
  match p with
  | VRecv => 2 * i + 4
  | VWork _ => 2 * i + 4 + (8 * m + 4)
  | VRelay _ | VOwn _ => 2 * i + 4 + (8 * m + 4) + (2 * i + 3)
  | VSend _ | VSendE => 2 * i + 4 + (8 * m + 2)
  | VErrSig => 2 * i + 3
  | VDone => 0
  end.

Definition mu_v (i m : nat) (v : vstage) : nat :=
  length (vin v) * (8 * m + 6) + vd v * (2 * (i + 2)) + (if vsig v then 0 else 2 * i + 4) + mu_pc i m (vp v).

Fixpoint mu_chain (i : nat) (vs : list vstage) : nat :=
  match vs with
  | [] => 0
  | v :: rest => mu_v i (length vs) v + mu_chain (S i) rest
  end.

(* chain part, seen from verb i: flags waiting in its upstream channel weigh 2(i+1) each *)
Definition mu_c (i d : nat) (e : bool) (vs : list vstage) (wq : list bool) : nat :=
  2 * (i + 1) * d + b2n e + mu_chain i vs + 6 * length wq.

Definition mu_r (n : nat) (r : rpc) : nat :=
  match r with
  | RPoll k => (k + 1) * (8 * n + 16) + 2
  | RSending k => (k + 1) * (8 * n + 16) + 1
  | RErr k => (k + 1) * (8 * n + 16) + 4
  | RDone => 0
  end.
Definition mu_w (w : wpc) : nat := match w with WRecv => 4 | WErr => 3 | WFin => 1 | WDone => 0 end.
Definition mu_m (m : mpc) : nat := match m with MLoop _ => 4 | MDrain1 _ => 3 | MDrain2 _ => 2 | MExit _ => 0 end.

Definition mu (s : state) : nat :=
  mu_r (length (cvs (ch s))) (rd s) + b2n (ierr s)
  + mu_c 0 (cd (ch s)) (cerr (ch s)) (cvs (ch s)) (cwq (ch s)) + mu_w (wr s) + mu_m (mn s).

Lemma send_flag_le blocking d d' : send_flag blocking d = Some d' -> d' <= S d /\ d <= d'.
Proof. unfold send_flag. destruct (d <? 1); [intros H; inversion H; lia|]. destruct blocking; [discriminate|]. intros H; inversion H; lia. Qed.
Lemma send_flag_nb_le d : send_flag_nb d <= S d /\ d <= send_flag_nb d.
Proof. unfold send_flag_nb. destruct (d <? 1); lia. Qed.

(* a step of verb i lowers (upstream flags, error flag, this verb) *)
Lemma verb_rule_decreases blocking i m d e f v d' e' f' v' :
  verb_rule blocking d e f v d' e' f' v' ->
  2 * (i + 1) * d' + b2n e' + mu_v i m v' < 2 * (i + 1) * d + b2n e + mu_v i m v.
Proof.
  (* rule by rule, arithmetic (the reductions are kept away from the numerals); a flag just sent (v_flag, v_sig) has
     raised the channel's count by at most one *)
  pose proof (send_flag_nb_le d) as Hnb. unfold mu_v.
  destruct 1 as [| | | | | |? ? ? ? ? ? ? [-> | ->] Hd%send_flag_le|]; cbn [vp vin vd vsig mu_pc length b2n]; nia.
Qed.

Lemma sends_decreases i m p b p' : sends p b p' -> 1 <= m -> mu_pc i m p' + 8 * m <= mu_pc i m p + 1.
Proof. destruct 1 as [[]|]; cbn [mu_pc]; lia. Qed.

Lemma chain_rule_decreases blocking d e f vs wq c : chain_rule blocking d e f vs wq c ->
  forall i, mu_c i (cd c) (cerr c) (cvs c) (cwq c) < mu_c i d e vs wq.
Proof.
  induction 1 as [d e f v rest wq d' e' f' v' Hv|d e f v wq b p' Hs|d e f v v2 rest wq b p' Hs|d e f v rest wq c Hc IH];
    intros i; unfold mu_c in *; cbn [cd cerr cvs cwq mu_chain length]; unfold mu_v; cbn [vin vd vsig vp set_vp set_vin set_vd].
  - apply (verb_rule_decreases _ i (S (length rest))) in Hv. unfold mu_v in Hv. lia.
  - apply (sends_decreases i 1) in Hs; [|lia]. rewrite app_length. cbn [length]. lia.
  - apply (sends_decreases i (S (S (length rest)))) in Hs; [|lia]. rewrite app_length. cbn [length].
    nia.
  - specialize (IH (S i)). rewrite (chain_rule_length _ _ _ _ _ _ _ Hc). replace (2 * (S i + 1)) with (2 * (i + 2)) in IH by lia. lia.
Qed.

Theorem step_decreases blocking s s' : step blocking s s' -> mu s' < mu s.
Proof.
  intros Hs. apply step_rule in Hs.
  destruct Hs as [k ? ? ? ? ? Hd| | | |k ? ? ? ? ? ? ? ? ? ?|s c Hs|? ? ? b ? ? ? Hq|? ? ? b ? ? ? Hq|? ? c| | |? ? c ? ? ? Hc| | | |? ? c ? ? Hc|];
    unfold mu, mu_c; cbn [rd ierr ch wr doneq mn cd cerr cvs cwq set_cd set_failed set_cerr set_cwq with_ch mu_r mu_w mu_m b2n].
  - assert (Nat.min k 1 <= k) by lia. nia.
  - lia.
  - nia.
  - lia.
  - (* the reader hands over a batch *)
    cbn [mu_chain length]. unfold mu_v; cbn [vin vd vsig vp set_vin]. rewrite app_length. cbn [length]. destruct k; cbn [mu_r]; nia.
  - pose proof (chain_rule_decreases _ _ _ _ _ _ _ Hs 0) as H. unfold mu_c in H. rewrite (chain_rule_length _ _ _ _ _ _ _ Hs). lia.
  - rewrite Hq. destruct b; cbn [length mu_w]; lia.
  - rewrite Hq. cbn [length mu_w]. lia.
  - destruct (cerr c); cbn [b2n]; lia.
  - lia.
  - lia.
  - rewrite Hc. cbn [b2n]. lia.
  - lia.
  - lia.
  - lia.
  - rewrite Hc. cbn [b2n]. lia.
  - lia.
Qed.

(* no infinite runs, under either protocol *)
Theorem no_infinite_runs blocking : well_founded (fun s' s => step blocking s s').
Proof.
  apply (well_founded_lt_compat _ mu). intros s' s H. exact (step_decreases _ _ _ H).
Qed.

(* A relation without infinite chains, which non-final states satisfying an invariant can always follow without leaving
   the invariant, leads from every such state to a final one.  [reach]: the relation's runs, as each model defines them. *)
Lemma wf_runs_end {S : Type} (R reach : S -> S -> Prop) (fin : S -> bool) (P : S -> Prop) :
  well_founded (fun s' s => R s s') ->
  (forall s, reach s s) -> (forall s s1 s', R s s1 -> reach s1 s' -> reach s s') ->
  (forall s, P s -> fin s = false -> exists s', R s s' /\ P s') ->
  forall s, P s -> exists s', reach s s' /\ fin s' = true.
Proof.
  intros Hwf Hrefl Hfirst Hprog s. induction s as [s IH] using (well_founded_induction Hwf). intros HP.
  destruct (fin s) eqn:Hf; [now exists s|].
  destruct (Hprog s HP Hf) as (s1 & Hs1 & HP1). destruct (IH s1 Hs1 HP1) as (s' & Hr' & Hf'). eauto.
Qed.

Lemma reachable_trans blocking a b c : reachable blocking a b -> reachable blocking b c -> reachable blocking a c.
Proof. intros Hab Hbc. induction Hbc; [exact Hab|eapply reach_step; eauto]. Qed.

Lemma reachable_first blocking s s1 s' : step blocking s s1 -> reachable blocking s1 s' -> reachable blocking s s'.
Proof. intros H. apply reachable_trans. eapply reach_step; [apply reach_refl|exact H]. Qed.

(* every reachable state of the repaired protocol reaches a final state *)
Theorem every_run_reaches_final k kinds : kinds <> [] ->
  forall s, reachable false (init k kinds) s -> exists s', reachable false s s' /\ is_final s' = true.
Proof.
  intros Hk. apply (wf_runs_end (step false) (reachable false)).
  - apply no_infinite_runs.
  - apply reach_refl.
  - apply reachable_first.
  - intros s Hr Hf. destruct (no_deadlock k kinds s Hk Hr Hf) as [s1 Hs1]. exists s1. split; [exact Hs1|eapply reach_step; eauto].
Qed.
