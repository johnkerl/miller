(* C04: the data-carrying model with done flags (DataFlags.v) refines the control skeleton (Model.v):
   [proj] forgets the data (a batch becomes its end-of-stream bit, a verb its tee bit); every step of the data model
   is a step of the skeleton between the projected states (forward simulation, no stuttering), and a data state
   whose projection can move can move itself.  Hence deadlock freedom (Progress.v) and termination
   (Termination.v), proved on the skeleton, hold for the data model. *)
From Coq Require Import List Bool Arith Lia.
Import ListNotations.
From Miller Require Import C04.Model C04.Search C04.Progress C04.Termination C04.DataFlags C04.DataRules.

Section Refine.
  Context {rec str st : Type}.
  Notation Fstage := (@fstage rec str st).
  Notation Fstate := (@fstate rec str st).
  Notation Fbatch := (@fbatch rec str).
  Notation Verb := (@verb rec str st).

  Definition ppc (p : @fpc rec str) : vpc :=
    match p with
    | FRecv => VRecv | FWork b => VWork (snd b) | FRelay b => VRelay (snd b) | FOwn b => VOwn (snd b)
    | FSend o => VSend (snd o) | FDone => VDone
    end.
  Definition pstage (s : Fstage) : vstage := mkV (ppc (fp s)) (map snd (fq s)) (fd s) (fsig s) (vtee (fv s)).
  Definition prd (r : frpc) (k : nat) : rpc :=
    match r with FPoll => RPoll k | FSending => RSending k | FRDone => RDone end.
  Definition proj (s : Fstate) : state :=
    mkS (prd (frd s) (length (frem s))) false
        (mkC (fdn s) false false (map pstage (fvs s)) (map snd (fwq s))) (fwr s) (fdoneq s) (fmn s).

  Lemma map_snd_length (l : list Fbatch) : length (map snd l) = length l.
  Proof. apply map_length. Qed.

  Lemma send_flag_sf d : send_flag false d = Some (sf d).
  Proof. unfold send_flag, sf. destruct (d <? 1); reflexivity. Qed.

  Lemma pstage_set_fp (s : Fstage) p : pstage (set_fp s p) = set_vp (pstage s) (ppc p).
  Proof. reflexivity. Qed.
  Lemma pstage_set_fq (s : Fstage) q : pstage (set_fq s q) = set_vin (pstage s) (map snd q).
  Proof. reflexivity. Qed.
  Lemma pstage_set_fd (s : Fstage) d : pstage (set_fd s d) = set_vd (pstage s) d.
  Proof. reflexivity. Qed.

  Lemma fverb_sim d (s : Fstage) d' s' :
    fverb_rule d s d' s' -> In (d', false, false, pstage s') (local_steps false d false false (pstage s)).
  Proof.
    unfold local_steps, pstage.
    destruct 1 as [|? ? ? ? [] ? ? Et|? ? ? ? [] ? ? Et| |v x b ? ? ? ? ? E|? ? ? ? ? ? ? [-> | ->]];
      cbn [fp fq fd fsig fv vp vin vd vsig vswallow ppc map]; try lia.
    - now left.
    - rewrite Et. apply in_or_app. left. now left.
    - rewrite Et. apply in_or_app. left. now left.
    - apply in_or_app. right. apply in_or_app. left. now left.
    - apply in_or_app. right. apply in_or_app. right. left. now rewrite <- (run_batch_eos v x b), E.
    - rewrite send_flag_sf. now left.
    - rewrite send_flag_sf. now left.
  Qed.

  Lemma fchain_sim d (vs : list Fstage) wq d' vs' wq' : fchain_rule d vs wq d' vs' wq' ->
    In (mkC d' false false (map pstage vs') (map snd wq'))
       (chain_succs false d false false (map pstage vs) (map snd wq)).
  Proof.
    induction 1 as [d s rest wq d' s' Hv|d s wq o Ep Hc|d s s2 rest wq o Ep Hc|d s rest wq d2 rest' wq' _ IH];
      cbn [map chain_succs]; rewrite !in_app_iff.
    - left. apply in_map_iff. exists (d', false, false, pstage s'). split; [reflexivity|]. now apply fverb_sim.
    - right; left. change (vp (pstage s)) with (ppc (fp s)). rewrite Ep. cbn [ppc after_send]. rewrite map_snd_length, Hc. left.
      rewrite map_app, pstage_set_fp. cbn [map]. now destruct (snd o).
    - right; left. change (vp (pstage s)) with (ppc (fp s)). rewrite Ep. cbn [ppc after_send pstage vin]. rewrite map_snd_length, Hc. left.
      rewrite pstage_set_fp, pstage_set_fq, map_app. cbn [map]. now destruct (snd o).
    - right; right. apply in_map_iff. exists (mkC d2 false false (map pstage rest') (map snd wq')). split; [reflexivity|exact IH].
  Qed.

  Theorem forward_simulation (s s' : Fstate) : fstep 1 s s' -> step false (proj s) (proj s').
  Proof.
    intros Hs. apply fstep_rule in Hs. unfold step, succs. rewrite !in_app_iff.
    destruct Hs as [rem [] ? ? ? ? ? ? Hd| |? v ? ? ? ? ? ? Hc|? ? ? v ? ? ? ? ? ? Hc|s d' vs' wq' Hc| | | | |]; try lia.
    - left. destruct rem as [|b0 [|b1 r1]]; now left.
    - left. now left.
    - left. unfold reader_steps, push_first, proj; cbn -[Nat.ltb]. rewrite map_snd_length, Hc. left. now rewrite pstage_set_fq, map_app.
    - left. unfold reader_steps, push_first, proj; cbn -[Nat.ltb]. rewrite map_snd_length, Hc. left. now rewrite pstage_set_fq, map_app.
    - right; left. apply in_map_iff. exists (mkC d' false false (map pstage vs') (map snd wq')). split; [reflexivity|].
      now apply fchain_sim.
    - right; right; left. now left.
    - right; right; left. now left.
    - right; right; right. now left.
    - right; right; right. unfold main_steps, proj; cbn. rewrite andb_false_r. now left.
    - right; right; right. unfold main_steps, proj; cbn. rewrite andb_false_r. now left.
  Qed.

  Lemma flocal_stuck d (s : Fstage) : flocal d s = [] -> local_steps false d false false (pstage s) = [].
  Proof.
    unfold flocal, local_steps. destruct s as [v x p q dd sg]; cbn [fp fq fd fsig fv fx pstage vp vin vd vsig vswallow ppc].
    destruct p as [|b|b|b|o|]; cbn [ppc]; try reflexivity; try discriminate.
    - destruct q; [reflexivity|discriminate].
    - intros H. apply app_eq_nil in H as [_ H]. apply app_eq_nil in H as [_ H]. discriminate.
  Qed.

  Lemma fchain_stuck : forall (vs : list Fstage) d wq,
    fchain_succs d vs wq = [] -> chain_succs false d false false (map pstage vs) (map snd wq) = [].
  Proof.
    induction vs as [|s rest IH]; intros d wq H; [reflexivity|].
    cbn [fchain_succs] in H. apply app_eq_nil in H as [Hl H]. apply app_eq_nil in H as [Hs Hd].
    apply map_eq_nil in Hl. apply map_eq_nil in Hd.
    cbn [map chain_succs]. rewrite (flocal_stuck _ _ Hl). cbn [map app].
    change (vd (pstage s)) with (fd s). rewrite (IH _ _ Hd). cbn [map]. rewrite app_nil_r.
    destruct (fp s) as [|b|b|b|o|] eqn:Ep; unfold pstage at 1; cbn [vp]; rewrite Ep; cbn [ppc after_send]; try reflexivity.
    destruct rest as [|s2 rest2]; cbn [map].
    - rewrite map_snd_length. destruct (length wq <? chan_cap); [discriminate|reflexivity].
    - cbn [pstage vin]. rewrite map_snd_length. destruct (length (fq s2) <? chan_cap); [discriminate|reflexivity].
  Qed.

  Theorem stuck_projects (s : Fstate) : fwr s <> WErr -> fsuccs 1 s = [] -> succs false (proj s) = [].
  Proof.
    unfold fsuccs, succs. intros HW H. apply app_eq_nil in H as [Hr H]. apply app_eq_nil in H as [Hc H].
    apply app_eq_nil in H as [Hw Hm].
    destruct s as [r rem dn vs wq w out dq m].
    unfold freader_steps in Hr; unfold fchain_steps in Hc; unfold fwriter_steps in Hw; unfold fmain_steps in Hm.
    cbn [frd frem fdn fvs fwq fwr fout fdoneq fmn] in *. apply map_eq_nil in Hc.
    unfold proj; cbn [frd frem fdn fvs fwq fwr fout fdoneq fmn].
    assert (R : reader_steps (mkS (prd r (length rem)) false (mkC dn false false (map pstage vs) (map snd wq)) w dq m) = []).
    { unfold reader_steps; cbn [rd ch cd prd]. destruct r; cbn [prd].
      - destruct (0 <? dn); discriminate.
      - unfold push_first; cbn [cvs]. destruct vs as [|v rest]; [reflexivity|]. cbn [map pstage vin]. rewrite map_snd_length.
        destruct (length (fq v) <? reader_cap); [|reflexivity]. destruct rem; discriminate.
      - reflexivity. }
    rewrite R. cbn [app]. unfold chain_steps; cbn [ch cd cerr cfailed cvs cwq]. rewrite (fchain_stuck _ _ _ Hc). cbn [map app].
    assert (W : writer_steps (mkS (prd r (length rem)) false (mkC dn false false (map pstage vs) (map snd wq)) w dq m) = []).
    { unfold writer_steps; cbn [wr ch cwq]. destruct w; try reflexivity; try discriminate; [|now elim HW].
      destruct wq; [reflexivity|discriminate]. }
    rewrite W. cbn [app]. unfold main_steps; cbn [mn ierr ch cerr doneq].
    destruct m as [rr|rr|rr|rr]; try discriminate; try reflexivity.
    destruct dq; [discriminate|reflexivity].
  Qed.

  (* the data model has no failures: its writer is never on the error path *)
  Lemma no_werr_step keep (s s' : Fstate) : fwr s <> WErr -> fstep keep s s' -> fwr s' <> WErr.
  Proof. intros HW Hs. apply fstep_rule in Hs. destruct Hs as [| | | | |? ? ? ? b| | | |]; try exact HW; cbn; [now destruct (snd b)|discriminate]. Qed.

  Lemma no_werr keep (vs : list (Verb * st)) bs s : freach keep (finit vs bs) s -> fwr s <> WErr.
  Proof. induction 1 as [|s s' _ IH Hs]; [discriminate|]. eapply no_werr_step; eauto. Qed.

  Definition kinds_of (vs : list (Verb * st)) : list bool := map (fun vx => vtee (fst vx)) vs.

  Lemma proj_init (vs : list (Verb * st)) bs : proj (finit vs bs) = init (length bs) (kinds_of vs).
  Proof. unfold proj, finit, init, kinds_of; cbn. rewrite !map_map. reflexivity. Qed.

  Lemma kinds_of_nonempty (vs : list (Verb * st)) : vs <> [] -> kinds_of vs <> [].
  Proof. destruct vs; [contradiction|discriminate]. Qed.

  Lemma freach_proj (vs : list (Verb * st)) bs s :
    freach 1 (finit vs bs) s -> reachable false (init (length bs) (kinds_of vs)) (proj s).
  Proof.
    induction 1 as [|s s' _ IH Hs].
    - rewrite proj_init. apply reach_refl.
    - eapply reach_step; [exact IH|]. now apply forward_simulation.
  Qed.

  Lemma ffinal_proj (s : Fstate) : is_final (proj s) = ffinal s.
  Proof. reflexivity. Qed.

  (* the producer's shape only matters to the poll that finds the flag, and that step is always enabled *)
  Lemma fsuccs_nil_keep keep (s : Fstate) : fsuccs keep s = [] -> fsuccs 1 s = [].
  Proof.
    unfold fsuccs. intros H. apply app_eq_nil in H as [Hr Hrest]. rewrite Hrest, app_nil_r.
    unfold freader_steps in *. destruct (frd s); [|exact Hr|reflexivity].
    destruct (0 <? fdn s); discriminate.
  Qed.

  (* a data state whose projection satisfies the skeleton's progress invariant can move, whatever the producer's shape *)
  Lemma data_progress keep (s : Fstate) : fwr s <> WErr -> Inv (proj s) -> ffinal s = false -> exists s', fstep keep s s'.
  Proof.
    intros Hw Hi Hf. destruct (fsuccs keep s) as [|s' l] eqn:E.
    - destruct (progress _ Hi Hf). apply stuck_projects; [exact Hw|]. now apply fsuccs_nil_keep with keep.
    - exists s'. unfold fstep. rewrite E. now left.
  Qed.

  Theorem data_no_deadlock (vs : list (Verb * st)) bs s :
    vs <> [] -> freach 1 (finit vs bs) s -> ffinal s = false -> exists s', fstep 1 s s'.
  Proof.
    intros Hne Hr. apply data_progress; [eapply no_werr; eauto|].
    eapply Inv_reachable, freach_proj, Hr. now apply kinds_of_nonempty.
  Qed.

  (* no infinite run of the data model: the skeleton's measure of the projection decreases *)
  Theorem data_no_infinite_runs : well_founded (fun (s' s : Fstate) => fstep 1 s s').
  Proof.
    apply (well_founded_lt_compat _ (fun s => mu (proj s))). intros s' s H.
    apply (step_decreases false). now apply forward_simulation.
  Qed.

  Theorem data_every_run_terminates (vs : list (Verb * st)) bs : vs <> [] ->
    forall s, freach 1 (finit vs bs) s -> exists s', freach 1 s s' /\ ffinal s' = true.
  Proof.
    intros Hne. apply (wf_runs_end (fstep 1) (freach 1)).
    - apply data_no_infinite_runs.
    - apply freach_refl.
    - apply freach_first.
    - intros s Hr Hf. destruct (data_no_deadlock vs bs s Hne Hr Hf) as [s1 Hs1]. exists s1. split; [exact Hs1|eapply freach_step; eauto].
  Qed.
End Refine.
