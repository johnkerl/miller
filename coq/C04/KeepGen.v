(* C04: deadlock freedom and termination of the data-carrying model for EVERY producer shape [keep] (keep = 1: the
   line readers, which hand over the batch already in hand after seeing the done flag; keep = 0: seqgen, which hands
   over nothing more; any other value as well).
   Refine.v projects the keep = 1 model onto the skeleton step by step.  For a general [keep] exactly one kind of step
   differs: the producer's poll that finds the flag set (it then keeps [firstn keep] of its remaining batches).  That
   step is not a skeleton step when keep <> 1, but (a) it strictly decreases the skeleton's termination measure of
   the projection (fewer batches remain, the flag is consumed) and (b) it preserves the skeleton's progress
   invariant (which does not look at the number of remaining batches).  Every other step is a keep = 1 step. *)
From Coq Require Import List Bool Arith Lia.
Import ListNotations.
From Miller Require Import C04.Model C04.Search C04.Progress C04.Termination C04.DataFlags C04.DataRules C04.Refine.

Section KeepGen.
  Context {rec str st : Type}.
  Notation Fstage := (@fstage rec str st).
  Notation Fstate := (@fstate rec str st).
  Notation Verb := (@verb rec str st).
  Variable keep : nat.

  Definition flag_poll (s s' : Fstate) : Prop :=
    frd s = FPoll /\ 0 < fdn s /\
    s' = mkFS FSending (firstn keep (frem s)) 0 (fvs s) (fwq s) (fwr s) (fout s) (fdoneq s) (fmn s).

  (* every step of the general model is a step of the keep = 1 model, or the flag-finding poll *)
  Lemma fstep_cases (s s' : Fstate) : fstep keep s s' -> fstep 1 s s' \/ flag_poll s s'.
  Proof.
    unfold fstep, fsuccs. rewrite !in_app_iff. intros [H|H]; [|left; right; exact H].
    unfold freader_steps in *. destruct (frd s) eqn:Er.
    - destruct (0 <? fdn s) eqn:Ed.
      + right. destruct H as [<-|[]]. split; [exact Er|]. split; [now apply Nat.ltb_lt|reflexivity].
      + left. left. exact H.
    - left. left. exact H.
    - destruct H.
  Qed.

  Lemma flag_poll_decreases (s s' : Fstate) : flag_poll s s' -> mu (proj s') < mu (proj s).
  Proof.
    intros (Hr & Hd & ->). unfold mu, proj. cbn [frd frem fdn fvs fwq fwr fout fdoneq fmn rd ierr ch cd cerr cvs cwq wr mn].
    rewrite Hr. cbn [prd mu_r]. unfold mu_c. pose proof (firstn_length keep (frem s)) as Hl.
    assert (Hm : (length (firstn keep (frem s)) + 1) * (8 * length (map pstage (fvs s)) + 16)
                 <= (length (frem s) + 1) * (8 * length (map pstage (fvs s)) + 16)) by (apply Nat.mul_le_mono_r; lia).
    lia.
  Qed.

  Lemma general_step_decreases (s s' : Fstate) : fstep keep s s' -> mu (proj s') < mu (proj s).
  Proof.
    intros H. destruct (fstep_cases _ _ H) as [H1|H2]; [|now apply flag_poll_decreases].
    apply (step_decreases false). now apply forward_simulation.
  Qed.

  Theorem data_no_infinite_runs_keep : well_founded (fun (s' s : Fstate) => fstep keep s s').
  Proof. apply (well_founded_lt_compat _ (fun s => mu (proj s))). intros s' s H. now apply general_step_decreases. Qed.

  Lemma flag_poll_Inv (s s' : Fstate) : flag_poll s s' -> Inv (proj s) -> Inv (proj s').
  Proof.
    intros (Hr & Hd & ->). unfold Inv, proj. cbn [frd frem fdn fvs fwq fwr fout fdoneq fmn rd ierr ch cd cerr cvs cwq wr mn doneq].
    rewrite Hr. cbn [prd rsent]. auto.
  Qed.

  Lemma Inv_freach (vs : list (Verb * st)) bs s : vs <> [] -> freach keep (finit vs bs) s -> Inv (proj s).
  Proof.
    intros Hne. induction 1 as [|s s' _ IH Hs].
    - rewrite proj_init. now apply Inv_init, kinds_of_nonempty.
    - destruct (fstep_cases _ _ Hs) as [H1|H2]; [|eapply flag_poll_Inv; eauto].
      eapply Inv_step; [exact IH|]. now apply forward_simulation.
  Qed.

  Theorem data_no_deadlock_keep (vs : list (Verb * st)) bs s :
    vs <> [] -> freach keep (finit vs bs) s -> ffinal s = false -> exists s', fstep keep s s'.
  Proof. intros Hne Hr. apply data_progress; [eapply no_werr; eauto|eapply Inv_freach; eauto]. Qed.

  Theorem data_every_run_terminates_keep (vs : list (Verb * st)) bs : vs <> [] ->
    forall s, freach keep (finit vs bs) s -> exists s', freach keep s s' /\ ffinal s' = true.
  Proof.
    intros Hne. apply (wf_runs_end (fstep keep) (freach keep)).
    - apply data_no_infinite_runs_keep.
    - apply freach_refl.
    - apply freach_first.
    - intros s Hr Hf. destruct (data_no_deadlock_keep vs bs s Hne Hr Hf) as [s1 Hs1]. exists s1. split; [exact Hs1|eapply freach_step; eauto].
  Qed.
End KeepGen.
