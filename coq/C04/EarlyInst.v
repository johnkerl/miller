(* C04: instances of the data model with done flags (cat, tee, head -n k, tac, put 'print ...'), a computable
   chain condition, the refuted known-finding class on the model, and the correspondence checker used by the
   harness: the stdout of the real binary for such chains must be an outcome the model allows. *)
From Coq Require Import List Bool Arith ZArith Lia.
Import ListNotations.
From Miller Require Import C04.Model C04.DataFlags C04.DataRules C04.EarlyExit.

(* records and strings are numbers (the harness uses the field i=<n> and the text p<n>) *)
Definition ist := (nat * list nat)%type.          (* head's counter; tac's retained records *)
Definition IVerb := @verb nat nat ist.

Inductive vdesc := DCat | DTee | DPrint | DTac | DHead (n : nat).

Definition verb_of (d : vdesc) : IVerb :=
  match d with
  | DCat => mkVerb (fun x r => (x, [inl r])) (fun _ => []) (fun _ => false) false
  | DTee => mkVerb (fun x r => (x, [inl r])) (fun _ => []) (fun _ => false) true
  | DPrint => mkVerb (fun x r => (x, [inr r; inl r])) (fun _ => []) (fun _ => false) false      (* put 'print "p".$i' *)
  | DTac => mkVerb (fun x r => ((fst x, r :: snd x), [])) (fun x => map inl (snd x)) (fun _ => false) false
  | DHead n =>                                                     (* head.go: transformUnkeyed *)
      mkVerb (fun x r => ((S (fst x), snd x), if S (fst x) <=? n then [inl r] else []))
             (fun _ => []) (fun x => n <? fst x) false
  end.
Definition x0 : ist := (0, []).
Definition chain_of (ds : list vdesc) : list (IVerb * ist) := map (fun d => (verb_of d, x0)) ds.

Definition quietb (d : vdesc) : bool := match d with DPrint => false | _ => true end.
Definition is_head (d : vdesc) : bool := match d with DHead _ => true | _ => false end.

Fixpoint okb (nq : nat) (ds : list vdesc) : bool :=
  match ds with
  | [] => true
  | d :: t => match nq with S n => quietb d && okb n t | O => negb (is_head d) && okb O t end
  end.
(* some split  Q ++ R  with Q quiet and R free of early-exit verbs *)
Definition chain_okb (ds : list vdesc) : bool := existsb (fun nq => okb nq ds) (seq 0 (S (length ds))).

Lemma quiet_of d : quietb d = true -> quiet (verb_of d).
Proof.
  destruct d; cbn [quietb]; try discriminate; intros _; split; intros; cbn [verb_of vstep vfin snd]; try reflexivity.
  - apply recs_only_inl.
  - destruct (S (fst x) <=? n); reflexivity.
Qed.

Lemma discards_of d : discards (verb_of d).
Proof.
  destruct d; intros x Hx; cbn [verb_of vraise] in Hx; try discriminate.
  apply Nat.ltb_lt in Hx. split; [|reflexivity]. intros r. cbn [verb_of vstep vraise fst snd]. split.
  - destruct (S (fst x) <=? n) eqn:E; [apply Nat.leb_le in E; lia|reflexivity].
  - apply Nat.ltb_lt. lia.
Qed.

Lemma never_of d : is_head d = false -> never_raises (verb_of d).
Proof. destruct d; cbn; try discriminate; intros _ x; reflexivity. Qed.

Lemma okb_ok : forall ds nq, okb nq ds = true -> chain_ok nq (chain_of ds).
Proof.
  induction ds as [|d t IH]; intros nq H; [exact I|]. cbn in *. destruct nq as [|n].
  - apply andb_true_iff in H as [H1 H2]. split; [apply never_of; now apply negb_true_iff in H1|now apply IH].
  - apply andb_true_iff in H as [H1 H2]. split; [now apply quiet_of|]. split; [apply discards_of|now apply IH].
Qed.

Definition rec_batches (bs : list (list nat)) : list (list (@item nat nat)) := map (map inl) bs.

Lemma rec_batches_recs bs : forallb recs_only (rec_batches bs) = true.
Proof. apply inl_batches_recs. Qed.

(* the instance theorem, with a computable hypothesis on the chain *)
Theorem early_exit_determinism_inst keep (ds : list vdesc) (bs : list (list nat)) s :
  chain_okb ds = true ->
  freach keep (finit (chain_of ds) (rec_batches bs)) s -> fquiescent s ->
  flat (fout s) = flat (seq_chain (chain_of ds) (whole (rec_batches bs))).
Proof.
  intros H Hr Hq. unfold chain_okb in H. apply existsb_exists in H as (nq & _ & Hok).
  apply (early_exit_determinism keep nq (chain_of ds) (rec_batches bs) s); [now apply okb_ok|apply rec_batches_recs|exact Hr|exact Hq].
Qed.

(* the schedule that always takes the first / the last enabled step *)
Fixpoint sched_first {rec str st : Type} keep (fuel : nat) (s : @fstate rec str st) : list nat :=
  match fuel with O => [] | S f => match fsuccs keep s with [] => [] | s1 :: _ => 0 :: sched_first keep f s1 end end.
Fixpoint sched_last {rec str st : Type} keep (fuel : nat) (s : @fstate rec str st) : list nat :=
  match fuel with
  | O => []
  | S f => match fsuccs keep s with [] => [] | s1 :: l => length l :: sched_last keep f (last l s1) end
  end.

(* the schedule in which the producer only moves when nothing else can: flags are seen as early as possible *)
Fixpoint sched_lazy {rec str st : Type} keep (fuel : nat) (s : @fstate rec str st) : list nat :=
  match fuel with
  | O => []
  | S f =>
      let i := match fchain_steps s ++ fwriter_steps s ++ fmain_steps s with [] => 0 | _ => length (freader_steps keep s) end in
      match nth_error (fsuccs keep s) i with Some s1 => i :: sched_lazy keep f s1 | None => [] end
  end.

Definition fquiescentb {rec str st : Type} (s : @fstate rec str st) : bool :=
  match frd s with FRDone => true | _ => false end
  && forallb (fun g => match fp g with FRecv | FDone => true | _ => false end && match fq g with [] => true | _ => false end) (fvs s)
  && match fwq s with [] => true | _ => false end.

Lemma fquiescentb_ok {rec str st : Type} (s : @fstate rec str st) : fquiescentb s = true -> fquiescent s.
Proof.
  unfold fquiescentb, fquiescent. intros H. apply andb_true_iff in H as [H Hw]. apply andb_true_iff in H as [Hr Hv].
  split; [destruct (frd s); try discriminate; reflexivity|]. split; [|destruct (fwq s); [reflexivity|discriminate]].
  apply Forall_forall. intros g Hg. rewrite forallb_forall in Hv. specialize (Hv g Hg). apply andb_true_iff in Hv as [Hp Hq].
  split; [destruct (fp g); try discriminate; auto|destruct (fq g); [reflexivity|discriminate]].
Qed.

(* ---- the known-finding class on the model: print upstream of head is schedule-dependent ---- *)
Definition print_head : list (IVerb * ist) := chain_of [DPrint; DHead 1].
Definition four : list (list (@item nat nat)) := rec_batches [[1]; [2]; [3]; [4]; [5]; [6]].
Definition schedA : list nat := Eval vm_compute in sched_first 1 400 (finit print_head four).
Definition schedB : list nat := Eval vm_compute in sched_lazy 1 400 (finit print_head four).

Theorem print_upstream_of_head_refuted :
  exists s1 s2, freach 1 (finit print_head four) s1 /\ freach 1 (finit print_head four) s2
                /\ fquiescent s1 /\ fquiescent s2 /\ ffinal s1 = true /\ ffinal s2 = true
                /\ flat (fout s1) <> flat (fout s2).
Proof.
  eexists _, _. split; [eapply frun_sched_reach with (sched := schedA); vm_compute; reflexivity|].
  split; [eapply frun_sched_reach with (sched := schedB); vm_compute; reflexivity|].
  split; [apply fquiescentb_ok; reflexivity|]. split; [apply fquiescentb_ok; reflexivity|].
  split; [reflexivity|]. split; [reflexivity|]. discriminate.
Qed.

(* non-vacuity of the determinism theorem: head after head with a tee upstream, under the schedule in which the producer moves last *)
Definition hh : list vdesc := [DCat; DHead 3; DTee; DHead 2; DTac].
Definition schedH : list nat := Eval vm_compute in sched_lazy 1 600 (finit (chain_of hh) four).
Example early_exit_nonvacuous :
  chain_okb hh = true /\
  exists s, frun_sched 1 schedH (finit (chain_of hh) four) = Some s /\ fquiescentb s = true /\ ffinal s = true
            /\ length (frem s) < 3 /\ flat (fout s) = [inl 2; inl 1].
Proof.
  split; [reflexivity|]. eexists. split; [vm_compute; reflexivity|]. repeat split. cbn. lia.
Qed.

(* ---- correspondence with the real binary (harness): chain, (records, batch size), observed stdout ---- *)
Open Scope Z_scope.
Definition desc_of (z : Z) : vdesc :=
  if z =? 0 then DCat else if z =? 1 then DTee else if z =? 2 then DPrint else if z =? 3 then DTac
  else DHead (Z.to_nat (z - 10)).
Fixpoint chunks (fuel : nat) (b : nat) (l : list nat) : list (list nat) :=
  match fuel with
  | O => []
  | S f => match l with [] => [] | _ => firstn b l :: chunks f b (skipn b l) end
  end.
Definition enc (i : @item nat nat) : Z := match i with inl r => 2 * Z.of_nat r | inr s => 2 * Z.of_nat s + 1 end.
Definition zeqb (a b : list Z) : bool := if list_eq_dec Z.eq_dec a b then true else false.
Definition model_out (ds : list vdesc) (bs : list (list nat)) : list Z :=
  map enc (flat (seq_chain (chain_of ds) (whole (rec_batches bs)))).
(* the outcomes the model allows: the sequential result on the whole input when the chain condition holds;
   in any case the sequential result on some truncation of the input at a batch boundary *)
Definition early_chk (c : list Z * (Z * Z) * list Z) : bool :=
  let '(ch, (n, b), obs) := c in
  let ds := map desc_of ch in
  let bs := chunks (S (Z.to_nat n)) (Z.to_nat b) (seq 1 (Z.to_nat n)) in
  if chain_okb ds then zeqb obs (model_out ds bs)
  else existsb (fun j => zeqb obs (model_out ds (firstn j bs))) (seq 0 (S (length bs))).
