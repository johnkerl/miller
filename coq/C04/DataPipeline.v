(* C04: schedule independence of the output, for chains without early-exit flags and without failures.
   A data-carrying refinement of the channel protocol of Model.v: batches carry items, every verb is an arbitrary
   deterministic per-batch state machine (the shape runSingleTransformerBatch imposes: exactly one output batch per
   input batch, end-of-stream batch last), channels are bounded FIFOs with the capacities of the code.
   Theorem: under EVERY interleaving, whatever has been written plus what a sequential drain of everything in
   flight would still write is the same list of batches -- so every terminated run wrote exactly the sequential
   composition of the verbs applied to the input batches. *)
From Coq Require Import List Bool Arith.
Import ListNotations.

Section Data.
  Variable item : Type.       (* records and print/emit strings *)
  Variable vst : Type.        (* verb state (a sum type when verbs differ) *)
  Definition batch := (list item * bool)%type.     (* items, carries the end-of-stream marker *)

  Record dverb := mkDV {
    dfun : vst -> batch -> vst * batch       (* Transform folded over one batch *)
  }.

  Inductive dpc := DRecv | DWork (b : batch) | DSend (b : batch) | DDone.

  Record dstage := mkDS { dv : dverb; dst : vst; dp : dpc; din : list batch }.

  Record dstate := mkD {
    rrem : list batch;          (* batches the reader has not sent yet (the last one carries end of stream) *)
    dvs : list dstage;
    dwq : list batch;           (* writer channel *)
    dwritten : list batch       (* what the writer has written, in order *)
  }.

  Definition reader_cap := 2.
  Definition chan_cap := 1.

  Definition set_dp (s : dstage) p := mkDS (dv s) (dst s) p (din s).
  Definition set_din (s : dstage) q := mkDS (dv s) (dst s) (dp s) q.
  Definition set_dst (s : dstage) x p := mkDS (dv s) x p (din s).

  (* one stage's own steps: receive a batch; run the verb on it *)
  Definition dlocal (s : dstage) : list dstage :=
    match dp s with
    | DRecv => match din s with b :: q => [set_din (set_dp s (DWork b)) q] | [] => [] end
    | DWork b => let '(x, o) := dfun (dv s) (dst s) b in [set_dst s x (DSend o)]
    | _ => []
    end.

  (* all successor configurations of (chain suffix, writer channel) *)
  Fixpoint dchain_succs (vs : list dstage) (wq : list batch) : list (list dstage * list batch) :=
    match vs with
    | [] => []
    | s :: rest =>
        map (fun s' => (s' :: rest, wq)) (dlocal s)
        ++ (match dp s with
            | DSend o =>
                let p' := if snd o then DDone else DRecv in
                match rest with
                | [] => if length wq <? chan_cap then [([set_dp s p'], wq ++ [o])] else []
                | s2 :: rest2 =>
                    if length (din s2) <? chan_cap
                    then [(set_dp s p' :: set_din s2 (din s2 ++ [o]) :: rest2, wq)] else []
                end
            | _ => []
            end)
        ++ map (fun '(rest', wq') => (s :: rest', wq')) (dchain_succs rest wq)
    end.

  Definition dsuccs (s : dstate) : list dstate :=
    (* reader sends its next batch *)
    (match rrem s, dvs s with
     | b :: r, v :: rest =>
         if length (din v) <? reader_cap then [mkD r (set_din v (din v ++ [b]) :: rest) (dwq s) (dwritten s)] else []
     | _, _ => []
     end)
    ++ map (fun '(vs', wq') => mkD (rrem s) vs' wq' (dwritten s)) (dchain_succs (dvs s) (dwq s))
    (* writer takes a batch and writes it *)
    ++ (match dwq s with
        | b :: q => [mkD (rrem s) (dvs s) q (dwritten s ++ [b])]
        | [] => []
        end).

  Definition dstep (s s' : dstate) : Prop := In s' (dsuccs s).

  Inductive dreach (s0 : dstate) : dstate -> Prop :=
  | dreach_refl : dreach s0 s0
  | dreach_step s s' : dreach s0 s -> dstep s s' -> dreach s0 s'.

  (* ---------------- the sequential semantics ---------------- *)
  (* a verb applied to a list of batches, from a given state *)
  Fixpoint run_verb (f : vst -> batch -> vst * batch) (x : vst) (bs : list batch) : list batch :=
    match bs with
    | [] => []
    | b :: t => let '(x', o) := f x b in o :: run_verb f x' t
    end.

  (* what a stage will still emit, given further incoming batches: its pending batch first, then its queue, then [inc] *)
  Definition stage_out (s : dstage) (inc : list batch) : list batch :=
    match dp s with
    | DRecv | DDone => run_verb (dfun (dv s)) (dst s) (din s ++ inc)
    | DWork b => run_verb (dfun (dv s)) (dst s) (b :: din s ++ inc)
    | DSend o => o :: run_verb (dfun (dv s)) (dst s) (din s ++ inc)
    end.

  Fixpoint drain (vs : list dstage) (inc : list batch) : list batch :=
    match vs with
    | [] => inc
    | s :: rest => drain rest (stage_out s inc)
    end.

  (* everything that has been or will be written, if the rest were run to completion *)
  Definition alpha (s : dstate) : list batch := dwritten s ++ dwq s ++ drain (dvs s) (rrem s).

  (* pushing a batch onto a stage's queue = feeding it first *)
  Lemma stage_out_push s b inc : stage_out (set_din s (din s ++ [b])) inc = stage_out s (b :: inc).
  Proof. unfold stage_out. destruct s as [v x p q]; cbn. destruct p; now rewrite <- app_assoc. Qed.

  Lemma drain_push s rest b inc :
    drain (set_din s (din s ++ [b]) :: rest) inc = drain (s :: rest) (b :: inc).
  Proof. cbn. now rewrite stage_out_push. Qed.

  Lemma dlocal_out s s' inc : In s' (dlocal s) -> stage_out s' inc = stage_out s inc.
  Proof.
    unfold dlocal, stage_out. destruct s as [v x p q]; cbn.
    destruct p as [|b|o|]; cbn.
    - destruct q as [|b q]; cbn; [tauto|]. intros [<-|[]]. reflexivity.
    - destruct (dfun v x b) as [x' o] eqn:E. intros [<-|[]]. cbn. reflexivity.
    - tauto.
    - tauto.
  Qed.

  (* after its end-of-stream batch a stage emits nothing more, and nothing more arrives: we only need the
     weaker fact that sending a batch moves it from "pending" to the next queue *)
  Lemma stage_out_sent s o inc :
    dp s = DSend o ->
    stage_out s inc = o :: stage_out (set_dp s (if snd o then DDone else DRecv)) inc.
  Proof. unfold stage_out. destruct s as [v x p q]; cbn. intros ->. destruct (snd o); reflexivity. Qed.

  Lemma dchain_alpha : forall vs wq vs' wq' inc,
    In (vs', wq') (dchain_succs vs wq) -> wq' ++ drain vs' inc = wq ++ drain vs inc.
  Proof.
    induction vs as [|s rest IH]; intros wq vs' wq' inc Hin; cbn [dchain_succs] in Hin; [destruct Hin|].
    rewrite !in_app_iff in Hin. destruct Hin as [Hin|[Hin|Hin]].
    - apply in_map_iff in Hin as (s' & E & Hl). inversion E; subst. cbn. now rewrite (dlocal_out _ _ inc Hl).
    - destruct (dp s) as [|b|o|] eqn:Ep; try destruct Hin.
      destruct rest as [|s2 rest2].
      + destruct (_ <? _); [|destruct Hin]. destruct Hin as [E|[]]. inversion E; subst. cbn.
        rewrite (stage_out_sent s o inc Ep). rewrite <- app_assoc. reflexivity.
      + destruct (_ <? _); [|destruct Hin]. destruct Hin as [E|[]]. inversion E; subst.
        cbn [drain]. rewrite (stage_out_sent s o inc Ep). f_equal. now rewrite stage_out_push.
    - apply in_map_iff in Hin as ([rest' wq1] & E & Hin'). inversion E; subst. cbn. eapply IH; eauto.
  Qed.

  Theorem alpha_invariant s s' : dstep s s' -> alpha s' = alpha s.
  Proof.
    unfold dstep, dsuccs, alpha. rewrite !in_app_iff. intros [H|[H|H]].
    - destruct (rrem s) as [|b r] eqn:Er; [destruct H|]. destruct (dvs s) as [|v rest] eqn:Ev; [destruct H|].
      destruct (_ <? _); [|destruct H]. destruct H as [<-|[]]. cbn [dwritten dwq dvs rrem].
      now rewrite drain_push.
    - apply in_map_iff in H as ([vs' wq'] & <- & Hin). cbn [dwritten dwq dvs rrem].
      f_equal. eapply dchain_alpha; eauto.
    - destruct (dwq s) as [|b q] eqn:Eq; [destruct H|]. destruct H as [<-|[]]. cbn [dwritten dwq dvs rrem].
      now rewrite <- !app_assoc.
  Qed.

  Corollary alpha_reachable s0 s : dreach s0 s -> alpha s = alpha s0.
  Proof. induction 1 as [|s s' _ IH Hs]; [reflexivity|]. now rewrite (alpha_invariant _ _ Hs). Qed.

  (* the sequential composition of the chain, applied to the reader's batches *)
  Definition fresh (v : dverb) (x0 : vst) : dstage := mkDS v x0 DRecv [].
  Fixpoint seq_chain (vs : list (dverb * vst)) (bs : list batch) : list batch :=
    match vs with
    | [] => bs
    | (v, x0) :: rest => seq_chain rest (run_verb (dfun v) x0 bs)
    end.
  Definition dinit (vs : list (dverb * vst)) (bs : list batch) : dstate :=
    mkD bs (map (fun '(v, x0) => fresh v x0) vs) [] [].

  Lemma drain_fresh vs bs : drain (map (fun '(v, x0) => fresh v x0) vs) bs = seq_chain vs bs.
  Proof. revert bs; induction vs as [|[v x0] vs IH]; intros bs; cbn; [reflexivity|]. now rewrite IH. Qed.

  (* a run is over when the reader has sent everything, every stage is idle with an empty queue, and the writer
     channel is empty *)
  Definition idle (s : dstage) : Prop := (dp s = DRecv \/ dp s = DDone) /\ din s = [].
  Definition dquiescent (s : dstate) : Prop := rrem s = [] /\ Forall idle (dvs s) /\ dwq s = [].

  Lemma drain_idle vs : Forall idle vs -> drain vs [] = [].
  Proof.
    induction 1 as [|s rest [Hp Hq] _ IH]; cbn; [reflexivity|].
    unfold stage_out. rewrite Hq. destruct Hp as [-> | ->]; cbn; exact IH.
  Qed.

  Theorem schedule_independence vs bs s :
    dreach (dinit vs bs) s -> dquiescent s -> dwritten s = seq_chain vs bs.
  Proof.
    intros Hr (Hrem & Hidle & Hwq). pose proof (alpha_reachable _ _ Hr) as H.
    unfold alpha in H. rewrite Hrem, Hwq, (drain_idle _ Hidle) in H. cbn in H. rewrite !app_nil_r in H.
    rewrite H. unfold dinit; cbn. apply drain_fresh.
  Qed.

  (* at every moment, what has been written is a prefix of the sequential result *)
  Theorem written_is_prefix vs bs s :
    dreach (dinit vs bs) s -> exists rest, seq_chain vs bs = dwritten s ++ rest.
  Proof.
    intros Hr. pose proof (alpha_reachable _ _ Hr) as H. unfold alpha in H at 1.
    exists (dwq s ++ drain (dvs s) (rrem s)). rewrite H. unfold alpha, dinit; cbn. now rewrite drain_fresh.
  Qed.
End Data.
