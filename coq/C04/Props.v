(* C04 property theorems, each followed by Print Assumptions; the proofs are in the files imported at the head of each section. *)
From Coq Require Import List Bool Arith.
Import ListNotations.
From Miller Require Import C04.Model C04.Search C04.Progress C04.Batch C04.Termination C04.DataPipeline.

(* Every run of the repaired protocol (non-blocking done-flag sends) can always take a step until main has
   exited: no deadlock, for every number of verbs, every number of batches, every verb behaviour (relaying,
   raising its own flag like head, swallowing it like tee, failing) and every interleaving. *)
Theorem C04_no_deadlock :
  forall (k : nat) (kinds : list bool) (s : state),
    kinds <> [] -> reachable false (init k kinds) s -> is_final s = false -> exists s', step false s s'.
Proof. exact no_deadlock. Qed.
Print Assumptions C04_no_deadlock.

(* The protocol with BLOCKING done-flag sends deadlocks without any failure:
   two verbs that both raise the flag (head then head), two batches. *)
Theorem C04_blocking_relay_deadlocks :
  exists s, reachable true (init 2 [false; false]) s /\ succs true s = [] /\ is_final s = false
            /\ cfailed (ch s) = false.
Proof. exact blocking_relay_deadlocks. Qed.
Print Assumptions C04_blocking_relay_deadlocks.

(* Output does not depend on how the stream is cut into batches, for every per-record state machine verb. *)
Theorem C04_batch_independence :
  forall (item st : Type) (vstep : st -> item -> st * list item) (vfin : st -> list item)
         (s0 : st) (bs : list (list item)),
    run_batched item st vstep vfin s0 bs = run item st vstep vfin s0 (concat bs).
Proof. exact batch_independence. Qed.
Print Assumptions C04_batch_independence.

Theorem C04_any_two_batchings_agree :
  forall (item st : Type) (vstep : st -> item -> st * list item) (vfin : st -> list item)
         (s0 : st) (bs bs' : list (list item)),
    concat bs = concat bs' ->
    run_batched item st vstep vfin s0 bs = run_batched item st vstep vfin s0 bs'.
Proof. exact any_two_batchings_agree. Qed.
Print Assumptions C04_any_two_batchings_agree.

(* No run is infinite: every step strictly decreases a natural-number measure (batches move towards the writer,
   flags move upstream or are dropped, every failure is charged once) -- under BOTH done-flag protocols and with
   failures of reader, verbs and writer. *)
Theorem C04_no_infinite_runs : forall blocking, well_founded (fun s' s => step blocking s s').
Proof. exact no_infinite_runs. Qed.
Print Assumptions C04_no_infinite_runs.

(* Every run of the repaired protocol terminates with main exited: from every reachable state a final state
   is reached, for every chain length, number of batches and interleaving. *)
Theorem C04_every_run_terminates :
  forall (k : nat) (kinds : list bool), kinds <> [] ->
  forall s, reachable false (init k kinds) s -> exists s', reachable false s s' /\ is_final s' = true.
Proof. exact every_run_reaches_final. Qed.
Print Assumptions C04_every_run_terminates.

(* Schedule independence of the output, for chains without early-exit flags and without failures: in the
   data-carrying refinement of the protocol (batches of items, every verb an arbitrary deterministic per-batch
   state machine, bounded FIFO channels), under EVERY interleaving a run that has drained wrote exactly the
   sequential composition of the verbs applied to the reader's batches -- records in chain-defined order, none
   lost or duplicated, print/emit text at the position where it was produced (strings are items of the batches). *)
Theorem C04_schedule_independence_signal_free :
  forall (item vst : Type) (vs : list (dverb item vst * vst)) (bs : list (batch item)) (s : dstate item vst),
    dreach item vst (dinit item vst vs bs) s -> dquiescent item vst s ->
    dwritten item vst s = seq_chain item vst vs bs.
Proof. exact schedule_independence. Qed.
Print Assumptions C04_schedule_independence_signal_free.

(* ... and at every moment of every run, what has been written so far is a prefix of that sequential result *)
Theorem C04_written_is_prefix_of_sequential_result :
  forall (item vst : Type) (vs : list (dverb item vst * vst)) (bs : list (batch item)) (s : dstate item vst),
    dreach item vst (dinit item vst vs bs) s ->
    exists rest, seq_chain item vst vs bs = dwritten item vst s ++ rest.
Proof. exact written_is_prefix. Qed.
Print Assumptions C04_written_is_prefix_of_sequential_result.

(* non-vacuity: the initial state is reachable and not final; a three-verb run exists that terminates *)
Example C04_nonvacuous :
  is_final (init 3 [false; true; false]) = false /\ [false; true; false] <> []
  /\ exists sched s, run_sched false sched (init 1 [false]) = Some s /\ is_final s = true.
Proof.
  split; [reflexivity|]. split; [discriminate|].
  exists [0;0;0;0;0;0;0;0;0;0;0;0;0;0;0;0;0;0]. eexists. split; [vm_compute; reflexivity|reflexivity].
Qed.

(* ======================= the tail -f contract (model in FlushModel.v, proofs in Flush.v) ======================= *)
From Miller Require Import C04.DataPipeline C04.Batch C04.FlushModel C04.Flush.

(* With --fflush (the writer flushes its bufio.Writer after every item): for EVERY chain of verbs (arbitrary
   deterministic per-batch state machines), every input cut into batches in any way, every interleaving of reader,
   verbs and writer: in every reachable state in which the reader has handed over exactly the batches [delivered]
   (the lines of [pending] have not arrived yet) and the verbs and the writer have come to rest, a reader of mlr's
   stdout already sees exactly the chain's sequential output for the delivered batches, and nothing is left in the
   buffer -- whatever arrives later. *)
Theorem C04_tail_f_contract :
  forall (item vst : Type) (vs : list (dverb item vst * vst)) (delivered pending : list (batch item))
         (s : fstate item vst),
    freach item vst true (finit item vst vs (delivered ++ pending)) s ->
    rrem item vst (fd item vst s) = pending -> fquiet item vst s = true ->
    flushed item vst s = items item (seq_chain item vst vs delivered) /\ buffered item vst s = [].
Proof. exact tail_f_contract. Qed.
Print Assumptions C04_tail_f_contract.

(* the rest condition is what it says: no verb step and no writer step is enabled *)
Theorem C04_quiet_means_no_verb_or_writer_step :
  forall (item vst : Type) (fl : bool) (s : fstate item vst),
    fquiet item vst s = true -> nonreader_fsuccs item vst fl s = [].
Proof. exact quiet_no_step. Qed.
Print Assumptions C04_quiet_means_no_verb_or_writer_step.

(* The contract in the words of the property text: --fflush, --records-per-batch 1, a chain of FULLY STREAMING
   verbs (per-record state machines which, wherever the input stops, have nothing left to emit at end of stream):
   once the records [delivered] have arrived and the pipeline is at rest, stdout shows the COMPLETE output of the
   chain on those records (what `mlr chain` prints for a file holding exactly them) -- before any further input. *)
Theorem C04_tail_f_streaming_chain :
  forall (item st : Type) (c : list (sverb item st * st)) (delivered : list item) (pending : list (batch item))
         (s : fstate item st),
    all_streaming item st c ->
    freach item st true (finit item st (dchain item st c) (singletons item delivered ++ pending)) s ->
    rrem item st (fd item st s) = pending -> fquiet item st s = true ->
    flushed item st s = chain_out item st c delivered.
Proof. exact streaming_tail_f. Qed.
Print Assumptions C04_tail_f_streaming_chain.

(* ... for each i: after the i-th record of any input has been delivered *)
Theorem C04_tail_f_each_record :
  forall (item st : Type) (c : list (sverb item st * st)) (records : list item) (i : nat) (s : fstate item st),
    all_streaming item st c ->
    freach item st true (finit item st (dchain item st c) (singletons item records)) s ->
    rrem item st (fd item st s) = singletons item (skipn i records) -> fquiet item st s = true ->
    flushed item st s = chain_out item st c (firstn i records).
Proof. exact streaming_tail_f_each_record. Qed.
Print Assumptions C04_tail_f_each_record.

(* while the pipe is open, a chain of fully streaming verbs has produced the complete output for what it was given *)
Theorem C04_streaming_chain_visible :
  forall (item st : Type) (c : list (sverb item st * st)),
    all_streaming item st c -> forall bs : list (batch item), noeos item bs = true ->
    items item (seq_chain item st (dchain item st c) bs) = chain_out item st c (items item bs).
Proof. exact streaming_chain_visible. Qed.
Print Assumptions C04_streaming_chain_visible.

(* without --fflush only stdout + buffer is determined ... *)
Theorem C04_no_fflush_only_sum_determined :
  forall (item vst : Type) (fl : bool) (vs : list (dverb item vst * vst)) (delivered pending : list (batch item))
         (s : fstate item vst),
    freach item vst fl (finit item vst vs (delivered ++ pending)) s ->
    rrem item vst (fd item vst s) = pending -> fquiet item vst s = true ->
    flushed item vst s ++ buffered item vst s = items item (seq_chain item vst vs delivered).
Proof. exact no_fflush_partial. Qed.
Print Assumptions C04_no_fflush_only_sum_determined.

(* ... and the contract FAILS without --fflush: cat, one record delivered, at rest, nothing visible *)
Theorem C04_tail_f_without_fflush_refuted :
  exists s : fstate nat nat,
    freach nat nat false (finit nat nat (dchain nat nat [(v_cat nat nat, 0)]) (singletons nat [7] ++ [])) s /\
    rrem nat nat (fd nat nat s) = [] /\ fquiet nat nat s = true /\ flushed nat nat s = [] /\ buffered nat nat s = [7]
    /\ chain_out nat nat [(v_cat nat nat, 0)] [7] = [7].
Proof. exact no_fflush_refuted. Qed.
Print Assumptions C04_tail_f_without_fflush_refuted.

(* ... and FAILS for a retaining verb even with --fflush: tac *)
Theorem C04_tail_f_retaining_verb_refuted :
  exists s : fstate nat (list nat),
    freach nat (list nat) true (finit nat (list nat) (dchain nat (list nat) [(v_tac nat, [])]) (singletons nat [7] ++ [])) s /\
    rrem nat (list nat) (fd nat (list nat) s) = [] /\ fquiet nat (list nat) s = true /\ flushed nat (list nat) s = []
    /\ chain_out nat (list nat) [(v_tac nat, [])] [7] = [7].
Proof. exact retaining_verb_refuted. Qed.
Print Assumptions C04_tail_f_retaining_verb_refuted.

(* fully streaming: cat, put/sec2gmt/rename/... (stateful per-record maps), filter/grep/decimate (0 or 1 outputs),
   nest --explode/repeat (0..n outputs), tee (identity + side effect), head (until and after its quota);
   not fully streaming: tac, step -a shift_lead *)
Theorem C04_streaming_instances :
  forall (item st : Type) (x0 : st),
    (fully_streaming item st (v_cat item st) x0)
    /\ (forall g upd, fully_streaming item st (v_map item st g upd) x0)
    /\ (forall p upd, fully_streaming item st (v_filter item st p upd) x0)
    /\ (forall g upd, fully_streaming item st (v_flatmap item st g upd) x0)
    /\ (forall log, fully_streaming item st (v_tee item st log) x0)
    /\ (forall k c0, fully_streaming item nat (v_head item k) c0).
Proof.
  intros item st x0. repeat split; intros; now apply fin_nil_streaming.
Qed.
Print Assumptions C04_streaming_instances.

Theorem C04_retaining_verbs_not_streaming :
  ~ fully_streaming nat (list nat) (v_tac nat) [] /\ ~ fully_streaming nat (option nat) (v_lead nat (fun p _ => p)) None.
Proof. exact (conj tac_not_streaming lead_not_streaming). Qed.
Print Assumptions C04_retaining_verbs_not_streaming.

(* non-vacuity: cat then head -n 2, three records, two delivered: all hypotheses of the contract hold in a run of the
   model and both records are on stdout *)
Example C04_tail_f_nonvacuous :
  let c := [(v_cat nat nat, 0); (v_head nat 2, 0)] in
  all_streaming nat nat c /\
  exists s : fstate nat nat,
    freach nat nat true (finit nat nat (dchain nat nat c) (singletons nat [5; 6] ++ singletons nat [7])) s /\
    rrem nat nat (fd nat nat s) = singletons nat [7] /\ fquiet nat nat s = true /\ flushed nat nat s = [5; 6]
    /\ chain_out nat nat c [5; 6] = [5; 6].
Proof. exact tail_f_nonvacuous. Qed.

(* ======================= the writer's flush decision; at rest = no enabled step (coq/C04/Flush.v) ======================= *)
(* The writer step of the tail -f model IS channelWriterHandleBatch's loop item by item with the code's rule "flush
   after EVERY item, record or print/dump/comment text, when --fflush" (then stream.go's final Flush on end of stream) *)
Theorem C04_writer_step_is_per_item_flush :
  forall (item vst : Type) (fflush : bool) (s : fstate item vst) (b : batch item) (q : list (batch item)),
    dwq item vst (fd item vst s) = b :: q -> (fflush = true -> buffered item vst s = []) ->
    fwriter_succs item vst fflush s =
      let r := write_items item fflush (flush_every_item item) (fst b) (flushed item vst s) (buffered item vst s) in
      let d' := mkD item vst (rrem item vst (fd item vst s)) (dvs item vst (fd item vst s)) q (dwritten item vst (fd item vst s) ++ [b]) in
      [if snd b then mkF item vst d' (fst r ++ snd r) [] else mkF item vst d' (fst r) (snd r)].
Proof. exact fwriter_succs_per_item. Qed.
Print Assumptions C04_writer_step_is_per_item_flush.

(* a rule that flushes after records only leaves a text-only batch (put -q 'print ...', dump, passed comments) in the
   buffer although --fflush is on, while the code's rule makes it visible *)
Theorem C04_flush_after_records_only_refuted :
  exists (after : nat + nat -> bool) (l : list (nat + nat)),
    (forall r, after (inl r) = true) /\ l <> [] /\
    write_items (nat + nat) true after l [] [] = ([], l) /\
    write_items (nat + nat) true (flush_every_item (nat + nat)) l [] [] = (l, []).
Proof. exact flush_after_records_only_refuted. Qed.
Print Assumptions C04_flush_after_records_only_refuted.

(* "at rest" is EXACTLY "no verb step and no writer step is enabled", while the batches handed over so far are non-end
   batches (the pipe is open) and the verbs pass the end-of-stream bit through (true of every verb driven by
   runSingleTransformerBatch) *)
Theorem C04_at_rest_iff_no_enabled_step :
  forall (item vst : Type) (fl : bool) (vs : list (dverb item vst * vst)) (delivered pending : list (batch item))
         (s : fstate item vst),
    all_pres item vst vs -> forallb (ne item) delivered = true ->
    freach item vst fl (finit item vst vs (delivered ++ pending)) s -> rrem item vst (fd item vst s) = pending ->
    (fquiet item vst s = true <-> nonreader_fsuccs item vst fl s = []).
Proof. exact quiet_iff_no_step. Qed.
Print Assumptions C04_at_rest_iff_no_enabled_step.

(* the tail -f contract with the rest condition as enabledness: --fflush, one record per batch, fully streaming verbs,
   the records [delivered] handed over and neither the chain nor the writer able to move: stdout shows the complete
   output of the chain on those records and the buffer is empty *)
Theorem C04_tail_f_streaming_chain_no_enabled_step :
  forall (item st : Type) (c : list (sverb item st * st)) (delivered : list item) (pending : list (batch item))
         (s : fstate item st),
    all_streaming item st c ->
    freach item st true (finit item st (dchain item st c) (singletons item delivered ++ pending)) s ->
    rrem item st (fd item st s) = pending -> nonreader_fsuccs item st true s = [] ->
    flushed item st s = chain_out item st c delivered /\ buffered item st s = [].
Proof. exact streaming_tail_f_no_step. Qed.
Print Assumptions C04_tail_f_streaming_chain_no_enabled_step.

(* ======================= refinement: the data-carrying model with done flags projects onto the skeleton ======================= *)
From Miller Require Import C04.DataFlags C04.Refine C04.EarlyExit C04.EarlyInst.

(* Forward simulation (no stuttering): every step of the data-carrying model (batches of records and strings, per-record
   verbs, head's own flag tied to its counter, relay, tee's swallow, the producer that stops reading on a flag) is a
   step of the control skeleton between the projected states. *)
Theorem C04_data_model_refines_skeleton :
  forall (rec str st : Type) (s s' : @DataFlags.fstate rec str st),
    DataFlags.fstep 1 s s' -> step false (proj s) (proj s').
Proof. exact (@forward_simulation). Qed.
Print Assumptions C04_data_model_refines_skeleton.

(* Converse enabledness: a data state that cannot move projects to a skeleton state that cannot move. *)
Theorem C04_stuck_data_state_projects_to_stuck_skeleton_state :
  forall (rec str st : Type) (s : @DataFlags.fstate rec str st),
    DataFlags.fwr s <> WErr -> DataFlags.fsuccs 1 s = [] -> succs false (proj s) = [].
Proof. exact (@stuck_projects). Qed.
Print Assumptions C04_stuck_data_state_projects_to_stuck_skeleton_state.

(* No deadlock and termination of the data-carrying model, for every chain of verbs, every input and
   every interleaving. *)
Theorem C04_data_model_no_deadlock :
  forall (rec str st : Type) (vs : list (@verb rec str st * st)) (bs : list (list (@item rec str))) s,
    vs <> [] -> DataFlags.freach 1 (DataFlags.finit vs bs) s -> ffinal s = false -> exists s', DataFlags.fstep 1 s s'.
Proof. exact (@data_no_deadlock). Qed.
Print Assumptions C04_data_model_no_deadlock.

Theorem C04_data_model_every_run_terminates :
  forall (rec str st : Type) (vs : list (@verb rec str st * st)) (bs : list (list (@item rec str))), vs <> [] ->
  forall s, DataFlags.freach 1 (DataFlags.finit vs bs) s -> exists s', DataFlags.freach 1 s s' /\ ffinal s' = true.
Proof. exact (@data_every_run_terminates). Qed.
Print Assumptions C04_data_model_every_run_terminates.

(* ======================= stdout determinism WITH early-exit verbs ======================= *)
(* For chains Q ++ R (nq = length of Q) in which every verb of Q emits records only (no print/emit text) and obeys
   head's discard invariant (once it wants to raise its flag it never emits again), and no verb of R raises a flag:
   under EVERY interleaving of producer, verbs (own flags, relays, tee swallowing), writer and main, and for both
   producer shapes (keep = 1: line readers; keep = 0: seqgen), a run that has drained wrote -- up to the cutting into
   batches -- exactly the sequential composition of the verbs applied to the WHOLE input: the done signal only
   truncates input the chain would have discarded anyway.
   Here "has drained" is the hypothesis [fquiescent]; C04_exited_run_is_drained below proves it of every exited run, and
   C04_early_exit_determinism_exited is the statement without it. *)
Theorem C04_early_exit_determinism :
  forall (rec str st : Type) (keep nq : nat) (vs : list (@verb rec str st * st)) (bs : list (list (@item rec str))) s,
    chain_ok nq vs -> forallb recs_only bs = true -> DataFlags.freach keep (DataFlags.finit vs bs) s -> fquiescent s ->
    flat (fout s) = flat (DataFlags.seq_chain vs (whole bs)).
Proof. exact (@early_exit_determinism). Qed.
Print Assumptions C04_early_exit_determinism.

(* ... and at every moment of every run what has been written is a prefix of that *)
Theorem C04_early_exit_written_is_prefix :
  forall (rec str st : Type) (keep nq : nat) (vs : list (@verb rec str st * st)) (bs : list (list (@item rec str))) s,
    chain_ok nq vs -> forallb recs_only bs = true -> DataFlags.freach keep (DataFlags.finit vs bs) s ->
    exists rest, flat (DataFlags.seq_chain vs (whole bs)) = flat (fout s) ++ rest.
Proof. exact (@early_exit_prefix). Qed.
Print Assumptions C04_early_exit_written_is_prefix.

(* the same with a COMPUTABLE hypothesis, for chains of cat / tee / head -n k / tac / put 'print': chain_okb holds
   iff no printing verb is upstream of a head *)
Theorem C04_early_exit_determinism_head_tee_tac_chains :
  forall (keep : nat) (ds : list vdesc) (bs : list (list nat)) s,
    chain_okb ds = true ->
    DataFlags.freach keep (DataFlags.finit (chain_of ds) (rec_batches bs)) s -> fquiescent s ->
    flat (fout s) = flat (DataFlags.seq_chain (chain_of ds) (whole (rec_batches bs))).
Proof. exact early_exit_determinism_inst. Qed.
Print Assumptions C04_early_exit_determinism_head_tee_tac_chains.

(* The known-finding class "output statement upstream of an early-exit verb" on the model: put 'print' then head -n 1
   on six one-record batches has two terminated, drained runs with different stdout. *)
Theorem C04_print_upstream_of_head_refuted :
  exists s1 s2, DataFlags.freach 1 (DataFlags.finit print_head four) s1 /\ DataFlags.freach 1 (DataFlags.finit print_head four) s2
                /\ fquiescent s1 /\ fquiescent s2 /\ ffinal s1 = true /\ ffinal s2 = true
                /\ flat (fout s1) <> flat (fout s2).
Proof. exact print_upstream_of_head_refuted. Qed.
Print Assumptions C04_print_upstream_of_head_refuted.

(* non-vacuity: cat, head -n 3, tee, head -n 2, tac satisfies the chain condition and has a terminated drained run
   (in which the producer was cut short) writing records 2 1 *)
Example C04_early_exit_nonvacuous :
  chain_okb hh = true /\
  exists s, frun_sched 1 schedH (DataFlags.finit (chain_of hh) four) = Some s /\ fquiescentb s = true /\ ffinal s = true
            /\ length (frem s) < 3 /\ flat (fout s) = [inl 2; inl 1].
Proof. exact early_exit_nonvacuous. Qed.

(* ======================= every exited run is drained (coq/C04/Drained.v) ======================= *)
From Miller Require Import C04.Drained.

(* For every chain, input, producer shape and interleaving: when main has exited, the producer has sent its
   end-of-stream marker, every verb goroutine has forwarded it and its input channel is EMPTY, and the writer channel is
   EMPTY (queue contents, not only control points: the end-of-stream marker is always the last batch in flight). *)
Theorem C04_exited_run_is_drained :
  forall (rec str st : Type) (keep : nat) (vs : list (@verb rec str st * st)) (bs : list (list (@item rec str))) s,
    DataFlags.freach keep (DataFlags.finit vs bs) s -> ffinal s = true -> fquiescent s.
Proof. exact (@exited_run_is_drained). Qed.
Print Assumptions C04_exited_run_is_drained.

Theorem C04_writer_done_is_drained :
  forall (rec str st : Type) (keep : nat) (vs : list (@verb rec str st * st)) (bs : list (list (@item rec str))) s,
    DataFlags.freach keep (DataFlags.finit vs bs) s -> fwr s = WDone ->
    fquiescent s /\ Forall (fun g => fp g = FDone) (fvs s).
Proof. exact (@writer_done_is_drained). Qed.
Print Assumptions C04_writer_done_is_drained.

(* the early-exit determinism theorem for every run that has EXITED (no "drained" hypothesis) ... *)
Theorem C04_early_exit_determinism_exited :
  forall (rec str st : Type) (keep nq : nat) (vs : list (@verb rec str st * st)) (bs : list (list (@item rec str))) s,
    chain_ok nq vs -> forallb recs_only bs = true -> DataFlags.freach keep (DataFlags.finit vs bs) s -> ffinal s = true ->
    flat (fout s) = flat (DataFlags.seq_chain vs (whole bs)).
Proof. exact (@early_exit_determinism_exited). Qed.
Print Assumptions C04_early_exit_determinism_exited.

(* ... so any two exited runs (any two schedules) of such a chain on the same input wrote the same bytes *)
Theorem C04_two_exited_runs_agree :
  forall (rec str st : Type) (keep nq : nat) (vs : list (@verb rec str st * st)) (bs : list (list (@item rec str))) s1 s2,
    chain_ok nq vs -> forallb recs_only bs = true ->
    DataFlags.freach keep (DataFlags.finit vs bs) s1 -> ffinal s1 = true ->
    DataFlags.freach keep (DataFlags.finit vs bs) s2 -> ffinal s2 = true ->
    flat (fout s1) = flat (fout s2).
Proof. exact (@early_exit_two_exited_runs_agree). Qed.
Print Assumptions C04_two_exited_runs_agree.

(* non-vacuity: the run of C04_early_exit_nonvacuous has exited (ffinal) -- its hypotheses are those of the theorems above *)
Example C04_exited_nonvacuous :
  exists s, DataFlags.freach 1 (DataFlags.finit (chain_of hh) four) s /\ ffinal s = true /\ fquiescent s
            /\ flat (fout s) = [inl 2; inl 1].
Proof.
  destruct early_exit_nonvacuous as (_ & s & Hrun & Hq & Hf & _ & Hout).
  exists s. split; [now apply DataRules.frun_sched_reach in Hrun|]. split; [exact Hf|]. split; [now apply fquiescentb_ok|exact Hout].
Qed.

(* ======================= every producer shape: no deadlock, termination (coq/C04/KeepGen.v) ======================= *)
From Miller Require Import C04.KeepGen.

(* For EVERY producer shape [keep] (1: line readers; 0: seqgen, `seqgen then head`; any other value): the only step that
   is not a step of the keep = 1 model -- the producer's poll that finds the done flag -- strictly decreases the
   skeleton's termination measure of the projection and preserves its progress invariant.  Hence: *)
Theorem C04_data_model_no_infinite_runs_any_producer :
  forall (rec str st : Type) (keep : nat), well_founded (fun (s' s : @DataFlags.fstate rec str st) => DataFlags.fstep keep s s').
Proof. exact (@data_no_infinite_runs_keep). Qed.
Print Assumptions C04_data_model_no_infinite_runs_any_producer.

Theorem C04_data_model_no_deadlock_any_producer :
  forall (rec str st : Type) (keep : nat) (vs : list (@verb rec str st * st)) (bs : list (list (@item rec str))) s,
    vs <> [] -> DataFlags.freach keep (DataFlags.finit vs bs) s -> ffinal s = false -> exists s', DataFlags.fstep keep s s'.
Proof. exact (@data_no_deadlock_keep). Qed.
Print Assumptions C04_data_model_no_deadlock_any_producer.

Theorem C04_data_model_every_run_terminates_any_producer :
  forall (rec str st : Type) (keep : nat) (vs : list (@verb rec str st * st)) (bs : list (list (@item rec str))), vs <> [] ->
  forall s, DataFlags.freach keep (DataFlags.finit vs bs) s -> exists s', DataFlags.freach keep s s' /\ ffinal s' = true.
Proof. exact (@data_every_run_terminates_keep). Qed.
Print Assumptions C04_data_model_every_run_terminates_any_producer.

(* non-vacuity for the seqgen shape: cat then head -n 2 with keep = 0 has an exited run in which the producer was cut
   short, and it wrote the first two records *)
Definition seqgen_head : list vdesc := [DCat; DHead 2].
Definition schedS : list nat := Eval vm_compute in sched_lazy 0 400 (DataFlags.finit (chain_of seqgen_head) four).
Example C04_seqgen_shape_nonvacuous :
  exists s, frun_sched 0 schedS (DataFlags.finit (chain_of seqgen_head) four) = Some s /\ ffinal s = true
            /\ flat (fout s) = [inl 1; inl 2].
Proof.
  eexists. split; [vm_compute; reflexivity|]. split; reflexivity.
Qed.

(* ======================= record context: NR in end blocks (coq/C04/CtxModel.v) ======================= *)
From Miller Require Import C04.CtxModel.

(* The data model with done flags PLUS the context of the end-of-stream marker (the producer's record count when it
   sends the marker; every verb forwards the same marker, end blocks run with its context).  For chains WITHOUT
   early-exit verbs (no verb ever raises the done flag; printing allowed anywhere), every producer shape, every
   batching and interleaving: an exited run has handed over EVERY record (so NR in every end block is the total record
   count) and wrote the sequential result. *)
Theorem C04_context_determinism_without_early_exit :
  forall (rec str st : Type) (keep : nat) (vs : list (@verb rec str st * st)) (bs : list (list (@item rec str))) (c : cstate),
    chain_ok 0 vs -> forallb recs_only bs = true -> creach keep (CtxModel.cinit vs bs) c -> ffinal (fst c) = true ->
    snd c = total_recs bs /\ flat (fout (fst c)) = flat (DataFlags.seq_chain vs (whole bs)).
Proof. exact (@ctx_determinism_no_early_exit). Qed.
Print Assumptions C04_context_determinism_without_early_exit.

(* ... for chains of cat / tac / put 'print NR' / put -q 'end{print NR}': any two exited runs render the same stdout *)
Theorem C04_context_two_runs_agree_without_head :
  forall (keep : nat) (ds : list cdesc) (bs : list (list nat)) (c1 c2 : cstate),
    forallb no_head ds = true ->
    creach keep (CtxModel.cinit (cchain ds) (cbatches bs)) c1 -> ffinal (fst c1) = true ->
    creach keep (CtxModel.cinit (cchain ds) (cbatches bs)) c2 -> ffinal (fst c2) = true ->
    render (snd c1) (flat (fout (fst c1))) = render (snd c2) (flat (fout (fst c2))).
Proof. exact ctx_determinism_inst. Qed.
Print Assumptions C04_context_two_runs_agree_without_head.

(* the counter is a ghost: every run of the context model is a run of the data model with done flags *)
Theorem C04_context_model_projects :
  forall (rec str st : Type) (keep : nat) (vs : list (@verb rec str st * st)) (bs : list (list (@item rec str))) (c : cstate),
    creach keep (CtxModel.cinit vs bs) c -> DataFlags.freach keep (DataFlags.finit vs bs) (fst c).
Proof. exact (@creach_freach). Qed.
Print Assumptions C04_context_model_projects.

(* The known-finding class "end-block context downstream of an early-exit verb" on the faithful model:
   head -n 1 then put -q 'end{print NR}' on six one-record batches has two exited runs printing different NR. *)
Theorem C04_end_NR_downstream_of_head_refuted :
  exists c1 c2, creach 1 (CtxModel.cinit head_endnr six) c1 /\ creach 1 (CtxModel.cinit head_endnr six) c2
                /\ ffinal (fst c1) = true /\ ffinal (fst c2) = true
                /\ render (snd c1) (flat (fout (fst c1))) <> render (snd c2) (flat (fout (fst c2))).
Proof. exact end_NR_downstream_of_head_refuted. Qed.
Print Assumptions C04_end_NR_downstream_of_head_refuted.

(* non-vacuity: put 'print NR' then tac then put -q 'end{print NR}': an exited run, NR in the end block is 6 *)
Example C04_context_nonvacuous :
  forallb no_head ctx_chain = true /\
  exists c, crun_sched 1 cschedC (CtxModel.cinit (cchain ctx_chain) six) = Some c /\ ffinal (fst c) = true /\ snd c = 6
            /\ render (snd c) (flat (fout (fst c))) = [(1,1);(1,2);(1,3);(1,4);(1,5);(1,6);(2,6)].
Proof. exact ctx_nonvacuous. Qed.
