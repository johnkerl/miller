(* C02 proofs, part D: what CopyUnflattened needs of a separator-joined key ([path_okb]) and why one-byte separators
   provide it; records that pass Flatten / Unflatten untouched; conversions through an intermediate format; the
   refutation witnesses. *)
From Coq Require Import DecimalString DecimalN DecimalPos.
From Miller Require Import Base.Bytes Base.Record C02.Model C02.Spec C02.ProofsA C02.ProofsB C02.ProofsC.
Open Scope char_scope.

Lemma lbeqb_eq a b : lbeqb a b = true -> a = b.
Proof.
  revert b; induction a as [|x a IH]; intros [|y b]; cbn; try discriminate; [reflexivity|].
  intros H. apply andb_true_iff in H. destruct H as [H1 H2].
  destruct (beqb_spec x y); [|discriminate]. subst. f_equal. now apply IH.
Qed.

Lemma path_ok_parts sep p :
  path_okb sep p = true ->
  p <> [] /\ existsb is_nil p = false /\ split sep (join sep p) = p
  /\ containsb sep (join sep p) = (2 <=? List.length p)%nat.
Proof.
  unfold path_okb. rewrite !andb_true_iff, !negb_true_iff. intros (((H1 & H2) & H3) & H4).
  repeat split; [now intros ->|exact H2|now apply lbeqb_eq|now apply eqb_prop].
Qed.

Lemma path_ok_join_inj sep p q : path_okb sep p = true -> path_okb sep q = true -> join sep p = join sep q -> p = q.
Proof.
  intros Hp Hq E. destruct (path_ok_parts _ _ Hp) as (_ & _ & <- & _). destruct (path_ok_parts _ _ Hq) as (_ & _ & <- & _).
  now rewrite E.
Qed.

(* the string-level step of CopyUnflattened is the path-level step, on a flattened key *)
Lemma step_tie sep o a p leaf :
  path_okb sep p = true ->
  unflatten_step sep (o, a) (join sep p, leaf) = (pstep_o o (p, leaf), astep a (p, leaf)).
Proof.
  intros H. destruct (path_ok_parts _ _ H) as (Hne & Hnil & Hsplit & Hcont).
  unfold unflatten_step, pstep_o, astep. cbn [fst snd]. rewrite Hcont.
  destruct (2 <=? List.length p)%nat eqn:El; cbn [negb].
  - rewrite Hsplit, Hnil. reflexivity.
  - destruct p as [|k [|k2 p]]; [congruence| |discriminate]. reflexivity.
Qed.

(* a string-level step function that acts as the path-level step on every keyed entry folds to the two path-level folds *)
Lemma fold_tie (step : jmap * list bytes -> bytes * jv -> jmap * list bytes) sep es :
  (forall o a e, In e es -> step (o, a) (keyed sep [] e) = (pstep_o o e, astep a e)) ->
  forall o a, fold_left step (map (keyed sep []) es) (o, a) = (fold_left pstep_o es o, fold_left astep es a).
Proof.
  induction es as [|e es IH]; intros H o a; cbn [map fold_left]; [reflexivity|].
  rewrite H by now left. apply IH. intros o' a' e' Hin. apply H. now right.
Qed.

Lemma ents_leaf_scalar : forall v e, In e (ents v) -> is_coll (snd e) = false.
Proof.
  induction v as [v IH] using jv_size_ind. intros e Hin. rewrite ents_eq in Hin.
  destruct (is_nil (kids v)) eqn:En.
  - destruct Hin as [<-|[]]. now destruct v.
  - unfold ents_of_kids in Hin. apply in_flat_map in Hin. destruct Hin as (kx & Hkx & Hin).
    apply in_map_iff in Hin. destruct Hin as (e' & <- & He'). cbn [pcons snd]. now apply (IH kx Hkx).
Qed.

(* records without collections pass Flatten untouched; records whose keys do not contain the separator and whose
   values are not the sentinel strings pass Unflatten untouched *)
Lemma flatten_noop sep r : existsb (fun kv => is_coll (snd kv)) r = false -> flatten sep r = r.
Proof. intros H. unfold flatten. now rewrite H. Qed.

Lemma unflatten_noop_gen sep : forall r o,
  NoDup (map fst o ++ map fst r) ->
  (forall kv, In kv r -> containsb sep (fst kv) = false /\ ut (snd kv) = snd kv) ->
  fold_left (unflatten_step sep) r (o, []) = (o ++ r, []).
Proof.
  induction r as [|[k v] r IH]; intros o Hnd H; cbn [fold_left]; [now rewrite app_nil_r|].
  destruct (H (k, v) (or_introl eq_refl)) as [Hc Hu]. cbn [fst snd] in Hc, Hu.
  assert (Hs : unflatten_step sep (o, []) (k, v) = (o ++ [(k, v)], [])).
  { unfold unflatten_step. cbv beta iota zeta. rewrite Hc. cbn [negb]. rewrite Hu.
    now rewrite (jput_fresh _ _ _ _ Hnd). }
  rewrite Hs. rewrite IH.
  - now rewrite <- app_assoc.
  - rewrite map_app, <- app_assoc. exact Hnd.
  - intros kv Hin. apply H. now right.
Qed.

Lemma unflatten_noop sep r :
  nodupb (map fst r) = true ->
  forallb (fun kv => negb (containsb sep (fst kv)) && no_sentinel_node (snd kv)) r = true ->
  unflatten sep r = r.
Proof.
  intros Hnd H. unfold unflatten. rewrite (unflatten_noop_gen sep r []).
  - reflexivity.
  - cbn [map app]. now apply nodupb_NoDup.
  - intros [k v] Hin. rewrite forallb_forall in H. specialize (H _ Hin). cbn [fst snd] in *.
    apply andb_true_iff in H. destruct H as [H1 H2]. split; [now apply negb_true_iff|now apply ut_no_sentinel].
Qed.

Lemma key_ok_parts c k : key_ok c k = true -> k <> [] /\ existsb (Ascii.eqb c) k = false.
Proof.
  unfold key_ok. intros H. apply andb_true_iff in H. destruct H as [H1 H2]. apply negb_true_iff in H2.
  split; [destruct k; [discriminate|congruence]|exact H2].
Qed.

(* SplitString runs through a stretch without the separator byte *)
Lemma split_aux_run c x s : forall cur, existsb (Ascii.eqb c) x = false ->
  split_aux [c] cur 0 (x ++ s) = split_aux [c] (rev x ++ cur) 0 s.
Proof.
  induction x as [|ch x IH]; intros cur Hn; [reflexivity|].
  cbn [existsb] in Hn. apply orb_false_iff in Hn. destruct Hn as [Hc Hx].
  cbn [app split_aux prefixb]. rewrite Hc. cbn [andb]. rewrite IH by exact Hx. cbn [rev]. now rewrite <- app_assoc.
Qed.

Lemma split_aux_join c p : p <> [] -> forallb (key_ok c) p = true -> split_aux [c] [] 0 (join [c] p) = p.
Proof.
  induction p as [|x p IH]; intros Hne Hall; [congruence|].
  cbn [forallb] in Hall. apply andb_true_iff in Hall. destruct Hall as [Hx Hall].
  apply key_ok_parts in Hx. destruct Hx as [_ Hx]. destruct p as [|y p].
  - cbn [join]. rewrite <- (app_nil_r x) at 1. rewrite split_aux_run by exact Hx.
    cbn [split_aux]. now rewrite app_nil_r, rev_involutive.
  - change (join [c] (x :: y :: p)) with (x ++ c :: join [c] (y :: p)).
    rewrite split_aux_run by exact Hx. cbn [split_aux prefixb]. rewrite Ascii.eqb_refl. cbn [andb List.length Nat.sub].
    rewrite app_nil_r, rev_involutive. f_equal. apply IH; [discriminate|exact Hall].
Qed.

Lemma containsb_single c s : containsb [c] s = existsb (Ascii.eqb c) s.
Proof.
  induction s as [|ch s IH]; [reflexivity|]. cbn [containsb existsb prefixb]. rewrite IH.
  now rewrite andb_true_r.
Qed.

Lemma lbeqb_refl p : lbeqb p p = true.
Proof. induction p as [|x p IH]; [reflexivity|]. cbn. now rewrite beqb_refl. Qed.

Lemma path_ok_single c p : p <> [] -> forallb (key_ok c) p = true -> path_okb [c] p = true.
Proof.
  intros Hne Hall. unfold path_okb.
  assert (H2 : existsb is_nil p = false).
  { clear Hne. induction p as [|x p IH]; [reflexivity|].
    cbn [forallb] in Hall. apply andb_true_iff in Hall. destruct Hall as [Hx Hall].
    cbn [existsb]. rewrite (IH Hall). destruct (key_ok_parts c x Hx) as [Hx' _]. destruct x; [congruence|reflexivity]. }
  destruct p as [|x p]; [congruence|].
  pose proof Hall as Hall'. cbn [forallb] in Hall'. apply andb_true_iff in Hall'. destruct Hall' as [Hx Hp].
  destruct (key_ok_parts c x Hx) as [Hx1 Hx2].
  assert (H3 : split [c] (join [c] (x :: p)) = x :: p).
  { unfold split. destruct (join [c] (x :: p)) eqn:E; [|rewrite <- E; now apply split_aux_join].
    destruct p; cbn [join] in E; [congruence|]. destruct x; [congruence|discriminate]. }
  assert (H4 : containsb [c] (join [c] (x :: p)) = (2 <=? List.length (x :: p))%nat).
  { rewrite containsb_single. destruct p as [|y p]; [exact Hx2|].
    change (join [c] (x :: y :: p)) with (x ++ c :: join [c] (y :: p)).
    rewrite existsb_app. cbn [existsb]. rewrite Ascii.eqb_refl. cbn. now rewrite orb_true_r. }
  rewrite H2, H3, H4, lbeqb_refl, eqb_reflx. reflexivity.
Qed.

Lemma uint_digits d : Forall (fun ch => is_digit ch = true) (list_ascii_of_string (NilEmpty.string_of_uint d)).
Proof. induction d; cbn; constructor; auto. Qed.

Lemma nz_digits d : Forall (fun ch => is_digit ch = true) (list_ascii_of_string (NilZero.string_of_uint d)).
Proof.
  destruct d; try (exact (uint_digits _)). cbn. constructor; [reflexivity|constructor].
Qed.

Lemma itoa_key_ok c n : is_digit c = false -> key_ok c (itoa n) = true.
Proof.
  intros Hc. unfold key_ok. apply andb_true_iff. split.
  - unfold itoa, NilZero.string_of_uint. now destruct (N.to_uint n).
  - apply negb_true_iff. unfold itoa. induction (nz_digits (N.to_uint n)) as [|ch s Hch _ IH]; [reflexivity|].
    cbn [existsb]. rewrite IH. destruct (Ascii.eqb_spec c ch); [congruence|reflexivity].
Qed.

Lemma kids_keys_ok c v :
  is_digit c = false -> keys_ok_node c v = true -> forall kx, In kx (kids v) -> key_ok c (fst kx) = true.
Proof.
  intros Hc Hk kx Hin. destruct v as [s|t|b| |m|l]; cbn [kids] in Hin; try contradiction.
  - cbn [keys_ok_node] in Hk. rewrite forallb_forall in Hk. now apply Hk.
  - apply in_map with (f := fst) in Hin. apply indexed_keys in Hin. destruct Hin as (j & _ & ->).
    now apply itoa_key_ok.
Qed.

Lemma ents_keys_ok c : is_digit c = false ->
  forall v, jall (keys_ok_node c) v = true -> forall e, In e (ents v) -> forallb (key_ok c) (fst e) = true.
Proof.
  intros Hc. induction v as [v IH] using jv_size_ind. intros Hk e Hin.
  rewrite ents_eq in Hin. destruct (is_nil (kids v)) eqn:En.
  - destruct Hin as [<-|[]]. reflexivity.
  - unfold ents_of_kids in Hin. apply in_flat_map in Hin. destruct Hin as (kx & Hkx & Hin).
    apply in_map_iff in Hin. destruct Hin as (e' & <- & He'). cbn [pcons fst forallb].
    rewrite (kids_keys_ok c v Hc (jall_node _ _ Hk) kx Hkx). now apply (IH kx Hkx); [apply (jall_kid _ v)|].
Qed.

Section Conversions.
  Variables (fmt text recs : Type).
  Variable write : fmt -> recs -> text.
  Variable read : fmt -> text -> option recs.
  Variable representable : fmt -> recs -> Prop.
  Hypothesis roundtrip : forall F x, representable F x -> read F (write F x) = Some x.

  Definition conv (A B : fmt) (t : text) : option text := option_map (write B) (read A t).
  Definition bind {X Y} (o : option X) (f : X -> option Y) : option Y := match o with Some x => f x | None => None end.

  Lemma conv_direct A B x : representable A x -> conv A B (write A x) = Some (write B x).
  Proof. intros H. unfold conv. now rewrite roundtrip. Qed.

  Lemma conv_via A C B x :
    representable A x -> representable C x ->
    bind (conv A C (write A x)) (conv C B) = conv A B (write A x).
  Proof. intros HA HC. rewrite !conv_direct by assumption. cbn. now apply conv_direct. Qed.

  Lemma conv_there_and_back A B x :
    representable A x -> representable B x ->
    bind (conv A B (write A x)) (conv B A) = Some (write A x).
  Proof. intros HA HB. rewrite conv_direct by assumption. cbn. now apply conv_direct. Qed.
End Conversions.

(* what happens when a hypothesis is dropped *)
Definition r_intkeyed : jmap := [(B "a", JMap [(B "1", JNum (B "5")); (B "2", JNum (B "6"))])].
Definition r_sentinel : jmap := [(B "b", JStr (B "{}"))].
Definition r_sentinel2 : jmap := [(B "b", JMap [(B "c", JStr (B "[]"))])].
Definition r_emptykey : jmap := [(B "a", JMap [(B "", JNum (B "1"))])].
Definition r_sepkey : jmap := [(B "a.b", JNum (B "1"))].
Definition r_digitsep : jmap := [(B "a", JArr [JNum (B "5")])].
Definition r_overlap : jmap := [(B "xa", JMap [(B "b", JNum (B "1"))])].

Definition dot : ascii := ".".

Lemma intkeyed_refuted :
  wf_rec r_intkeyed = true /\ keys_ok_rec dot r_intkeyed = true /\ no_sentinel_rec r_intkeyed = true
  /\ no_intkeyed_rec r_intkeyed = false /\ unflatten [dot] (flatten [dot] r_intkeyed) <> r_intkeyed.
Proof. vm_compute. repeat split; try reflexivity. discriminate. Qed.

Lemma sentinel_refuted :
  wf_rec r_sentinel = true /\ keys_ok_rec dot r_sentinel = true /\ no_intkeyed_rec r_sentinel = true
  /\ no_sentinel_rec r_sentinel = false /\ unflatten [dot] (flatten [dot] r_sentinel) <> r_sentinel.
Proof. vm_compute. repeat split; try reflexivity. discriminate. Qed.

Lemma sentinel_nested_refuted :
  wf_rec r_sentinel2 = true /\ keys_ok_rec dot r_sentinel2 = true /\ no_intkeyed_rec r_sentinel2 = true
  /\ unflatten [dot] (flatten [dot] r_sentinel2) <> r_sentinel2.
Proof. vm_compute. repeat split; try reflexivity. discriminate. Qed.

Lemma emptykey_refuted :
  wf_rec r_emptykey = true /\ no_sentinel_rec r_emptykey = true /\ no_intkeyed_rec r_emptykey = true
  /\ unflatten [dot] (flatten [dot] r_emptykey) <> r_emptykey.
Proof. vm_compute. repeat split; try reflexivity. discriminate. Qed.

Lemma sepkey_refuted :
  wf_rec r_sepkey = true /\ no_sentinel_rec r_sepkey = true /\ no_intkeyed_rec r_sepkey = true
  /\ unflatten [dot] (flatten [dot] r_sepkey) <> r_sepkey.
Proof. vm_compute. repeat split; try reflexivity. discriminate. Qed.

(* a digit as separator collides with array indices *)
Lemma digitsep_refuted :
  wf_rec r_digitsep = true /\ keys_ok_rec "1" r_digitsep = true /\ no_sentinel_rec r_digitsep = true
  /\ no_intkeyed_rec r_digitsep = true /\ unflatten ["1"] (flatten ["1"] r_digitsep) <> r_digitsep.
Proof. vm_compute. repeat split; try reflexivity. discriminate. Qed.

(* a two-byte separator: no key contains "aa", yet "xa"+"aa"+"b" splits as "x","ab" *)
Lemma overlap_refuted :
  wf_rec r_overlap = true /\ no_sentinel_rec r_overlap = true /\ no_intkeyed_rec r_overlap = true
  /\ containsb (B "aa") (B "xa") = false /\ containsb (B "aa") (B "b") = false
  /\ paths_ok (B "aa") r_overlap = false
  /\ unflatten (B "aa") (flatten (B "aa") r_overlap) <> r_overlap.
Proof. vm_compute. repeat split; try reflexivity. discriminate. Qed.

(* non-vacuity: a nested record meeting every hypothesis, with maps in arrays, arrays in maps, empty collections,
   integer-looking keys that are not 1..n, every leaf kind *)
Definition r_example : jmap :=
  [(B "id", JNum (B "17"));
   (B "req", JMap [(B "method", JStr (B "GET")); (B "hdr", JMap [(B "2", JStr (B "x")); (B "1", JStr (B "y"))]);
                   (B "sizes", JArr [JNum (B "1"); JArr [JNum (B "2.50"); JNull]; JMap [(B "u", JBool true); (B "e", JMap [])]])]);
   (B "tags", JArr [JStr (B "a b"); JStr (B ""); JArr []]);
   (B "3", JMap [(B "0", JStr (B "{ }"))]);
   (B "ok", JBool false)].

Lemma example_meets_hypotheses :
  wf_rec r_example = true /\ keys_ok_rec dot r_example = true /\ no_sentinel_rec r_example = true
  /\ no_intkeyed_rec r_example = true /\ paths_ok [dot] r_example = true /\ paths_ok (B "::") r_example = true
  /\ List.length (flatten [dot] r_example) = 14%nat.
Proof. vm_compute. repeat split; reflexivity. Qed.
