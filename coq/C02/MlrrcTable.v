(* C02: every spelling of the REGENERATED flag table, written as an .mlrrc line (with and without the leading "--", with
   an argument token), is read by the .mlrrc model as exactly the command-line tokens -- so its effect is, by
   definition of ParseCommandLine (FLAG_TABLE.Parse on those tokens), the effect of the command-line flag that
   C02.FlagSpec.effect looks up in the same table.  Decided by vm_compute over the whole table. *)
From Miller Require Import Base.Bytes Base.Record gen.Gen_Flags C02.FlagSpec C02.Mlrrc.
Open Scope char_scope.

Fixpoint lbeq (a b : list bytes) : bool :=
  match a, b with [], [] => true | x :: a', y :: b' => beqb x y && lbeq a' b' | _, _ => false end.
Definition is_flags (r : rcline) (l : list bytes) : bool := match r with RFlags a => lbeq a l | _ => false end.
Definition is_refused (r : rcline) : bool := match r with RRefused => true | _ => false end.
Definition undash (s : bytes) : option bytes := match s with "-" :: "-" :: ("-" :: _) => None | "-" :: "-" :: n => Some n | _ => None end.

Definition rc_spelling_ok (s : bytes) : bool :=
  if mem s refused then is_refused (classify s) && is_refused (classify (s ++ B " x"))
  else is_flags (classify s) [s] && is_flags (classify (B "  " ++ s ++ B "  v   # comment")) [s; B "v"]
       && match undash s with
          | Some n => is_flags (classify n) [s] && is_flags (classify (n ++ B " v")) [s; B "v"]
          | None => true
          end.
Lemma rc_table_all : forallb rc_spelling_ok all_spellings = true.
Proof. vm_compute; reflexivity. Qed.

Lemma rc_table_spec s : In s all_spellings -> rc_spelling_ok s = true.
Proof. apply forallb_forall. exact rc_table_all. Qed.

Lemma rc_refused_in_table : forallb (fun s => mem s all_spellings) [B "--prepipe"; B "--prepipex"; B "--load"; B "--mload"] = true.
Proof. vm_compute; reflexivity. Qed.
