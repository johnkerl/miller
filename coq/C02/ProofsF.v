(* C02 proofs, part F: the round trip through FlattenFields / CopyUnflattenFields (mlr flatten -f FS then
   unflatten -f FS), and through Flatten / CopyUnflattened as the case where FS names every field; one-byte separators;
   the chain level. *)
From Miller Require Import Base.Bytes Base.Record C02.Model C02.Spec C02.ProofsA C02.ProofsB C02.ProofsC C02.Proofs.
From Miller Require Import Base.ListFacts.
Open Scope char_scope.

Definition selected (fs : list bytes) (kx : bytes * jv) : bool := is_coll (snd kx) && bmem (fst kx) fs.

(* entries emitted by FlattenFields: a selected collection is spread, everything else is kept as one field *)
Definition fents_of (fs : list bytes) (r : jmap) : list (list bytes * jv) := flat_map (spread (selected fs)) r.
Definition fpaths_ok (fs : list bytes) (sep : bytes) (r : jmap) : bool :=
  forallb (fun e => path_okb sep (fst e)) (fents_of fs r).

(* the field is spread into entries of at least two pieces: it is selected and not an empty collection *)
Definition long (fs : list bytes) (kx : bytes * jv) : bool := selected fs kx && negb (is_nil (kids (snd kx))).

Lemma fents_entry fs k x e :
  In e (spread (selected fs) (k, x)) -> hd [] (fst e) = k /\ (2 <=? List.length (fst e))%nat = long fs (k, x).
Proof.
  unfold spread, long. cbn [fst snd]. destruct (selected fs (k, x)); cbn [andb].
  - intros H. apply in_map_iff in H. destruct H as (e' & <- & He'). split; [reflexivity|].
    rewrite ents_eq in He'. destruct (is_nil (kids x)).
    + destruct He' as [<-|[]]. reflexivity.
    + apply ents_of_kids_paths_nonnil in He'. cbn [pcons fst]. destruct (fst e'); [congruence|reflexivity].
  - intros [<-|[]]. split; reflexivity.
Qed.

Lemma fents_nonnil fs kx : spread (selected fs) kx <> [].
Proof.
  unfold spread. destruct (selected fs kx); [|discriminate].
  pose proof (ents_nonnil (snd kx)) as H. destruct (ents (snd kx)); [congruence|discriminate].
Qed.

Lemma fents_first fs r k x :
  In (k, x) r ->
  exists e, In e (fents_of fs r) /\ hd [] (fst e) = k /\ (2 <=? List.length (fst e))%nat = long fs (k, x).
Proof.
  intros Hin. destruct (spread (selected fs) (k, x)) as [|e es] eqn:E; [now apply fents_nonnil in E|].
  assert (He : In e (spread (selected fs) (k, x))) by (rewrite E; now left).
  exists e. split; [apply in_flat_map; exists (k, x); now split|exact (fents_entry fs k x e He)].
Qed.

Lemma fents_all_scalar fs sep r :
  existsb (fun kv => is_coll (snd kv)) r = false -> map (keyed sep []) (fents_of fs r) = r.
Proof.
  induction r as [|[k x] r IH]; [reflexivity|]. cbn [existsb snd]. intros H.
  apply orb_false_iff in H. destruct H as [H1 H2].
  unfold fents_of, spread, selected in *. cbn [flat_map fst snd]. rewrite H1. cbn [andb app map]. f_equal. now apply IH.
Qed.

Lemma fpaths_nodup fs r : wf_rec r = true -> NoDup (map fst (fents_of fs r)).
Proof.
  intros H. destruct (wf_rec_parts r H) as [H1 H2]. apply spread_paths_nodup; [exact H1|].
  intros kx Hin _. apply paths_nodup. exact (rall_In _ _ _ H2 Hin).
Qed.

Lemma flatten_fields_eq fs sep r :
  wf_rec r = true -> fpaths_ok fs sep r = true ->
  flatten_fields fs sep r = map (keyed sep []) (fents_of fs r).
Proof.
  intros Hwf Hp. unfold fpaths_ok in Hp. rewrite forallb_forall in Hp.
  assert (Hkeys : NoDup (map fst (map (keyed sep []) (fents_of fs r)))).
  { (* the paths are distinct, and joining is injective on them *)
    rewrite map_map. cbn [keyed fst app].
    rewrite <- (map_map fst (join sep)). apply NoDup_map_inj_in; [exact (fpaths_nodup fs r Hwf)|].
    intros p q Hp1 Hq1. apply in_map_iff in Hp1, Hq1. destruct Hp1 as (e1 & <- & He1), Hq1 as (e2 & <- & He2).
    exact (path_ok_join_inj sep _ _ (Hp e1 He1) (Hp e2 He2)). }
  assert (Hknz : forall kx, In kx r -> fst kx <> []).
  { (* a key is the first piece of a path, and pieces are not empty *)
    intros [k v] Hin. destruct (fents_first fs r k v Hin) as (e & He & Hh & _).
    destruct (path_ok_parts _ _ (Hp e He)) as (Hne & Hnil & _).
    destruct (fst e) as [|k0 q]; [congruence|]. cbn in Hh, Hnil. subst k0. destruct k; [discriminate Hnil|discriminate]. }
  unfold flatten_fields.
  match goal with |- context [existsb ?f r] => destruct (existsb f r) eqn:Ex end.
  - (* FlattenFields runs the loop of FlattenToMap at the empty prefix *)
    apply (fold_fstep (selected fs) sep [] r (or_introl eq_refl)); [|exact Hkeys].
    intros kx Hin _. exact (ftm_ents sep (snd kx) [fst kx] (Hknz kx Hin)).
  - symmetry. now apply fents_all_scalar.
Qed.

Lemma pimv_eq k k2 q v m :
  pimv (k :: k2 :: q) v m =
  if is_nil k then (m, false)
  else match (match jget k m with
              | None => if is_nil k2 then None else Some []
              | Some (JMap mm) => Some mm
              | Some (JArr _) => None
              | Some _ => if is_nil k2 then None else Some []
              end) with
       | None => (m, false)
       | Some mm => let '(mm', ok) := pimv (k2 :: q) v mm in (jput k (JMap mm') m, ok)
       end.
Proof. reflexivity. Qed.

(* without empty pieces the two putIndexedOnMap leave the same map: a level that had to be created is empty, and below an
   empty map the call cannot fail; a level that was there is put back as it was when the call fails below it *)
Lemma pimv_pim : forall (idx : list bytes) v m,
  existsb is_nil idx = false -> fst (pimv idx v m) = match pim idx v m with Some o => o | None => m end.
Proof.
  induction idx as [|k idx IH]; intros v m H; [reflexivity|].
  destruct idx as [|k2 rest]; [reflexivity|].
  cbn [existsb] in H. apply orb_false_iff in H. destruct H as [Hk H].
  assert (Hk2 : is_nil k2 = false) by (cbn [existsb] in H; apply orb_false_iff in H; tauto).
  rewrite pimv_eq, pim_eq, Hk, Hk2.
  assert (Hrec : forall mm, fst (let '(mm', ok) := pimv (k2 :: rest) v mm in (jput k (JMap mm') m, ok))
                            = jput k (JMap (fst (pimv (k2 :: rest) v mm))) m)
    by (intros mm; now destruct (pimv (k2 :: rest) v mm)).
  destruct (jget k m) as [[s|t|b| |mm|l]|] eqn:Eg; try reflexivity; rewrite Hrec, (IH v _ H);
    (destruct (pim (k2 :: rest) v _) eqn:E; [reflexivity|]);
    try (exfalso; revert E; apply pim_nil_some; discriminate).
  now apply jput_same.
Qed.

Lemma fstep_tie fs sep o a p leaf :
  path_okb sep p = true ->
  ((2 <=? List.length p)%nat = true -> bmem (hd [] p) fs = true) ->
  unflatten_fields_step fs sep (o, a) (join sep p, leaf) = (pstep_o o (p, leaf), astep a (p, leaf)).
Proof.
  intros H Hsel. destruct (path_ok_parts _ _ H) as (Hne & Hnil & Hsplit & Hcont).
  unfold unflatten_fields_step, pstep_o, astep. cbn [fst snd]. rewrite Hcont.
  destruct (2 <=? List.length p)%nat eqn:El.
  - now rewrite Hsplit, Hsel, (pimv_pim p (ut leaf) o Hnil).
  - destruct p as [|k [|k2 p]]; [congruence| |discriminate]. reflexivity.
Qed.

(* what the entries of a field build: a spread collection comes back with arrays still as maps *)
Definition stored (fs : list bytes) (kx : bytes * jv) : jv := if selected fs kx then mapify (snd kx) else snd kx.

Lemma build_fields fs r :
  wf_rec r = true -> no_sentinel_rec r = true ->
  fold_left pstep_o (fents_of fs r) [] = map (fun kx => (fst kx, stored fs kx)) r.
Proof.
  intros Hwf Hns. destruct (wf_rec_parts r Hwf) as [Hnd Hwf'].
  apply (build_list (spread (selected fs)) (stored fs) r); [|exact Hnd].
  intros kx Hin M HM. pose proof (rall_In _ _ _ Hns Hin) as Hs. unfold spread, stored. destruct (selected fs kx).
  - apply build; [exact (rall_In _ _ _ Hwf' Hin)|exact Hs|exact HM].
  - cbn [fold_left]. unfold pstep_o; cbn [fst snd pim]. rewrite ut_no_sentinel by exact (jall_node _ _ Hs).
    now apply jput_absent.
Qed.

Lemma aff_long fs r k v :
  NoDup (map fst r) -> In (k, v) r -> bmem k (fold_left astep (fents_of fs r) []) = long fs (k, v).
Proof.
  intros Hnd Hin. apply eq_true_iff_eq. rewrite bmem_In, fold_astep_In. split.
  - intros [[]|(e & He & Hl & Hh)]. apply in_flat_map in He. destruct He as ([k' v'] & Hin' & He).
    destruct (fents_entry _ _ _ _ He) as [Hh' Hlong]. rewrite Hh in Hh'. subst k'.
    rewrite (nodup_keys_unique r k v v' Hnd Hin Hin'), <- Hlong. now apply Nat.leb_le.
  - intros Hl. right. destruct (fents_first fs r k v Hin) as (e & He & Hh & Hlong). exists e.
    split; [exact He|]. split; [apply Nat.leb_le; now rewrite Hlong|exact Hh].
Qed.

(* the path-level core: the entries rebuild the record, every affected base is present, and Arrayify restores the
   arrays of exactly the fields that were spread *)
Lemma rebuild fs r :
  wf_rec r = true -> no_sentinel_rec r = true -> no_intkeyed_rec r = true ->
  forallb (fun b => match jget b (fold_left pstep_o (fents_of fs r) []) with Some _ => true | None => false end)
          (fold_left astep (fents_of fs r) []) = true
  /\ fold_left arrayify_at (fold_left astep (fents_of fs r) []) (fold_left pstep_o (fents_of fs r) []) = r.
Proof.
  intros Hwf Hns Hni. rewrite (build_fields fs r Hwf Hns).
  destruct (wf_rec_parts r Hwf) as [Hnd _]. split.
  - apply forallb_forall. intros b Hb. apply fold_astep_In in Hb. destruct Hb as [[]|(e & He & _ & Hh)].
    apply in_flat_map in He. destruct He as ([k x] & Hkx & He). destruct (fents_entry _ _ _ _ He) as [Hh' _].
    destruct (jget b (map (fun kx => (fst kx, stored fs kx)) r)) eqn:E; [reflexivity|]. exfalso. revert E.
    apply jget_in_keys. rewrite map_map. cbn [fst]. rewrite <- Hh, Hh'. now apply (in_map fst _ (k, x)).
  - rewrite arrayify_pass; [|rewrite map_map; exact Hnd|apply astep_nodup; constructor].
    rewrite map_map. rewrite <- (map_id r) at 2. apply map_ext_in. intros [k v] Hin.
    unfold upd_if; cbn [fst snd]. f_equal. rewrite (aff_long fs r k v Hnd Hin). unfold stored, long. cbn [snd].
    destruct (selected fs (k, v)); cbn [andb]; [|reflexivity].
    destruct (is_nil (kids v)) eqn:En; cbn [negb].
    + now rewrite mapify_eq, En.
    + apply arrayify_mapify. exact (rall_In _ _ _ Hni Hin).
Qed.

Theorem unflatten_flatten_fields_paths fs sep r :
  wf_rec r = true -> fpaths_ok fs sep r = true -> no_sentinel_rec r = true -> no_intkeyed_rec r = true ->
  unflatten_fields fs sep (flatten_fields fs sep r) = Some r.
Proof.
  intros Hwf Hp Hns Hni. rewrite (flatten_fields_eq fs sep r Hwf Hp).
  unfold fpaths_ok in Hp. rewrite forallb_forall in Hp.
  unfold unflatten_fields. rewrite fold_tie.
  - destruct (rebuild fs r Hwf Hns Hni) as [Hall Heq]. now rewrite Hall, Heq.
  - intros o a [p leaf] Hin. apply fstep_tie; [exact (Hp _ Hin)|].
    apply in_flat_map in Hin. destruct Hin as ([k x] & _ & Hin).
    destruct (fents_entry _ _ _ _ Hin) as [Hh Hl]. cbn [fst] in Hh, Hl. rewrite Hh, Hl.
    unfold long, selected. cbn [fst snd].
    intros H. apply andb_true_iff in H. destruct H as [H _]. apply andb_true_iff in H. tauto.
Qed.

Lemma selected_all r kx : In kx r -> selected (map fst r) kx = is_coll (snd kx).
Proof. intros Hin. unfold selected. rewrite (proj2 (bmem_In _ _) (in_map fst _ _ Hin)). apply andb_true_r. Qed.

Lemma flatten_all_fields sep r : flatten sep r = flatten_fields (map fst r) sep r.
Proof.
  unfold flatten, flatten_fields. destruct (existsb _ r); [|reflexivity].
  apply fold_left_ext_in. intros kx Hin acc. fold (selected (map fst r) kx). now rewrite (selected_all r kx Hin).
Qed.

Lemma fents_all r : fents_of (map fst r) r = ents_of_kids r.
Proof.
  rewrite <- spread_coll. unfold fents_of. rewrite !flat_map_concat_map. f_equal. apply map_ext_in. intros kx Hin.
  unfold spread. now rewrite (selected_all r kx Hin).
Qed.

Lemma paths_ok_fpaths sep r : paths_ok sep r = fpaths_ok (map fst r) sep r.
Proof. unfold paths_ok, fpaths_ok. now rewrite fents_all. Qed.

Lemma flatten_paths_eq sep r :
  wf_rec r = true -> paths_ok sep r = true -> flatten sep r = map (keyed sep []) (ents_of_kids r).
Proof.
  intros Hwf Hp. rewrite flatten_all_fields, <- fents_all. apply flatten_fields_eq; [exact Hwf|].
  now rewrite <- paths_ok_fpaths.
Qed.

(* the flattened record holds no map and no array: it can be written by a format that cannot nest *)
Theorem flatten_is_flat sep r :
  wf_rec r = true -> paths_ok sep r = true ->
  forallb (fun kv => negb (is_coll (snd kv))) (flatten sep r) = true.
Proof.
  intros Hwf Hp. rewrite (flatten_paths_eq sep r Hwf Hp). apply forallb_forall. intros kv Hin.
  apply in_map_iff in Hin. destruct Hin as (e & <- & He). unfold keyed; cbn [snd].
  unfold ents_of_kids in He. apply in_flat_map in He. destruct He as (kx & _ & He).
  apply in_map_iff in He. destruct He as (e' & <- & He'). cbn [pcons snd].
  now rewrite (ents_leaf_scalar _ _ He').
Qed.

Theorem unflatten_flatten_paths sep r :
  wf_rec r = true -> paths_ok sep r = true -> no_sentinel_rec r = true -> no_intkeyed_rec r = true ->
  unflatten sep (flatten sep r) = r.
Proof.
  intros Hwf Hp Hns Hni. rewrite (flatten_paths_eq sep r Hwf Hp).
  unfold paths_ok in Hp. rewrite forallb_forall in Hp.
  unfold unflatten. rewrite fold_tie.
  - rewrite <- fents_all. exact (proj2 (rebuild (map fst r) r Hwf Hns Hni)).
  - intros o a [p leaf] Hin. apply step_tie. exact (Hp _ Hin).
Qed.

Lemma fpaths_ok_single fs c r :
  is_digit c = false -> keys_ok_rec c r = true -> fpaths_ok fs [c] r = true.
Proof.
  intros Hc Hk. unfold keys_ok_rec, rall in Hk. apply andb_true_iff in Hk. destruct Hk as [Hk1 Hk2].
  rewrite forallb_forall in Hk1, Hk2.
  unfold fpaths_ok. apply forallb_forall. intros e Hin.
  unfold fents_of in Hin. apply in_flat_map in Hin. destruct Hin as ([k x] & Hkx & Hin).
  pose proof (Hk1 _ Hkx) as Hpk. cbn [fst] in Hpk.
  unfold spread in Hin; cbn [fst snd] in Hin. destruct (selected fs (k, x)).
  - apply in_map_iff in Hin. destruct Hin as (e' & <- & He'). cbn [pcons fst].
    apply path_ok_single; [discriminate|]. cbn [forallb]. rewrite Hpk.
    apply (ents_keys_ok c Hc x); [exact (Hk2 _ Hkx)|exact He'].
  - destruct Hin as [<-|[]]. cbn [fst]. apply path_ok_single; [discriminate|]. cbn [forallb]. now rewrite Hpk.
Qed.

Theorem unflatten_flatten_fields_char fs c r :
  is_digit c = false ->
  wf_rec r = true -> keys_ok_rec c r = true -> no_sentinel_rec r = true -> no_intkeyed_rec r = true ->
  unflatten_fields fs [c] (flatten_fields fs [c] r) = Some r.
Proof.
  intros Hc Hwf Hk Hns Hni. apply unflatten_flatten_fields_paths; auto. now apply fpaths_ok_single.
Qed.

Lemma paths_ok_single c r :
  is_digit c = false -> keys_ok_rec c r = true -> paths_ok [c] r = true.
Proof. intros Hc Hk. rewrite paths_ok_fpaths. now apply fpaths_ok_single. Qed.

Theorem unflatten_flatten_char c r :
  is_digit c = false ->
  wf_rec r = true -> keys_ok_rec c r = true -> no_sentinel_rec r = true -> no_intkeyed_rec r = true ->
  unflatten [c] (flatten [c] r) = r.
Proof.
  intros Hc Hwf Hk Hns Hni. apply unflatten_flatten_paths; auto. now apply paths_ok_single.
Qed.

(* chain level: what parseCommandLinePassTwo appends (nesting -> non-nesting -> nesting) *)
Theorem json_tabular_json c r J T v1 v2 :
  is_nestable J = true -> is_nestable T = false -> beqb T (B "dcf") = false -> beqb v2 (B "flatten") = false ->
  is_digit c = false ->
  wf_rec r = true -> keys_ok_rec c r = true -> no_sentinel_rec r = true -> no_intkeyed_rec r = true ->
  auto_convert [c] T J v2 (auto_convert [c] J T v1 r) = r.
Proof.
  intros HJ HT Hd Hv Hc Hwf Hk Hns Hni.
  unfold auto_convert, decide_final_flatten, decide_final_unflatten.
  rewrite HJ, HT, Hd, Hv. cbn [andb negb]. destruct (beqb v1 (B "flatten")); cbn [andb negb];
    now apply unflatten_flatten_char.
Qed.

(* without -f hypotheses being met the run can even abort: the model reproduces
   "Internal coding error detected at file mlrmap_flatten_unflatten.go" *)
Lemma unflatten_fields_crash_witness :
  unflatten_fields [B "a"] (B ".") [(B "a..b", JNum (B "1")); (B "c", JNum (B "2"))] = None.
Proof. vm_compute. reflexivity. Qed.
