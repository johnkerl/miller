(* C02 proofs, part E: the order in which Go ranges over affectedBaseIndices (a Go map) does not matter. *)
From Coq Require Import Permutation.
From Miller Require Import Base.Bytes Base.Record C02.Model C02.Spec C02.ProofsA C02.ProofsB C02.ProofsC.

Lemma arrayify_order_irrelevant aff aff' m :
  NoDup (map fst m) -> NoDup aff -> Permutation aff aff' ->
  fold_left arrayify_at aff m = fold_left arrayify_at aff' m.
Proof.
  intros Hm Ha Hp. rewrite (arrayify_pass aff m Hm Ha).
  rewrite (arrayify_pass aff' m Hm (Permutation_NoDup Hp Ha)).
  apply map_ext. intros [k v]. unfold upd_if; cbn [fst snd].
  assert (E : bmem k aff = bmem k aff').
  { apply eq_true_iff_eq. rewrite !bmem_In. split; apply Permutation_in; [exact Hp|now apply Permutation_sym]. }
  now rewrite E.
Qed.

(* PutReference keeps the keys, or appends the new one *)
Lemma jput_keys k v m : map fst (jput k v m) = if bmem k (map fst m) then map fst m else map fst m ++ [k].
Proof.
  unfold bmem. induction m as [|[k' v'] m IH]; cbn; [reflexivity|]. destruct (beqb k k'); cbn; [reflexivity|].
  rewrite IH. now destruct (existsb (beqb k) (map fst m)).
Qed.

Lemma jput_keys_nodup k v m : NoDup (map fst m) -> NoDup (map fst (jput k v m)).
Proof. rewrite jput_keys. apply add_once_nodup. Qed.

Lemma pim_is_jput idx v m o : pim idx v m = Some o -> exists k x, o = jput k x m.
Proof.
  destruct idx as [|k [|k2 rest]].
  - intros H; cbn in H; discriminate H.
  - intros H; cbn in H. injection H as <-. eauto.
  - rewrite pim_eq. intros H.
    destruct (match jget k m with
              | None => Some [] | Some (JMap mm) => Some mm | Some (JArr _) => None | Some _ => Some [] end) as [mm|];
      [|discriminate H].
    destruct (pim (k2 :: rest) v mm) as [mm'|]; [|discriminate H]. injection H as <-. eauto.
Qed.

Lemma unflatten_step_nodup sep o a kv :
  NoDup (map fst o) -> NoDup a ->
  NoDup (map fst (fst (unflatten_step sep (o, a) kv))) /\ NoDup (snd (unflatten_step sep (o, a) kv)).
Proof.
  intros Ho Ha. destruct kv as [k v]. unfold unflatten_step.
  destruct (negb (containsb sep k)); cbn [fst snd]; [split; [now apply jput_keys_nodup|exact Ha]|].
  destruct (existsb is_nil (split sep k)); cbn [fst snd]; [split; [now apply jput_keys_nodup|exact Ha]|].
  split.
  - destruct (pim (split sep k) (ut v) o) as [o'|] eqn:E; [|exact Ho].
    destruct (pim_is_jput _ _ _ _ E) as (k' & x & ->). now apply jput_keys_nodup.
  - now apply add_once_nodup.
Qed.

Lemma unflatten_fold_nodup sep r : forall st,
  NoDup (map fst (fst st)) -> NoDup (snd st) ->
  NoDup (map fst (fst (fold_left (unflatten_step sep) r st))) /\ NoDup (snd (fold_left (unflatten_step sep) r st)).
Proof.
  induction r as [|kv r IH]; intros [o a] Ho Ha; cbn [fold_left]; [split; assumption|].
  cbn [fst snd] in Ho, Ha. destruct (unflatten_step_nodup sep o a kv Ho Ha) as [H1 H2]. now apply IH.
Qed.

(* whatever order the runtime picks for the affected base names, CopyUnflattened returns what the model returns *)
Theorem unflatten_order_irrelevant sep r aff' :
  Permutation (snd (fold_left (unflatten_step sep) r ([], []))) aff' ->
  fold_left arrayify_at aff' (fst (fold_left (unflatten_step sep) r ([], []))) = unflatten sep r.
Proof.
  intros Hp. unfold unflatten.
  destruct (unflatten_fold_nodup sep r ([], [])) as [H1 H2]; [constructor|constructor|].
  destruct (fold_left (unflatten_step sep) r ([], [])) as [o a]. cbn [fst snd] in *.
  symmetry. now apply arrayify_order_irrelevant.
Qed.
