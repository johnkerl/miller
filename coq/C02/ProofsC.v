(* C02 proofs, part C: CopyUnflattened rebuilds the value from its (path, leaf) entries; Arrayify restores arrays. *)
From Miller Require Import Base.Bytes Base.Record Base.ListFacts C02.Model C02.Spec C02.ProofsA C02.ProofsB.
Open Scope char_scope.

(* path-level step on `other` *)
Definition pstep_o (o : jmap) (e : list bytes * jv) : jmap :=
  match pim (fst e) (ut (snd e)) o with Some o' => o' | None => o end.

(* path-level step on the affected-base list *)
Definition astep (a : list bytes) (e : list bytes * jv) : list bytes :=
  if (2 <=? List.length (fst e))%nat then (if bmem (hd [] (fst e)) a then a else a ++ [hd [] (fst e)]) else a.

(* putIndexedOnMap below the last level *)
Lemma pim_eq k k2 q v m :
  pim (k :: k2 :: q) v m =
  match (match jget k m with
         | None => Some [] | Some (JMap mm) => Some mm | Some (JArr _) => None | Some _ => Some [] end) with
  | None => None
  | Some mm => match pim (k2 :: q) v mm with None => None | Some mm' => Some (jput k (JMap mm') m) end
  end.
Proof. reflexivity. Qed.

Lemma pim_nil_some q v : q <> [] -> pim q v [] <> None.
Proof.
  induction q as [|k q IH]; intros H; [congruence|].
  destruct q as [|k2 q]; [discriminate|]. rewrite pim_eq. cbn [jget].
  destruct (pim (k2 :: q) v []) eqn:E; [discriminate|]. exfalso. now apply IH.
Qed.

(* navigating through an existing map *)
Lemma pstep_nav k q leaf M mm :
  q <> [] -> jget k M = Some (JMap mm) ->
  pstep_o M (k :: q, leaf) = jput k (JMap (pstep_o mm (q, leaf))) M.
Proof.
  intros Hq Hg. unfold pstep_o; cbn [fst snd].
  destruct q as [|k2 q]; [congruence|]. rewrite pim_eq, Hg. destruct (pim (k2 :: q) (ut leaf) mm); [reflexivity|]. symmetry. now apply jput_same.
Qed.

Lemma fold_nav k es : forall M mm,
  (forall e, In e es -> fst e <> []) -> jget k M = Some (JMap mm) ->
  fold_left pstep_o (map (pcons k) es) M = jput k (JMap (fold_left pstep_o es mm)) M.
Proof.
  induction es as [|[q leaf] es IH]; intros M mm Hne Hg; cbn [map fold_left].
  - symmetry. now apply jput_same.
  - change (pcons k (q, leaf)) with (k :: q, leaf). rewrite (pstep_nav k q leaf M mm); [|apply (Hne (q, leaf)); now left|exact Hg].
    rewrite (IH _ (pstep_o mm (q, leaf))).
    + now rewrite jput_jput.
    + intros e Hin. apply Hne. now right.
    + apply jget_jput_same.
Qed.

(* creating the map for a fresh key *)
Lemma fold_fresh k es M :
  es <> [] -> (forall e, In e es -> fst e <> []) -> ~ In k (map fst M) ->
  fold_left pstep_o (map (pcons k) es) M = M ++ [(k, JMap (fold_left pstep_o es []))].
Proof.
  intros Hes Hne Hk. destruct es as [|[q leaf] es]; [congruence|].
  cbn [map fold_left]. change (pcons k (q, leaf)) with (k :: q, leaf).
  assert (Hq : q <> []) by (apply (Hne (q, leaf)); now left).
  assert (H1 : pstep_o M (k :: q, leaf) = M ++ [(k, JMap (pstep_o [] (q, leaf)))]).
  { unfold pstep_o; cbn [fst snd]. destruct q as [|k2 q]; [congruence|].
    rewrite pim_eq, (jget_notin k M Hk).
    destruct (pim (k2 :: q) (ut leaf) []) eqn:E.
    - now apply jput_absent.
    - exfalso. revert E. apply pim_nil_some. discriminate. }
  rewrite H1. rewrite (fold_nav k es _ (pstep_o [] (q, leaf))).
  - now apply jput_app_last.
  - intros e Hin. apply Hne. now right.
  - now apply jget_app_last.
Qed.

Lemma ents_of_kids_paths_nonnil ks e : In e (ents_of_kids ks) -> fst e <> [].
Proof.
  unfold ents_of_kids. intros H. apply in_flat_map in H. destruct H as (kx & _ & H).
  apply in_map_iff in H. destruct H as (e' & <- & _). discriminate.
Qed.

Lemma ut_no_sentinel v : no_sentinel_node v = true -> ut v = v.
Proof.
  destruct v as [s|t|b| |m|l]; try reflexivity. cbn. intros H. apply andb_true_iff in H. destruct H as [H1 H2].
  apply negb_true_iff in H1, H2. now rewrite H1, H2.
Qed.

Lemma ut_leafrep v : is_nil (kids v) = true -> no_sentinel_node v = true -> ut (leafrep v) = v.
Proof.
  destruct v as [s|t|b| |m|l]; try reflexivity.
  - intros _. apply ut_no_sentinel.
  - destruct m; [reflexivity|discriminate].
  - destruct l; [reflexivity|discriminate].
Qed.

(* fields with distinct fresh keys are rebuilt one after the other: [g kx] are the entries of field [kx], [h kx] the
   value they build *)
Lemma build_list (g : bytes * jv -> list (list bytes * jv)) (h : bytes * jv -> jv) ks :
  (forall kx, In kx ks -> forall M, ~ In (fst kx) (map fst M) ->
       fold_left pstep_o (g kx) M = M ++ [(fst kx, h kx)]) ->
  forall M, NoDup (map fst M ++ map fst ks) ->
  fold_left pstep_o (flat_map g ks) M = M ++ map (fun kx => (fst kx, h kx)) ks.
Proof.
  induction ks as [|[k x] ks IH]; intros HQ M Hnd; cbn [flat_map map]; [now rewrite app_nil_r|].
  rewrite fold_left_app.
  rewrite (HQ (k, x)); [|now left|].
  - cbn [fst snd]. rewrite IH.
    + now rewrite <- app_assoc.
    + intros kx Hin. apply HQ. now right.
    + rewrite map_app, <- app_assoc. exact Hnd.
  - intros Hin. apply (NoDup_remove_2 _ _ _ Hnd), in_or_app. now left.
Qed.

(* the value is rebuilt, with arrays still as maps *)
Lemma build : forall v,
  jall wf_node v = true -> jall no_sentinel_node v = true ->
  forall k M, ~ In k (map fst M) ->
  fold_left pstep_o (map (pcons k) (ents v)) M = M ++ [(k, mapify v)].
Proof.
  induction v as [v IH] using jv_size_ind. intros Hwf Hns k M Hk.
  rewrite ents_eq, mapify_eq. destruct (is_nil (kids v)) eqn:En.
  - cbn [map fold_left]. unfold pcons, pstep_o; cbn [fst snd pim].
    rewrite ut_leafrep; [|exact En|now apply jall_node]. now apply jput_absent.
  - rewrite fold_fresh.
    + f_equal. f_equal. f_equal.
      unfold ents_of_kids.
      rewrite (build_list (fun kx => map (pcons (fst kx)) (ents (snd kx))) (fun kx => mapify (snd kx)) (kids v));
        [reflexivity| |].
      * intros kx Hin M' HM'. apply IH; [exact Hin|now apply (jall_kid _ v)|now apply (jall_kid _ v)|exact HM'].
      * cbn [map app]. apply kids_nodup. now apply jall_node.
    + apply ents_of_kids_nonnil; [now apply is_nil_false|]. intros kx _. apply ents_nonnil.
    + intros e. apply ents_of_kids_paths_nonnil.
    + exact Hk.
Qed.

Lemma seqkeys_indexed_id i l : seqkeys i (indexed i l) = true.
Proof. rewrite <- (seqkeys_map_snd (fun x => x)). exact (seqkeys_indexed (fun x => x) i l). Qed.

Lemma map_snd_indexed_id i l : map snd (indexed i l) = l.
Proof. rewrite <- (map_id l) at 2. now rewrite <- (map_snd_indexed (fun x => x) i l), map_map. Qed.

Lemma arrayify_mapify : forall v, jall no_intkeyed_node v = true -> arrayify (mapify v) = v.
Proof.
  induction v as [v IH] using jv_size_ind. intros H.
  rewrite mapify_eq. destruct (is_nil (kids v)) eqn:En.
  - destruct v as [s|t|b| |m|l]; try reflexivity. destruct m; [reflexivity|discriminate].
  - assert (Hmap : map (fun kx => (fst kx, arrayify (snd kx))) (map (fun kx => (fst kx, mapify (snd kx))) (kids v)) = kids v).
    { rewrite map_map. cbn [fst snd]. rewrite <- (map_id (kids v)) at 2. apply map_ext_in.
      intros [k x] Hin. cbn [fst snd]. f_equal. apply (IH (k, x) Hin). now apply (jall_kid _ v _ H Hin). }
    rewrite arrayify_eq.
    replace (is_nil (map (fun kx => (fst kx, mapify (snd kx))) (kids v))) with false
      by (destruct (kids v); [discriminate|reflexivity]).
    rewrite seqkeys_map_snd. rewrite Hmap.
    destruct v as [s|t|b| |m|l]; try discriminate.
    + cbn [kids] in *. apply jall_node in H. cbn [no_intkeyed_node] in H.
      destruct m as [|p m]; [discriminate|]. cbn [is_nil orb] in H. apply negb_true_iff in H. now rewrite H.
    + cbn [kids] in *. rewrite seqkeys_indexed_id. f_equal. apply map_snd_indexed_id.
Qed.

Lemma bmem_In k l : bmem k l = true <-> In k l.
Proof. exact (mem_In k l). Qed.

Lemma add_once_nodup b (a : list bytes) : NoDup a -> NoDup (if bmem b a then a else a ++ [b]).
Proof.
  intros Ha. destruct (bmem b a) eqn:E; [exact Ha|].
  apply NoDup_snoc; [exact Ha|]. intros Hb. apply bmem_In in Hb. congruence.
Qed.

Lemma astep_nodup es : forall a, NoDup a -> NoDup (fold_left astep es a).
Proof.
  induction es as [|e es IH]; intros a Ha; cbn; [exact Ha|]. apply IH. unfold astep.
  destruct (2 <=? List.length (fst e))%nat; [now apply add_once_nodup|exact Ha].
Qed.

Lemma astep_In a e b : In b (astep a e) <-> In b a \/ (2 <= List.length (fst e))%nat /\ hd [] (fst e) = b.
Proof.
  unfold astep. destruct (Nat.leb_spec 2 (List.length (fst e))) as [Hl|Hl]; [|intuition lia].
  destruct (bmem (hd [] (fst e)) a) eqn:E; [apply bmem_In in E|rewrite in_app_iff; cbn [In]]; intuition (subst; auto).
Qed.

Lemma fold_astep_In es : forall a b,
  In b (fold_left astep es a) <->
  In b a \/ exists e, In e es /\ (2 <= List.length (fst e))%nat /\ hd [] (fst e) = b.
Proof.
  induction es as [|e es IH]; intros a b; cbn [fold_left].
  - split; [auto|]. intros [H|(e & [] & _)]. exact H.
  - rewrite IH, astep_In. split.
    + intros [[H|H]|(e' & He' & H)]; [now left| |]; right; [exists e|exists e']; split; auto; [now left|now right].
    + intros [H|(e' & [<-|He'] & H)]; [left; now left|left; now right|right; now exists e'].
Qed.

Definition upd_if (aff : list bytes) (kv : bytes * jv) : bytes * jv :=
  (fst kv, if bmem (fst kv) aff then arrayify (snd kv) else snd kv).

Lemma arrayify_at_map m b :
  NoDup (map fst m) -> arrayify_at m b = map (upd_if [b]) m.
Proof.
  unfold arrayify_at. induction m as [|[k v] m IH]; intros Hnd; [reflexivity|].
  inversion Hnd as [|? ? Hk Hnd']; subst. cbn [jget map]. unfold upd_if at 1; cbn [fst snd bmem existsb].
  destruct (beqb_spec b k) as [->|Hne].
  - rewrite beqb_refl. cbn [orb jput]. rewrite beqb_refl. f_equal.
    rewrite <- (map_id m) at 1. apply map_ext_in. intros [k' v'] Hin. unfold upd_if; cbn [fst snd bmem existsb].
    destruct (beqb_spec k' k) as [->|]; [|reflexivity]. exfalso. apply Hk. now apply (in_map fst _ (k, v')).
  - assert (E : beqb k b = false) by (destruct (beqb_spec k b); [congruence|reflexivity]).
    rewrite E. cbn [orb]. specialize (IH Hnd').
    destruct (jget b m) eqn:Eg.
    + cbn [jput]. destruct (beqb_spec b k); [congruence|]. now rewrite IH.
    + rewrite <- IH. reflexivity.
Qed.

Lemma arrayify_pass aff : forall m,
  NoDup (map fst m) -> NoDup aff -> fold_left arrayify_at aff m = map (upd_if aff) m.
Proof.
  induction aff as [|b aff IH]; intros m Hm Ha; cbn [fold_left].
  - rewrite <- (map_id m) at 1. apply map_ext. now intros [k v].
  - inversion Ha as [|? ? Hb Ha']; subst. rewrite arrayify_at_map by exact Hm.
    rewrite IH; [|rewrite map_map; cbn [upd_if fst]; exact Hm|exact Ha'].
    rewrite map_map. apply map_ext. intros [k v]. unfold upd_if; cbn [fst snd].
    assert (Eb : bmem b aff = false).
    { destruct (bmem b aff) eqn:E; [|reflexivity]. exfalso. apply Hb. now apply bmem_In. }
    change (bmem k (b :: aff)) with (beqb k b || bmem k aff).
    change (bmem k [b]) with (beqb k b || false).
    destruct (beqb_spec k b) as [->|Hne]; cbn [orb].
    + now rewrite Eb.
    + reflexivity.
Qed.
