(* C02: .mlrrc handling (pkg/climain/mlrcli_mlrrc.go), as a Gallina transliteration, and the clause
   "an .mlrrc line is equivalent to the corresponding command-line flag".
   stripMlrrcLine (comment from '#', TrimSpace), handleMlrrcLine (optional leading "--", strings.Fields, the refused
   flags, then cli.FLAG_TABLE.Parse on the tokens), tryLoadMlrrc (lines, [section] headers, --profile), loadMlrrcFiles
   (MLRRC, MLRRC=__none__, ~/.mlrrc, $XDG_CONFIG_HOME/miller/mlrrc, ./.mlrrc; the command line comes last).
   Whitespace is ASCII whitespace: the statements are about lines of bytes below 0x80 (strings.Fields / TrimSpace treat
   UTF-8 encoded U+0085, U+00A0, ... as space too; the generator stays in ASCII). *)
From Miller Require Import Base.Bytes Base.Record.
Open Scope char_scope.

Definition is_ws (c : ascii) : bool :=
  let n := code c in ((9 <=? n) && (n <=? 13))%N || (n =? 32)%N.
Definition eqa (a b : ascii) : bool := Ascii.eqb a b.

Fixpoint strip_comment (s : bytes) : bytes :=
  match s with [] => [] | c :: t => if eqa c "#" then [] else c :: strip_comment t end.
Fixpoint ltrim (s : bytes) : bytes := match s with c :: t => if is_ws c then ltrim t else s | [] => [] end.
Definition rtrim (s : bytes) : bytes := rev (ltrim (rev s)).
Definition strip_line (s : bytes) : bytes := rtrim (ltrim (strip_comment s)).

(* strings.Fields *)
Fixpoint fields_aux (s : bytes) (cur : bytes) : list bytes :=
  match s with
  | [] => match cur with [] => [] | _ => [rev cur] end
  | c :: t => if is_ws c then match cur with [] => fields_aux t [] | _ => rev cur :: fields_aux t [] end
              else fields_aux t (c :: cur)
  end.
Definition fields (s : bytes) : list bytes := fields_aux s [].

Inductive rcline := RBlank | RSection (name : bytes) | RBad | RRefused | RFlags (args : list bytes).

Definition refused : list bytes := [B "--prepipe"; B "--prepipex"; B "--load"; B "--mload"; B "--profile"; B "-P"].

(* handleMlrrcLine on a stripped, non-empty line *)
Definition handle_line (stripped : bytes) : rcline :=
  let line := match stripped with "-" :: _ => stripped | _ => "-" :: "-" :: stripped end in
  match fields line with
  | [] => RBlank
  | a0 :: rest => if mem a0 refused then RRefused else RFlags (a0 :: rest)
  end.

(* parseMlrrcSectionHeader *)
Definition parse_section (s : bytes) : option bytes :=
  match s, rev s with
  | "[" :: body, "]" :: _ =>
      let name := rtrim (ltrim (removelast body)) in
      match name with
      | [] => None
      | _ => if existsb (fun c => eqa c "[" || eqa c "]") name then None else Some name
      end
  | _, _ => None
  end.

Definition classify (raw : bytes) : rcline :=
  match strip_line raw with
  | [] => RBlank
  | "[" :: t => match parse_section ("[" :: t) with Some n => RSection n | None => RBad end
  | s => handle_line s
  end.

(* the file as lines: ReadString('\n') per line; since the repair (see KNOWN_FINDINGS "fixed:" mlrrc-last-line) a last
   line without terminating newline counts *)
Fixpoint split_lines_aux (s cur : bytes) : list bytes :=
  match s with
  | [] => match cur with [] => [] | _ => [rev cur] end
  | c :: t => if eqa c "010" then rev cur :: split_lines_aux t [] else split_lines_aux t (c :: cur)
  end.
Definition split_lines (s : bytes) : list bytes := split_lines_aux s [].

(* tryLoadMlrrc: the flag token lists a file contributes, in order; None = parse error (the run ends).
   Global lines always apply; lines of a [section] apply only when it is the requested profile, and are otherwise not
   even parsed. *)
Fixpoint rc_lines (profile cur : bytes) (ls : list bytes) : option (list (list bytes)) :=
  match ls with
  | [] => Some []
  | l :: t =>
      match classify l with
      | RBlank => rc_lines profile cur t
      | RSection n => rc_lines profile n t
      | RBad => None
      | r =>
          let in_scope := match cur with [] => true | _ => beqb cur profile end in
          if in_scope then
            match r with
            | RFlags a => option_map (cons a) (rc_lines profile cur t)
            | _ => None
            end
          else rc_lines profile cur t
      end
  end.
Definition rc_file (profile : bytes) (text : bytes) : option (list (list bytes)) := rc_lines profile [] (split_lines text).

(* loadMlrrcFiles: which files are read, in which order.  An environment: MLRRC (None = unset or empty), and the
   contents of the candidate files (None = cannot be opened). *)
Record rcenv := RcEnv { e_mlrrc : option bytes; f_mlrrc : option bytes; f_home : option bytes; f_xdg : option bytes; f_cwd : option bytes }.

Definition cat_opt (a b : option (list (list bytes))) : option (list (list bytes)) :=
  match a, b with Some x, Some y => Some (x ++ y) | _, _ => None end.
Definition load_opt (profile : bytes) (f : option bytes) : option (list (list bytes)) :=
  match f with None => Some [] | Some t => rc_file profile t end.

Definition load_all (profile : bytes) (e : rcenv) : option (list (list bytes)) :=
  let stacked := cat_opt (load_opt profile (f_home e)) (cat_opt (load_opt profile (f_xdg e)) (load_opt profile (f_cwd e))) in
  match e_mlrrc e with
  | Some v => if beqb v (B "__none__") then Some []
              else match f_mlrrc e with Some t => rc_file profile t | None => stacked end
  | None => stacked
  end.

(* the flags ParseCommandLine applies, in order: every .mlrrc line as its tokens, then the main flags of the command
   line (so the command line overrides .mlrrc, and ./.mlrrc overrides ~/.mlrrc); --norc skips the files *)
Definition effective_argv (norc : bool) (profile : bytes) (e : rcenv) (cmdline : list (list bytes)) : option (list bytes) :=
  if norc then Some (List.concat cmdline)
  else option_map (fun rc => List.concat (rc ++ cmdline)) (load_all profile e).

Definition tok_ok (t : bytes) : bool :=
  match t with [] => false | _ => forallb (fun c => negb (is_ws c) && negb (eqa c "#")) t end.

Fixpoint join_sp (l : list bytes) : bytes :=
  match l with [] => [] | [x] => x | x :: t => x ++ " " :: join_sp t end.

Lemma fields_aux_tok t : forall cur rest,
  forallb (fun c => negb (is_ws c)) t = true ->
  fields_aux (t ++ rest) cur = fields_aux rest (rev t ++ cur).
Proof.
  induction t as [|c t IH]; intros cur rest H; cbn [app rev fields_aux]; [reflexivity|].
  cbn [forallb] in H. apply andb_true_iff in H. destruct H as [Hc Ht].
  apply negb_true_iff in Hc. rewrite Hc. rewrite IH by exact Ht. now rewrite <- app_assoc.
Qed.

Lemma tok_ok_nows t : tok_ok t = true -> forallb (fun c => negb (is_ws c)) t = true /\ t <> [].
Proof.
  unfold tok_ok. destruct t as [|c t]; [discriminate|]. intros H. split; [|discriminate].
  rewrite forallb_forall in *. intros x Hx. specialize (H x Hx). apply andb_true_iff in H. tauto.
Qed.

Lemma fields_aux_token t :
  tok_ok t = true ->
  fields_aux t [] = [t] /\ forall rest, fields_aux (t ++ " " :: rest) [] = t :: fields_aux rest [].
Proof.
  intros H. destruct (tok_ok_nows t H) as [Hn Hne].
  assert (Hr : exists c r, rev t = c :: r).
  { destruct (rev t) as [|c r] eqn:E; [|eauto]. apply (f_equal (@rev ascii)) in E. rewrite rev_involutive in E. contradiction. }
  destruct Hr as (c & r & Hr).
  split; [rewrite <- (app_nil_r t) at 1|intros rest]; rewrite fields_aux_tok by exact Hn; rewrite app_nil_r, Hr;
    cbn [fields_aux]; [|change (is_ws " ") with true; cbn iota]; now rewrite <- Hr, rev_involutive.
Qed.

Lemma fields_join l : forallb tok_ok l = true -> fields (join_sp l) = l.
Proof.
  unfold fields. induction l as [|x t IH]; intros H; [reflexivity|].
  cbn [forallb] in H. apply andb_true_iff in H. destruct H as [Hx Ht].
  destruct (fields_aux_token x Hx) as [Hlast Hmid].
  destruct t as [|y t']; [exact Hlast|].
  change (join_sp (x :: y :: t')) with (x ++ " " :: join_sp (y :: t')).
  rewrite Hmid. f_equal. now apply IH.
Qed.

(* a flag with its arguments written on one line, with the leading dashes, is read back as exactly those tokens *)
Theorem line_with_dashes (flag : bytes) (args : list bytes) :
  forallb tok_ok (("-" :: flag) :: args) = true -> mem ("-" :: flag) refused = false ->
  handle_line (join_sp (("-" :: flag) :: args)) = RFlags (("-" :: flag) :: args).
Proof.
  intros Hok Hr. unfold handle_line.
  assert (E : exists rest, join_sp (("-" :: flag) :: args) = "-" :: rest).
  { destruct args; cbn [join_sp app]; eauto. }
  destruct E as [rest E]. rewrite E. rewrite <- E. rewrite fields_join by exact Hok. now rewrite Hr.
Qed.

Lemma not_dash_match {T} c (r : bytes) (A D : T) : c <> "-" -> match c :: r with "-" :: _ => A | _ => D end = D.
Proof. intros H. destruct c as [[] [] [] [] [] [] [] []]; try reflexivity. contradiction H; reflexivity. Qed.

(* "you can leave off the initial --": name args  is read as  --name args *)
Theorem line_without_dashes (name : bytes) (args : list bytes) :
  forallb tok_ok (("-" :: "-" :: name) :: args) = true -> (match name with "-" :: _ => false | _ => true end) = true ->
  mem ("-" :: "-" :: name) refused = false ->
  handle_line (join_sp (name :: args)) = RFlags (("-" :: "-" :: name) :: args).
Proof.
  intros Hok Hd Hr. unfold handle_line.
  assert (E : (match join_sp (name :: args) with "-" :: _ => join_sp (name :: args) | _ => "-" :: "-" :: join_sp (name :: args) end)
              = join_sp (("-" :: "-" :: name) :: args)).
  { destruct name as [|c n].
    - cbn [forallb tok_ok] in Hok. destruct args; cbn [join_sp app]; reflexivity.
    - destruct (Ascii.eqb_spec c "-") as [->|Hne]; [discriminate Hd|].
      destruct args as [|a args']; cbn [join_sp app]; now rewrite not_dash_match. }
  rewrite E, fields_join by exact Hok. now rewrite Hr.
Qed.

(* MLRRC=__none__ disables every file; --norc likewise *)
Theorem mlrrc_none profile e cmdline :
  e_mlrrc e = Some (B "__none__") -> effective_argv false profile e cmdline = Some (List.concat cmdline).
Proof. intros H. unfold effective_argv, load_all. rewrite H. reflexivity. Qed.

(* precedence: ~/.mlrrc, then the XDG file, then ./.mlrrc, then the command line *)
Theorem mlrrc_precedence profile e cmdline h x c :
  e_mlrrc e = None -> load_opt profile (f_home e) = Some h -> load_opt profile (f_xdg e) = Some x -> load_opt profile (f_cwd e) = Some c ->
  effective_argv false profile e cmdline = Some (List.concat h ++ List.concat x ++ List.concat c ++ List.concat cmdline).
Proof.
  intros He Hh Hx Hc. unfold effective_argv, load_all. rewrite He, Hh, Hx, Hc. cbn [cat_opt option_map].
  now rewrite !concat_app, <- !app_assoc.
Qed.

(* $MLRRC names a readable file: it and only it *)
Theorem mlrrc_env_only profile e cmdline v t rc :
  e_mlrrc e = Some v -> v <> B "__none__" -> f_mlrrc e = Some t -> rc_file profile t = Some rc ->
  effective_argv false profile e cmdline = Some (List.concat rc ++ List.concat cmdline).
Proof.
  intros He Hv Hf Hr. unfold effective_argv, load_all. rewrite He, Hf, Hr.
  destruct (beqb_spec v (B "__none__")); [contradiction|]. cbn [option_map]. now rewrite concat_app.
Qed.

(* case = (.mlrrc text, the command-line argv with the same meaning): the model reads the text as those tokens *)
Definition chk_rc (c : bytes * list bytes) : bool :=
  match rc_file [] (fst c) with
  | Some rc =>
      (fix eq (a b : list bytes) : bool :=
         match a, b with [], [] => true | x :: a', y :: b' => beqb x y && eq a' b' | _, _ => false end) (List.concat rc) (snd c)
  | None => false
  end.

Lemma mlrrc_examples :
  rc_file [] (B "# a comment

   icsv   # trailing comment
	
#ojson
opprint
") = Some [[B "--icsv"]; [B "--opprint"]]
  /\ rc_file [] (B "-i csv
ofs semicolon") = Some [[B "-i"; B "csv"]; [B "--ofs"; B "semicolon"]]
  /\ rc_file [] (B "prepipe rm -rf /
") = None
  /\ rc_file (B "work") (B "icsv
[home]
ojson
[ work ]
oxtab
") = Some [[B "--icsv"]; [B "--oxtab"]]
  /\ rc_file [] (B "icsv
[home]
load x
") = Some [[B "--icsv"]]
  /\ effective_argv false [] (RcEnv None None (Some (B "ojson
")) None (Some (B "oxtab
"))) [[B "--icsv"]] = Some [B "--ojson"; B "--oxtab"; B "--icsv"].
Proof. vm_compute. repeat split; reflexivity. Qed.
