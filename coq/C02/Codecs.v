(* C02, clause 1 through the REAL codec models: C01's reader/writer models (the Gallina transliterations that C01's
   correspondence check ties to pkg/input and pkg/output) and C01's round-trip theorems are imported unchanged, and the
   parametric corollary "A -> B = A -> C -> B when C round-trips" (C02.Proofs.conv_via) is instantiated with them.
   The domain of a conversion is the intersection of the formats' own domain predicates (C01's wf_* booleans). *)
From Miller Require Import Base.Bytes Base.Record C02.Proofs.
From Miller Require Import C01.Model C01.ProofsUtil C01.ProofsTsv C01.ProofsDkvp C01.ProofsCsv C01.ProofsCsv2 C01.ModelJson C01.ProofsJson
  C01.ModelXtab C01.ProofsXtab C01.ModelLite C01.ProofsLite C01.ModelPprint C01.ProofsPprint C01.ProofsBarred.
Open Scope char_scope.

(* the formats with their default separators and options (what --icsv/--ocsv etc. select without further flags) *)
Inductive cfmt := FCsv | FTsv | FDkvp | FNidx | FXtab | FPprint | FPprintBarred | FCsvlite | FJson | FJsonl.

Definition recs := list record.
Definition width : bytes -> nat := @List.length ascii.       (* column width of ASCII text; any width function is allowed by C01 *)
Definition total (o : option bytes) : bytes := match o with Some t => t | None => [] end.

Definition cwrite (F : cfmt) (x : recs) : bytes :=
  match F with
  | FCsv => total (write_csv false false false "," x)
  | FTsv => total (write_tsv false false x)
  | FDkvp => write_dkvp [","] ["="] false x
  | FNidx => write_nidx [SP] false x
  | FXtab => write_xtab width [SP] false x
  | FPprint => write_pprint_g width false false false false x
  | FPprintBarred => write_pprint_g width false true false false x
  | FCsvlite => write_csvlite [","] false false x
  | FJson => write_json true true x                          (* --ojson: multi-line, wrapped in an outer list *)
  | FJsonl => write_json false false x                       (* --ojsonl *)
  end.

Definition cread (F : cfmt) (t : bytes) : option recs :=
  match F with
  | FCsv => read_csv false false true false "," t
  | FTsv => read_tsv true false t
  | FDkvp => Some (read_dkvp [","] ["="] false true t)
  | FNidx => Some (read_nidx_ws t)
  | FXtab => read_xtab [SP] true t
  | FPprint => read_pprint true false t
  | FPprintBarred => read_pprint_barred false true false t
  | FCsvlite => read_csvlite [","] true false t
  | FJson | FJsonl => read_json_ref t                         (* RFC-8259 reference reader, string values (C01 _partial) *)
  end.

(* per-format domain: C01's own predicate for that codec *)
Definition cdomain (F : cfmt) (x : recs) : bool :=
  match F with
  | FCsv => wf_csv false "," x
  | FTsv => wf_tsv x
  | FDkvp => wf_dkvp [","] ["="] false x
  | FNidx => forallb (wf_nidx_ws_rec false) x
  | FXtab => wf_xtab SP x
  | FPprint => wf_pprint false x
  | FPprintBarred => wf_barred x
  | FCsvlite => wf_lite "," x
  | FJson | FJsonl => forallb (fun r => nodupb (keys r)) x
  end.
Definition representable (F : cfmt) (x : recs) : Prop := cdomain F x = true.

Lemma total_obind (w : option bytes) (rd : bytes -> option recs) x : obind w rd = Some x -> rd (total w) = Some x.
Proof. destruct w; cbn; [auto|discriminate]. Qed.

(* every concrete codec round-trips on its domain: C01's theorems *)
Lemma codec_roundtrip F x : representable F x -> cread F (cwrite F x) = Some x.
Proof.
  unfold representable. destruct F; cbn [cdomain cread cwrite]; intros H.
  - apply total_obind. now apply csv_roundtrip.
  - apply total_obind. now apply tsv_roundtrip.
  - f_equal. now apply dkvp_roundtrip.
  - f_equal. now apply nidx_ws_roundtrip.
  - now apply xtab_roundtrip.
  - now apply pprint_roundtrip.
  - now apply pprint_barred_roundtrip.
  - now apply csvlite_roundtrip.
  - now apply json_roundtrip.
  - now apply json_roundtrip.
Qed.

Definition cconv := conv cfmt bytes recs cwrite cread.

(* A -> C -> B = A -> B, for the concrete codecs, on data inside the domains of A and C *)
Theorem codecs_conv_via A C B x :
  cdomain A x && cdomain C x = true ->
  bind (cconv A C (cwrite A x)) (cconv C B) = cconv A B (cwrite A x).
Proof.
  intros H. apply andb_true_iff in H. destruct H as [HA HC].
  exact (conv_via cfmt bytes recs cwrite cread representable codec_roundtrip A C B x HA HC).
Qed.

Theorem codecs_conv_direct A B x : cdomain A x = true -> cconv A B (cwrite A x) = Some (cwrite B x).
Proof. intros H. exact (conv_direct cfmt bytes recs cwrite cread representable codec_roundtrip A B x H). Qed.

Theorem codecs_there_and_back A B x :
  cdomain A x && cdomain B x = true ->
  bind (cconv A B (cwrite A x)) (cconv B A) = Some (cwrite A x).
Proof.
  intros H. apply andb_true_iff in H. destruct H as [HA HB].
  exact (conv_there_and_back cfmt bytes recs cwrite cread representable codec_roundtrip A B x HA HB).
Qed.

Fixpoint conv_chain (A : cfmt) (mids : list cfmt) (B : cfmt) (t : bytes) : option bytes :=
  match mids with
  | [] => cconv A B t
  | C :: rest => bind (cconv A C t) (conv_chain C rest B)
  end.

Theorem codecs_conv_chain mids : forall A B x,
  cdomain A x = true -> forallb (fun C => cdomain C x) mids = true ->
  conv_chain A mids B (cwrite A x) = Some (cwrite B x).
Proof.
  induction mids as [|C rest IH]; intros A B x HA Hm; cbn [conv_chain].
  - now apply codecs_conv_direct.
  - cbn [forallb] in Hm. apply andb_true_iff in Hm. destruct Hm as [HC Hr].
    rewrite codecs_conv_direct by exact HA. cbn [bind]. now apply IH.
Qed.

(* non-vacuity: a stream with numbers of several spellings, inside the domain of
   every format at once except NIDX (keyed data) -- and a positional stream inside NIDX's *)
Definition x_example : recs :=
  [ [(B "id", B "1"); (B "name", B "pan"); (B "v", B "0xff")];
    [(B "id", B "2"); (B "name", B "wye"); (B "v", B "1.500")] ].
Definition x_positional : recs := [ [(B "1", B "a"); (B "2", B "0x1F")]; [(B "1", B "b"); (B "2", B "+5")] ].

Lemma examples_in_domain :
  forallb (fun F => cdomain F x_example) [FCsv; FTsv; FDkvp; FXtab; FPprint; FPprintBarred; FCsvlite; FJson; FJsonl] = true
  /\ forallb (fun F => cdomain F x_positional) [FCsv; FTsv; FDkvp; FNidx; FXtab; FPprint; FCsvlite; FJson] = true
  /\ conv_chain FCsv [FJson; FXtab; FPprintBarred; FTsv] FDkvp (cwrite FCsv x_example) = Some (B "id=1,name=pan,v=0xff
id=2,name=wye,v=1.500
")
  /\ conv_chain FNidx [FCsv] FNidx (cwrite FNidx x_positional) = Some (B "a 0x1F
b +5
").
Proof. vm_compute. repeat split; reflexivity. Qed.
