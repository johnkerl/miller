(* C02 proofs, part B: FlattenToMap emits exactly the (joined path, leaf) entries of the value, when the joined keys are
   distinct; paths of a well-formed value are distinct. *)
From Miller Require Import Base.Bytes Base.Record Base.ListFacts C02.Model C02.Spec C02.ProofsA.
Open Scope char_scope.

Lemma join_snoc sep P k : P <> [] -> join sep (P ++ [k]) = join sep P ++ sep ++ k.
Proof.
  induction P as [|x P IH]; intros H; [congruence|].
  destruct P as [|y P]; [reflexivity|].
  change (join sep ((x :: y :: P) ++ [k])) with (x ++ sep ++ join sep ((y :: P) ++ [k])).
  rewrite IH by discriminate.
  change (join sep (x :: y :: P)) with (x ++ sep ++ join sep (y :: P)).
  now rewrite <- !app_assoc.
Qed.

(* next_prefix builds the joined key of the extended path: at the top level (the empty path) and below a non-empty prefix *)
Lemma next_prefix_join sep P k : P = [] \/ join sep P <> [] -> next_prefix sep (join sep P) k = join sep (P ++ [k]).
Proof.
  intros [->|H]; [reflexivity|]. rewrite join_snoc by (intros ->; now apply H).
  unfold next_prefix. destruct (join sep P); [congruence|reflexivity].
Qed.

Lemma join_snoc_nonempty sep P k : join sep P <> [] -> join sep (P ++ [k]) <> [].
Proof. intros H. rewrite join_snoc by (intros ->; now apply H). destruct (join sep P); [congruence|discriminate]. Qed.

Definition keyed (sep : bytes) (P : list bytes) (e : list bytes * jv) : bytes * jv := (join sep (P ++ fst e), snd e).

Lemma map_keyed_pcons sep P k es :
  map (keyed sep P) (map (pcons k) es) = map (keyed sep (P ++ [k])) es.
Proof.
  rewrite map_map. apply map_ext. intros [q x]. unfold keyed, pcons; cbn. now rewrite <- app_assoc.
Qed.

Lemma ents_scalar v : is_coll v = false -> ents v = [([], v)].
Proof. destruct v; try reflexivity; discriminate. Qed.

Lemma kids_scalar v : is_coll v = false -> kids v = [].
Proof. destruct v; try reflexivity; discriminate. Qed.

(* the entries a field contributes: a selected field is spread, any other is kept as one entry *)
Definition spread (sel : bytes * jv -> bool) (kx : bytes * jv) : list (list bytes * jv) :=
  if sel kx then map (pcons (fst kx)) (ents (snd kx)) else [([fst kx], snd kx)].

Lemma spread_coll ks : flat_map (spread (fun kx => is_coll (snd kx))) ks = ents_of_kids ks.
Proof.
  apply flat_map_ext. intros [k x]. unfold spread. cbn [fst snd].
  destruct (is_coll x) eqn:E; [reflexivity|]. now rewrite (ents_scalar x E).
Qed.

(* one field, given the statement for its value if it is selected *)
Lemma fstep_fresh sel sep P acc k x :
  P = [] \/ join sep P <> [] ->
  (sel (k, x) = true -> NoDup (map fst (map (keyed sep (P ++ [k])) (ents x))) ->
   ftm sep (join sep (P ++ [k])) x = map (keyed sep (P ++ [k])) (ents x)) ->
  NoDup (map fst acc ++ map fst (map (keyed sep P) (spread sel (k, x)))) ->
  fstep sel sep (join sep P) acc (k, x) = acc ++ map (keyed sep P) (spread sel (k, x)).
Proof.
  intros HP Hkid Hnd. unfold fstep, spread in *. cbn [fst snd] in *. rewrite next_prefix_join by exact HP.
  destruct (sel (k, x)).
  - rewrite map_keyed_pcons in *. rewrite Hkid; [now apply putall_fresh|reflexivity|exact (proj1 (proj2 (proj1 (NoDup_app_iff _ _) Hnd)))].
  - exact (jput_fresh _ _ _ _ Hnd).
Qed.

Lemma fold_fstep sel sep P ks :
  P = [] \/ join sep P <> [] ->
  (forall kx, In kx ks -> sel kx = true ->
      NoDup (map fst (map (keyed sep (P ++ [fst kx])) (ents (snd kx)))) ->
      ftm sep (join sep (P ++ [fst kx])) (snd kx) = map (keyed sep (P ++ [fst kx])) (ents (snd kx))) ->
  forall acc,
  NoDup (map fst acc ++ map fst (map (keyed sep P) (flat_map (spread sel) ks))) ->
  fold_left (fstep sel sep (join sep P)) ks acc = acc ++ map (keyed sep P) (flat_map (spread sel) ks).
Proof.
  intros HP. induction ks as [|[k x] ks IH]; intros Hkid acc Hnd; cbn [fold_left flat_map] in Hnd |- *;
    [cbn; now rewrite app_nil_r|].
  rewrite !map_app, app_assoc in Hnd.
  rewrite fstep_fresh; [|exact HP|exact (Hkid (k, x) (or_introl eq_refl))|exact (proj1 (proj1 (NoDup_app_iff _ _) Hnd))].
  rewrite IH; [now rewrite map_app, <- app_assoc|intros kx Hin; apply Hkid; now right|now rewrite map_app].
Qed.

Lemma ents_of_kids_nonnil ks : ks <> [] -> (forall kx, In kx ks -> ents (snd kx) <> []) -> ents_of_kids ks <> [].
Proof.
  destruct ks as [|[k x] ks]; [congruence|]. intros _ H. unfold ents_of_kids; cbn.
  specialize (H (k, x) (or_introl eq_refl)). cbn in H. destruct (ents x); [congruence|discriminate].
Qed.

Lemma ftm_ents sep : forall v P,
  join sep P <> [] ->
  NoDup (map fst (map (keyed sep P) (ents v))) ->
  ftm sep (join sep P) v = map (keyed sep P) (ents v).
Proof.
  induction v as [v IH] using jv_size_ind. intros P HJ Hnd.
  rewrite ftm_eq. destruct (is_coll v) eqn:Ec.
  - rewrite ents_eq in Hnd |- *. destruct (is_nil (kids v)) eqn:En.
    + destruct (kids v); [|discriminate]. cbn. destruct (join sep P) eqn:EJ; [congruence|].
      cbn. unfold keyed; cbn. now rewrite app_nil_r, EJ.
    + replace (is_nil (kids v) && negb (is_nil (join sep P))) with false by (now rewrite En).
      rewrite <- spread_coll in Hnd |- *. rewrite (fold_fstep _ sep P (kids v) (or_intror HJ)); [reflexivity| |exact Hnd].
      intros kx Hin Hc Hn. apply IH; [exact Hin|now apply join_snoc_nonempty|exact Hn].
  - rewrite (ents_scalar v Ec). unfold keyed; cbn. now rewrite app_nil_r.
Qed.

Lemma pcons_paths_nodup k es : NoDup (map fst es) -> NoDup (map fst (map (pcons k) es)).
Proof.
  intros H. rewrite map_map. cbn [pcons fst]. rewrite <- (map_map fst (cons k)).
  apply NoDup_map_inj_in; [exact H|]. intros a b _ _ E. now injection E.
Qed.

Lemma spread_hd sel kx e : In e (spread sel kx) -> hd [] (fst e) = fst kx.
Proof.
  unfold spread. destruct (sel kx); [|now intros [<-|[]]].
  intros H. apply in_map_iff in H. now destruct H as (e' & <- & _).
Qed.

(* fields with distinct keys give entries with distinct paths, when those of each spread field are distinct: a path
   starts with the key of its field *)
Lemma spread_paths_nodup sel ks :
  NoDup (map fst ks) -> (forall kx, In kx ks -> sel kx = true -> NoDup (map fst (ents (snd kx)))) ->
  NoDup (map fst (flat_map (spread sel) ks)).
Proof.
  induction ks as [|kx ks IH]; cbn [flat_map map]; intros Hk He; [constructor|].
  inversion Hk as [|? ? Hkn Hk']; subst. rewrite map_app. apply NoDup_app_iff. repeat split.
  - unfold spread. destruct (sel kx) eqn:E; [|repeat constructor; intros []]. apply pcons_paths_nodup, He; [now left|exact E].
  - apply IH; [exact Hk'|]. intros kx' Hin. apply He. now right.
  - intros p Hp Hq. apply in_map_iff in Hp, Hq. destruct Hp as (e & <- & He1), Hq as (e' & Heq & He').
    apply in_flat_map in He'. destruct He' as (kx' & Hkx' & He'). apply Hkn.
    rewrite <- (spread_hd _ _ _ He1), <- Heq, (spread_hd _ _ _ He'). now apply in_map.
Qed.

Lemma paths_nodup : forall v, jall wf_node v = true -> NoDup (map fst (ents v)).
Proof.
  induction v as [v IH] using jv_size_ind. intros Hwf.
  rewrite ents_eq. destruct (is_nil (kids v)); [cbn; constructor; [intros []|constructor]|].
  rewrite <- spread_coll. apply spread_paths_nodup.
  - apply kids_nodup. now apply jall_node.
  - intros kx Hin _. apply IH; [exact Hin|]. now apply (jall_kid _ v).
Qed.

Lemma ents_nonnil : forall v, ents v <> [].
Proof.
  induction v as [v IH] using jv_size_ind. rewrite ents_eq.
  destruct (is_nil (kids v)) eqn:E; [discriminate|].
  apply ents_of_kids_nonnil; [now apply is_nil_false|]. intros kx Hin. now apply IH.
Qed.
