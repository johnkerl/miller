(* C02 proofs, part A: association-list facts, unfolding equations of the nested fixpoints, itoa, size induction. *)
From Coq Require Import DecimalString DecimalN DecimalPos.
From Miller Require Import Base.Bytes Base.Record C02.Model C02.Spec.
Open Scope char_scope.

Lemma jget_notin k m : ~ In k (map fst m) -> jget k m = None.
Proof.
  induction m as [|[k' v] m IH]; cbn; intros H; [reflexivity|].
  destruct (beqb_spec k k') as [->|Hne]; [exfalso; apply H; now left|]. apply IH. intros Hin; apply H; now right.
Qed.

Lemma jput_absent k v m : ~ In k (map fst m) -> jput k v m = m ++ [(k, v)].
Proof.
  induction m as [|[k' v'] m IH]; cbn; intros H; [reflexivity|].
  destruct (beqb_spec k k') as [->|Hne]; [exfalso; apply H; now left|]. f_equal. apply IH. intros Hin; apply H; now right.
Qed.

Lemma jput_fresh k v m ks : NoDup (map fst m ++ k :: ks) -> jput k v m = m ++ [(k, v)].
Proof. intros H. apply jput_absent. intros Hin. apply (NoDup_remove_2 _ _ _ H), in_or_app. now left. Qed.

Lemma jget_jput_same k v m : jget k (jput k v m) = Some v.
Proof.
  induction m as [|[k' v'] m IH]; cbn; [now rewrite beqb_refl|].
  destruct (beqb k k') eqn:E; cbn; rewrite E; auto.
Qed.

Lemma jput_jput k v v' m : jput k v' (jput k v m) = jput k v' m.
Proof.
  induction m as [|[k2 v2] m IH]; cbn; [now rewrite beqb_refl|].
  destruct (beqb k k2) eqn:E; cbn; rewrite E; [reflexivity|]. now rewrite IH.
Qed.

Lemma jget_app_last k v m : ~ In k (map fst m) -> jget k (m ++ [(k, v)]) = Some v.
Proof. intros H. rewrite <- (jput_absent k v m H). apply jget_jput_same. Qed.

Lemma jput_app_last k v v' m : ~ In k (map fst m) -> jput k v' (m ++ [(k, v)]) = m ++ [(k, v')].
Proof. intros H. rewrite <- (jput_absent k v m H), jput_jput. now apply jput_absent. Qed.

Lemma jput_same k v m : jget k m = Some v -> jput k v m = m.
Proof.
  induction m as [|[k2 v2] m IH]; cbn; [discriminate|].
  destruct (beqb k k2) eqn:E; [intros [= ->]; reflexivity|]. intros H. now rewrite IH.
Qed.

Lemma jget_in_keys k m : In k (map fst m) -> jget k m <> None.
Proof.
  induction m as [|[k' v] m IH]; cbn; [contradiction|].
  destruct (beqb_spec k k'); [discriminate|]. intros [H|H]; [congruence|auto].
Qed.

Lemma nodup_keys_unique (r : jmap) k v v' : NoDup (map fst r) -> In (k, v) r -> In (k, v') r -> v = v'.
Proof.
  induction r as [|[k0 v0] r IH]; cbn; intros Hnd H1 H2; [contradiction|].
  inversion Hnd as [|? ? Hn Hnd']; subst.
  destruct H1 as [H1|H1], H2 as [H2|H2].
  - congruence.
  - exfalso. apply Hn. injection H1 as -> _. now apply (in_map fst _ (k, v')).
  - exfalso. apply Hn. injection H2 as -> _. now apply (in_map fst _ (k, v)).
  - now apply IH.
Qed.

Lemma putall_fresh src m : NoDup (map fst m ++ map fst src) -> putall src m = m ++ src.
Proof.
  unfold putall. revert m; induction src as [|[k v] src IH]; intros m H; cbn; [now rewrite app_nil_r|].
  rewrite (jput_fresh k v m _ H), IH; [now rewrite <- app_assoc|]. rewrite map_app, <- app_assoc. exact H.
Qed.

Lemma to_uint_nonnil n : N.to_uint n <> Decimal.Nil.
Proof. destruct n; cbn; [discriminate|]. apply DecimalPos.Unsigned.to_uint_nonnil. Qed.

Lemma itoa_inj a b : itoa a = itoa b -> a = b.
Proof.
  unfold itoa. intros H.
  assert (H1 : NilZero.string_of_uint (N.to_uint a) = NilZero.string_of_uint (N.to_uint b)).
  { rewrite <- (string_of_list_ascii_of_string (NilZero.string_of_uint (N.to_uint a))).
    rewrite <- (string_of_list_ascii_of_string (NilZero.string_of_uint (N.to_uint b))). now rewrite H. }
  apply (f_equal NilZero.uint_of_string) in H1. rewrite !NilZero.usu in H1 by apply to_uint_nonnil.
  injection H1 as H1. apply (f_equal N.of_uint) in H1. now rewrite !DecimalN.Unsigned.of_to in H1.
Qed.

Lemma indexed_keys i l k : In k (map fst (indexed i l)) -> exists j, (i <= j)%N /\ k = itoa j.
Proof.
  revert i; induction l as [|x l IH]; intros i; cbn; [contradiction|].
  intros [<-|H]; [exists i; split; [lia|reflexivity]|].
  destruct (IH _ H) as (j & Hj & ->). exists j. split; [lia|reflexivity].
Qed.

Lemma indexed_nodup i l : NoDup (map fst (indexed i l)).
Proof.
  revert i; induction l as [|x l IH]; intros i; cbn; constructor; [|apply IH].
  intros H. destruct (indexed_keys _ _ _ H) as (j & Hj & E). apply itoa_inj in E. lia.
Qed.

Lemma seqkeys_indexed (f : jv -> jv) i l :
  seqkeys i (map (fun kx => (fst kx, f (snd kx))) (indexed i l)) = true.
Proof. revert i; induction l as [|x l IH]; intros i; cbn; [reflexivity|]. now rewrite beqb_refl, IH. Qed.

Lemma seqkeys_map_snd (f : jv -> jv) i m :
  seqkeys i (map (fun kx => (fst kx, f (snd kx))) m) = seqkeys i m.
Proof. revert i; induction m as [|[k x] m IH]; intros i; cbn; [reflexivity|]. now rewrite IH. Qed.

Lemma map_snd_indexed (f : jv -> jv) i l :
  map snd (map (fun kx => (fst kx, f (snd kx))) (indexed i l)) = map f l.
Proof. revert i; induction l as [|x l IH]; intros i; cbn; [reflexivity|]. now rewrite IH. Qed.

Lemma ents_eq v :
  ents v = if is_nil (kids v) then [([], leafrep v)] else ents_of_kids (kids v).
Proof.
  destruct v as [s|t|b| |m|l]; try reflexivity; unfold ents_of_kids.
  - destruct m as [|[k x] m]; [reflexivity|]. cbn [ents kids is_nil flat_map fst snd]. f_equal.
    induction m as [|[k' x'] m IH]; [reflexivity|]. cbn [flat_map fst snd]. now rewrite IH.
  - destruct l as [|x l]; [reflexivity|]. cbn [ents kids is_nil indexed flat_map fst snd]. f_equal. generalize (N.succ 1).
    induction l as [|x' l IH]; intros i; [reflexivity|]. cbn [indexed flat_map fst snd]. now rewrite IH.
Qed.

(* one pass of the loop of FlattenToMap (sel = "is a collection") and of FlattenFields (sel = "is a collection and is named") *)
Definition fstep (sel : bytes * jv -> bool) (sep prefix : bytes) (acc : jmap) (kx : bytes * jv) : jmap :=
  if sel kx then putall (ftm sep (next_prefix sep prefix (fst kx)) (snd kx)) acc
  else jput (next_prefix sep prefix (fst kx)) (snd kx) acc.

Lemma ftm_eq sep p v :
  ftm sep p v =
  if is_coll v
  then fold_left (fstep (fun kx => is_coll (snd kx)) sep p) (kids v) (if is_nil (kids v) && negb (is_nil p) then [(p, leafrep v)] else [])
  else [(p, v)].
Proof.
  destruct v as [s|t|b| |m|l]; try reflexivity; cbn [ftm is_coll kids leafrep].
  - match goal with |- _ = fold_left _ _ ?a => generalize a end.
    induction m as [|[k x] m IH]; intros acc; [reflexivity|]. apply IH.
  - replace (is_nil (indexed 1 l)) with (is_nil l) by (destruct l; reflexivity).
    match goal with |- _ = fold_left _ _ ?a => generalize a end. generalize 1%N.
    induction l as [|x l IH]; intros i acc; [reflexivity|]. apply IH.
Qed.

Lemma mapify_eq v :
  mapify v = if is_nil (kids v) then v else JMap (map (fun kx => (fst kx, mapify (snd kx))) (kids v)).
Proof.
  destruct v as [s|t|b| |m|l]; try reflexivity.
  - destruct m as [|[k x] m]; [reflexivity|]. cbn [mapify kids is_nil map fst snd]. do 2 f_equal.
    induction m as [|[k' x'] m IH]; [reflexivity|]. cbn [map fst snd]. now rewrite IH.
  - destruct l as [|x l]; [reflexivity|]. cbn [mapify kids is_nil indexed map fst snd]. do 2 f_equal. generalize (N.succ 1).
    induction l as [|x' l IH]; intros i; [reflexivity|]. cbn [indexed map fst snd]. now rewrite IH.
Qed.

Lemma arrayify_go m :
  (fix go (m : jmap) : jmap := match m with [] => [] | (k, x) :: t => (k, arrayify x) :: go t end) m
  = map (fun kx => (fst kx, arrayify (snd kx))) m.
Proof. induction m as [|[k x] m IH]; cbn; [reflexivity|]. now rewrite IH. Qed.

Lemma arrayify_eq m :
  arrayify (JMap m) =
  if is_nil m then JMap m
  else if seqkeys 1 m then JArr (map snd (map (fun kx => (fst kx, arrayify (snd kx))) m))
       else JMap (map (fun kx => (fst kx, arrayify (snd kx))) m).
Proof.
  destruct m as [|p m]; [reflexivity|]. cbn [is_nil].
  rewrite <- (arrayify_go (p :: m)). reflexivity.
Qed.

Lemma jall_eq P v : jall P v = P v && forallb (fun kx => jall P (snd kx)) (kids v).
Proof.
  destruct v as [s|t|b| |m|l]; try (cbn; now rewrite andb_true_r); cbn [jall kids]; f_equal.
  - induction m as [|[k x] m IH]; [reflexivity|]. cbn [forallb snd]. now rewrite IH.
  - generalize 1%N. induction l as [|x l IH]; intros i; [reflexivity|]. cbn [indexed forallb snd]. now rewrite (IH (N.succ i)).
Qed.

Lemma jall_node P v : jall P v = true -> P v = true.
Proof. rewrite jall_eq. intros H; apply andb_true_iff in H; tauto. Qed.

Lemma jall_kid P v kx : jall P v = true -> In kx (kids v) -> jall P (snd kx) = true.
Proof.
  rewrite jall_eq. intros H Hin; apply andb_true_iff in H. destruct H as [_ H].
  rewrite forallb_forall in H. now apply H.
Qed.

Lemma rall_In P r kx : rall P r = true -> In kx r -> jall P (snd kx) = true.
Proof. intros H. exact (proj1 (forallb_forall _ r) H kx). Qed.

Lemma wf_rec_parts r : wf_rec r = true -> NoDup (map fst r) /\ rall wf_node r = true.
Proof. intros H. apply andb_true_iff in H. destruct H as [H1 H2]. split; [now apply nodupb_NoDup|exact H2]. Qed.

Lemma kids_size v kx : In kx (kids v) -> jsize (snd kx) < jsize v.
Proof.
  destruct v as [s|t|b| |m|l]; cbn [kids jsize]; try contradiction; intros H; apply Nat.lt_succ_r.
  - induction m as [|[k x] m IH]; [contradiction|]. destruct H as [<-|H]; [apply Nat.le_add_r|]. specialize (IH H). lia.
  - revert H. generalize 1%N. induction l as [|x l IH]; intros i; [contradiction|]. intros [<-|H]; [apply Nat.le_add_r|].
    specialize (IH _ H). lia.
Qed.

Lemma jv_size_ind (P : jv -> Prop) :
  (forall v, (forall kx, In kx (kids v) -> P (snd kx)) -> P v) -> forall v, P v.
Proof.
  intros H v. remember (jsize v) as n eqn:E. revert v E.
  induction n as [n IH] using lt_wf_ind. intros v E. apply H. intros kx Hin.
  apply (IH (jsize (snd kx))); [subst; now apply kids_size|reflexivity].
Qed.

Lemma kids_nodup v : wf_node v = true -> NoDup (map fst (kids v)).
Proof.
  destruct v as [s|t|b| |m|l]; cbn [kids wf_node]; intros H; try constructor.
  - now apply nodupb_NoDup.
  - apply indexed_nodup.
Qed.

Lemma is_nil_false {A} (l : list A) : is_nil l = false -> l <> [].
Proof. destruct l; [discriminate|congruence]. Qed.
