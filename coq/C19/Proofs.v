(* C19 proofs: every prefix of the in-place op sequence leaves each named file whole.

   The run over a plan is cut at one entry: the ops of the entries before it and after it do not touch its two
   paths (frame), and its own ops act on the pair (file cell, temp cell) alone (exec2).  [entry_cells] says so for
   every prefix of the whole run; the theorems read off what a single entry's op list does to the pair. *)
From Miller Require Import Base.Record C19.Model.
From Coq Require Import Arith PeanoNat.
Open Scope list_scope.

Notation len := List.length.

Lemma beqb_neq a b : a <> b -> beqb a b = false.
Proof. destruct (beqb_spec a b); congruence. Qed.

Lemma set_same p v st : set p v st p = v.
Proof. unfold set. now rewrite beqb_refl. Qed.
Lemma set_other p v st q : q <> p -> set p v st q = st q.
Proof. unfold set. intros H. now rewrite (beqb_neq _ _ H). Qed.

Lemma exec_app a b st : exec (a ++ b) st = exec b (exec a st).
Proof. unfold exec. apply fold_left_app. Qed.

Lemma Forall_firstn {A} (P : A -> Prop) k l : Forall P l -> Forall P (firstn k l).
Proof. intros H. revert k. induction H; intros [|k]; cbn [firstn]; auto. Qed.

Definition addressed (f tmp : path) (o : op) : Prop :=
  match o with
  | OStat p | OChmod p _ => p = f
  | OCreate p | OAppend p _ | OClose p | OWrapClose p | ORemove p => p = tmp
  | ORename p q => p = tmp /\ q = f
  end.

Lemma file_ops_addressed f tmp m0 oc : Forall (addressed f tmp) (file_ops f tmp m0 oc).
Proof.
  assert (Ha : forall w post, Forall (addressed f tmp) post -> Forall (addressed f tmp) (appends tmp w ++ post)).
  { intros w post Hp. apply Forall_app. split; [|exact Hp]. apply Forall_map, Forall_forall. reflexivity. }
  destruct oc; cbn [file_ops opening app]; repeat first [apply Ha | constructor]; cbn; auto.
Qed.

Lemma exec_op_frame f tmp o st p : addressed f tmp o -> p <> f -> p <> tmp -> exec_op o st p = st p.
Proof.
  intros Ha Hf Ht. destruct o as [q|q|q ch|q|q|q r|q m|q]; cbn in Ha |- *; try reflexivity.
  - subst q. now apply set_other.
  - subst q. destruct (st tmp) as [[b m]|]; [now apply set_other|reflexivity].
  - destruct Ha as [-> ->]. destruct (st tmp) as [x|]; [now rewrite !set_other|reflexivity].
  - subst q. destruct (st f) as [[b m0]|]; [now apply set_other|reflexivity].
  - subst q. now apply set_other.
Qed.

Definition cells := (option file * option file)%type.

Definition exec2_op (o : op) (s : cells) : cells :=
  let '(a, b) := s in
  match o with
  | OStat _ | OClose _ | OWrapClose _ => s
  | OCreate _ => (a, Some ([], temp_mode))
  | OAppend _ ch => (a, match b with Some (c, m) => Some (c ++ ch, m) | None => None end)
  | ORename _ _ => match b with Some x => (Some x, None) | None => s end
  | OChmod _ m => (match a with Some (c, _) => Some (c, m) | None => None end, b)
  | ORemove _ => (a, None)
  end.
Definition exec2 (ops : list op) (s : cells) : cells := fold_left (fun s o => exec2_op o s) ops s.

Lemma exec_op_cells f tmp o st :
  f <> tmp -> addressed f tmp o ->
  (exec_op o st f, exec_op o st tmp) = exec2_op o (st f, st tmp).
Proof.
  intros Hne Ha. assert (Hne' : tmp <> f) by congruence.
  destruct o as [p|p|p ch|p|p|p q|p m|p]; cbn in Ha |- *; try reflexivity.
  - subst p. now rewrite set_same, set_other.
  - subst p. destruct (st tmp) as [[b m]|] eqn:E; [now rewrite set_same, set_other|now rewrite E].
  - destruct Ha as [-> ->]. destruct (st tmp) as [x|] eqn:E; [|now rewrite E]. now rewrite set_same, set_other, set_same.
  - subst p. destruct (st f) as [[b m0]|] eqn:E; [now rewrite set_same, set_other|now rewrite E].
  - subst p. now rewrite set_same, set_other.
Qed.

Lemma exec_cells f tmp ops st :
  f <> tmp -> Forall (addressed f tmp) ops ->
  (exec ops st f, exec ops st tmp) = exec2 ops (st f, st tmp).
Proof.
  intros Hne. unfold exec, exec2. revert st. induction ops as [|o ops IH]; intros st Hall; [reflexivity|].
  inversion Hall as [|? ? Ho Hall']; subst. cbn [fold_left]. rewrite <- (exec_op_cells f tmp o st Hne Ho). now apply IH.
Qed.

Definition ok_cells (a0 : option file) (mode0 : fmode) (oc : outcome) (s : cells) : Prop :=
  (fst s = a0 /\ (snd s = None \/ exists w, snd s = Some (w, temp_mode) /\ is_prefix w (produced oc) = true))
  \/ (renames oc = true /\ snd s = None /\
      (fst s = Some (produced oc, temp_mode) \/ fst s = Some (produced oc, mode0))).

Definition final_cell (a0 : option file) (mode0 : fmode) (oc : outcome) : option file :=
  match oc with
  | Succeeds ch => Some (List.concat ch, mode0)
  | ChmodFails ch => Some (List.concat ch, temp_mode)
  | _ => a0
  end.

(* the three kinds of state [ok_cells] allows *)
Lemma ok_untouched a0 mode0 oc : ok_cells a0 mode0 oc (a0, None).
Proof. left. cbn. auto. Qed.
Lemma ok_temp a0 mode0 oc w : is_prefix w (produced oc) = true -> ok_cells a0 mode0 oc (a0, Some (w, temp_mode)).
Proof. left. cbn. eauto. Qed.
Lemma ok_renamed a0 mode0 oc m :
  renames oc = true -> m = temp_mode \/ m = mode0 -> ok_cells a0 mode0 oc (Some (produced oc, m), None).
Proof. intros Hr [-> | ->]; right; cbn; auto. Qed.

Lemma is_prefix_app a b : is_prefix a (a ++ b) = true.
Proof. induction a as [|x a IH]; cbn; [reflexivity|]. now rewrite IH, Ascii.eqb_refl. Qed.

Lemma is_prefix_refl a : is_prefix a a = true.
Proof. rewrite <- (app_nil_r a) at 2. apply is_prefix_app. Qed.

Lemma concat_firstn_prefix (w : list bytes) k : is_prefix (List.concat (firstn k w)) (List.concat w) = true.
Proof.
  rewrite <- (firstn_skipn k w) at 2. rewrite concat_app. apply is_prefix_app.
Qed.

Definition always (P : cells -> Prop) (ops : list op) (s : cells) : Prop := forall k, P (exec2 (firstn k ops) s).

Lemma always_nil (P : cells -> Prop) s : P s -> always P [] s.
Proof. intros H k. now rewrite firstn_nil. Qed.

Lemma always_cons (P : cells -> Prop) o ops s : P s -> always P ops (exec2_op o s) -> always P (o :: ops) s.
Proof. intros H0 H [|k]; [exact H0|apply H]. Qed.

Lemma always_appends (P : cells -> Prop) tmp w ops a m : forall b,
  (forall j, P (a, Some (b ++ List.concat (firstn j w), m))) ->
  always P ops (a, Some (b ++ List.concat w, m)) ->
  always P (appends tmp w ++ ops) (a, Some (b, m)).
Proof.
  induction w as [|c w IH]; intros b Hw Hops.
  - cbn in Hops. now rewrite app_nil_r in Hops.
  - apply always_cons.
    + specialize (Hw 0). cbn in Hw. now rewrite app_nil_r in Hw.
    + apply IH.
      * intros j. specialize (Hw (S j)). cbn in Hw. now rewrite app_assoc in Hw.
      * cbn in Hops. now rewrite app_assoc in Hops.
Qed.

(* walk along the op list of each outcome: the pair is untouched, then the temp file holds a growing prefix of
   the output, then it is removed or renamed over the file *)
Lemma cells_prefix f tmp a0 mode0 oc : always (ok_cells a0 mode0 oc) (file_ops f tmp mode0 oc) (a0, None).
Proof.
  destruct oc as [| | | |w|w|w|w|w|w]; cbn [file_ops opening app];
    repeat first [apply always_nil | apply always_appends; [intros j|] | apply always_cons];
    cbn [exec2_op app];
    first [ apply ok_untouched
          | apply ok_temp; first [apply concat_firstn_prefix | apply is_prefix_refl | reflexivity]
          | apply ok_renamed; auto ].
Qed.

Lemma exec2_appends tmp w post a0 m : forall b,
  exec2 (appends tmp w ++ post) (a0, Some (b, m)) = exec2 post (a0, Some (b ++ List.concat w, m)).
Proof.
  induction w as [|c w IH]; intros b; cbn [appends map app List.concat]; [now rewrite app_nil_r|].
  rewrite app_assoc. apply IH.
Qed.

Lemma cells_final f tmp a0 mode0 oc :
  exec2 (file_ops f tmp mode0 oc) (a0, None) = (final_cell a0 mode0 oc, None).
Proof.
  destruct oc as [| | | |w|w|w|w|w|w]; cbn [file_ops]; try reflexivity;
    change (exec2 (opening f tmp ++ ?r) (a0, None)) with (exec2 r (a0, Some ([], temp_mode)));
    rewrite exec2_appends; reflexivity.
Qed.

Lemma final_cell_succeeds a0 mode0 oc : succeeds oc = true -> final_cell a0 mode0 oc = Some (produced oc, mode0).
Proof. destruct oc; try discriminate. reflexivity. Qed.

Definition files_of (plan : list entry) : list path := map e_file plan.
Definition tmps_of (plan : list entry) : list path := map e_tmp plan.

Record wf (plan : list entry) (st : fsys) : Prop := {
  wf_nodup : NoDup (files_of plan ++ tmps_of plan);
  wf_fresh : forall e, In e plan -> st (e_tmp e) = None
}.

Definition entry_ops (e : entry) : list op := file_ops (e_file e) (e_tmp e) (e_mode e) (e_out e).

Lemma all_ops_cons e rest : all_ops (e :: rest) = entry_ops e ++ if succeeds (e_out e) then all_ops rest else [].
Proof. destruct e as [[[f tmp] m0] oc]. reflexivity. Qed.

Definition passes (plan : list entry) : bool := forallb (fun e => succeeds (e_out e)) plan.

Lemma all_ops_app a b : all_ops (a ++ b) = all_ops a ++ if passes a then all_ops b else [].
Proof.
  induction a as [|e a IH]; [reflexivity|]. cbn [app passes forallb]. rewrite !all_ops_cons, IH. fold (passes a).
  destruct (succeeds (e_out e)); cbn [andb]; [now rewrite app_assoc|now rewrite !app_nil_r].
Qed.

Lemma all_ops_addressed plan : Forall (fun o => exists e, In e plan /\ addressed (e_file e) (e_tmp e) o) (all_ops plan).
Proof.
  induction plan as [|e rest IH]; [constructor|]. rewrite all_ops_cons. apply Forall_app. split.
  - eapply Forall_impl; [|apply file_ops_addressed]. intros o Ha. exists e. split; [now left|exact Ha].
  - destruct (succeeds (e_out e)); [|constructor]. eapply Forall_impl; [|exact IH].
    intros o (e' & He' & Ha). exists e'. split; [now right|exact Ha].
Qed.

Theorem other_paths_untouched plan st k p :
  ~ In p (files_of plan ++ tmps_of plan) -> crash_state plan k st p = st p.
Proof.
  intros Hp. unfold crash_state. pose proof (Forall_firstn _ k _ (all_ops_addressed plan)) as H. revert st.
  induction H as [|o ops (e & He & Ha) _ IH]; intros st; [reflexivity|].
  change (exec ops (exec_op o st) p = st p). rewrite IH.
  apply (exec_op_frame _ _ _ _ _ Ha); intros ->; apply Hp, in_or_app; [left|right]; now apply in_map.
Qed.

Lemma wf_own_paths before e after st : wf (before ++ e :: after) st ->
  e_file e <> e_tmp e /\
  forall p, p = e_file e \/ p = e_tmp e ->
    ~ In p (files_of before ++ tmps_of before) /\ ~ In p (files_of after ++ tmps_of after).
Proof.
  intros [Hnd _]. unfold files_of, tmps_of in *. rewrite !map_app, <- app_assoc in Hnd. cbn [map app] in Hnd.
  pose proof (NoDup_remove_2 _ _ _ Hnd) as Hf.
  rewrite app_comm_cons, !app_assoc in Hnd. pose proof (NoDup_remove_2 _ _ _ Hnd) as Ht.
  rewrite !in_app_iff in Hf, Ht. cbn [In] in Hf, Ht.
  split; [|intros p [-> | ->]; rewrite !in_app_iff]; intuition congruence.
Qed.

(* cut the run anywhere: what an entry's two paths hold is what a prefix of ITS op list makes of (file, no temp) --
   the empty prefix while, or if, the run does not get to it *)
Lemma entry_cells before e after st k : wf (before ++ e :: after) st ->
  (crash_state (before ++ e :: after) k st (e_file e), crash_state (before ++ e :: after) k st (e_tmp e))
  = exec2 (firstn (if passes before then k - len (all_ops before) else 0) (entry_ops e)) (st (e_file e), None).
Proof.
  intros Hwf. destruct (wf_own_paths _ _ _ _ Hwf) as [Hne Hown].
  (* the temp name is fresh and the entries before leave both paths alone: state the right side in st1, after their ops *)
  rewrite <- (wf_fresh _ _ Hwf e (in_elt _ _ _)).
  rewrite <- (other_paths_untouched before st k (e_file e)), <- (other_paths_untouched before st k (e_tmp e)) by (apply Hown; auto).
  unfold crash_state. rewrite all_ops_app, firstn_app, exec_app.
  set (st1 := exec (firstn k (all_ops before)) st). destruct (passes before); [|now rewrite firstn_nil].
  rewrite all_ops_cons, firstn_app, exec_app.
  set (j := k - len (all_ops before)). set (st2 := exec (firstn j (entry_ops e)) st1).
  (* the entries after leave both paths alone as well; what remains is e's own ops on the pair *)
  assert (Hafter : forall p, p = e_file e \/ p = e_tmp e ->
            exec (firstn (j - len (entry_ops e)) (if succeeds (e_out e) then all_ops after else [])) st2 p = st2 p).
  { intros p Hp. destruct (succeeds (e_out e)); [|now rewrite firstn_nil]. now apply other_paths_untouched, Hown. }
  rewrite !Hafter by auto. apply (exec_cells _ _ _ _ Hne).
  apply Forall_firstn, file_ops_addressed.
Qed.

(* THE theorem: cut the run anywhere; every named file is whole *)
Theorem atomic_at_every_prefix plan :
  forall st k, wf plan st ->
  forall e, In e plan ->
  ok_cells (st (e_file e)) (e_mode e) (e_out e) (crash_state plan k st (e_file e), crash_state plan k st (e_tmp e)).
Proof.
  intros st k Hwf e He. destruct (in_split _ _ He) as (before & after & ->).
  rewrite (entry_cells _ _ _ _ _ Hwf). apply cells_prefix.
Qed.

(* files after the one whose processing fails are untouched, at every prefix *)
Theorem later_files_untouched before e after :
  succeeds (e_out e) = false ->
  forall st k, wf (before ++ e :: after) st ->
  forall e', In e' after ->
  crash_state (before ++ e :: after) k st (e_file e') = st (e_file e') /\
  crash_state (before ++ e :: after) k st (e_tmp e') = None.
Proof.
  intros Hfail st k Hwf e' He'. destruct (in_split _ _ He') as (mid & after' & ->).
  rewrite app_comm_cons, app_assoc in *. pose proof (entry_cells _ _ _ _ k Hwf) as H.
  replace (passes (before ++ e :: mid)) with false in H.
  - now inversion H.
  - unfold passes. rewrite forallb_app. cbn. now rewrite Hfail, andb_false_r.
Qed.

Lemma entry_cells_complete before e after st : wf (before ++ e :: after) st ->
  (exec (all_ops (before ++ e :: after)) st (e_file e), exec (all_ops (before ++ e :: after)) st (e_tmp e))
  = (if passes before then final_cell (st (e_file e)) (e_mode e) (e_out e) else st (e_file e), None).
Proof.
  intros Hwf. pose proof (entry_cells _ _ _ _ (len (all_ops (before ++ e :: after))) Hwf) as H.
  unfold crash_state in H. rewrite firstn_all in H. rewrite H. destruct (passes before) eqn:Hp; [|reflexivity].
  rewrite firstn_all2; [apply cells_final|]. rewrite all_ops_app, Hp, all_ops_cons, !app_length. lia.
Qed.

Theorem after_complete_run plan :
  forall st, wf plan st ->
  forall e, In e plan ->
  exec (all_ops plan) st (e_tmp e) = None /\
  (exec (all_ops plan) st (e_file e) = final_cell (st (e_file e)) (e_mode e) (e_out e)
   \/ exec (all_ops plan) st (e_file e) = st (e_file e)).
Proof.
  intros st Hwf e He. destruct (in_split _ _ He) as (before & after & ->).
  pose proof (entry_cells_complete _ _ _ _ Hwf) as H. inversion H as [[Hf Ht]]. rewrite Ht.
  destruct (passes before); auto.
Qed.

Theorem all_succeed plan :
  forall st, wf plan st -> (forall e, In e plan -> succeeds (e_out e) = true) ->
  forall e, In e plan ->
  exec (all_ops plan) st (e_file e) = Some (produced (e_out e), e_mode e) /\ exec (all_ops plan) st (e_tmp e) = None.
Proof.
  intros st Hwf Hall e He. destruct (in_split _ _ He) as (before & after & ->).
  pose proof (entry_cells_complete _ _ _ _ Hwf) as H.
  replace (passes before) with true in H.
  - rewrite final_cell_succeeds in H by auto. now inversion H.
  - symmetry. apply forallb_forall. intros x Hx. apply Hall, in_or_app. now left.
Qed.

(* all but the last op of a successful run are the op list of the outcome "chmod fails" *)
Lemma rename_chmod_window f tmp m0 ch st :
  f <> tmp -> st tmp = None ->
  let ops := all_ops [(f, tmp, m0, Succeeds ch)] in
  crash_state [(f, tmp, m0, Succeeds ch)] (len ops - 1) st f = Some (List.concat ch, temp_mode).
Proof.
  intros Hne Hfr. cbn zeta. unfold crash_state. cbn [all_ops succeeds]. rewrite app_nil_r.
  assert (E : file_ops f tmp m0 (Succeeds ch) = file_ops f tmp m0 (ChmodFails ch) ++ [OChmod f m0]).
  { cbn [file_ops opening app]. now rewrite <- app_assoc. }
  rewrite E, app_length, Nat.add_sub, firstn_app, firstn_all, Nat.sub_diag, app_nil_r.
  pose proof (exec_cells f tmp _ st Hne (file_ops_addressed f tmp m0 (ChmodFails ch))) as Hc.
  rewrite Hfr, cells_final in Hc. now inversion Hc.
Qed.

Lemma inplace_ops_refused prepipe flag plan :
  (exists e, In e plan /\ updatable prepipe flag (e_file e) = false) -> inplace_ops prepipe flag plan = [].
Proof.
  intros (e & Hin & Hu). unfold inplace_ops.
  destruct (forallb (fun e => updatable prepipe flag (e_file e)) plan) eqn:E; [|reflexivity].
  rewrite forallb_forall in E. specialize (E e Hin). cbn in E. congruence.
Qed.

Lemma refusals_before_any_write prepipe flag plan :
  (exists e, In e plan /\ updatable prepipe flag (e_file e) = false) ->
  forall st k p, exec (firstn k (inplace_ops prepipe flag plan)) st p = st p.
Proof. intros H st k p. rewrite (inplace_ops_refused _ _ _ H). now rewrite firstn_nil. Qed.

Lemma inplace_ops_accepted prepipe flag plan :
  (forall e, In e plan -> updatable prepipe flag (e_file e) = true) -> inplace_ops prepipe flag plan = all_ops plan.
Proof.
  intros H. unfold inplace_ops. replace (forallb (fun e => updatable prepipe flag (e_file e)) plan) with true; [reflexivity|].
  symmetry. apply forallb_forall. exact H.
Qed.

Lemma updatable_spec prepipe flag f :
  updatable prepipe flag f = true <->
  is_url f = false /\ prepipe = false /\ input_encoding flag f <> EncBzip2.
Proof.
  unfold updatable. rewrite !andb_true_iff, !negb_true_iff. split.
  - intros [[H1 H2] H3]. repeat split; auto. intros E. rewrite E in H3. discriminate.
  - intros (H1 & H2 & H3). repeat split; auto. destruct (input_encoding flag f); auto. congruence.
Qed.

Lemma compressions_accepted f :
  is_url f = false ->
  updatable false EncGzip f = true /\ updatable false EncZlib f = true /\ updatable false EncZstd f = true /\
  updatable false EncBzip2 f = false.
Proof. intros H. unfold updatable. rewrite H. cbn. auto. Qed.
