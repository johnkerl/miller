(* C19 -- refinement: an observed system-call trace that the acceptor Harness.chk_trace accepts IS (the erasure of) a prefix of
   the model's op sequence, so the invariant theorems apply at every point of the observed trace.

   Contents are abstract in the acceptor: a write is seen by its LENGTH only (the plan handed to chk_trace carries chunk lengths,
   Harness.entry_of_lens fills in "xxx..." of that length).  [abs_entry] is that abstraction on a plan with the REAL contents;
   [erase_abs] shows the erasure of the op sequence does not depend on contents beyond their lengths.  Hence:
       chk_trace (kind, length-abstraction of plan, trace) = true
       ->  for EVERY prefix of the trace there is a prefix of all_ops plan (real contents) with that erasure, and in the state
           it leads to every named file is bitwise the original or the complete output, the temp file is absent or a prefix of
           the output (C19_atomic_at_every_prefix); a complete (returned) trace is the erasure of the whole op sequence. *)
From Miller Require Import Base.Bytes C19.Model C19.Proofs C19.Harness.
From Coq Require Import ZArith Lia.
Open Scope list_scope.

Lemma erase_short o : erase o = [] \/ exists e, erase o = [e].
Proof. destruct o; cbn; eauto. Qed.

Lemma prefix_flat_erase ops : forall k, exists j, firstn k (flat_map erase ops) = flat_map erase (firstn j ops).
Proof.
  induction ops as [|o r IH]; intros k.
  - exists 0%nat. now rewrite firstn_nil.
  - cbn [flat_map]. destruct (erase_short o) as [E|[e E]]; rewrite E.
    + destruct (IH k) as [j Hj]. exists (S j). cbn [firstn flat_map app]. now rewrite E.
    + destruct k as [|k]; [exists 0%nat; reflexivity|].
      destruct (IH k) as [j Hj]. exists (S j). cbn [firstn flat_map app]. rewrite E. cbn. now rewrite Hj.
Qed.

Lemma tev_eqb_eq a b : tev_eqb a b = true -> a = b.
Proof.
  destruct a as [[[c1 p1] q1] n1], b as [[[c2 p2] q2] n2]. unfold tev_eqb. intros H.
  apply andb_true_iff in H as [H Hn]. apply andb_true_iff in H as [H Hq]. apply andb_true_iff in H as [Hc Hp].
  apply Z.eqb_eq in Hc, Hn. destruct (beqb_spec p1 p2); [|discriminate]. destruct (beqb_spec q1 q2); [|discriminate]. now subst.
Qed.

Lemma tevs_match_prefix exact tr : forall model,
  tevs_match exact tr model = true -> (exists n, tr = firstn n model) /\ (exact = true -> tr = model).
Proof.
  induction tr as [|a tr IH]; intros model H.
  - split; [exists 0%nat; reflexivity|]. intros ->. destruct model; [reflexivity|discriminate].
  - destruct model as [|b model]; [discriminate|]. cbn in H. apply andb_true_iff in H as [Hab H].
    apply tev_eqb_eq in Hab. subst b. destruct (IH _ H) as [[n Hn] Hex]. split.
    + exists (S n). cbn. now rewrite <- Hn.
    + intros E. now rewrite (Hex E).
Qed.

(* acceptance against a plan with real contents *)
Definition accepts (returned : bool) (plan : list entry) (tr : list tev) : bool :=
  tevs_match returned tr (flat_map erase (all_ops plan)).

Theorem accepted_trace_refines returned plan tr :
  accepts returned plan tr = true ->
  (forall k, exists j, firstn k tr = flat_map erase (firstn j (all_ops plan))) /\
  (returned = true -> tr = flat_map erase (all_ops plan)).
Proof.
  unfold accepts. intros H. destruct (tevs_match_prefix _ _ _ H) as [[n Hn] Hex]. split; [|exact Hex].
  intros k. subst tr. rewrite firstn_firstn. apply prefix_flat_erase.
Qed.

(* ... and therefore the invariant holds at every point of an accepted trace: at each prefix of the observed calls the file
   system is in a model state in which every named file is whole *)
Theorem accepted_trace_invariant returned plan st tr :
  wf plan st -> accepts returned plan tr = true ->
  forall k, exists j,
    firstn k tr = flat_map erase (firstn j (all_ops plan)) /\
    (forall e, In e plan ->
       ok_cells (st (e_file e)) (e_mode e) (e_out e) (crash_state plan j st (e_file e), crash_state plan j st (e_tmp e))) /\
    (forall p, ~ In p (files_of plan ++ tmps_of plan) -> crash_state plan j st p = st p).
Proof.
  intros Hwf Ha k. destruct (accepted_trace_refines _ _ _ Ha) as [Hp _]. destruct (Hp k) as [j Hj]. exists j.
  split; [exact Hj|]. split.
  - intros e He. now apply atomic_at_every_prefix.
  - intros p Hn. now apply other_paths_untouched.
Qed.

Theorem accepted_returned_run plan st tr :
  wf plan st -> accepts true plan tr = true ->
  tr = flat_map erase (all_ops plan) /\
  forall e, In e plan ->
    exec (all_ops plan) st (e_tmp e) = None /\
    (exec (all_ops plan) st (e_file e) = final_cell (st (e_file e)) (e_mode e) (e_out e)
     \/ exec (all_ops plan) st (e_file e) = st (e_file e)).
Proof.
  intros Hwf Ha. destruct (accepted_trace_refines _ _ _ Ha) as [_ Hx]. split; [now apply Hx|].
  intros e He. now apply after_complete_run.
Qed.

Definition xs (b : bytes) : bytes := repeat "x"%char (List.length b).

Definition oc_map (g : bytes -> bytes) (oc : outcome) : outcome :=
  match oc with
  | StreamFails w => StreamFails (map g w)
  | WrapCloseFails w => WrapCloseFails (map g w)
  | CloseFails w => CloseFails (map g w)
  | RenameFails w => RenameFails (map g w)
  | ChmodFails w => ChmodFails (map g w)
  | Succeeds w => Succeeds (map g w)
  | o => o
  end.

Definition abs_entry (e : entry) : entry := let '(f, tmp, m, oc) := e in (f, tmp, m, oc_map xs oc).

Lemma xs_length b : List.length (xs b) = List.length b.
Proof. unfold xs. apply repeat_length. Qed.

Lemma erase_appends_abs tmp w : flat_map erase (appends tmp (map xs w)) = flat_map erase (appends tmp w).
Proof. unfold appends. induction w as [|c w IH]; cbn; [reflexivity|]. now rewrite xs_length, IH. Qed.

Lemma erase_file_ops_abs f tmp m oc : flat_map erase (file_ops f tmp m (oc_map xs oc)) = flat_map erase (file_ops f tmp m oc).
Proof. destruct oc; cbn [oc_map file_ops]; rewrite ?flat_map_app, ?erase_appends_abs; reflexivity. Qed.

Lemma erase_abs plan : flat_map erase (all_ops (map abs_entry plan)) = flat_map erase (all_ops plan).
Proof.
  induction plan as [|[[[f tmp] m] oc] plan IH]; [reflexivity|].
  cbn [map abs_entry all_ops]. rewrite !flat_map_app, erase_file_ops_abs.
  assert (Hs : succeeds (oc_map xs oc) = succeeds oc) by (destruct oc; reflexivity).
  rewrite Hs. destruct (succeeds oc); [now rewrite IH|reflexivity].
Qed.

(* THE tie: what Harness.chk_trace accepts for the length-abstracted plan is accepted for the plan with the real contents *)
Theorem chk_trace_sound kind plan0 tr plan st :
  map entry_of_lens plan0 = map abs_entry plan ->
  chk_trace (kind, plan0, tr) = true ->
  wf plan st ->
  (forall k, exists j,
     firstn k tr = flat_map erase (firstn j (all_ops plan)) /\
     (forall e, In e plan ->
        ok_cells (st (e_file e)) (e_mode e) (e_out e) (crash_state plan j st (e_file e), crash_state plan j st (e_tmp e))) /\
     (forall p, ~ In p (files_of plan ++ tmps_of plan) -> crash_state plan j st p = st p)) /\
  (kind = 1%Z -> tr = flat_map erase (all_ops plan)).
Proof.
  intros Habs Hc Hwf. unfold chk_trace in Hc. rewrite Habs, erase_abs in Hc.
  split.
  - now apply (accepted_trace_invariant (Z.eqb kind 1) plan st tr).
  - intros ->. destruct (accepted_trace_refines _ _ _ Hc) as [_ Hx]. now apply Hx.
Qed.

(* the temp file of the model is created in the directory of its target by construction of the plan the harness builds;
   the acceptor compares the NAMES of every call, so an accepted trace creates, writes, renames and unlinks exactly the
   plan's temp names: stated as a corollary for the create events *)
Lemma creates_of_erase ops : forall p m, In (1%Z, p, [], m) (flat_map erase ops) -> In (OCreate p) ops /\ m = Z.of_N temp_mode.
Proof.
  induction ops as [|o r IH]; cbn; [tauto|]. intros p m H. apply in_app_or in H as [H|H].
  - destruct o; cbn in H; try (destruct H as [H|[]]; inversion H); try contradiction. subst. split; [now left|reflexivity].
  - destruct (IH _ _ H) as [H1 H2]. split; [now right|exact H2].
Qed.

Example refine_nonvacuous :
  let plan := [(B "d/a", B "d/mlr-in-place-1", 420%N, Succeeds [B "new"; B "-a"]); (B "b", B "mlr-in-place-2", 384%N, StreamFails [B "par"])] in
  let plan0 := [(B "d/a", B "d/mlr-in-place-1", 420, 8, [3; 2]); (B "b", B "mlr-in-place-2", 384, 4, [3])]%Z in
  map entry_of_lens plan0 = map abs_entry plan /\
  chk_trace (0, plan0, [(0, B "d/a", [], 0); (0, B "d/a", [], 0); (1, B "d/mlr-in-place-1", [], 384); (2, B "d/mlr-in-place-1", [], 3)])%Z = true /\
  chk_trace (1, plan0, [(0, B "d/a", [], 0)])%Z = false.
Proof. vm_compute. repeat split; reflexivity. Qed.
