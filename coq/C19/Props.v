(* C19 property theorems, each followed by Print Assumptions.
   All are about Model.all_ops / Model.crash_state -- the definitions Harness.chk evaluates against what the real
   `mlr -I` leaves in a directory when it is killed at a system call, made to fail at one, or runs to the end.
   [wf plan st]: the named files and the temp names are pairwise distinct and the temp names do not exist yet
   (os.CreateTemp guarantees a new name).  ok_cells a0 mode0 oc (file cell, temp cell) says:
     the file cell is still exactly a0 (original bytes AND mode) and the temp file is absent or holds a prefix of
     the output with mode 0600,  OR  the outcome renames, no temp file exists, and the file holds the COMPLETE
     output with mode 0600 (window between rename and chmod) or with its original mode. *)
From Miller Require Import Base.Bytes Base.Record C05.Model C19.Model C19.Proofs C19.ModelRun C19.ProofsRun C19.Harness C19.Refine.
Open Scope list_scope.

(* crash at ANY point, any number of files, any outcome per file (success, DSL/input error mid-stream, refusal,
   unwritable directory, failure of the recompressor's Close() while it flushes its tail, close/rename/chmod failure):
   every named file is whole -- original or complete new bytes *)
Theorem C19_atomic_at_every_prefix :
  forall plan st k, wf plan st -> forall e, In e plan ->
  ok_cells (st (e_file e)) (e_mode e) (e_out e) (crash_state plan k st (e_file e), crash_state plan k st (e_tmp e)).
Proof. exact atomic_at_every_prefix. Qed.
Print Assumptions C19_atomic_at_every_prefix.

(* the content clause spelled out: never truncated, empty or mixed *)
Corollary C19_file_is_original_or_complete :
  forall plan st k, wf plan st -> forall e, In e plan ->
  crash_state plan k st (e_file e) = st (e_file e) \/
  exists m, crash_state plan k st (e_file e) = Some (produced (e_out e), m) /\ renames (e_out e) = true.
Proof.
  exact (fun plan st k Hwf e He =>
    match atomic_at_every_prefix plan st k Hwf e He with
    | or_introl (conj H _) => or_introl H
    | or_intror (conj Hr (conj _ (or_introl H))) => or_intror (ex_intro _ temp_mode (conj H Hr))
    | or_intror (conj Hr (conj _ (or_intror H))) => or_intror (ex_intro _ (e_mode e) (conj H Hr))
    end).
Qed.
Print Assumptions C19_file_is_original_or_complete.

(* files after the one whose processing fails are untouched (bytes and mode) and get no temp file, at every prefix *)
Theorem C19_later_files_untouched :
  forall before e after, succeeds (e_out e) = false ->
  forall st k, wf (before ++ e :: after) st -> forall e', In e' after ->
  crash_state (before ++ e :: after) k st (e_file e') = st (e_file e') /\
  crash_state (before ++ e :: after) k st (e_tmp e') = None.
Proof. exact later_files_untouched. Qed.
Print Assumptions C19_later_files_untouched.

(* nothing else in the file system is touched *)
Theorem C19_other_paths_untouched :
  forall plan st k p, ~ In p (files_of plan ++ tmps_of plan) -> crash_state plan k st p = st p.
Proof. exact other_paths_untouched. Qed.
Print Assumptions C19_other_paths_untouched.

(* when the run returns -- normally or through the error path, whatever the failure -- no temp file is left, and
   every file is either as before or exactly what its outcome says (new bytes with the original mode on success;
   new bytes with mode 0600 if only the final chmod failed) *)
Theorem C19_no_temp_after_reported_failure :
  forall plan st, wf plan st -> forall e, In e plan ->
  exec (all_ops plan) st (e_tmp e) = None /\
  (exec (all_ops plan) st (e_file e) = final_cell (st (e_file e)) (e_mode e) (e_out e)
   \/ exec (all_ops plan) st (e_file e) = st (e_file e)).
Proof. exact after_complete_run. Qed.
Print Assumptions C19_no_temp_after_reported_failure.

(* success: complete new bytes, ORIGINAL mode, for every file *)
Theorem C19_success_content_and_mode_preserved :
  forall plan st, wf plan st -> (forall e, In e plan -> succeeds (e_out e) = true) ->
  forall e, In e plan ->
  exec (all_ops plan) st (e_file e) = Some (produced (e_out e), e_mode e) /\ exec (all_ops plan) st (e_tmp e) = None.
Proof. exact all_succeed. Qed.
Print Assumptions C19_success_content_and_mode_preserved.

(* the rename..chmod window, stated explicitly: one step before the end the file has its complete new content
   but the temp file's mode 0600 *)
Theorem C19_rename_chmod_window :
  forall f tmp m0 ch st, f <> tmp -> st tmp = None ->
  crash_state [(f, tmp, m0, Succeeds ch)] (List.length (all_ops [(f, tmp, m0, Succeeds ch)]) - 1) st f
  = Some (List.concat ch, temp_mode).
Proof. exact rename_chmod_window. Qed.
Print Assumptions C19_rename_chmod_window.

(* On success each file equals what the same command WITHOUT -I prints for that file ALONE: for every reader option set,
   every chain of C05-modelled verbs, every writer and every chunking of the output, after `mlr -I` over f1..fn each
   file holds exactly stdout_alone(fi) = writer (chain from its INITIAL state (records of fi read with a NEW context:
   NR/FNR from 1, FILENUM 1, own header)), with its original mode, and no temp file is left.  stdout_alone is built from
   C05.Model.read_files / run_list, the definitions C05's correspondence ties to the real reader and verbs; that the
   temp file receives what the command prints for that file alone is tied here by the oracle (file == stdout of the
   same command without -I on that file, for head / NR / FNR / FILENAME / begin-end scenarios). *)
Theorem C19_success_equals_stdout_run_per_file :
  forall o vs wr chunk files st,
  (forall b, List.concat (chunk b) = b) ->
  wf (inplace_plan o vs wr chunk files) st ->
  forall p t m f, In (p, t, m, f) files ->
  exec (all_ops (inplace_plan o vs wr chunk files)) st p = Some (stdout_alone o vs wr f, m) /\
  exec (all_ops (inplace_plan o vs wr chunk files)) st t = None.
Proof. exact success_equals_stdout_run_per_file. Qed.
Print Assumptions C19_success_equals_stdout_run_per_file.

(* non-vacuous, and NOT the same as the run without -I over all files together: `head -n 1 then put $nr=NR` over two DKVP
   files -- in place each file keeps ITS first record with nr=1; the plain run prints one record in total *)
Example C19_per_file_nonvacuous :
  let o := ROpts MPairs false true false in
  let vs := [v_head 1] in
  let wr := fun rs : list record => List.concat (map (fun r => List.concat (map (fun kv => fst kv ++ B "=" ++ snd kv ++ B ";") r)) rs) in
  let f1 : C05.Model.file := (B "a", [[(B "x", B "1")]; [(B "x", B "2")]]) in
  let f2 : C05.Model.file := (B "b", [[(B "x", B "3")]; [(B "x", B "4")]]) in
  let st : fsys := set (B "a") (Some (B "old", 420%N)) (set (B "b") (Some (B "old", 384%N)) (fun _ => None)) in
  let plan := inplace_plan o vs wr (fun b => [b]) [(B "a", B "t1", 420%N, f1); (B "b", B "t2", 384%N, f2)] in
  nodup_paths (files_of plan ++ tmps_of plan) = true /\
  exec (all_ops plan) st (B "a") = Some (B "x=1;", 420%N) /\
  exec (all_ops plan) st (B "b") = Some (B "x=3;", 384%N) /\
  stdout_together o vs wr [f1; f2] = B "x=1;".
Proof. vm_compute. repeat split; reflexivity. Qed.

(* inputs that cannot be updated in place -- URLs (http:// https:// file://), any name under --prepipe/--prepipex, bzip2 by
   flag or by .bz2 suffix -- are refused BEFORE ANYTHING IS MODIFIED: if ANY name of the command line is such an input
   (first, middle or LAST in the list), the command performs no file-system operation at all, so every path of the file
   system is as before at every instant.  (processFilesInPlace pre-pass.) *)
Theorem C19_refusals_before_any_write :
  forall prepipe flag plan,
  (exists e, In e plan /\ updatable prepipe flag (e_file e) = false) ->
  inplace_ops prepipe flag plan = [] /\
  forall st k p, exec (firstn k (inplace_ops prepipe flag plan)) st p = st p.
Proof.
  exact (fun prepipe flag plan H => conj (inplace_ops_refused prepipe flag plan H) (refusals_before_any_write prepipe flag plan H)).
Qed.
Print Assumptions C19_refusals_before_any_write.

(* ... and otherwise the command is exactly the per-file sequence all the theorems above are about *)
Theorem C19_updatable_inputs_are_processed :
  forall prepipe flag plan,
  (forall e, In e plan -> updatable prepipe flag (e_file e) = true) -> inplace_ops prepipe flag plan = all_ops plan.
Proof. exact inplace_ops_accepted. Qed.
Print Assumptions C19_updatable_inputs_are_processed.

(* which inputs are accepted: not a URL, no prepipe, encoding (flag, else suffix) other than bzip2; gzip / zlib / zstd by
   flag are accepted whatever the name (since the zstd repair all three are rewritten compressed) *)
Theorem C19_accepted_inputs :
  forall prepipe flag f,
  (updatable prepipe flag f = true <-> is_url f = false /\ prepipe = false /\ input_encoding flag f <> EncBzip2) /\
  (is_url f = false ->
   updatable false EncGzip f = true /\ updatable false EncZlib f = true /\ updatable false EncZstd f = true /\
   updatable false EncBzip2 f = false).
Proof. exact (fun prepipe flag f => conj (updatable_spec prepipe flag f) (compressions_accepted f)). Qed.
Print Assumptions C19_accepted_inputs.

(* the refusal hypotheses are satisfiable: a good file first, a .bz2 name LAST; and a URL under no flag *)
Example C19_refusal_nonvacuous :
  let plan := [(B "good.csv", B "t1", 420%N, Succeeds [B "new"]); (B "x.bz2", B "t2", 420%N, RefusedAfterCreate)] in
  inplace_ops false EncDefault plan = [] /\ all_ops plan <> [] /\
  updatable false EncDefault (B "x.bz2") = false /\ updatable false EncDefault (B "https://h/x") = false /\
  updatable true EncDefault (B "good.csv") = false /\ updatable false EncDefault (B "k.csv.zst") = true /\
  inplace_ops false EncDefault [(B "good.csv", B "t1", 420%N, Succeeds [B "new"])] <> [].
Proof. vm_compute. repeat split; discriminate. Qed.

(* hypotheses are satisfiable: two files, the second fails while its recompressor is being closed *)
Example C19_nonvacuous :
  let st : fsys := set (B "a") (Some (B "old-a", 420%N)) (set (B "b") (Some (B "old-b", 384%N)) (fun _ => None)) in
  let plan := [(B "a", B "t1", 420%N, Succeeds [B "new"; B "-a"]); (B "b", B "t2", 384%N, WrapCloseFails [B "par"])] in
  nodup_paths (files_of plan ++ tmps_of plan) = true /\
  exec (all_ops plan) st (B "a") = Some (B "new-a", 420%N) /\
  exec (all_ops plan) st (B "b") = Some (B "old-b", 384%N) /\
  crash_state plan 5 st (B "t1") = Some (B "new-a", 384%N) /\
  crash_state plan 13 st (B "t2") = Some (B "par", 384%N).
Proof. vm_compute. repeat split; reflexivity. Qed.

(* ---------------------------------------------------------------- refinement: observed system-call traces.
   Harness.chk_trace is the acceptor the check runs on EVERY trace the ptrace supervisor records (returned runs, injected
   failures, runs killed at any system call; any number of write calls -- contents enter only by their lengths).  If it accepts
   the trace for the length-abstraction of a plan (the harness's plan carries the write sizes; abs_entry replaces every chunk of
   the real plan by x's of the same length), then at EVERY prefix of the observed trace the file system is in a state of the
   model -- reached by a prefix of all_ops plan with exactly that erasure -- in which each named file is bitwise its original or
   holds the complete output, the temp file is absent or a prefix of the output, and no other path has changed; a returned
   run's trace is the erasure of the whole op sequence. *)
Theorem C19_accepted_trace_satisfies_invariant :
  forall kind plan0 tr plan st,
  map entry_of_lens plan0 = map abs_entry plan ->
  chk_trace (kind, plan0, tr) = true ->
  wf plan st ->
  (forall k, exists j,
     firstn k tr = flat_map erase (firstn j (all_ops plan)) /\
     (forall e, In e plan ->
        ok_cells (st (e_file e)) (e_mode e) (e_out e) (crash_state plan j st (e_file e), crash_state plan j st (e_tmp e))) /\
     (forall p, ~ In p (files_of plan ++ tmps_of plan) -> crash_state plan j st p = st p)) /\
  (kind = 1%Z -> tr = flat_map erase (all_ops plan)).
Proof. exact chk_trace_sound. Qed.
Print Assumptions C19_accepted_trace_satisfies_invariant.

(* a returned run whose trace is accepted has gone through the whole op sequence: no temp file, every file as before or as
   its outcome says (a failure leaves the remaining files untouched: C19_later_files_untouched applies to the same plan) *)
Theorem C19_accepted_returned_run :
  forall plan st tr, wf plan st -> accepts true plan tr = true ->
  tr = flat_map erase (all_ops plan) /\
  forall e, In e plan ->
    exec (all_ops plan) st (e_tmp e) = None /\
    (exec (all_ops plan) st (e_file e) = final_cell (st (e_file e)) (e_mode e) (e_out e)
     \/ exec (all_ops plan) st (e_file e) = st (e_file e)).
Proof. exact accepted_returned_run. Qed.
Print Assumptions C19_accepted_returned_run.

(* the trace depends on the contents only through their lengths *)
Theorem C19_trace_sees_lengths_only :
  forall plan, flat_map erase (all_ops (map abs_entry plan)) = flat_map erase (all_ops plan).
Proof. exact erase_abs. Qed.
Print Assumptions C19_trace_sees_lengths_only.

Example C19_refinement_nonvacuous :
  let plan := [(B "d/a", B "d/mlr-in-place-1", 420%N, Succeeds [B "new"; B "-a"]); (B "b", B "mlr-in-place-2", 384%N, StreamFails [B "par"])] in
  let plan0 := [(B "d/a", B "d/mlr-in-place-1", 420, 8, [3; 2]); (B "b", B "mlr-in-place-2", 384, 4, [3])]%Z in
  map entry_of_lens plan0 = map abs_entry plan /\
  chk_trace (0, plan0, [(0, B "d/a", [], 0); (0, B "d/a", [], 0); (1, B "d/mlr-in-place-1", [], 384); (2, B "d/mlr-in-place-1", [], 3)])%Z = true /\
  chk_trace (1, plan0, [(0, B "d/a", [], 0)])%Z = false.
Proof. exact refine_nonvacuous. Qed.
