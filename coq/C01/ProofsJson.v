(* JSON: the RFC-8259 reference reader recovers every string-valued record stream from Miller's JSON / JSON Lines
   output (single-line and multi-line layout, with and without the outer list). *)
From Miller Require Import Base.Bytes Base.Record C01.Model C01.ModelJson C01.ProofsUtil.
Open Scope char_scope.

Lemma jrun_cons s c t : jrun s (c :: t) = match jstep s c with Some s' => jrun s' t | None => None end.
Proof. reflexivity. Qed.

(* one escaped character is read back as that character: all 256 bytes *)
Lemma esc_char c ia ik acc key rec recs rest :
  jrun (mkJ JS ia ik acc key rec recs) (json_esc c ++ rest) = jrun (mkJ JS ia ik (c :: acc) key rec recs) rest.
Proof. destruct c as [[] [] [] [] [] [] [] []]; reflexivity. Qed.

Lemma str_body s : forall ia ik acc key rec recs rest,
  jrun (mkJ JS ia ik acc key rec recs) (flat_map json_esc s ++ rest) = jrun (mkJ JS ia ik (rev s ++ acc) key rec recs) rest.
Proof.
  induction s as [|c s IH]; intros; [reflexivity|].
  cbn [flat_map rev]. rewrite <- !app_assoc. rewrite esc_char, IH. reflexivity.
Qed.

Definition memb_start (m : jmode) : Prop := m = JO0 \/ m = JO2.

Lemma mid_run ia acc rec recs t :
  jrun (mkJ JS ia true acc [] rec recs) (DQ :: ":" :: " " :: DQ :: t) = jrun (mkJ JS ia false [] (rev acc) rec recs) t.
Proof. reflexivity. Qed.

Lemma end_run ia acc k rec recs t :
  jrun (mkJ JS ia false acc k rec recs) (DQ :: t) = jrun (mkJ JO1 ia false [] [] (put k (rev acc) rec) recs) t.
Proof. reflexivity. Qed.

Lemma pair_run m ia rec recs kv rest :
  memb_start m ->
  jrun (mkJ m ia false [] [] rec recs) (json_pair kv ++ rest)
  = jrun (mkJ JO1 ia false [] [] (put (fst kv) (snd kv) rec) recs) rest.
Proof.
  destruct kv as [k v]. intros Hm. unfold json_pair, json_string. cbn [fst snd].
  assert (H1 : forall t, jrun (mkJ m ia false [] [] rec recs) (DQ :: t) = jrun (mkJ JS ia true [] [] rec recs) t).
  { intros t. destruct Hm as [-> | ->]; reflexivity. }
  cbn [app]. rewrite H1, <- !app_assoc, str_body, app_nil_r.
  change (B ": ") with [":"; " "]. cbn [app]. rewrite mid_run, rev_involutive, <- ?app_assoc, str_body, app_nil_r.
  cbn [app]. now rewrite end_run, rev_involutive.
Qed.

(* whitespace is skipped in every structural state *)
Definition ws_mode (m : jmode) : bool :=
  match m with JT0 | JA0 | JA1 | JA2 | JO0 | JO1 | JO2 | JC | JV0 => true | _ => false end.
Lemma ws_skip w : forall s rest, ws_mode (j_mode s) = true -> forallb json_ws w = true -> jrun s (w ++ rest) = jrun s rest.
Proof.
  induction w as [|c w IH]; intros s rest Hm Hw; [reflexivity|].
  cbn [forallb] in Hw. apply andb_true_iff in Hw as [Hc Hw]. cbn [app]. rewrite jrun_cons.
  assert (Hs : jstep s c = Some s). { unfold jstep. destruct (j_mode s); try discriminate; now rewrite Hc. }
  rewrite Hs. now apply IH.
Qed.

Definition puts (r : record) (acc : record) : record := fold_left (fun a kv => put (fst kv) (snd kv) a) r acc.

Lemma puts_nodup r acc : NoDup (keys acc ++ keys r) -> puts r acc = acc ++ r.
Proof. apply (fold_fresh put put_new). Qed.

Lemma comma_run ia rec recs t :
  jrun (mkJ JO1 ia false [] [] rec recs) ("," :: t) = jrun (mkJ JO2 ia false [] [] rec recs) t.
Proof. reflexivity. Qed.

Lemma entries_run sep r : forall kv m ia rec recs rest,
  memb_start m -> forallb json_ws sep = true ->
  jrun (mkJ m ia false [] [] rec recs) (join ("," :: sep) (map json_pair (kv :: r)) ++ rest)
  = jrun (mkJ JO1 ia false [] [] (puts (kv :: r) rec) recs) rest.
Proof.
  induction r as [|kv2 r IH]; intros kv m ia rec recs rest Hm Hsep; cbn [map] in *.
  - cbn [join]. now rewrite pair_run.
  - rewrite join_cons2, <- !app_assoc, pair_run by assumption. cbn [app].
    rewrite comma_run, ws_skip, IH by (assumption || reflexivity || now right). reflexivity.
Qed.

(* an object with arbitrary whitespace after "{", after each ",", and before "}" *)
Definition gen_obj (pre sep post : bytes) (r : record) : bytes :=
  "{" :: (match r with [] => [] | _ => pre ++ join ("," :: sep) (map json_pair r) ++ post end) ++ ["}"].

Definition obj_start (m : jmode) (ia : bool) : Prop := (m = JT0 /\ ia = false) \/ ((m = JA0 \/ m = JA2) /\ ia = true).

Lemma obj_run pre sep post r s ia rest :
  obj_start (j_mode s) ia ->
  forallb json_ws pre = true -> forallb json_ws sep = true -> forallb json_ws post = true ->
  jrun s (gen_obj pre sep post r ++ rest)
  = jrun (mkJ (if ia then JA1 else JT0) ia false [] [] [] (puts r [] :: j_recs s)) rest.
Proof.
  intros Hs Hpre Hsep Hpost. unfold gen_obj. cbn [app]. rewrite jrun_cons.
  replace (jstep s "{") with (Some (mkJ JO0 ia false [] [] [] (j_recs s)))
    by (unfold jstep; now destruct Hs as [[-> ->]|[[-> | ->] ->]]).
  destruct r as [|kv r]; [reflexivity|].
  rewrite <- !app_assoc, ws_skip, entries_run, ws_skip by (assumption || reflexivity || now left). reflexivity.
Qed.

Lemma single_is_gen r : json_obj_single r = gen_obj [] [SP] [] r.
Proof. unfold json_obj_single, gen_obj. destruct r; [reflexivity|]. now rewrite app_nil_r. Qed.

Lemma multi_entries_join r : forall kv,
  json_multi_entries (kv :: r) = [SP; SP] ++ join ("," :: [LF; SP; SP]) (map json_pair (kv :: r)) ++ [LF].
Proof.
  induction r as [|kv2 r IH]; intros kv; cbn [map] in *.
  - cbn [json_multi_entries join]. now rewrite !app_nil_r.
  - rewrite join_cons2, <- !app_assoc. cbn [json_multi_entries] in *. now rewrite IH.
Qed.

Lemma multi_is_gen r : json_obj_multi r = gen_obj [LF; SP; SP] [LF; SP; SP] [LF] r.
Proof.
  unfold json_obj_multi, gen_obj. destruct r as [|kv r]; [reflexivity|].
  now rewrite multi_entries_join, <- !app_assoc.
Qed.

Lemma json_obj_run ml r s ia rest :
  obj_start (j_mode s) ia ->
  jrun s (json_obj ml r ++ rest) = jrun (mkJ (if ia then JA1 else JT0) ia false [] [] [] (puts r [] :: j_recs s)) rest.
Proof.
  intros Hs. unfold json_obj. destruct ml; [rewrite multi_is_gen|rewrite single_is_gen]; now apply obj_run.
Qed.

Definition T0 (recs : list record) : jst := mkJ JT0 false false [] [] [] recs.

Lemma nl_run recs t : jrun (T0 recs) (LF :: t) = jrun (T0 recs) t.
Proof. reflexivity. Qed.

Lemma run_lines ml rs : forall recs,
  jrun (T0 recs) (List.concat (map (fun r => json_obj ml r ++ [LF]) rs)) = Some (rev recs ++ map (fun r => puts r []) rs).
Proof.
  induction rs as [|r rs IH]; intros recs; [cbn; now rewrite app_nil_r|].
  cbn [map List.concat]. rewrite <- app_assoc, (json_obj_run ml r (T0 recs) false) by now left.
  cbn [app]. fold (T0 (puts r [] :: recs)). rewrite nl_run, IH. cbn [rev]. now rewrite <- app_assoc.
Qed.

Lemma sep_run recs t :
  jrun (mkJ JA1 true false [] [] [] recs) ("," :: LF :: t) = jrun (mkJ JA2 true false [] [] [] recs) t.
Proof. reflexivity. Qed.
Lemma open_run recs t : jrun (T0 recs) ("[" :: LF :: t) = jrun (mkJ JA0 false false [] [] [] recs) t.
Proof. reflexivity. Qed.
Lemma close_run recs : jrun (mkJ JA1 true false [] [] [] recs) (LF :: "]" :: LF :: []) = Some (rev recs).
Proof. reflexivity. Qed.

Lemma run_list_items ml rs : forall r s rest,
  j_mode s = JA0 \/ j_mode s = JA2 ->
  jrun s (join ("," :: [LF]) (map (json_obj ml) (r :: rs)) ++ rest)
  = jrun (mkJ JA1 true false [] [] [] (rev (map (fun r => puts r []) (r :: rs)) ++ j_recs s)) rest.
Proof.
  induction rs as [|r2 rs IH]; intros r s rest Hm; cbn [map] in *.
  - cbn [join]. now rewrite (json_obj_run ml r _ true) by now right.
  - rewrite join_cons2, <- !app_assoc, (json_obj_run ml r _ true) by now right.
    cbn [app]. rewrite sep_run, IH by now right. cbn [j_recs rev]. now rewrite <- !app_assoc.
Qed.

Lemma json_reads_puts ml wrap recs :
  read_json_ref (write_json ml wrap recs) = Some (map (fun r => puts r []) recs).
Proof.
  unfold read_json_ref, write_json. fold (T0 []). destruct wrap; [|now rewrite run_lines].
  destruct recs as [|r0 rest]; [reflexivity|].
  change (B "[" ++ [LF] ++ ?x ++ [LF] ++ B "]" ++ [LF]) with ("[" :: LF :: (x ++ (LF :: "]" :: LF :: []))).
  rewrite open_run, run_list_items, close_run by now left. now rewrite app_nil_r, rev_involutive.
Qed.

Lemma json_roundtrip ml wrap recs :
  forallb (fun r => nodupb (keys r)) recs = true ->
  read_json_ref (write_json ml wrap recs) = Some recs.
Proof.
  intros H. rewrite json_reads_puts. f_equal. rewrite <- (map_id recs) at 2. apply map_ext_in.
  intros r Hr. rewrite forallb_forall in H. specialize (H r Hr).
  rewrite puts_nodup; [reflexivity|]. cbn. now apply nodupb_NoDup.
Qed.

(* the string clause on its own: the reference decoder reads millerJSONEncodeString's output back, for ALL bytes *)
Definition ref_decode_string (t : bytes) : option bytes :=
  match read_json_ref ("{" :: json_string [] ++ B ": " ++ t ++ ["}"; LF]) with
  | Some [[(_, v)]] => Some v
  | _ => None
  end.

Lemma json_string_decodes s : ref_decode_string (json_string s) = Some s.
Proof.
  unfold ref_decode_string.
  assert (E : "{" :: json_string [] ++ B ": " ++ json_string s ++ ["}"; LF] = write_json false false [[([], s)]]).
  { unfold write_json, json_obj, json_obj_single, json_pair. cbn [map List.concat join fst snd].
    rewrite app_nil_r. cbn [app]. f_equal. rewrite <- !app_assoc. reflexivity. }
  rewrite E. now rewrite (json_roundtrip false false [[([], s)]] eq_refl).
Qed.
