(* CSV and TSV without header line.  CSV: --headerless-csv-output then --implicit-csv-header, positional keys 1..n *)
From Miller Require Import Base.Bytes Base.Record C01.Model C01.ProofsUtil C01.ProofsTsv C01.ProofsDkvp C01.ProofsCsv.
Open Scope char_scope.

Definition wf_csv_pos (crlf : bool) (comma : ascii) (recs : list record) : bool :=
  comma_ok comma
  && match recs with
     | [] => true
     | r0 :: _ =>
       negb (is_nil r0) && first_not_ef (values r0)
       && forallb (fun r => list_beqb (keys r) (positional_keys (List.length r0)) && forallb (body_ok crlf) (values r)) recs
     end.

Lemma pos_keys (P : record -> bool) n recs :
  forallb (fun r => list_beqb (keys r) (positional_keys n) && P r) recs = true ->
  (forall r, In r recs -> keys r = positional_keys n) /\ forallb P recs = true.
Proof.
  rewrite forallb_andb. intros [Hk HP]%andb_true_iff. split; [|exact HP].
  intros r Hr. apply list_beqb_eq. rewrite forallb_forall in Hk. now apply Hk.
Qed.

Lemma csv_roundtrip_headerless qa crlf comma lazy dedupe ragged recs :
  wf_csv_pos crlf comma recs = true ->
  obind (write_csv true qa crlf comma recs) (read_csv true lazy dedupe ragged comma) = Some recs.
Proof.
  unfold wf_csv_pos. intros [Hcomma H]%andb_true_iff. destruct recs as [|r0 rest]; [reflexivity|].
  apply andb_true_iff in H as [[Hne Hef]%andb_true_iff [Hkeys Hall]%pos_keys].
  unfold write_csv. rewrite rows_of_rect by exact (rect_of_keys _ _ Hkeys). cbn [orb is_nil obind app]. unfold read_csv.
  rewrite csv_rows_miller; [|exact Hcomma|exact Hef|].
  - cbn [map]. unfold values at 1. rewrite map_length.
    apply (rows_to_records _ _ _ _ (r0 :: rest)); [apply positional_keys_nodup|exact Hkeys].
  - rewrite forallb_map. rewrite forallb_forall in *. intros r Hr. rewrite (Hall r Hr).
    apply Hkeys in Hr. now destruct r, r0.
Qed.

(* TSV without header line:
   --headerless-tsv-output then --implicit-tsv-header (getRecordBatchImplicitTSVHeader), keys 1..n *)
Definition wf_tsv_pos (recs : list record) : bool :=
  match recs with
  | [] => true
  | r0 :: _ =>
    negb (is_nil r0)
    && forallb (fun r => list_beqb (keys r) (positional_keys (List.length r0)) && not_single_empty (values r)) recs
  end.

Lemma trim_right_crlf_clean s : nochar CR s = true -> nochar LF s = true -> trim_right_crlf s = s.
Proof.
  intros H1 H2. unfold trim_right_crlf. destruct (rev s) as [|c t] eqn:E.
  - cbn. apply (f_equal (@rev ascii)) in E. rewrite rev_involutive in E. now subst.
  - assert (Hin : In c s) by (apply in_rev; rewrite E; now left).
    unfold nochar in *. rewrite forallb_forall in H1, H2.
    specialize (H1 c Hin). specialize (H2 c Hin). apply negb_true_iff in H1, H2.
    cbn [trim_right_crlf_rev]. rewrite H1, H2. cbn [orb]. rewrite <- E. apply rev_involutive.
Qed.

Lemma tsv_line_nil_inv vs : tsv_line vs = [] -> vs = [] \/ vs = [[]].
Proof.
  unfold tsv_line. intros [E|E]%join_nil_inv; [left|right|discriminate].
  - now destruct vs.
  - destruct vs as [|x [|y t]]; try discriminate. injection E as ->%tsv_encode_nil_inv. reflexivity.
Qed.

Lemma tsv_implicit_lines d rg n rs : forall hdr,
  n <> 0 -> (hdr = None \/ hdr = Some (positional_keys n)) ->
  forallb (fun r => list_beqb (keys r) (positional_keys n) && not_single_empty (values r)) rs = true ->
  read_tsv_implicit_go d rg hdr (map (fun r => tsv_line (values r)) rs) = Some rs.
Proof.
  induction rs as [|r rs IH]; intros hdr Hn Hh H; [reflexivity|].
  apply andb_true_iff in H as [[Hk%list_beqb_eq Hv]%andb_true_iff H].
  assert (Hlen : List.length (values r) = n).
  { rewrite <- keys_values_length, Hk. unfold positional_keys. now rewrite map_length, seq_length. }
  cbn [map read_tsv_implicit_go].
  rewrite trim_right_crlf_clean by auto using tsv_line_clean.
  replace (is_nil (tsv_line (values r))) with false.
  2:{ destruct (tsv_line (values r)) eqn:El; [|reflexivity].
      apply tsv_line_nil_inv in El as [El|El]; rewrite El in *; [now subst n|discriminate]. }
  (* whichever header is in force, it is 1..n: the line has n fields *)
  replace (match hdr with None => _ | Some h => h end) with (positional_keys n).
  2:{ destruct Hh as [-> | ->]; [|reflexivity]. now rewrite <- (map_length tsv_decode), tsv_line_split, Hlen. }
  rewrite tsv_line_split, <- Hk, row_to_record_rect by (assumption || rewrite Hk; apply positional_keys_nodup).
  rewrite Hk, IH; auto.
Qed.

Lemma tsv_roundtrip_headerless crlf dedupe ragged recs :
  wf_tsv_pos recs = true ->
  obind (write_tsv true crlf recs) (read_tsv_implicit dedupe ragged) = Some recs.
Proof.
  unfold wf_tsv_pos. destruct recs as [|r0 rest]; [reflexivity|]. intros [Hne Hall]%andb_true_iff.
  destruct (pos_keys _ _ _ Hall) as [Hkeys _].
  unfold write_tsv. rewrite rows_of_rect by exact (rect_of_keys _ _ Hkeys). cbn [orb is_nil obind app].
  unfold read_tsv_implicit. rewrite lines_of_unlines, map_map by apply tsv_lines_ok.
  apply tsv_implicit_lines with (n := List.length r0); [now destruct r0|now left|exact Hall].
Qed.
