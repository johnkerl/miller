(* Lemmas about the shared pieces: lists and bytes, split/join, the line reader, PutDeferred / header attachment. *)
From Miller Require Import Base.Bytes Base.Record C01.Model C01.ModelXtab.
From Miller Require Import Base.RecordFacts.
Open Scope char_scope.

Lemma forallb_Forall {A} (P : A -> bool) l : forallb P l = true -> Forall (fun x => P x = true) l.
Proof. intros H. apply Forall_forall. now apply forallb_forall. Qed.

Lemma forallb_map {A B} (f : B -> bool) (g : A -> B) l : forallb f (map g l) = forallb (fun x => f (g x)) l.
Proof. induction l as [|x l IH]; cbn; [reflexivity|]. now rewrite IH. Qed.

Lemma forallb_true {A} (f : A -> bool) l : (forall x, f x = true) -> forallb f l = true.
Proof. intros H. induction l; cbn; [reflexivity|]. now rewrite H. Qed.

Lemma forallb_andb {A} (f g : A -> bool) l : forallb (fun x => f x && g x) l = forallb f l && forallb g l.
Proof. induction l as [|x l IH]; cbn; [reflexivity|]. rewrite IH. now destruct (f x), (g x), (forallb f l). Qed.

Lemma forallb_concat_map {A} (P : ascii -> bool) (f : A -> bytes) l :
  (forall a, In a l -> forallb P (f a) = true) -> forallb P (List.concat (map f l)) = true.
Proof.
  induction l as [|a l IH]; intros H; [reflexivity|]. cbn [map List.concat].
  rewrite forallb_app, (H a (or_introl eq_refl)). apply IH. intros a' Ha'. apply H. now right.
Qed.

Lemma forallb_repeat (P : ascii -> bool) c n : P c = true -> forallb P (repeat_bytes n [c]) = true.
Proof. intros H. induction n as [|n IH]; [reflexivity|]. cbn [repeat_bytes app forallb]. now rewrite H, IH. Qed.

Lemma repeat_bytes_add a b (s : bytes) : repeat_bytes (a + b) s = repeat_bytes a s ++ repeat_bytes b s.
Proof. induction a as [|a IH]; [reflexivity|]. cbn [Nat.add repeat_bytes]. now rewrite IH, app_assoc. Qed.

Lemma map_id_in {A} (f : A -> A) l : (forall x, In x l -> f x = x) -> map f l = l.
Proof. intros H. rewrite <- (map_id l) at 2. now apply map_ext_in. Qed.

Lemma last_In {A} (l : list A) d : l <> [] -> In (last l d) l.
Proof. induction l as [|x [|y t] IH]; intros H; [congruence|now left|right; apply IH; discriminate]. Qed.

Lemma rev_not_nil {A} (l : list A) : l <> [] -> rev l <> [].
Proof. intros H E. apply H. now rewrite <- (rev_involutive l), E. Qed.

Lemma eqc_refl c : eqc c c = true.
Proof. apply Ascii.eqb_refl. Qed.

Lemma eqc_eq a b : eqc a b = true <-> a = b.
Proof. apply Ascii.eqb_eq. Qed.

Lemma eqc_neq a b : eqc a b = false <-> a <> b.
Proof. apply Ascii.eqb_neq. Qed.

Lemma eqc_sym a b : eqc a b = eqc b a.
Proof. apply Ascii.eqb_sym. Qed.

Lemma memc_In c s : memc c s = true <-> In c s.
Proof.
  unfold memc. rewrite existsb_exists. split.
  - intros (x & Hx & He). apply eqc_eq in He. now subst.
  - intros H. exists c. split; [auto|apply eqc_refl].
Qed.

Lemma freeof_cons sep c f : freeof sep (c :: f) = negb (memc c sep) && freeof sep f.
Proof. reflexivity. Qed.

Lemma freeof_app sep a b : freeof sep (a ++ b) = freeof sep a && freeof sep b.
Proof. unfold freeof. apply forallb_app. Qed.

Lemma nochar_app c a b : nochar c (a ++ b) = nochar c a && nochar c b.
Proof. unfold nochar. apply forallb_app. Qed.

Lemma nochar_freeof c f : nochar c f = freeof [c] f.
Proof.
  unfold nochar, freeof. induction f as [|x f IH]; cbn; [reflexivity|]. now rewrite IH, orb_false_r.
Qed.

Lemma prefixb_notin sep c rest : sep <> [] -> negb (memc c sep) = true -> prefixb sep (c :: rest) = false.
Proof.
  intros Hs Hc. destruct sep as [|s0 sep']; [congruence|].
  apply negb_true_iff, orb_false_iff in Hc as [Hc _]. cbn. fold (eqc s0 c). now rewrite eqc_sym, Hc.
Qed.
Lemma split_go_skip sep p rest acc :
  split_go sep (List.length p) (p ++ rest) acc = split_go sep 0 rest acc.
Proof.
  induction p as [|x p IH]; cbn [List.length app split_go]; [|exact IH].
  destruct rest; reflexivity.
Qed.

Lemma split_go_field sep f rest acc :
  sep <> [] -> freeof sep f = true ->
  split_go sep 0 (f ++ rest) acc = split_go sep 0 rest (rev f ++ acc).
Proof.
  intros Hs. revert acc. induction f as [|c f IH]; intros acc Hf; [reflexivity|].
  apply andb_true_iff in Hf as [Hc Hf]. cbn [app split_go].
  rewrite (prefixb_notin sep c (f ++ rest) Hs Hc), IH by exact Hf. cbn [rev]. now rewrite <- app_assoc.
Qed.

Lemma split_go_sep sep rest acc :
  sep <> [] -> split_go sep 0 (sep ++ rest) acc = rev acc :: split_go sep 0 rest [].
Proof.
  intros Hs. destruct sep as [|s0 sep']; [congruence|].
  pose proof (prefixb_app (s0 :: sep') rest) as E. cbn [app split_go] in *. rewrite E. cbn [List.length]. now rewrite Nat.sub_succ, Nat.sub_0_r, split_go_skip.
Qed.

Lemma split_go_end sep acc : split_go sep 0 [] acc = [rev acc].
Proof. reflexivity. Qed.

Lemma join_cons2 sep x y t : join sep (x :: y :: t) = x ++ sep ++ join sep (y :: t).
Proof. reflexivity. Qed.

Lemma split_join sep fs :
  sep <> [] -> forallb (freeof sep) fs = true -> fs <> [] ->
  split_on sep (join sep fs) = fs.
Proof.
  intros Hs Hf Hne. unfold split_on.
  induction fs as [|x fs IH]; [congruence|]. apply andb_true_iff in Hf as [Hx Hf].
  destruct fs as [|y fs].
  - cbn [join]. rewrite <- (app_nil_r x) at 1. rewrite split_go_field by assumption.
    cbn. now rewrite app_nil_r, rev_involutive.
  - rewrite join_cons2, split_go_field, split_go_sep, app_nil_r, rev_involutive by assumption.
    f_equal. apply IH; [assumption|congruence].
Qed.

Lemma join_nil_inv sep fs : sep <> [] -> join sep fs = [] -> fs = [] \/ fs = [[]].
Proof.
  intros Hs H. destruct fs as [|x [|y t]]; [now left|right; cbn in H; now subst|].
  rewrite join_cons2 in H. apply app_eq_nil in H as [_ [H _]%app_eq_nil]. congruence.
Qed.

Lemma split_string_join sep fs :
  sep <> [] -> forallb (freeof sep) fs = true -> fs <> [[]] ->
  split_string sep (join sep fs) = fs.
Proof.
  intros Hs Hf Hne. unfold split_string.
  destruct (join sep fs) eqn:E.
  - destruct (join_nil_inv sep fs Hs E); congruence.
  - rewrite <- E. apply split_join; auto. intros ->. discriminate.
Qed.

Lemma join_inj sep a b :
  sep <> [] -> a <> [] -> b <> [] -> forallb (freeof sep) a = true -> forallb (freeof sep) b = true ->
  join sep a = join sep b -> a = b.
Proof.
  intros Hs Ha Hb Hfa Hfb E.
  rewrite <- (split_join sep a) by assumption. rewrite <- (split_join sep b) by assumption. now rewrite E.
Qed.

Lemma split_terminated sep fs : sep <> [] -> forallb (freeof sep) fs = true ->
  split_on sep (List.concat (map (fun f => f ++ sep) fs)) = fs ++ [[]].
Proof.
  intros Hs. unfold split_on. induction fs as [|f fs IH]; cbn [forallb]; intros H; [reflexivity|].
  apply andb_true_iff in H as [Hf H]. cbn [map List.concat]. rewrite <- app_assoc.
  rewrite split_go_field, split_go_sep, app_nil_r, rev_involutive by assumption. cbn [app]. f_equal. now apply IH.
Qed.

Lemma join_ne sep x t : x <> [] -> join sep (x :: t) <> [].
Proof.
  intros Hx. destruct t as [|y t]; [exact Hx|]. rewrite join_cons2. intros [E _]%app_eq_nil. auto.
Qed.

Lemma forallb_join (P : ascii -> bool) sep fs :
  forallb P sep = true -> forallb (forallb P) fs = true -> forallb P (join sep fs) = true.
Proof.
  intros Hs. induction fs as [|x fs IH]; intros H; [reflexivity|].
  cbn [forallb] in H. apply andb_true_iff in H as [Hx H]. destruct fs as [|y fs]; [exact Hx|].
  rewrite join_cons2, !forallb_app, Hx, Hs. cbn [andb]. now apply IH.
Qed.

Lemma nochar_join c sep fs :
  nochar c sep = true -> forallb (nochar c) fs = true -> nochar c (join sep fs) = true.
Proof. apply forallb_join. Qed.

Lemma strip_empties_id fs : forallb (fun f => negb (is_nil f)) fs = true -> strip_empties fs = fs.
Proof.
  unfold strip_empties. induction fs as [|x fs IH]; cbn; [reflexivity|].
  intros [-> H]%andb_true_iff. now rewrite IH.
Qed.

Lemma split2_go_spec sep k v acc :
  sep <> [] -> freeof sep k = true ->
  split2_go sep (k ++ sep ++ v) acc = Some (rev acc ++ k, v).
Proof.
  intros Hs. revert acc. induction k as [|c k IH]; intros acc Hk.
  - destruct sep as [|s0 sep']; [congruence|].
    pose proof (prefixb_app (s0 :: sep') v) as E. cbn [app split2_go] in *. rewrite E, app_nil_r. do 2 f_equal.
    cbn [List.length skipn]. clear. induction sep' as [|x p IHp]; [reflexivity|exact IHp].
  - apply andb_true_iff in Hk as [Hc Hk]. cbn [app split2_go].
    rewrite (prefixb_notin sep c _ Hs Hc), IH by exact Hk. cbn [rev]. now rewrite <- app_assoc.
Qed.

Lemma split2_spec sep k v :
  sep <> [] -> freeof sep k = true -> split2 sep (k ++ sep ++ v) = Some (k, v).
Proof. intros. unfold split2. now rewrite split2_go_spec. Qed.

Definition ends_cr (l : bytes) : bool := match rev l with c :: _ => eqc c CR | [] => false end.
Definition line_ok (crlf : bool) (l : bytes) : bool := nochar LF l && (crlf || negb (ends_cr l)).

Lemma lines_go_nolf l rest acc :
  nochar LF l = true -> lines_go (l ++ rest) acc = lines_go rest (rev l ++ acc).
Proof.
  revert acc. induction l as [|c l IH]; intros acc H; [reflexivity|].
  apply andb_true_iff in H as [Hc%negb_true_iff H]. cbn [app lines_go].
  rewrite Hc, IH by exact H. cbn [rev]. now rewrite <- app_assoc.
Qed.

Lemma lines_go_ors crlf l rest :
  crlf || negb (ends_cr l) = true -> lines_go (ors_of crlf ++ rest) (rev l) = l :: lines_go rest [].
Proof.
  intros Hcr. destruct crlf; cbn [ors_of app lines_go]; unfold chomp_cr_rev.
  - (* CR LF: the CR is chomped *)
    change (eqc CR LF) with false. change (eqc LF LF) with true. change (eqc CR CR) with true. cbv iota.
    now rewrite rev_involutive.
  - (* LF: the line does not end in CR *)
    change (eqc LF LF) with true. cbv iota. f_equal.
    unfold ends_cr in Hcr. destruct l as [|c l _] using rev_ind; [reflexivity|].
    rewrite rev_unit in *. apply negb_true_iff in Hcr. rewrite Hcr, <- rev_unit. apply rev_involutive.
Qed.

Lemma lines_of_unlines crlf ls :
  forallb (line_ok crlf) ls = true -> lines_of (unlines (ors_of crlf) ls) = ls.
Proof.
  unfold lines_of, unlines. induction ls as [|l ls IH]; [reflexivity|].
  intros [[Hlf Hcr]%andb_true_iff H]%andb_true_iff. cbn [map List.concat].
  now rewrite <- app_assoc, lines_go_nolf, app_nil_r, lines_go_ors, IH.
Qed.

Lemma ends_cr_nochar l : nochar CR l = true -> ends_cr l = false.
Proof.
  unfold ends_cr. destruct l as [|c l _] using rev_ind; [reflexivity|].
  rewrite rev_unit, nochar_app. intros [_ [H _]%andb_true_iff]%andb_true_iff. now apply negb_true_iff.
Qed.

Lemma ends_cr_app_ne a b : b <> [] -> ends_cr (a ++ b) = ends_cr b.
Proof.
  intros Hb. unfold ends_cr. rewrite rev_app_distr.
  destruct b as [|x b _] using rev_ind; [congruence|]. now rewrite rev_unit.
Qed.

Lemma ends_cr_app a b : ends_cr a = false -> ends_cr b = false -> ends_cr (a ++ b) = false.
Proof. intros Ha Hb. destruct b; [now rewrite app_nil_r|now rewrite ends_cr_app_ne]. Qed.

Lemma unlines_app ors a b : unlines ors (a ++ b) = unlines ors a ++ unlines ors b.
Proof. unfold unlines. now rewrite map_app, concat_app. Qed.

Lemma has_app_single k r k' v : has k (r ++ [(k', v)]) = has k r || beqb k k'.
Proof.
  unfold has. induction r as [|[k2 v2] r IH]; cbn.
  - destruct (beqb k k'); reflexivity.
  - destruct (beqb k k2); [reflexivity|exact IH].
Qed.

Lemma put_deferred_new d k v r : has k r = false -> put_deferred d k v r = r ++ [(k, v)].
Proof. intros H. unfold put_deferred. now rewrite H. Qed.

Lemma put_new k v r : has k r = false -> put k v r = r ++ [(k, v)].
Proof.
  unfold has. induction r as [|[k2 v2] r IH]; cbn; [reflexivity|].
  destruct (beqb k k2); [discriminate|]. intros H. now rewrite IH.
Qed.

(* the step of every "fresh keys are appended in order" induction *)
Lemma nodup_keys_snoc (acc : record) k v ks :
  NoDup (keys acc ++ k :: ks) -> has k acc = false /\ NoDup (keys (acc ++ [(k, v)]) ++ ks).
Proof.
  intros H. split.
  - apply has_false_notin. intros Hin. apply (NoDup_remove_2 _ _ _ H), in_or_app. now left.
  - unfold keys. now rewrite map_app, <- app_assoc.
Qed.

(* PutDeferred and Put alike append a key that is not there yet *)
Lemma fold_fresh (op : bytes -> bytes -> record -> record) :
  (forall k v r, has k r = false -> op k v r = r ++ [(k, v)]) ->
  forall r acc, NoDup (keys acc ++ keys r) -> fold_left (fun a kv => op (fst kv) (snd kv) a) r acc = acc ++ r.
Proof.
  intros Hop. induction r as [|[k v] r IH]; intros acc H; [now rewrite app_nil_r|]. cbn [fold_left fst snd].
  destruct (nodup_keys_snoc acc k v _ H) as [Hh H']. rewrite Hop, IH by assumption. now rewrite <- app_assoc.
Qed.

Lemma attach_combine d fill i hs fs r :
  List.length hs = List.length fs -> NoDup (keys r ++ hs) ->
  attach d fill i hs fs r = r ++ combine hs fs.
Proof.
  revert i fs r. induction hs as [|h hs IH]; intros i [|f fs] r Hl Hnd; try discriminate.
  - cbn. now rewrite app_nil_r.
  - destruct (nodup_keys_snoc r h f hs Hnd) as [Hh Hnd'].
    cbn [attach combine]. rewrite put_deferred_new, IH by (assumption || now injection Hl).
    now rewrite <- app_assoc.
Qed.

Lemma combine_keys_values (r : record) : combine (keys r) (values r) = r.
Proof. induction r as [|[k v] r IH]; cbn; [reflexivity|]. f_equal. exact IH. Qed.

Fixpoint list_beqb (a b : list bytes) : bool :=
  match a, b with
  | [], [] => true
  | x :: a', y :: b' => beqb x y && list_beqb a' b'
  | _, _ => false
  end.
Lemma list_beqb_eq a b : list_beqb a b = true -> a = b.
Proof.
  revert b. induction a as [|x a IH]; intros [|y b] H; cbn in H; try discriminate; [reflexivity|].
  apply andb_true_iff in H as [Hx H]. destruct (beqb_spec x y); [|discriminate]. subst. f_equal. now apply IH.
Qed.
Lemma list_beqb_refl a : list_beqb a a = true.
Proof. induction a as [|x a IH]; cbn; [reflexivity|]. now rewrite beqb_refl. Qed.

Lemma keys_values_length (r : record) : List.length (keys r) = List.length (values r).
Proof. unfold keys, values. now rewrite !map_length. Qed.

Lemma attach_values d fill (r : record) : NoDup (keys r) -> attach d fill 0 (keys r) (values r) [] = r.
Proof.
  intros Hnd. rewrite attach_combine; [apply combine_keys_values|apply keys_values_length|exact Hnd].
Qed.

Lemma row_to_record_rect d rg fill (r : record) :
  nodupb (keys r) = true ->
  row_to_record d rg fill (keys r) (values r) = Some r.
Proof.
  intros Hnd. unfold row_to_record. rewrite keys_values_length, Nat.eqb_refl. cbn [orb].
  now rewrite attach_values by now apply nodupb_NoDup.
Qed.

Lemma check_keys_refl (r : record) : check_keys (keys r) r = true.
Proof. induction r as [|[k v] r IH]; cbn; [reflexivity|]. now rewrite beqb_refl. Qed.

Lemma pad_values_same (ks vs : list bytes) : List.length ks = List.length vs -> pad_values ks vs = vs.
Proof.
  revert vs. induction ks as [|k ks IH]; intros vs H; [reflexivity|].
  destruct vs as [|v vs]; [discriminate|]. cbn. f_equal. apply IH. now injection H.
Qed.

(* all records share the key list of the first one *)
Definition rect (recs : list record) : bool :=
  match recs with [] => true | r0 :: _ => forallb (fun r => list_beqb (keys r) (keys r0)) recs end.

Lemma rect_keys r0 recs r : rect (r0 :: recs) = true -> In r (r0 :: recs) -> keys r = keys r0.
Proof. unfold rect. rewrite forallb_forall. intros H Hr. apply list_beqb_eq. now apply H. Qed.

Lemma rect_of_keys hs recs : (forall r, In r recs -> keys r = hs) -> rect recs = true.
Proof.
  intros H. destruct recs as [|r0 recs]; [reflexivity|]. apply forallb_forall. intros r Hr.
  rewrite (H r Hr), (H r0) by now left. apply list_beqb_refl.
Qed.

Lemma rows_of_rect r0 recs :
  rect (r0 :: recs) = true -> rows_of (r0 :: recs) = Some (keys r0, map values (r0 :: recs)).
Proof.
  intros H. pose proof (fun r => rect_keys r0 recs r H) as Hk. clear H. unfold rows_of.
  revert Hk. generalize (r0 :: recs) as l. intros l Hk.
  replace (forallb (check_keys (keys r0)) l) with true.
  - f_equal. f_equal. apply map_ext_in. intros r Hr. rewrite <- (Hk r Hr). apply pad_values_same, keys_values_length.
  - symmetry. apply forallb_forall. intros r Hr. rewrite <- (Hk r Hr). apply check_keys_refl.
Qed.

Lemma map_opt_map {A B C} (f : B -> option C) (h : A -> B) (g : A -> C) l :
  (forall x, In x l -> f (h x) = Some (g x)) -> map_opt f (map h l) = Some (map g l).
Proof.
  induction l as [|x l IH]; intros H; [reflexivity|]. cbn.
  rewrite (H x) by now left. rewrite IH; [reflexivity|]. intros y Hy. apply H. now right.
Qed.

Lemma map_opt_all {A B} (f : A -> option B) (g : A -> B) l :
  (forall x, In x l -> f x = Some (g x)) -> map_opt f l = Some (map g l).
Proof. intros H. rewrite <- (map_id l) at 1. now apply map_opt_map. Qed.

Lemma map_opt_map_id {A B} (f : B -> option A) (h : A -> B) l :
  (forall x, In x l -> f (h x) = Some x) -> map_opt f (map h l) = Some l.
Proof. intros H. rewrite <- (map_id l) at 2. now apply map_opt_map. Qed.

Lemma rows_to_records d rg fill hs (recs : list record) :
  nodupb hs = true -> (forall r, In r recs -> keys r = hs) ->
  map_opt (row_to_record d rg fill hs) (map values recs) = Some recs.
Proof.
  intros Hnd Hk. apply map_opt_map_id. intros r Hr. rewrite <- (Hk r Hr) in *. now apply row_to_record_rect.
Qed.
