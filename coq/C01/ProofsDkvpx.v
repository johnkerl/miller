(* DKVPX: writer then reader is the identity.  The reader is the character-level machine of ModelDkvpx
   (pkg/dkvpx/dkvpx_reader.go readLine + readRecord). *)
From Miller Require Import Base.Bytes Base.Record C01.Model C01.ModelDkvpx C01.ProofsUtil C01.ProofsCsv.
Open Scope char_scope.

Lemma containsb_single c s : containsb [c] s = memc c s.
Proof.
  induction s as [|x s IH]; [reflexivity|]. cbn [containsb prefixb memc existsb]. rewrite IH.
  rewrite andb_true_r. unfold memc, eqc. reflexivity.
Qed.

Section Dx.
Variables (comma eq : ascii).
Hypothesis Hcomma : comma_ok comma = true.
Hypothesis Heq : comma_ok eq = true.
Hypothesis Hne : eqc comma eq = false.

Notation run := (dx_run comma eq).
Notation step := (dx_step comma eq).

(* the reader with [acc] (reversed) in the buffer it is filling -- the key before the IPS, the value after it --
   and [o] in the other one *)
Definition cur (inq hk : bool) (acc o : bytes) (idx : nat) (r : record) (s : bool) : dxs :=
  if hk then mkDx inq true o acc idx r s else mkDx inq false acc o idx r s.

(* "a line of this record has been read" matters at end of input only *)
Lemma run_started hk acc o idx r s c t :
  run (cur false hk acc o idx r s) (c :: t) = run (cur false hk acc o idx r true) (c :: t).
Proof. now destruct hk. Qed.

Lemma run_inq_close hk acc o idx r d t : eqc d DQ = false ->
  run (cur true hk acc o idx r true) (DQ :: d :: t) = run (cur false hk acc o idx r true) (d :: t).
Proof. intros Hd. destruct hk; cbn [dx_run cur dx_inq]; change (eqc DQ DQ) with true; cbn [andb]; now rewrite Hd. Qed.

Lemma run_out_char st c t : dx_inq st = false -> eqc c CR = false ->
  run st (c :: t) = snd (step st c) ++ run (fst (step st c)) t.
Proof. intros H Hc. cbn [dx_run]. rewrite H, Hc. cbn [andb]. now destruct (step st c). Qed.

Lemma run_out_crlf st t : dx_inq st = false -> run st (CR :: LF :: t) = snd (step st LF) ++ run (fst (step st LF)) t.
Proof. intros H. cbn [dx_run]. rewrite H. change (eqc CR CR) with true. change (eqc LF LF) with true. cbn [andb]. now destruct (step st LF). Qed.

Lemma step_lf st : dx_inq st = false -> step st LF = (dx_init, [dx_finish st]).
Proof. intros H. unfold dx_step. now rewrite H. Qed.

Lemma run_eol st crlf rest : dx_inq st = false -> run st (ors_of crlf ++ rest) = dx_finish st :: run dx_init rest.
Proof. intros H. destruct crlf; cbn [ors_of app]; [rewrite run_out_crlf|rewrite run_out_char]; now rewrite ?step_lf. Qed.

Lemma run_body f hk acc o idx r rest : no_crlf f = true ->
  run (cur true hk acc o idx r true) (quote_body false f ++ DQ :: rest)
  = run (cur true hk (rev f ++ acc) o idx r true) (DQ :: rest).
Proof.
  apply (run_quoted _ _ run (fun a => cur true hk a o idx r true)) with (cb := false).
  - now destruct hk.
  - intros a c t Hq Hcr. destruct hk; cbn [dx_run cur dx_inq]; now rewrite Hq, Hcr.
  - intros a d t Hd. destruct hk; cbn [dx_run cur dx_inq]; change (eqc CR DQ) with false; change (eqc CR CR) with true;
      cbn [andb]; now rewrite Hd.
  - now destruct hk.
Qed.

Definition dplain (f : bytes) : bool :=
  forallb (fun c => negb (eqc c LF || eqc c CR || eqc c DQ) && negb (eqc c comma) && negb (eqc c eq)) f.

Lemma needs_false_plain f : dx_needs [comma] [eq] f = false -> dplain f = true.
Proof.
  unfold dx_needs. rewrite !containsb_single. intros [[H Hc]%orb_false_iff He]%orb_false_iff.
  apply forallb_forall. intros c Hin.
  replace (eqc c LF || eqc c CR || eqc c DQ) with false.
  2:{ symmetry. apply not_true_is_false. intros E. rewrite (proj2 (existsb_exists _ _)) in H by eauto. discriminate. }
  destruct (eqc c comma) eqn:E1; [apply eqc_eq in E1; subst c; apply memc_In in Hin; congruence|].
  destruct (eqc c eq) eqn:E2; [apply eqc_eq in E2; subst c; apply memc_In in Hin; congruence|reflexivity].
Qed.

Lemma run_plain f : forall hk acc o idx r rest, dplain f = true ->
  run (cur false hk acc o idx r true) (f ++ rest) = run (cur false hk (rev f ++ acc) o idx r true) rest.
Proof.
  induction f as [|c f IH]; intros hk acc o idx r rest Hp; [reflexivity|].
  apply andb_true_iff in Hp as [[[Hc Hk]%andb_true_iff He]%andb_true_iff Hp]. apply negb_true_iff in Hc, Hk, He.
  apply orb_false_iff in Hc as [[Hl Hr]%orb_false_iff Hd].
  cbn [app rev]. rewrite <- app_assoc, <- IH by exact Hp. rewrite run_out_char by (assumption || now destruct hk).
  destruct hk; unfold dx_step; cbn [cur dx_inq dx_hk]; now rewrite Hd, Hl, Hk, He, ?andb_false_r.
Qed.

Lemma run_field f hk acc o idx r s d rest : no_crlf f = true -> eqc d DQ = false ->
  run (cur false hk acc o idx r s) (dx_field [comma] [eq] f ++ d :: rest)
  = run (cur false hk (rev f ++ acc) o idx r true) (d :: rest).
Proof.
  intros Hn Hd. unfold dx_field. destruct (dx_needs [comma] [eq] f) eqn:E.
  - cbn [app]. rewrite run_out_char by (reflexivity || now destruct hk).
    replace (step (cur false hk acc o idx r s) DQ) with (cur true hk acc o idx r true, @nil record) by now destruct hk.
    cbn [fst snd app]. rewrite <- app_assoc. cbn [app]. now rewrite run_body, run_inq_close.
  - apply needs_false_plain in E. destruct f as [|c f]; cbn [app]; rewrite run_started; [reflexivity|].
    now apply (run_plain (c :: f)).
Qed.

Definition dx_pair (kv : bytes * bytes) : bytes := dx_field [comma] [eq] (fst kv) ++ [eq] ++ dx_field [comma] [eq] (snd kv).

Lemma run_pair k v idx r s d rest : no_crlf k = true -> no_crlf v = true -> eqc d DQ = false ->
  run (cur false false [] [] idx r s) (dx_pair (k, v) ++ d :: rest) = run (cur false true (rev v) (rev k) idx r true) (d :: rest).
Proof.
  intros Hk Hv Hd. destruct (comma_facts eq Heq) as (E1 & E2 & E3). unfold dx_pair. cbn [fst snd].
  rewrite <- !app_assoc. cbn [app]. rewrite run_field, app_nil_r, run_out_char by (assumption || reflexivity).
  replace (step (cur false false (rev k) [] idx r true) eq) with (cur false true [] (rev k) idx r true, @nil record)
    by (unfold dx_step; cbn [cur dx_inq dx_hk]; now rewrite E1, E3, (eqc_sym eq), Hne, eqc_refl).
  cbn [fst snd app]. now rewrite run_field, app_nil_r.
Qed.

Definition dx_cell_ok (x : bytes) : bool := no_crlf x.
Definition dx_rec_ok (r : record) : bool :=
  nodupb (keys r) && forallb (fun k => negb (is_nil k) && no_crlf k) (keys r) && forallb no_crlf (values r).

(* finalizePair + Put for a pair with a non-empty, new key *)
Lemma put_pair k v idx acc s : k <> [] -> has k acc = false ->
  dx_put (mkDx false true (rev k) (rev v) idx acc s) = acc ++ [(k, v)].
Proof.
  intros Hk Hh. unfold dx_put, dx_final. cbn [dx_hk dx_k dx_v dx_idx dx_rec]. rewrite !rev_involutive.
  destruct k as [|x k _] using rev_ind; [congruence|]. rewrite rev_unit. now apply put_new.
Qed.

Lemma run_pairs crlf : forall (r : record) kv (acc : record) idx s rest,
  NoDup (keys acc ++ keys (kv :: r)) ->
  forallb (fun k => negb (is_nil k) && no_crlf k) (keys (kv :: r)) = true -> forallb no_crlf (values (kv :: r)) = true ->
  run (cur false false [] [] idx acc s) (join [comma] (map dx_pair (kv :: r)) ++ ors_of crlf ++ rest)
  = (acc ++ kv :: r) :: run dx_init rest.
Proof.
  destruct (comma_facts comma Hcomma) as (C1 & C2 & C3).
  induction r as [|kv2 r IH]; intros [k v] acc idx s rest Hnd [[Hkn Hk]%andb_true_iff Hks]%andb_true_iff [Hv Hvs]%andb_true_iff;
    destruct (nodup_keys_snoc acc k v _ Hnd) as [Hh Hnd']; assert (Hkne : k <> []) by now destruct k.
  - cbn [map join].
    assert (Hd : exists d t, ors_of crlf ++ rest = d :: t /\ eqc d DQ = false) by (destruct crlf; now eexists _, _).
    destruct Hd as (d & t & E & Hd). rewrite E, run_pair, <- E, run_eol by assumption || reflexivity.
    unfold dx_finish. cbn [cur dx_hk]. now rewrite orb_true_r, put_pair.
  - cbn [map] in *. rewrite join_cons2, <- !app_assoc. cbn [app].
    rewrite (run_pair k v idx acc s comma), run_out_char by assumption || reflexivity.
    replace (step (cur false true (rev v) (rev k) idx acc true) comma)
      with (cur false false [] [] (S idx) (acc ++ [(k, v)]) true, @nil record)
      by (unfold dx_step; cbn [cur dx_inq dx_idx]; now rewrite C1, C3, eqc_refl, put_pair).
    cbn [fst snd app]. rewrite IH by assumption. now rewrite <- app_assoc.
Qed.

Lemma run_lines crlf recs : forallb dx_rec_ok recs = true ->
  run dx_init (write_dkvpx [comma] [eq] crlf recs) = recs.
Proof.
  unfold write_dkvpx, unlines. induction recs as [|r recs IH]; [reflexivity|]. intros [Hr H]%andb_true_iff.
  cbn [map List.concat]. rewrite <- app_assoc. destruct r as [|kv r].
  - cbn [dkvpx_line map join app]. rewrite run_eol by reflexivity. f_equal. now apply IH.
  - apply andb_true_iff in Hr as [[Hnd Hk]%andb_true_iff Hv]. unfold dkvpx_line. fold dx_pair.
    change dx_init with (cur false false [] [] 0 [] false) at 1.
    rewrite run_pairs by (assumption || now apply nodupb_NoDup). cbn [app]. f_equal. now apply IH.
Qed.
End Dx.

Lemma fold_put_deferred_id d (r : record) acc : NoDup (keys acc ++ keys r) ->
  fold_left (fun a kv => put_deferred d (fst kv) (snd kv) a) r acc = acc ++ r.
Proof. apply (fold_fresh (put_deferred d) (put_deferred_new d)). Qed.

Definition head_not_ef (a : bytes) : Prop := match a with c :: _ => eqc c EF = false | [] => False end.
Lemma head_ef_app a b : head_not_ef a -> head_not_ef (a ++ b).
Proof. destruct a; [intros []|intros H; exact H]. Qed.
Lemma head_ef_app_T a b : head_not_ef a -> match a ++ b with c :: _ => eqc c EF = false | [] => True end.
Proof. destruct a; [intros []|intros H; exact H]. Qed.

(* one-byte IFS and IPS below 0x80, different from each other, from the quote, CR and LF; records (possibly empty) with unique,
   non-empty keys; no cell containing CR LF (known finding dkvpx-reader-crlf-in-quoted-field-to-lf); the text does not start
   with byte 0xEF (BOM).  Everything else -- separators, quotes, LF, lone CR, empty lines inside a cell, leading and trailing
   spaces, any bytes -- is representable. *)
Definition wf_dkvpx (comma eq : ascii) (recs : list record) : bool :=
  comma_ok comma && comma_ok eq && negb (eqc comma eq) && forallb dx_rec_ok recs
  && match recs with ((k, _) :: _) :: _ => first_not_ef [k] | _ => true end.

Lemma dkvpx_roundtrip comma eq crlf dedupe recs :
  wf_dkvpx comma eq recs = true ->
  read_dkvpx comma eq dedupe (write_dkvpx [comma] [eq] crlf recs) = recs.
Proof.
  unfold wf_dkvpx.
  intros [[[[Hc He]%andb_true_iff Hne%negb_true_iff]%andb_true_iff Hrecs]%andb_true_iff Hbom]%andb_true_iff.
  unfold read_dkvpx. rewrite strip_bom_head; [rewrite (run_lines comma eq Hc He Hne) by assumption|].
  - apply map_id_in. intros r Hr. rewrite forallb_forall in Hrecs. specialize (Hrecs r Hr).
    apply andb_true_iff in Hrecs as [[Hnd _]%andb_true_iff _]. apply (fold_put_deferred_id dedupe r []). now apply nodupb_NoDup.
  - (* the text starts with the first key, quoted or not, or with the line end of an empty record *)
    unfold write_dkvpx, unlines, dkvpx_line. destruct recs as [|[|[[|c0 k] v] r] recs]; [exact I|now destruct crlf| |].
    { exfalso. unfold dx_rec_ok in Hrecs. cbn in Hrecs. now rewrite andb_false_r in Hrecs. }
    cbn [map List.concat fst snd]. apply head_ef_app_T.
    assert (Hf : head_not_ef (dx_field [comma] [eq] (c0 :: k)))
      by (unfold dx_field; destruct (dx_needs [comma] [eq] (c0 :: k)); [reflexivity|now apply negb_true_iff]).
    destruct r; cbn [map join]; now repeat apply head_ef_app.
Qed.

(* the exclusion is real: CR LF inside a quoted cell comes back as LF (readLine normalises it, as go-csv does) *)
Lemma dkvpx_crlf_in_cell_refuted :
  exists recs, forallb (fun r => nodupb (keys r)) recs = true
    /\ read_dkvpx "," "=" true (write_dkvpx [","] ["="] false recs) <> recs.
Proof. exists [[(B "a", bs [120;13;10;121]%N)]]. split; [reflexivity|]. vm_compute. discriminate. Qed.

(* regression example for /repo 567ffc2e0 over the model: empty lines and leading newlines inside quotes *)
Example dkvpx_newline_regression :
  read_dkvpx "," "=" true (write_dkvpx [","] ["="] false [[(B "a", bs [120;10;10;121]%N); (B "b", bs [10;122]%N); (bs [99;34;10]%N, bs [34;10;10]%N)]])
  = [[(B "a", bs [120;10;10;121]%N); (B "b", bs [10;122]%N); (bs [99;34;10]%N, bs [34;10;10]%N)]].
Proof. vm_compute. reflexivity. Qed.
