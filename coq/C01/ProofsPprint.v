(* PPRINT, non-barred (left- or right-aligned): writer then reader is the identity, for EVERY display-width function,
   heterogeneity blocks included.  The reader is the csvlite one with IFS = space, repeated IFS, "-" = empty. *)
From Miller Require Import Base.Bytes Base.Record C01.Model C01.ModelLite
     C01.ModelPprint C01.ProofsUtil C01.ProofsCsv C01.ProofsBlocks C01.ProofsLite.
From Miller Require Import Base.ListFacts.
Open Scope char_scope.

Lemma spaces_S n : spaces (S n) = SP :: spaces n.
Proof. reflexivity. Qed.
Lemma spaces_snoc n rest : spaces n ++ SP :: rest = SP :: spaces n ++ rest.
Proof. induction n as [|n IH]; [reflexivity|]. rewrite spaces_S. cbn [app]. now rewrite IH. Qed.
Lemma spaces_end n : spaces n ++ [SP] = spaces (S n).
Proof. rewrite spaces_snoc. now rewrite app_nil_r. Qed.
Lemma rev_spaces n : rev (spaces n) = spaces n.
Proof. induction n as [|n IH]; [reflexivity|]. rewrite spaces_S. cbn [rev]. now rewrite IH, spaces_end. Qed.
Lemma nochar_spaces c n : eqc SP c = false -> nochar c (spaces n) = true.
Proof. intros H. apply forallb_repeat. now rewrite H. Qed.

(* the fields of a line under IFS = space, --repifs *)
Definition T (s : bytes) : list bytes := strip_empties (split_go [SP] 0 s []).

Lemma field_split_T s : field_split [SP] true s = T s.
Proof. unfold field_split, split_string, split_on, T. destruct s; reflexivity. Qed.

Lemma T_spaces n rest : T (spaces n ++ rest) = T rest.
Proof.
  induction n as [|n IH]; [reflexivity|]. rewrite spaces_S. cbn [app]. rewrite <- IH. unfold T.
  change (SP :: spaces n ++ rest) with ([SP] ++ spaces n ++ rest). now rewrite split_go_sep by discriminate.
Qed.

Definition cell_ok (x : bytes) : bool := negb (is_nil x) && nochar SP x.
Lemma cell_ok_inv x : cell_ok x = true -> x <> [] /\ freeof [SP] x = true.
Proof. unfold cell_ok. rewrite <- nochar_freeof. intros H. apply andb_true_iff in H as [H1 H2]. split; [now destruct x|exact H2]. Qed.

Lemma T_cell x rest : cell_ok x = true -> T (x ++ SP :: rest) = x :: T rest.
Proof.
  intros H. apply cell_ok_inv in H as [Hx Hs]. unfold T. rewrite split_go_field by (discriminate || assumption).
  change (SP :: rest) with ([SP] ++ rest). rewrite split_go_sep by discriminate.
  rewrite app_nil_r, rev_involutive. cbn [strip_empties filter]. now destruct x.
Qed.
Lemma T_cell_end x : cell_ok x = true -> T x = [x].
Proof.
  intros H. apply cell_ok_inv in H as [Hx Hs]. unfold T. rewrite <- (app_nil_r x) at 1.
  rewrite split_go_field by (discriminate || assumption). cbn. rewrite app_nil_r, rev_involutive. now destruct x.
Qed.

(* both alignments write the cells with any number of spaces before each and, except after the last, any number of
   spaces and the separating space after it *)
Inductive spaced : list bytes -> bytes -> Prop :=
| spaced_nil : spaced [] []
| spaced_one a x : spaced [x] (spaces a ++ x)
| spaced_cons a b x y cells t :
    spaced (y :: cells) t -> spaced (x :: y :: cells) (spaces a ++ x ++ spaces b ++ SP :: t).

Lemma spaced_T cells t : spaced cells t -> forallb cell_ok cells = true -> T t = cells.
Proof.
  induction 1 as [|a x|a b x y cells t _ IH]; cbn [forallb]; intros H; [reflexivity| |];
    apply andb_true_iff in H as [Hx H]; rewrite T_spaces.
  - now apply T_cell_end.
  - now rewrite spaces_snoc, T_cell, T_spaces, IH.
Qed.

Lemma spaced_nochar c cells t : eqc SP c = false -> spaced cells t -> forallb (nochar c) cells = true -> nochar c t = true.
Proof.
  intros Hc. induction 1 as [|a x|a b x y cells t _ IH]; cbn [forallb]; intros H; [reflexivity| |];
    apply andb_true_iff in H as [Hx H].
  - now rewrite nochar_app, nochar_spaces.
  - change (SP :: t) with ([SP] ++ t). rewrite !nochar_app, !nochar_spaces, Hx, IH by assumption. unfold nochar. cbn [forallb]. now rewrite Hc.
Qed.

Lemma spaced_last cells t : spaced cells t -> cells <> [] -> exists p, t = p ++ last cells [].
Proof.
  induction 1 as [|a x|a b x y cells t _ IH]; intros Hne; [congruence|now exists (spaces a)|].
  destruct IH as [p ->]; [discriminate|]. exists (spaces a ++ x ++ spaces b ++ SP :: p).
  change (last (x :: y :: cells) []) with (last (y :: cells) []). now rewrite <- !app_assoc.
Qed.

(* the first byte of a row is a space or the first byte of the first cell *)
Lemma spaced_no_bom x cells t : spaced (x :: cells) t -> x <> [] -> head_is EF x = false -> strip_bom t = t.
Proof.
  intros Hs Hx Hef. apply strip_bom_head.
  inversion Hs as [|a ?|a ? ? ? ? ? _]; subst; (destruct a; [destruct x; [congruence|exact Hef]|reflexivity]).
Qed.

Section Rows.
Variable w : bytes -> nat.

Lemma pp_row_spaced cells : forall ws, spaced cells (pp_row w ws cells).
Proof.
  induction cells as [|x [|y t] IH]; intros ws.
  - destruct ws; constructor.
  - destruct ws; apply (spaced_one 0).
  - destruct ws as [|wd wt]; [exact (spaced_cons 0 0 _ _ _ _ (IH []))|exact (spaced_cons 0 (wd - w x) _ _ _ _ (IH wt))].
Qed.

Lemma pp_row_right_spaced cells : forall ws, spaced cells (pp_row_right w ws cells).
Proof.
  induction cells as [|x [|y t] IH]; intros ws; [constructor| |exact (spaced_cons _ 0 _ _ _ _ (IH (tl ws)))].
  cbn [pp_row_right]. rewrite app_nil_r. constructor.
Qed.

Lemma row_spaced right ws cells : spaced cells (pp_row_g w right ws cells).
Proof. destruct right; [apply pp_row_right_spaced|apply pp_row_spaced]. Qed.
End Rows.

Definition pp_key_ok (k : bytes) : bool := negb (is_nil k) && nochar SP k && nochar LF k && nochar COMMA k.
Definition pp_val_ok (v : bytes) : bool := nochar SP v && nochar LF v && negb (beqb v ["-"]).
(* records non-empty with unique keys; keys non-empty, free of space, LF and "," (the writer batches records on their
   ","-joined keys); values free of space and LF and different from "-" (which stands for the empty value: the empty
   value itself is fine); the last key and the last value of a record do not end in CR unless --ors crlf *)
Definition pp_rec_ok (crlf : bool) (r : record) : bool :=
  negb (is_nil r) && nodupb (keys r) && forallb pp_key_ok (keys r) && forallb pp_val_ok (values r)
  && (crlf || (negb (ends_cr (last (keys r) [])) && negb (ends_cr (last (values r) [])))).
Definition wf_pprint (crlf : bool) (recs : list record) : bool :=
  forallb (pp_rec_ok crlf) recs && match recs with r0 :: _ => first_not_ef (keys r0) | [] => true end.

Lemma void_cells vs : forallb pp_val_ok vs = true -> map (void_map (Some ["-"])) (map pp_cell vs) = vs.
Proof.
  induction vs as [|v vs IH]; intros H; [reflexivity|].
  cbn [forallb] in H. apply andb_true_iff in H as [Hv H]. cbn [map]. rewrite IH by assumption. f_equal.
  unfold pp_val_ok in Hv. apply andb_true_iff in Hv as [_ Hv]. apply negb_true_iff in Hv.
  destruct v as [|c v]; [reflexivity|]. cbn [pp_cell void_map]. now rewrite Hv.
Qed.

Lemma last_map_cell vs : vs <> [] -> ends_cr (last (map pp_cell vs) []) = ends_cr (last vs []).
Proof. destruct vs as [|v vs _] using rev_ind; intros H; [congruence|]. rewrite map_app. cbn [map]. rewrite !last_last. now destruct v. Qed.

Section Main.
Variables (w : bytes -> nat) (right crlf d rg : bool).
Notation L := (pp_batch_lines_g w right false).

Lemma rec_ok_facts r : pp_rec_ok crlf r = true ->
  r <> [] /\ NoDup (keys r) /\ forallb pp_key_ok (keys r) = true /\ forallb pp_val_ok (values r) = true
  /\ (crlf || (negb (ends_cr (last (keys r) [])) && negb (ends_cr (last (values r) [])))) = true.
Proof. unfold pp_rec_ok. intros [(? & ? & ? & ?)%rec_ok_inv ?]%andb_true_iff. tauto. Qed.

Lemma pp_ok_keys r : pp_rec_ok crlf r = true -> r <> [] /\ forallb (nochar ",") (keys r) = true.
Proof.
  intros H. destruct (rec_ok_facts r H) as (? & _ & Hk & _). split; [assumption|].
  eapply forallb_impl; [|exact Hk]. unfold pp_key_ok. intros k Hk0. now apply andb_true_iff in Hk0.
Qed.

Lemma line_facts ws cells :
  cells <> [] -> forallb (fun x => cell_ok x && nochar LF x) cells = true -> (crlf || negb (ends_cr (last cells []))) = true ->
  splits [SP] true (pp_row_g w right ws cells) cells /\ line_ok crlf (pp_row_g w right ws cells) = true.
Proof.
  rewrite forallb_andb. intros Hne [Hc Hlf]%andb_true_iff Hcr.
  pose proof (row_spaced w right ws cells) as Hs. pose proof (spaced_T _ _ Hs Hc) as HT. split; [split|].
  - destruct (pp_row_g w right ws cells); [|reflexivity]. now destruct cells.
  - now rewrite field_split_T.
  - unfold line_ok. rewrite (spaced_nochar LF _ _ eq_refl Hs Hlf). destruct crlf; [reflexivity|].
    destruct (spaced_last _ _ Hs Hne) as [p ->]. rewrite ends_cr_app_ne; [exact Hcr|].
    rewrite forallb_forall in Hc. now apply cell_ok_inv, Hc, last_In.
Qed.

Lemma key_line_facts ws r : pp_rec_ok crlf r = true ->
  splits [SP] true (pp_row_g w right ws (keys r)) (keys r) /\ line_ok crlf (pp_row_g w right ws (keys r)) = true.
Proof.
  intros H. destruct (rec_ok_facts r H) as (Hne & _ & Hk & _ & Hcr).
  apply line_facts; [now destruct r| |destruct crlf; [reflexivity|now apply andb_true_iff in Hcr]].
  eapply forallb_impl; [|exact Hk]. unfold pp_key_ok, cell_ok. intros k. rewrite !andb_true_iff. tauto.
Qed.

Lemma val_line_facts ws r : pp_rec_ok crlf r = true ->
  splits [SP] true (pp_row_g w right ws (map pp_cell (values r))) (map pp_cell (values r))
  /\ line_ok crlf (pp_row_g w right ws (map pp_cell (values r))) = true.
Proof.
  intros H. destruct (rec_ok_facts r H) as (Hne & _ & _ & Hv & Hcr).
  apply line_facts; [now destruct r| |].
  - rewrite forallb_map. eapply forallb_impl; [|exact Hv]. unfold pp_val_ok, cell_ok. intros [|x v]; [reflexivity|].
    cbn [pp_cell is_nil negb]. rewrite !andb_true_iff. tauto.
  - destruct crlf; [reflexivity|]. rewrite last_map_cell by now destruct r. now apply andb_true_iff in Hcr.
Qed.

Definition pp_key_line (b : list record) (r : record) : bytes := pp_row_g w right (map (pp_width w b) (keys r)) (keys r).
Definition pp_val_line (b : list record) (r : record) : bytes :=
  pp_row_g w right (map (pp_width w b) (keys r)) (map pp_cell (values r)).

Lemma batch_lines b : block (pp_rec_ok crlf) b -> L b = pp_key_line b (hd [] b) :: map (pp_val_line b) b.
Proof.
  intros Hb. destruct (block_ok _ b Hb) as [_ Hall]. destruct Hb as [Hne _]. destruct b as [|r b']; [congruence|].
  assert (Hnil : forall x, pp_rec_ok crlf x = true -> is_nil x = false) by (intros x Hx; apply rec_ok_facts in Hx; now destruct x).
  unfold pp_batch_lines_g, pp_key_line, pp_val_line. cbn [hd forallb]. rewrite (Hnil r (Forall_inv Hall)). cbn [orb andb app]. f_equal.
  generalize (pp_width w (r :: b')). intros wf. clear Hne.
  induction Hall as [|x l Hx Hl IH]; [reflexivity|]. cbn [flat_map map]. now rewrite (Hnil x Hx), IH.
Qed.

Lemma pp_block_ok b : block (pp_rec_ok crlf) b -> forallb (line_ok crlf) (L b) = true.
Proof.
  intros Hb. rewrite (batch_lines b Hb). destruct (block_ok _ b Hb) as [H0 Hall]. cbn [forallb]. apply andb_true_iff. split.
  - now apply key_line_facts.
  - rewrite forallb_map. apply forallb_forall. rewrite Forall_forall in Hall. intros r Hr. now apply val_line_facts, Hall.
Qed.

Lemma read_pp_blocks bs : Forall (block (pp_rec_ok crlf)) bs ->
  lite_read_go [SP] true (Some ["-"]) d rg None (sep_lines L bs) = Some (List.concat bs).
Proof.
  apply lite_read_blocks with (hl := fun b => pp_key_line b (hd [] b)) (D := pp_val_line).
  - exact batch_lines.
  - intros b Hb. now apply key_line_facts, (block_ok _ b Hb).
  - intros b r Hr. exists (map pp_cell (values r)). destruct (rec_ok_facts r Hr) as (_ & Hnd & _ & Hv & _).
    split; [now apply val_line_facts|]. split; [now apply void_cells|exact Hnd].
Qed.
End Main.

Lemma pprint_roundtrip w right crlf dedupe ragged recs :
  wf_pprint crlf recs = true ->
  read_pprint dedupe ragged (write_pprint_g w right false false crlf recs) = Some recs.
Proof.
  unfold wf_pprint. intros H. apply andb_true_iff in H as [Hrecs Hbom].
  destruct (all_blocks _ (pp_ok_keys crlf) recs Hrecs) as [Hcat Hbs].
  unfold read_pprint, read_lite, write_pprint_g.
  rewrite pp_texts_lines with (L := pp_batch_lines_g w right false) (1 := pp_ok_keys crlf) (2 := Hbs) by reflexivity.
  rewrite lines_of_blocks with (1 := Hbs) by apply pp_block_ok.
  rewrite strip_bom_first_lines with (hl := pp_key_line w right) (1 := Hbs).
  - rewrite (read_pp_blocks w right crlf) by assumption. now rewrite Hcat.
  - intros b Hb. rewrite (batch_lines w right crlf b Hb). now eexists.
  - rewrite Hcat. destruct recs as [|r0 rest]; [exact I|]. intros b.
    apply andb_true_iff in Hrecs as [Hr0 _]. destruct (rec_ok_facts crlf r0 Hr0) as (Hne & _ & Hk & _).
    destruct r0 as [|[k v] r0]; [congruence|]. cbn [keys map fst forallb first_not_ef] in *.
    apply andb_true_iff in Hk as [Hk _]. unfold pp_key_ok in Hk. repeat (apply andb_true_iff in Hk as [Hk ?]).
    eapply spaced_no_bom; [apply row_spaced|now destruct k|].
    destruct k; [discriminate|]. now apply negb_true_iff in Hbom.
Qed.

(* "-" stands for the empty value: a value "-" comes back empty *)
Lemma pprint_dash_value_refuted :
  exists recs, forallb (fun r => negb (is_nil r) && nodupb (keys r)) recs = true
    /\ read_pprint true false (write_pprint_g (@List.length ascii) false false false false recs) <> Some recs.
Proof. exists [[(B "a", B "-")]]. split; [reflexivity|]. vm_compute. discriminate. Qed.

(* records are batched on their ","-joined keys: different key lists with equal joins share one header *)
Lemma pprint_comma_keys_refuted :
  exists recs, forallb (fun r => negb (is_nil r) && nodupb (keys r)) recs = true
    /\ read_pprint true false (write_pprint_g (@List.length ascii) false false false false recs) <> Some recs.
Proof. exists [[(B "a,b", B "1"); (B "c", B "2")]; [(B "a", B "3"); (B "b,c", B "4")]]. split; [reflexivity|]. vm_compute. discriminate. Qed.
