(* csvlite: writer then reader is the identity, including schema changes (heterogeneity blocks). *)
From Miller Require Import Base.Bytes Base.Record C01.Model C01.ModelLite
     C01.ProofsUtil C01.ProofsTsv C01.ProofsCsv C01.ProofsBlocks.
From Miller Require Import Base.ListFacts.
Open Scope char_scope.

Definition COMMA : ascii := ",".
Definition lite_val_ok (c : ascii) (x : bytes) : bool := nochar c x && nochar LF x && nochar CR x.
Definition lite_key_ok (c : ascii) (x : bytes) : bool := lite_val_ok c x && nochar COMMA x.
Definition lite_rec_ok (c : ascii) (r : record) : bool :=
  negb (is_nil r) && nodupb (keys r) && forallb (lite_key_ok c) (keys r) && forallb (lite_val_ok c) (values r)
  && not_single_empty (keys r) && not_single_empty (values r).
(* one-byte OFS = IFS = c (not CR, LF, 0xEF); records non-empty with unique keys; cells free of c, CR, LF; keys also
   free of "," (the writer detects schema change on the ","-joined keys); a single empty field would be an empty
   line (= schema change); first key not starting with byte 0xEF (BOM) *)
Definition wf_lite (c : ascii) (recs : list record) : bool :=
  negb (eqc c LF) && negb (eqc c CR) && negb (eqc c EF)
  && forallb (lite_rec_ok c) recs
  && match recs with r0 :: _ => first_not_ef (keys r0) | [] => true end.

(* the csvlite / PPRINT reader on one line, whatever the separator, the repeated-separator flag and the void representation *)
Section Reader.
Variables (ifs : bytes) (repifs : bool) (void : option bytes) (d rg : bool).
Notation R := (lite_read_go ifs repifs void d rg).

Definition splits (l : bytes) (fs : list bytes) : Prop := is_nil l = false /\ field_split ifs repifs l = fs.

Lemma lite_header l ks rest : splits l ks -> R None (l :: rest) = R (Some ks) rest.
Proof. intros [Hn Hs]. cbn [lite_read_go]. now rewrite Hn, Hs. Qed.

Lemma lite_data l fs r rest : splits l fs -> map (void_map void) fs = values r -> NoDup (keys r) ->
  R (Some (keys r)) (l :: rest) = option_map (cons r) (R (Some (keys r)) rest).
Proof.
  intros [Hn Hs] Hv Hnd. cbn [lite_read_go]. rewrite Hn, Hs.
  assert (Hl : List.length (keys r) = List.length fs) by now rewrite <- (map_length (void_map void) fs), Hv, keys_values_length.
  rewrite Hl, Nat.eqb_refl, firstn_all, skipn_all, app_nil_r, Hv, attach_values by assumption. reflexivity.
Qed.

(* blocks of a header line [hl] and a data line [D] per record *)
Lemma lite_read_blocks ok (hl : list record -> bytes) (D : list record -> record -> bytes) L bs :
  (forall b, block ok b -> L b = hl b :: map (D b) b) ->
  (forall b, block ok b -> splits (hl b) (keys (hd [] b))) ->
  (forall b r, ok r = true -> exists fs, splits (D b r) fs /\ map (void_map void) fs = values r /\ NoDup (keys r)) ->
  Forall (block ok) bs -> R None (sep_lines L bs) = Some (List.concat bs).
Proof.
  intros HL Hh Hd.
  apply read_blocks with (at_keys := fun ks s => s = Some ks) (H := fun b => [hl b]) (T := fun _ => []) (D := D).
  - intros b Hb. rewrite (HL b Hb). cbn. now rewrite app_nil_r.
  - reflexivity.
  - reflexivity.
  - intros b rest Hb. eexists. split; [reflexivity|]. now apply lite_header, Hh.
  - intros b r s rest Hr ->. exists (Some (keys r)). split; [reflexivity|].
    destruct (Hd b r Hr) as (fs & Hs & Hv & Hnd). now apply (lite_data _ fs).
  - reflexivity.
Qed.
End Reader.

Lemma lite_lines ofs recs : forall last, Forall (fun r : record => r <> []) recs ->
  csvlite_lines ofs false last false recs
  = stream_lines (fun r => [join ofs (keys r)]) (fun r => join ofs (values r)) last recs.
Proof.
  induction recs as [|r recs IH]; intros last Hne; [reflexivity|]. inversion Hne as [|? ? Hr Hne']; subst.
  cbn [csvlite_lines stream_lines]. fold (jk r). rewrite IH by assumption.
  replace (is_nil r) with false by now destruct r.
  destruct last as [l|]; [|reflexivity].
  destruct (beqb_spec l (jk r)), (beqb_spec (jk r) l); congruence || reflexivity.
Qed.

Section Lite.
Variables (c : ascii) (d rg : bool).
Hypothesis Hlf : eqc c LF = false.
Hypothesis Hcr : eqc c CR = false.

Lemma rec_facts r : lite_rec_ok c r = true ->
  r <> [] /\ NoDup (keys r) /\ forallb (lite_val_ok c) (keys r) = true /\ forallb (lite_val_ok c) (values r) = true
  /\ forallb (nochar ",") (keys r) = true /\ not_single_empty (keys r) = true /\ not_single_empty (values r) = true.
Proof.
  unfold lite_rec_ok, lite_key_ok. intros [[(Hne & Hnd & Hk & Hv)%rec_ok_inv Hnk]%andb_true_iff Hnv]%andb_true_iff.
  rewrite forallb_andb in Hk. now apply andb_true_iff in Hk as [Hk Hc].
Qed.

Lemma lite_ok_keys r : lite_rec_ok c r = true -> r <> [] /\ forallb (nochar ",") (keys r) = true.
Proof. intros H. now destruct (rec_facts r H) as (? & _ & _ & _ & ? & _). Qed.

Lemma cells_line crlf fs : fs <> [] -> not_single_empty fs = true -> forallb (lite_val_ok c) fs = true ->
  splits [c] false (join [c] fs) fs /\ line_ok crlf (join [c] fs) = true.
Proof.
  unfold lite_val_ok. rewrite !forallb_andb. intros Hne Hn [[Hc Hl]%andb_true_iff Hr]%andb_true_iff. split; [split|].
  - now apply join_not_nil.
  - apply split_string_join; [discriminate| |now intros ->].
    eapply forallb_impl; [|exact Hc]. intros f Hf. now rewrite <- nochar_freeof.
  - assert (Hsep : forall x, eqc c x = false -> nochar x [c] = true) by (intros x Hx; unfold nochar; cbn [forallb]; now rewrite Hx).
    unfold line_ok. rewrite nochar_join, ends_cr_nochar; [now rewrite orb_true_r|apply nochar_join| |]; auto.
Qed.

Lemma lite_key_line crlf r : lite_rec_ok c r = true ->
  splits [c] false (join [c] (keys r)) (keys r) /\ line_ok crlf (join [c] (keys r)) = true.
Proof. intros H. destruct (rec_facts r H) as (Hne & _ & Hk & _ & _ & Hnk & _). apply cells_line; [now destruct r|assumption|assumption]. Qed.
Lemma lite_val_line crlf r : lite_rec_ok c r = true ->
  splits [c] false (join [c] (values r)) (values r) /\ line_ok crlf (join [c] (values r)) = true.
Proof. intros H. destruct (rec_facts r H) as (Hne & _ & _ & Hv & _ & _ & Hnv). apply cells_line; [now destruct r|assumption|assumption]. Qed.

Notation L := (fun b : list record => join [c] (keys (hd [] b)) :: map (fun r => join [c] (values r)) b).

Lemma lite_block_ok crlf b : block (lite_rec_ok c) b -> forallb (line_ok crlf) (L b) = true.
Proof.
  intros Hb. destruct (block_ok _ b Hb) as [H0 Hall]. cbn [forallb]. rewrite (proj2 (lite_key_line crlf _ H0)), forallb_map.
  apply forallb_forall. rewrite Forall_forall in Hall. intros r Hr. now apply lite_val_line, Hall.
Qed.

Lemma lite_blocks bs : Forall (block (lite_rec_ok c)) bs ->
  lite_read_go [c] false None d rg None (sep_lines L bs) = Some (List.concat bs).
Proof.
  apply lite_read_blocks with (hl := fun b => join [c] (keys (hd [] b))) (D := fun _ r => join [c] (values r)).
  - reflexivity.
  - intros b Hb. now apply (lite_key_line false), (block_ok _ b Hb).
  - intros _ r Hr. exists (values r). split; [now apply (lite_val_line false)|]. split; [apply map_id|now apply rec_facts].
Qed.
End Lite.

Lemma csvlite_roundtrip c crlf dedupe ragged recs :
  wf_lite c recs = true ->
  read_csvlite [c] dedupe ragged (write_csvlite [c] false crlf recs) = Some recs.
Proof.
  unfold wf_lite. intros [[[[Hlf Hcr]%andb_true_iff Hef]%andb_true_iff Hrecs]%andb_true_iff Hbom]%andb_true_iff.
  apply negb_true_iff in Hlf, Hcr, Hef.
  destruct (all_blocks _ (lite_ok_keys c) recs Hrecs) as [Hcat Hbs].
  unfold read_csvlite, read_lite, write_csvlite.
  rewrite lite_lines, stream_blocks by (eapply Forall_impl; [|exact (forallb_Forall _ _ Hrecs)]; intros r Hr; now apply rec_facts in Hr).
  rewrite lines_of_blocks with (1 := Hbs) by now apply lite_block_ok.
  rewrite strip_bom_first_lines with (hl := fun _ r => join [c] (keys r)) (1 := Hbs); [|now eexists|].
  - rewrite lite_blocks by assumption. now rewrite Hcat.
  - rewrite Hcat. destruct recs as [|r0 rest]; [exact I|]. intros _. apply strip_bom_head.
    apply andb_true_iff in Hrecs as [Hr0 _]. destruct (rec_facts c r0 Hr0) as (_ & _ & _ & _ & _ & Hnk & _).
    destruct (keys r0) as [|[|x k] [|k2 ks]]; try discriminate; try exact I; cbn [first_not_ef] in Hbom;
      rewrite ?join_cons2; cbn [join app]; try exact Hef; now apply negb_true_iff in Hbom.
Qed.
