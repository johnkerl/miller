(* CSV: the go-csv field state machine reads back every legal RFC-4180 rendering (any per-cell quoting choice,
   LF or CRLF line ends), hence Miller's own output; grammar-style RFC-4180 specification of the writer. *)
From Miller Require Import Base.Bytes Base.Record C01.Model C01.ProofsUtil C01.ProofsTsv.
Open Scope char_scope.

Definition comma_ok (k : ascii) : bool :=
  negb (eqc k DQ) && negb (eqc k CR) && negb (eqc k LF) && (code k <? 128)%N.
(* TEXTDATA of RFC 4180 (for the configured comma) *)
Definition plain (comma : ascii) (f : bytes) : bool := negb (existsb (csv_special comma) f).
(* no CR immediately followed by LF *)
Fixpoint no_crlf (f : bytes) : bool :=
  match f with
  | [] => true
  | c :: t => negb (eqc c CR && match t with d :: _ => eqc d LF | [] => false end) && no_crlf t
  end.
Definition body_ok (cb : bool) (f : bytes) : bool := if cb then nochar CR f else no_crlf f.
Definition cell_ok (cb : bool) (comma : ascii) (qc : bool * bytes) : bool :=
  if fst qc then body_ok cb (snd qc) else plain comma (snd qc).

Definition rows_ok (cb : bool) (comma : ascii) (rows : list (list (bool * bytes))) : bool :=
  forallb (fun cells => negb (is_nil cells) && forallb (cell_ok cb comma) cells) rows.

Lemma comma_facts k : comma_ok k = true -> eqc k DQ = false /\ eqc k CR = false /\ eqc k LF = false.
Proof.
  unfold comma_ok. intros H. repeat (apply andb_true_iff in H as [H ?]). repeat split; now apply negb_true_iff.
Qed.

Lemma csv_special_false comma c : csv_special comma c = false ->
  eqc c LF = false /\ eqc c CR = false /\ eqc c DQ = false /\ eqc c comma = false.
Proof. unfold csv_special. intros H. repeat (apply orb_false_iff in H as [H ?]). now repeat split. Qed.

Lemma plain_cons comma c f : plain comma (c :: f) = true -> csv_special comma c = false /\ plain comma f = true.
Proof. unfold plain. cbn [existsb]. rewrite !negb_true_iff. apply orb_false_iff. Qed.

(* after a lone CR inside a quoted body the writer never puts LF *)
Lemma head_not_lf f rest :
  match f with d :: _ => eqc d LF = false | [] => True end ->
  exists d t, quote_body false f ++ DQ :: rest = d :: t /\ eqc d LF = false.
Proof.
  destruct f as [|d f]; intros H; [now exists DQ, rest|].
  cbn [quote_body]. destruct (eqc d DQ); [now eexists _, _|]. destruct (eqc d CR); [now eexists _, _|].
  rewrite H. now eexists _, _.
Qed.

(* go-csv's reader (below) and pkg/dkvpx's (ProofsDkvpx) take a quoted body in the same way.  [q acc] is the reader
   inside quotes holding the reversed bytes [acc]; the hypotheses are the four ways its run function eats input there. *)
Section Quoted.
Variables (S R : Type) (run : S -> bytes -> R) (q : bytes -> S).
Hypothesis q_dqdq : forall acc t, run (q acc) (DQ :: DQ :: t) = run (q (DQ :: acc)) t.
Hypothesis q_char : forall acc c t, eqc c DQ = false -> eqc c CR = false -> run (q acc) (c :: t) = run (q (c :: acc)) t.
Hypothesis q_cr : forall acc d t, eqc d LF = false -> run (q acc) (CR :: d :: t) = run (q (CR :: acc)) (d :: t).
Hypothesis q_crlf : forall acc t, run (q acc) (CR :: LF :: t) = run (q (LF :: acc)) t.

Lemma run_quoted cb f : forall acc rest, body_ok cb f = true ->
  run (q acc) (quote_body cb f ++ DQ :: rest) = run (q (rev f ++ acc)) (DQ :: rest).
Proof.
  induction f as [|c f IH]; intros acc rest H; [reflexivity|].
  cbn [quote_body rev]. rewrite <- !app_assoc. cbn [app].
  destruct cb; cbn [body_ok nochar forallb no_crlf] in H; apply andb_true_iff in H as [Hc H];
    rewrite <- (IH (c :: acc)) by exact H; apply negb_true_iff in Hc.
  - (* UseCRLF: no CR in the cell, LF written CR LF *)
    rewrite Hc. destruct (eqc c DQ) eqn:Ed; [apply eqc_eq in Ed; subst c; apply q_dqdq|].
    destruct (eqc c LF) eqn:El; [apply eqc_eq in El; subst c; apply q_crlf|]. now apply q_char.
  - destruct (eqc c DQ) eqn:Ed; [apply eqc_eq in Ed; subst c; apply q_dqdq|].
    destruct (eqc c CR) eqn:Er.
    + apply eqc_eq in Er. subst c. destruct (head_not_lf f rest) as (d & t & -> & Hd); [|now apply q_cr].
      destruct f; [exact I|exact Hc].
    + destruct (eqc c LF) eqn:El; [apply eqc_eq in El; subst c|]; now apply q_char.
Qed.
End Quoted.

Section Run.
Variables (lazy : bool) (comma : ascii).
Hypothesis Hcomma : comma_ok comma = true.

Notation run := (csv_run lazy comma).
Notation step := (csv_step lazy comma).

Lemma run_plain p c t : eqc c CR = false ->
  run p (c :: t) = match step p c with Some p' => run p' t | None => None end.
Proof. intros H. cbn [csv_run]. now rewrite H. Qed.

Lemma run_cr_other p d t : eqc d LF = false ->
  run p (CR :: d :: t) = match step p CR with Some p' => run p' (d :: t) | None => None end.
Proof. intros H. cbn [csv_run]. change (eqc CR CR) with true. now rewrite H. Qed.

Lemma run_crlf p t :
  run p (CR :: LF :: t) = match step p LF with Some p' => run p' t | None => None end.
Proof. reflexivity. Qed.

Lemma step_unq_char st acc fs rows c :
  st = UQ \/ st = SOF \/ st = SOR -> csv_special comma c = false ->
  step (mkP st acc fs rows) c = Some (mkP UQ (c :: acc) fs rows).
Proof.
  intros Hst (Hlf & _ & Hq & Hk)%csv_special_false. unfold csv_step, csv_step_unquoted. cbn [p_st].
  destruct Hst as [->|[->| ->]]; now rewrite ?Hq, Hk, Hlf.
Qed.

Lemma run_uq f : forall acc fs rows rest, plain comma f = true ->
  run (mkP UQ acc fs rows) (f ++ rest) = run (mkP UQ (rev f ++ acc) fs rows) rest.
Proof.
  induction f as [|c f IH]; intros acc fs rows rest Hf; [reflexivity|].
  apply plain_cons in Hf as [Hc Hf]. destruct (csv_special_false _ _ Hc) as (_ & Hcr & _).
  cbn [app rev]. rewrite run_plain, step_unq_char, IH by (assumption || now left). now rewrite <- app_assoc.
Qed.

(* the states in which a cell with value f is complete and a delimiter is due: after the closing quote, in an
   unquoted field, or still at the start of a field when f is empty *)
Definition cell_done (st : cstate) (f : bytes) : Prop := st = QQ \/ st = UQ \/ (f = [] /\ (st = SOF \/ st = SOR)).

Lemma step_done_comma st f fs rows :
  cell_done st f -> step (mkP st (rev f) fs rows) comma = Some (mkP SOF [] (f :: fs) rows).
Proof.
  destruct (comma_facts _ Hcomma) as (Hq & _).
  unfold csv_step, csv_step_unquoted, p_end_field. cbn [p_st p_acc p_fields p_rows]. rewrite rev_involutive.
  intros [->|[->|[_ [->| ->]]]]; now rewrite ?Hq, eqc_refl.
Qed.

Lemma step_done_lf st f fs rows :
  cell_done st f -> step (mkP st (rev f) fs rows) LF = Some (mkP SOR [] [] (rev (f :: fs) :: rows)).
Proof.
  destruct (comma_facts _ Hcomma) as (_ & _ & Hlf). rewrite eqc_sym in Hlf.
  unfold csv_step, csv_step_unquoted, p_end_row. cbn [p_st p_acc p_fields p_rows]. rewrite rev_involutive.
  change (eqc LF DQ) with false. intros [->|[->|[_ [->| ->]]]]; now rewrite Hlf.
Qed.

Lemma run_body cb f acc fs rows rest : body_ok cb f = true ->
  run (mkP QT acc fs rows) (quote_body cb f ++ DQ :: rest) = run (mkP QQ (rev f ++ acc) fs rows) rest.
Proof.
  intros H. transitivity (run (mkP QT (rev f ++ acc) fs rows) (DQ :: rest)); [|reflexivity].
  apply (run_quoted _ _ run (fun a => mkP QT a fs rows)); [reflexivity| | |reflexivity|exact H].
  - intros a c t Hq Hcr. rewrite run_plain by exact Hcr. cbn [csv_step p_st]. now rewrite Hq.
  - intros a d t Hd. now rewrite run_cr_other.
Qed.

Lemma run_cell cb qc st fs rows :
  st = SOF \/ st = SOR -> cell_ok cb comma qc = true ->
  exists st', cell_done st' (snd qc) /\
    forall rest, run (mkP st [] fs rows) (csv_cell cb (fst qc) (snd qc) ++ rest) = run (mkP st' (rev (snd qc)) fs rows) rest.
Proof.
  destruct qc as [[] f]; unfold cell_ok; cbn [fst snd csv_cell]; intros Hst Hc.
  - exists QQ. split; [now left|]. intros rest. cbn [app]. rewrite run_plain by reflexivity.
    replace (step (mkP st [] fs rows) DQ) with (Some (mkP QT [] fs rows)) by now destruct Hst as [-> | ->].
    rewrite <- app_assoc. cbn [app]. now rewrite run_body, app_nil_r.
  - destruct f as [|c f].
    + exists st. split; [right; right; now split|reflexivity].
    + exists UQ. split; [right; now left|]. intros rest.
      apply plain_cons in Hc as [Hc Hf]. destruct (csv_special_false _ _ Hc) as (_ & Hcr & _).
      cbn [app]. rewrite run_plain, step_unq_char by (assumption || now right). now rewrite run_uq.
Qed.

Lemma run_row cb ce cells : forall x st fs rows rest,
  st = SOF \/ st = SOR -> forallb (cell_ok cb comma) (x :: cells) = true ->
  run (mkP st [] fs rows) (csv_row_q cb ce comma (x :: cells) ++ rest)
  = run (mkP SOR [] [] (rev (rev (map snd (x :: cells)) ++ fs) :: rows)) rest.
Proof.
  unfold csv_row_q. induction cells as [|y cells IH]; intros x st fs rows rest Hst [Hx Hok]%andb_true_iff;
    destruct (run_cell cb x st fs rows Hst Hx) as (st' & Hdone & Hrun).
  - cbn [map join]. rewrite <- app_assoc, Hrun.
    replace (run (mkP st' (rev (snd x)) fs rows) (ors_of ce ++ rest))
      with (match step (mkP st' (rev (snd x)) fs rows) LF with Some p => run p rest | None => None end) by now destruct ce.
    now rewrite step_done_lf.
  - cbn [map] in *. rewrite join_cons2, <- !app_assoc, Hrun. cbn [app].
    rewrite run_plain, step_done_comma by (exact Hdone || apply (comma_facts _ Hcomma)).
    rewrite app_assoc, IH by (now left || exact Hok). cbn [rev]. now rewrite <- !app_assoc.
Qed.

Lemma run_text cb ce rows : forall R, rows_ok cb comma rows = true ->
  run (mkP SOR [] [] R) (csv_text_q cb ce comma rows) = Some (rev R ++ map (map snd) rows).
Proof.
  unfold csv_text_q, rows_ok. induction rows as [|[|x r] rows IH]; intros R H; try discriminate.
  - cbn. now rewrite app_nil_r.
  - apply andb_true_iff in H as [Hr H]. cbn [map List.concat]. rewrite run_row by (now right || exact Hr).
    rewrite app_nil_r, rev_involutive, IH by exact H. cbn [rev]. now rewrite <- app_assoc.
Qed.
End Run.

(* the reader recovers the cells of every legal rendering: any quoting choice per cell, LF or CRLF line ends *)
Lemma csv_rows_text lazy cb ce comma rows :
  comma_ok comma = true -> rows_ok cb comma rows = true ->
  csv_rows lazy comma (csv_text_q cb ce comma rows) = Some (map (map snd) rows).
Proof. intros Hk H. unfold csv_rows. now rewrite (run_text lazy comma Hk cb ce rows []). Qed.

(* RFC 4180 as a grammar (section 2 ABNF) *)
Fixpoint dbl (f : bytes) : bytes :=
  match f with [] => [] | c :: t => (if eqc c DQ then [DQ; DQ] else [c]) ++ dbl t end.
(* field = escaped / non-escaped *)
Inductive rfc_field (comma : ascii) : bytes -> bytes -> Prop :=
| RF_plain f : plain comma f = true -> rfc_field comma f f
| RF_escaped f : rfc_field comma (DQ :: dbl f ++ [DQ]) f.
(* record = field *(COMMA field) *)
Inductive rfc_record (comma : ascii) : bytes -> list bytes -> Prop :=
| RR_one t f : rfc_field comma t f -> rfc_record comma t [f]
| RR_cons t f ts fs : rfc_field comma t f -> rfc_record comma ts fs -> rfc_record comma (t ++ comma :: ts) (f :: fs).
(* file = *(record EOL) *)
Inductive rfc_file (comma : ascii) (eol : bytes) : bytes -> list (list bytes) -> Prop :=
| RFile_nil : rfc_file comma eol [] []
| RFile_cons t r ts rs : rfc_record comma t r -> rfc_file comma eol ts rs -> rfc_file comma eol (t ++ eol ++ ts) (r :: rs).

Lemma quote_body_false_dbl f : quote_body false f = dbl f.
Proof.
  induction f as [|c f IH]; [reflexivity|]. cbn [quote_body dbl]. rewrite IH.
  destruct (eqc c DQ); [reflexivity|]. destruct (eqc c CR) eqn:E; [apply eqc_eq in E; now subst|].
  destruct (eqc c LF) eqn:E2; [apply eqc_eq in E2; now subst|reflexivity].
Qed.

Lemma quote_body_true_dbl f : nochar CR f = true -> nochar LF f = true -> quote_body true f = dbl f.
Proof.
  induction f as [|c f IH]; [reflexivity|].
  intros [Hc1%negb_true_iff H1]%andb_true_iff [Hc2%negb_true_iff H2]%andb_true_iff.
  cbn [quote_body dbl]. now rewrite Hc1, Hc2, IH.
Qed.

(* derivation -> quoting choice *)
Lemma rfc_field_cell comma t f :
  rfc_field comma t f -> no_crlf f = true -> exists q, t = csv_cell false q f /\ cell_ok false comma (q, f) = true.
Proof.
  intros [f' Hp|f'] Hn; [now exists false|].
  exists true. cbn [csv_cell]. now rewrite quote_body_false_dbl.
Qed.

Lemma rfc_record_cells comma t r :
  rfc_record comma t r -> forallb no_crlf r = true ->
  exists x cells, map snd (x :: cells) = r /\ t = join [comma] (map (fun qc => csv_cell false (fst qc) (snd qc)) (x :: cells))
                  /\ forallb (cell_ok false comma) (x :: cells) = true.
Proof.
  induction 1 as [t f Hf|t f ts fs Hf Hr IH]; intros [Hn Hns]%andb_true_iff;
    destruct (rfc_field_cell _ _ _ Hf Hn) as (q & -> & Hq).
  - exists (q, f), []. cbn. now rewrite Hq.
  - destruct (IH Hns) as (y & cells & <- & -> & Hok). exists (q, f), (y :: cells).
    repeat split. cbn [forallb] in *. now rewrite Hq.
Qed.

Lemma rfc_file_text comma ce t rows :
  rfc_file comma (ors_of ce) t rows -> forallb (forallb no_crlf) rows = true ->
  exists qrows, map (map snd) qrows = rows /\ t = csv_text_q false ce comma qrows /\ rows_ok false comma qrows = true.
Proof.
  induction 1 as [|t r ts rs Hr Hf IH]; [now exists []|]. intros [Hn Hns]%andb_true_iff.
  destruct (rfc_record_cells _ _ _ Hr Hn) as (x & cells & <- & -> & Hok), (IH Hns) as (qrows & <- & -> & Hoks).
  exists ((x :: cells) :: qrows). repeat split.
  - unfold csv_text_q. cbn [map List.concat]. unfold csv_row_q. now rewrite <- app_assoc.
  - apply andb_true_iff. now split.
Qed.

Lemma plain_no_crlf comma f : plain comma f = true -> no_crlf f = true.
Proof.
  induction f as [|c f IH]; [reflexivity|]. intros [Hc Hf]%plain_cons.
  destruct (csv_special_false _ _ Hc) as (_ & Hcr & _). cbn [no_crlf]. rewrite Hcr. now apply IH.
Qed.

(* Miller's reader recovers the cells of EVERY text the RFC-4180 grammar derives (no CR LF inside a cell) *)
Lemma csv_reader_accepts_rfc4180 lazy comma ce t rows :
  comma_ok comma = true -> rfc_file comma (ors_of ce) t rows ->
  forallb (forallb no_crlf) rows = true ->
  csv_rows lazy comma t = Some rows.
Proof.
  intros Hk Hf Hrows. destruct (rfc_file_text _ _ _ _ Hf Hrows) as (qrows & <- & -> & Hok). now apply csv_rows_text.
Qed.

(* hence the grammar is unambiguous on that domain: a text has at most one reading *)
Lemma rfc4180_unambiguous comma ce t rows1 rows2 :
  comma_ok comma = true -> rfc_file comma (ors_of ce) t rows1 -> rfc_file comma (ors_of ce) t rows2 ->
  forallb (forallb no_crlf) rows1 = true -> forallb (forallb no_crlf) rows2 = true -> rows1 = rows2.
Proof.
  intros Hk H1 H2 Hr1 Hr2. apply (csv_reader_accepts_rfc4180 false) in H1, H2; try assumption. congruence.
Qed.

(* today's reader turns CR LF inside a quoted cell into LF *)
Lemma csv_reader_rfc4180_crlf_refuted :
  exists t rows, rfc_file "," [LF] t rows /\ csv_rows false "," t <> Some rows.
Proof.
  exists (DQ :: dbl [CR; LF] ++ [DQ] ++ [LF] ++ []), [[[CR; LF]]]. split.
  - apply (RFile_cons "," [LF] (DQ :: dbl [CR; LF] ++ [DQ]) [[CR; LF]] [] []); [|constructor].
    constructor. constructor 2.
  - vm_compute. discriminate.
Qed.

Lemma needs_quotes_false comma f : needs_quotes comma f = false -> plain comma f = true.
Proof. unfold needs_quotes, plain. destruct f; [reflexivity|]. now intros [_ ->]%orb_false_iff. Qed.

Lemma miller_cell_ok cb qa comma f : body_ok cb f = true -> cell_ok cb comma (miller_q qa comma f) = true.
Proof.
  intros H. unfold cell_ok, miller_q. cbn [fst snd].
  destruct (qa || needs_quotes comma f) eqn:E; [exact H|].
  apply orb_false_iff in E as [_ E]. now apply needs_quotes_false.
Qed.

(* the writer's output is a rendering of exactly its cells under the RFC-4180 grammar:
   LF line ends: every content; CRLF line ends (--ors crlf): cells without CR and LF *)
Definition content_ok (crlf : bool) (f : bytes) : bool := negb crlf || (nochar CR f && nochar LF f).

Lemma miller_field_rfc crlf qa comma f :
  content_ok crlf f = true -> rfc_field comma (csv_cell crlf (fst (miller_q qa comma f)) f) f.
Proof.
  intros H. unfold miller_q. cbn [fst].
  destruct (qa || needs_quotes comma f) eqn:E; cbn [csv_cell].
  - replace (quote_body crlf f) with (dbl f); [constructor 2|].
    destruct crlf; [|now rewrite quote_body_false_dbl].
    apply andb_true_iff in H as [H1 H2]. now rewrite quote_body_true_dbl.
  - constructor. apply orb_false_iff in E as [_ E]. now apply needs_quotes_false.
Qed.

Lemma miller_row_rfc crlf qa comma fs : forall f,
  forallb (content_ok crlf) (f :: fs) = true ->
  rfc_record comma (join [comma] (map (fun qc => csv_cell crlf (fst qc) (snd qc)) (map (miller_q qa comma) (f :: fs)))) (f :: fs).
Proof.
  induction fs as [|g fs IH]; intros f [Hf H]%andb_true_iff; cbn [map] in *.
  - constructor. now apply miller_field_rfc.
  - rewrite join_cons2. apply RR_cons; [now apply miller_field_rfc|now apply IH].
Qed.

Lemma miller_text_rfc crlf qa comma rows :
  forallb (fun fs => negb (is_nil fs) && forallb (content_ok crlf) fs) rows = true ->
  rfc_file comma (ors_of crlf) (csv_text_q crlf crlf comma (map (map (miller_q qa comma)) rows)) rows.
Proof.
  induction rows as [|[|f fs] rows IH]; intros H; try discriminate; [constructor|].
  apply andb_true_iff in H as [Hfs H].
  unfold csv_text_q. cbn [map List.concat]. unfold csv_row_q at 1. rewrite <- app_assoc.
  constructor; [now apply miller_row_rfc|now apply IH].
Qed.

Definition EF : ascii := ascii_of_N 239.
Definition first_not_ef (ks : list bytes) : bool :=
  match ks with (c :: _) :: _ => negb (eqc c EF) | _ => true end.

Definition wf_csv (crlf : bool) (comma : ascii) (recs : list record) : bool :=
  comma_ok comma && rect recs
  && match recs with
     | [] => true
     | r0 :: _ => nodupb (keys r0) && negb (is_nil r0) && forallb (body_ok crlf) (keys r0) && first_not_ef (keys r0)
     end
  && forallb (fun r => forallb (body_ok crlf) (values r)) recs.

Lemma strip_bom_head s : match s with c :: _ => eqc c EF = false | [] => True end -> strip_bom s = s.
Proof.
  destruct s as [|c s]; intros H; [reflexivity|]. unfold strip_bom, BOM. cbn [prefixb].
  change (ascii_of_N 239) with EF. fold (eqc EF c). now rewrite eqc_sym, H.
Qed.

Lemma comma_not_ef comma : comma_ok comma = true -> eqc comma EF = false.
Proof.
  unfold comma_ok. intros [_ H]%andb_true_iff.
  destruct (eqc comma EF) eqn:E; [|reflexivity]. apply eqc_eq in E. now subst.
Qed.

Lemma text_head_ok crlf qa comma ks rows :
  comma_ok comma = true -> ks <> [] -> first_not_ef ks = true ->
  match csv_text_q crlf crlf comma (map (map (miller_q qa comma)) (ks :: rows)) with c :: _ => eqc c EF = false | [] => True end.
Proof.
  intros Hk Hne Hf. pose proof (comma_not_ef comma Hk) as Hce.
  unfold csv_text_q. cbn [map List.concat]. unfold csv_row_q at 1.
  destruct ks as [|k ks]; [congruence|]. cbn [map]. unfold miller_q at 1. cbn [fst snd].
  destruct (qa || needs_quotes comma k); cbn [csv_cell].
  - destruct ks; reflexivity.
  - destruct k as [|c k].
    + destruct ks as [|k2 ks]; [now destruct crlf|exact Hce].
    + apply negb_true_iff in Hf. destruct ks; exact Hf.
Qed.

Lemma csv_rows_miller qa crlf comma lazy rows :
  comma_ok comma = true -> first_not_ef (hd [] rows) = true ->
  forallb (fun fs => negb (is_nil fs) && forallb (body_ok crlf) fs) rows = true ->
  csv_rows lazy comma (strip_bom (csv_text_q crlf crlf comma (map (map (miller_q qa comma)) rows))) = Some rows.
Proof.
  intros Hk Hef Hrows. rewrite strip_bom_head, csv_rows_text; [f_equal|exact Hk| |].
  - rewrite map_map. apply map_id_in. intros fs _. rewrite map_map. apply map_id.
  - unfold rows_ok. rewrite forallb_map. rewrite forallb_forall in *.
    intros fs Hin. specialize (Hrows fs Hin). apply andb_true_iff in Hrows as [Hne Hfs]. rewrite forallb_map. apply andb_true_iff.
    split; [now destruct fs|]. rewrite forallb_forall in *. intros f Hf. now apply miller_cell_ok, Hfs.
  - destruct rows as [|[|k ks] rows]; [exact I|discriminate|now apply text_head_ok].
Qed.

Lemma csv_roundtrip qa crlf comma lazy dedupe ragged recs :
  wf_csv crlf comma recs = true ->
  obind (write_csv false qa crlf comma recs) (read_csv false lazy dedupe ragged comma) = Some recs.
Proof.
  unfold wf_csv. intros [[[Hcomma Hrect]%andb_true_iff Hk0]%andb_true_iff Hvals]%andb_true_iff.
  destruct recs as [|r0 rest]; [reflexivity|].
  apply andb_true_iff in Hk0 as [[[Hnd Hne]%andb_true_iff Hkb]%andb_true_iff Hef].
  pose proof (fun r => rect_keys r0 rest r Hrect) as Hkeys.
  unfold write_csv. rewrite rows_of_rect by exact Hrect. cbn [orb is_nil obind app]. unfold read_csv.
  rewrite csv_rows_miller; [now apply rows_to_records|exact Hcomma|exact Hef|].
  cbn [forallb]. rewrite Hkb, forallb_map. replace (is_nil (keys r0)) with false by now destruct r0.
  cbn [negb andb]. rewrite forallb_forall in *. intros r Hr. rewrite Hvals by exact Hr.
  apply Hkeys in Hr. now destruct r, r0.
Qed.

(* the two defects of today's code, on the faithful model *)
Lemma csv_roundtrip_crlf_in_cell_refuted :
  exists recs, rect recs = true /\
    obind (write_csv false false false "," recs) (read_csv false false true false ",") <> Some recs.
Proof. exists [[(B "a", [CR; LF])]]. split; [reflexivity|]. vm_compute. discriminate. Qed.

Lemma csv_ors_crlf_drops_cr_refuted :
  exists recs, rect recs = true /\
    obind (write_csv false false true "," recs) (read_csv false false true false ",") <> Some recs.
Proof. exists [[(B "a", [CR; "x"])]]. split; [reflexivity|]. vm_compute. discriminate. Qed.
