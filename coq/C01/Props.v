(* C01 property theorems, each followed by Print Assumptions, and non-vacuity Examples.
   All are about the definitions of C01/Model*.v that C01/Harness.v evaluates against the implementation. *)
From Miller Require Import Base.Bytes Base.Record C01.Model C01.ProofsUtil C01.ProofsTsv C01.ProofsDkvp C01.ProofsCsv C01.ProofsCsv2 C01.ModelJson C01.ProofsJson C01.ModelXtab C01.ProofsXtab C01.ModelLite C01.ProofsLite C01.ModelPprint C01.ProofsPprint C01.ProofsBarred C01.ModelMd C01.ProofsMd C01.ModelDkvpx C01.ProofsDkvpx C01.ModelIrs C01.ProofsIrs.
Open Scope char_scope.

(* ---- TSV ---- *)
(* the field codec is an exact inverse pair on EVERY byte string (any length, any content, valid UTF-8 or not) *)
Theorem C01_tsv_codec_inverse : forall s, tsv_decode (tsv_encode s) = s.
Proof. exact tsv_codec_inverse. Qed.
Print Assumptions C01_tsv_codec_inverse.

(* writer then reader is the identity on every rectangular record stream with unique keys, keys and values of
   ANY bytes (backslash, TAB, CR, LF, invalid UTF-8 included), LF or CRLF line endings, with or without
   --allow-ragged-csv-input / key de-duplication; unbounded in records, fields, cell length.
   The ONE exclusion (wf_tsv.not_single_empty) is the known finding tsv-single-column-empty-cell:
   a single column whose key, or one of whose values, is empty. *)
Theorem C01_tsv_roundtrip :
  forall crlf dedupe ragged recs, wf_tsv recs = true ->
  obind (write_tsv false crlf recs) (read_tsv dedupe ragged) = Some recs.
Proof. exact tsv_roundtrip. Qed.
Print Assumptions C01_tsv_roundtrip.

(* that exclusion is real: the reader rejects the writer's output for one empty cell in one column *)
Theorem C01_tsv_single_empty_cell_refuted :
  exists recs, rect recs = true /\ obind (write_tsv false false recs) (read_tsv true false) <> Some recs.
Proof. exact tsv_single_empty_cell_refuted. Qed.
Print Assumptions C01_tsv_single_empty_cell_refuted.

(* without a header line: --headerless-tsv-output then --implicit-tsv-header, keys 1..n (same exclusion) *)
Theorem C01_tsv_roundtrip_headerless :
  forall crlf dedupe ragged recs, wf_tsv_pos recs = true ->
  obind (write_tsv true crlf recs) (read_tsv_implicit dedupe ragged) = Some recs.
Proof. exact tsv_roundtrip_headerless. Qed.
Print Assumptions C01_tsv_roundtrip_headerless.

(* ---- DKVP ---- *)
(* any non-empty IFS/IPS (multi-byte allowed) free of CR/LF, IPS sharing no byte with IFS; keys free of the
   bytes of IFS and IPS and of LF, values free of the bytes of IFS and of LF, unique keys, last value of a
   record not ending in CR (unless --ors crlf) *)
Theorem C01_dkvp_roundtrip :
  forall ifs ips crlf dedupe recs, wf_dkvp ifs ips crlf recs = true ->
  read_dkvp ifs ips false dedupe (write_dkvp ifs ips crlf recs) = recs.
Proof. exact dkvp_roundtrip. Qed.
Print Assumptions C01_dkvp_roundtrip.

Theorem C01_dkvp_idempotent :
  forall ifs ips crlf dedupe recs, wf_dkvp ifs ips crlf recs = true ->
  write_dkvp ifs ips crlf (read_dkvp ifs ips false dedupe (write_dkvp ifs ips crlf recs)) = write_dkvp ifs ips crlf recs.
Proof. exact (fun ifs ips crlf dedupe recs H => f_equal (write_dkvp ifs ips crlf) (dkvp_roundtrip ifs ips crlf dedupe recs H)). Qed.
Print Assumptions C01_dkvp_idempotent.

(* ---- NIDX ---- *)
(* keys 1..n, non-empty values free of the IFS bytes and LF; reader with --repifs and an explicit IFS *)
Theorem C01_nidx_roundtrip :
  forall ifs crlf recs, wf_nidx ifs crlf recs = true -> read_nidx ifs true (write_nidx ifs crlf recs) = recs.
Proof. exact nidx_roundtrip. Qed.
Print Assumptions C01_nidx_roundtrip.

(* ---- CSV ---- *)
(* the go-csv state machine (readLine + readRecord, strict or --lazy-quotes) recovers the cells of EVERY text the
   RFC-4180 grammar (ProofsCsv.rfc_file: section 2 ABNF with the configured comma, LF or CRLF record ends,
   any per-cell choice between escaped and non-escaped form) derives, provided no cell contains CR LF *)
Theorem C01_csv_reader_accepts_rfc4180_partial :
  forall lazy comma ce t rows, comma_ok comma = true -> rfc_file comma (ors_of ce) t rows ->
  forallb (forallb no_crlf) rows = true -> csv_rows lazy comma t = Some rows.
Proof. exact csv_reader_accepts_rfc4180. Qed.
Print Assumptions C01_csv_reader_accepts_rfc4180_partial.
(* _partial: the excluded cells are exactly the refutation below *)

Theorem C01_csv_reader_crlf_in_cell_refuted :
  exists t rows, rfc_file "," [LF] t rows /\ csv_rows false "," t <> Some rows.
Proof. exact csv_reader_rfc4180_crlf_refuted. Qed.
Print Assumptions C01_csv_reader_crlf_in_cell_refuted.

(* on that domain an RFC-4180 text has exactly one reading (so "the cells an independent reader recovers" is well defined) *)
Theorem C01_rfc4180_unambiguous :
  forall comma ce t rows1 rows2, comma_ok comma = true ->
  rfc_file comma (ors_of ce) t rows1 -> rfc_file comma (ors_of ce) t rows2 ->
  forallb (forallb no_crlf) rows1 = true -> forallb (forallb no_crlf) rows2 = true -> rows1 = rows2.
Proof. exact rfc4180_unambiguous. Qed.
Print Assumptions C01_rfc4180_unambiguous.

(* Miller's writer (fieldNeedsQuotes / --quote-all / quoting loop) speaks RFC 4180: its output is derived by the grammar
   as a rendering of exactly the cells written -- all contents with LF record ends; with --ors crlf only cells
   free of CR and LF (the Go writer then drops CR and turns LF into CR LF inside quoted cells) *)
Theorem C01_csv_writer_rfc4180_partial :
  forall crlf qa comma rows,
  forallb (fun fs => negb (is_nil fs) && forallb (content_ok crlf) fs) rows = true ->
  rfc_file comma (ors_of crlf) (csv_text_q crlf crlf comma (map (map (miller_q qa comma)) rows)) rows.
Proof. exact miller_text_rfc. Qed.
Print Assumptions C01_csv_writer_rfc4180_partial.

(* writer then reader is the identity: rectangular streams with unique keys and at least one field, comma below 0x80
   and not quote/CR/LF, first key not starting with byte 0xEF (BOM), no cell containing CR LF (LF record ends) resp.
   any CR (--ors crlf); any --quote-all / --lazy-quotes / ragged / dedupe setting *)
Theorem C01_csv_roundtrip_partial :
  forall qa crlf comma lazy dedupe ragged recs, wf_csv crlf comma recs = true ->
  obind (write_csv false qa crlf comma recs) (read_csv false lazy dedupe ragged comma) = Some recs.
Proof. exact csv_roundtrip. Qed.
Print Assumptions C01_csv_roundtrip_partial.

(* without a header line: --headerless-csv-output then --implicit-csv-header, keys 1..n *)
Theorem C01_csv_roundtrip_headerless_partial :
  forall qa crlf comma lazy dedupe ragged recs, wf_csv_pos crlf comma recs = true ->
  obind (write_csv true qa crlf comma recs) (read_csv true lazy dedupe ragged comma) = Some recs.
Proof. exact csv_roundtrip_headerless. Qed.
Print Assumptions C01_csv_roundtrip_headerless_partial.

Theorem C01_csv_roundtrip_crlf_in_cell_refuted :
  exists recs, rect recs = true /\
    obind (write_csv false false false "," recs) (read_csv false false true false ",") <> Some recs.
Proof. exact csv_roundtrip_crlf_in_cell_refuted. Qed.
Print Assumptions C01_csv_roundtrip_crlf_in_cell_refuted.

Theorem C01_csv_ors_crlf_drops_cr_refuted :
  exists recs, rect recs = true /\
    obind (write_csv false false true "," recs) (read_csv false false true false ",") <> Some recs.
Proof. exact csv_ors_crlf_drops_cr_refuted. Qed.
Print Assumptions C01_csv_ors_crlf_drops_cr_refuted.

(* non-vacuity of the CSV statements *)
Example C01_nonvacuous_csv :
  wf_csv false "," [[(B "a", B "x,""y"""); (B "b c", bs [10;13;13;34]%N); (B "", B ""); (B "d", B " lead"); (B "e", B "\."); (B "f", B "1");
                     (B "g", B "2"); (B "h", B "3"); (B "i", B "4"); (B "j", B "5"); (B "k", B "6"); (B "l", bs [195;169;255]%N)]] = true
  /\ wf_csv true ";" [[(B "a", bs [10;34;59]%N)]; [(B "a", B "")]] = true
  /\ wf_csv_pos false "," [[(B "1", B "x,y"); (B "2", B "")]; [(B "1", B ""); (B "2", bs [13;34]%N)]] = true
  /\ rfc_file "," [LF] (B """a"",b" ++ [LF]) [[B "a"; B "b"]].
Proof.
  repeat split; try (vm_compute; reflexivity).
  apply (RFile_cons "," [LF] (B """a"",b") [B "a"; B "b"] [] []); [|constructor].
  apply (RR_cons "," (B """a""") (B "a") (B "b") [B "b"]); [apply (RF_escaped "," (B "a"))|].
  constructor. now constructor.
Qed.

(* default NIDX reader (no --ifs: fields separated by runs of spaces/tabs), writer OFS = space *)
Theorem C01_nidx_default_roundtrip :
  forall crlf recs, forallb (wf_nidx_ws_rec crlf) recs = true -> read_nidx_ws (write_nidx [SP] crlf recs) = recs.
Proof. exact nidx_ws_roundtrip. Qed.
Print Assumptions C01_nidx_default_roundtrip.

(* idempotence of `mlr --F cat` on its own output *)
Theorem C01_tsv_idempotent :
  forall crlf dedupe ragged recs, wf_tsv recs = true ->
  obind (obind (write_tsv false crlf recs) (read_tsv dedupe ragged)) (write_tsv false crlf) = write_tsv false crlf recs.
Proof. exact (fun crlf dedupe ragged recs H => f_equal (fun x => obind x (write_tsv false crlf)) (tsv_roundtrip crlf dedupe ragged recs H)). Qed.
Print Assumptions C01_tsv_idempotent.

Theorem C01_csv_idempotent_partial :
  forall qa crlf comma lazy dedupe ragged recs, wf_csv crlf comma recs = true ->
  obind (obind (write_csv false qa crlf comma recs) (read_csv false lazy dedupe ragged comma)) (write_csv false qa crlf comma)
  = write_csv false qa crlf comma recs.
Proof. exact (fun qa crlf comma lazy dedupe ragged recs H => f_equal (fun x => obind x (write_csv false qa crlf comma)) (csv_roundtrip qa crlf comma lazy dedupe ragged recs H)). Qed.
Print Assumptions C01_csv_idempotent_partial.

(* ---- JSON ---- *)
(* millerJSONEncodeString against an RFC-8259 string decoder written in Gallina (ModelJson.jstep: the two-character
   escapes, \/ , \uXXXX with either hex case and UTF-8 re-encoding, unescaped control characters rejected):
   the decoder recovers EVERY byte string from Miller's encoding *)
Theorem C01_json_string_rfc8259 : forall s, ref_decode_string (json_string s) = Some s.
Proof. exact json_string_decodes. Qed.
Print Assumptions C01_json_string_rfc8259.

(* the RFC-8259 reference reader recovers every string-valued record stream (unique member names per record) from the
   JSON writer's output: --ojson multi-line and --no-jvstack, with and without the outer list, and JSON Lines.
   _partial: non-string values (number re-rendering, nested maps) are not modelled, and the reference stands in for
   Go's encoding/json, to which it is tied by the correspondence check on valid-UTF-8 text only *)
Theorem C01_json_roundtrip_strings_partial :
  forall ml wrap recs, forallb (fun r => nodupb (keys r)) recs = true ->
  read_json_ref (write_json ml wrap recs) = Some recs.
Proof. exact json_roundtrip. Qed.
Print Assumptions C01_json_roundtrip_strings_partial.

(* ---- XTAB ---- *)
(* for EVERY display-width function w (lib.DisplayWidth is a parameter of the writer model), one-byte IPS = OPS = c:
   non-empty records with unique keys, keys free of c and LF, values free of LF, not starting with c, not ending in CR *)
Theorem C01_xtab_roundtrip :
  forall w c dedupe recs, wf_xtab c recs = true -> read_xtab [c] dedupe (write_xtab w [c] false recs) = Some recs.
Proof. exact xtab_roundtrip. Qed.
Print Assumptions C01_xtab_roundtrip.

(* --xvright (values right-aligned with spaces) with the default IPS/OPS, the space: the padding is more copies of the IPS *)
Theorem C01_xtab_xvright_roundtrip :
  forall w dedupe recs, wf_xtab SP recs = true -> read_xtab [SP] dedupe (write_xtab w [SP] true recs) = Some recs.
Proof. exact xtab_xvright_roundtrip. Qed.
Print Assumptions C01_xtab_xvright_roundtrip.

(* ---- csvlite ---- *)
(* heterogeneous streams included: a change of keys writes a blank line and a new header, which the reader takes as a
   schema change.  One-byte OFS = IFS = c (not CR, LF, 0xEF); records non-empty with unique keys; cells free of c, CR, LF
   (csvlite has no quoting; CR inside a cell is excluded for simplicity, only a trailing one is not representable);
   keys free of "," ; not a single empty field; first key not starting with byte 0xEF *)
Theorem C01_csvlite_roundtrip :
  forall c crlf dedupe ragged recs, wf_lite c recs = true ->
  read_csvlite [c] dedupe ragged (write_csvlite [c] false crlf recs) = Some recs.
Proof. exact csvlite_roundtrip. Qed.
Print Assumptions C01_csvlite_roundtrip.

(* non-vacuity: concrete non-trivial streams inside each domain *)
Example C01_nonvacuous :
  wf_tsv [[(B "a\b", B "x	y\z"); (bs [98;9;13;10;255]%N, bs [195;169;10;13;255;192]%N); (B "", B "")]; [(B "a\b", B ""); (bs [98;9;13;10;255]%N, B "-"); (B "", B """q"",")]] = true
  /\ wf_tsv_pos [[(B "1", B ""); (B "2", bs [9;255]%N)]; [(B "1", B "\"); (B "2", B "")]] = true
  /\ wf_dkvp (B ";;") (B ":=") false [[(B "k 1", B "v=1,2"); (B "", bs [13;65]%N)]; []; [(B "x", B "")]] = true
  /\ wf_nidx (B " ") false [[(B "1", B "a,b"); (B "2", B "=")]; []] = true
  /\ wf_lite ";" [[(B "a", B "1,2"); (B "b c", B "")]; [(B "a", B ""); (B "b c", B "-")]; [(B "z", B "x"); (B "a", B "y"); (B "", B "")]; [(B "a", B "3"); (B "b c", B "4")]] = true
  /\ wf_xtab " " [[(B "", B "x  y"); (B "long-key", B ""); (B "k", bs [195;169;13;65]%N)]; [(B "z", B "1")]] = true
  /\ forallb (fun r => nodupb (keys r)) [[(B "a""b", bs [1;31;10;92;255]%N); (B "", B "")]; []] = true
  /\ forallb (wf_nidx_ws_rec false) [[(B "1", B "a,b"); (B "2", B "="); (B "3", bs [195;169]%N)]; []] = true
.
Proof. vm_compute. repeat split; reflexivity. Qed.

(* ---- PPRINT ---- *)
(* non-barred output, left-aligned or --right, LF or CRLF, read back with --ipprint (any dedupe / ragged setting), for EVERY
   display-width function w (lib.DisplayWidth is a parameter of the writer model), heterogeneity blocks included
   (records are batched on their ","-joined keys; a new batch is preceded by a blank line, which resets the reader's header).
   Domain (wf_pprint, boolean): records non-empty with unique keys; keys non-empty, free of space, LF and ",";
   values free of space and LF and different from "-" (the EMPTY value is in the domain: it is written "-" and read back
   empty); the last key / last value of a record do not end in CR unless --ors crlf; first key not starting with byte 0xEF *)
Theorem C01_pprint_roundtrip :
  forall w right crlf dedupe ragged recs, wf_pprint crlf recs = true ->
  read_pprint dedupe ragged (write_pprint_g w right false false crlf recs) = Some recs.
Proof. exact pprint_roundtrip. Qed.
Print Assumptions C01_pprint_roundtrip.

(* the two exclusions are real representational limits of the format (documented: "-" stands for an empty value) *)
Theorem C01_pprint_dash_value_refuted :
  exists recs, forallb (fun r => negb (is_nil r) && nodupb (keys r)) recs = true
    /\ read_pprint true false (write_pprint_g (@List.length ascii) false false false false recs) <> Some recs.
Proof. exact pprint_dash_value_refuted. Qed.
Print Assumptions C01_pprint_dash_value_refuted.

Theorem C01_pprint_comma_keys_refuted :
  exists recs, forallb (fun r => negb (is_nil r) && nodupb (keys r)) recs = true
    /\ read_pprint true false (write_pprint_g (@List.length ascii) false false false false recs) <> Some recs.
Proof. exact pprint_comma_keys_refuted. Qed.
Print Assumptions C01_pprint_comma_keys_refuted.

(* --barred output (ASCII bars), left-aligned or --right, read back with --ipprint --barred-input, for EVERY width function.
   Domain (wf_barred): records non-empty with unique keys; cells free of "|" and LF and unchanged by strings.TrimSpace
   (no leading/trailing Unicode white space); keys free of ",".  The empty value, "-", spaces inside a cell, CR and an
   empty key are all representable here *)
Theorem C01_pprint_barred_roundtrip :
  forall w right crlf dedupe ragged recs, wf_barred recs = true ->
  read_pprint_barred false dedupe ragged (write_pprint_g w right true false crlf recs) = Some recs.
Proof. exact pprint_barred_roundtrip. Qed.
Print Assumptions C01_pprint_barred_roundtrip.

(* ---- Markdown ---- *)
(* the streaming writer (--omd) and the --omd-aligned writer (for EVERY display-width function w) read back with --imd, any dedupe / ragged setting, LF or CRLF, heterogeneity included (a change
   of keys writes a blank line and a new header; the reader takes only the second line of a block for the separator line).
   Domain (wf_markdown, boolean): records non-empty with unique keys; cells free of LF and unchanged by strings.TrimSpace;
   keys free of "|" (keys are not escaped) and "," and not the single key "".  VALUES may contain "|" (written "\|" and
   unescaped by the reader), backslashes, rows of dashes or empty cells *)
Theorem C01_markdown_roundtrip :
  forall w aligned crlf dedupe ragged recs, wf_markdown recs = true ->
  read_markdown false dedupe ragged (write_markdown w aligned crlf recs) = Some recs.
Proof. exact markdown_roundtrip. Qed.
Print Assumptions C01_markdown_roundtrip.

Example C01_nonvacuous_markdown :
  wf_markdown [[(B "a", B "x|y"); (B "b c", B "\|"); (B "", B "")]; [(B "a", B "-"); (B "b c", B ""); (B "", B "---")];
               [(B "z", bs [195;169;13;65;92]%N)]; [(B "a", B "| - |"); (B "b c", B ":--"); (B "", B "x  y")]] = true.
Proof. vm_compute. reflexivity. Qed.

Example C01_nonvacuous_pprint :
  wf_pprint false [[(B "a", B "1,2"); (B "b-c", B ""); (B "k", bs [195;169;13;65]%N)]; [(B "a", B "--"); (B "b-c", B "x"); (B "k", B "-x")];
                   [(B "z", B "y")]; [(B "a", B "3"); (B "b-c", B "4"); (B "k", B "")]] = true
  /\ wf_pprint true [[(B "a", bs [65;13]%N)]] = true
  /\ wf_barred [[(B "", B "x  y"); (B "a b", B ""); (B "k", B "-"); (B "c", bs [195;169;13;65]%N)]; [(B "", B "1"); (B "a b", B "2"); (B "k", B "3"); (B "c", B "")];
                [(B "z", bs [194]%N)]] = true.
Proof. vm_compute. repeat split; reflexivity. Qed.

(* ---- DKVPX ---- (pkg/dkvpx: DKVP with CSV-style quoting) *)
(* writer then reader is the identity for one-byte IFS/IPS below 0x80 (different from each other and from quote, CR, LF), LF or
   CRLF line ends, any dedupe setting: records (EMPTY ones included) with unique non-empty keys, keys and values of ANY bytes --
   separators, quotes, LF, lone CR, empty lines inside a cell, leading/trailing spaces, invalid UTF-8 -- except the sequence
   CR LF inside a cell (refuted below) and a first key starting with byte 0xEF (BOM).  The reader keeps a newline
   inside quotes that has nothing before it on its line *)
Theorem C01_dkvpx_roundtrip :
  forall comma eq crlf dedupe recs, wf_dkvpx comma eq recs = true ->
  read_dkvpx comma eq dedupe (write_dkvpx [comma] [eq] crlf recs) = recs.
Proof. exact dkvpx_roundtrip. Qed.
Print Assumptions C01_dkvpx_roundtrip.

Theorem C01_dkvpx_crlf_in_cell_refuted :
  exists recs, forallb (fun r => nodupb (keys r)) recs = true
    /\ read_dkvpx "," "=" true (write_dkvpx [","] ["="] false recs) <> recs.
Proof. exact dkvpx_crlf_in_cell_refuted. Qed.
Print Assumptions C01_dkvpx_crlf_in_cell_refuted.

Example C01_nonvacuous_dkvpx :
  wf_dkvpx "," "=" [[(B "a,b", B "x=""y"""); (B "k", bs [10;10;13;65;10]%N); (B " c ", B "")]; []; [(B "=", bs [255;44;13]%N)]] = true
  /\ wf_dkvpx ";" ":" [[(B "a", B "1;2:3")]] = true.
Proof. vm_compute. split; reflexivity. Qed.

(* ---- custom record separators (--ors X written, --irs X read; single- and multi-character line readers) ---- *)
(* the line reader inverts "every line followed by the separator": any non-empty separator (the last byte may occur earlier in
   it, as in ";;"), any number of lines, empty lines included; sufficient condition: no byte of the
   separator inside a line *)
Theorem C01_custom_irs_lines :
  forall irs ls, irs <> [] -> forallb (freeof irs) ls = true -> lines_irs irs (unlines irs ls) = ls.
Proof. exact lines_irs_unlines. Qed.
Print Assumptions C01_custom_irs_lines.

(* DKVP and NIDX with a custom record separator: the domains of C01_dkvp_roundtrip / C01_nidx_roundtrip (any IFS/IPS) and
   no byte of the record separator in any written line *)
Theorem C01_dkvp_custom_irs_roundtrip :
  forall irs ifs ips dedupe recs, irs <> [] -> default_irs irs = false -> wf_dkvp ifs ips true recs = true ->
  forallb (freeof irs) (map (dkvp_line ifs ips) recs) = true ->
  read_dkvp_irs irs ifs ips false dedupe (write_dkvp_ors ifs ips irs recs) = recs.
Proof. exact dkvp_irs_roundtrip. Qed.
Print Assumptions C01_dkvp_custom_irs_roundtrip.

Theorem C01_nidx_custom_irs_roundtrip :
  forall irs ifs recs, irs <> [] -> default_irs irs = false -> wf_nidx ifs true recs = true ->
  forallb (freeof irs) (map (fun r => join ifs (values r)) recs) = true ->
  read_nidx_irs irs ifs true (write_nidx_ors ifs irs recs) = recs.
Proof. exact nidx_irs_roundtrip. Qed.
Print Assumptions C01_nidx_custom_irs_roundtrip.

Example C01_nonvacuous_custom_irs :
  default_irs (B ";;") = false /\ wf_dkvp (B ",") (B "=") true [[(B "a", B "x y"); (B "b", B "")]; []; [(B "c", bs [13;65]%N)]] = true
  /\ forallb (freeof (B ";;")) (map (dkvp_line (B ",") (B "=")) [[(B "a", B "x y"); (B "b", B "")]; []; [(B "c", bs [13;65]%N)]]) = true
  /\ wf_nidx (B " ") true [[(B "1", B "p"); (B "2", B "q")]] = true.
Proof. vm_compute. repeat split; reflexivity. Qed.
