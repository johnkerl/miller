(* TSV: codec inverse on ALL byte strings, writer/reader round trip (explicit and implicit header). *)
From Miller Require Import Base.Bytes Base.Record C01.Model C01.ProofsUtil.
Open Scope char_scope.

Lemma decode_bb r : tsv_decode (BSL :: BSL :: r) = BSL :: tsv_decode r. Proof. reflexivity. Qed.
Lemma decode_bn r : tsv_decode (BSL :: "n" :: r) = LF :: tsv_decode r. Proof. reflexivity. Qed.
Lemma decode_br r : tsv_decode (BSL :: "r" :: r) = CR :: tsv_decode r. Proof. reflexivity. Qed.
Lemma decode_bt r : tsv_decode (BSL :: "t" :: r) = TAB :: tsv_decode r. Proof. reflexivity. Qed.
Lemma decode_plain c r : eqc c BSL = false -> tsv_decode (c :: r) = c :: tsv_decode r.
Proof. intros H. cbn [tsv_decode]. now rewrite H. Qed.

Lemma tsv_encode_cons c s :
  tsv_encode (c :: s) = match tsv_esc c with Some e => e | None => [c] end ++ tsv_encode s.
Proof. reflexivity. Qed.

Lemma tsv_codec_inverse s : tsv_decode (tsv_encode s) = s.
Proof.
  induction s as [|c t IH]; [reflexivity|]. rewrite tsv_encode_cons. unfold tsv_esc.
  destruct (eqc c BSL) eqn:E1. { apply eqc_eq in E1. subst. cbn [app]. now rewrite decode_bb, IH. }
  destruct (eqc c LF) eqn:E2. { apply eqc_eq in E2. subst. cbn [app]. now rewrite decode_bn, IH. }
  destruct (eqc c CR) eqn:E3. { apply eqc_eq in E3. subst. cbn [app]. now rewrite decode_br, IH. }
  destruct (eqc c TAB) eqn:E4. { apply eqc_eq in E4. subst. cbn [app]. now rewrite decode_bt, IH. }
  cbn [app]. now rewrite decode_plain, IH.
Qed.

Lemma tsv_encode_clean x s :
  (x = TAB \/ x = LF \/ x = CR) -> nochar x (tsv_encode s) = true.
Proof.
  intros Hx. induction s as [|c t IH]; [reflexivity|].
  rewrite tsv_encode_cons, nochar_app, IH, andb_true_r. unfold tsv_esc.
  destruct (eqc c BSL). { destruct Hx as [->|[->| ->]]; reflexivity. }
  destruct (eqc c LF) eqn:E2. { destruct Hx as [->|[->| ->]]; reflexivity. }
  destruct (eqc c CR) eqn:E3. { destruct Hx as [->|[->| ->]]; reflexivity. }
  destruct (eqc c TAB) eqn:E4. { destruct Hx as [->|[->| ->]]; reflexivity. }
  unfold nochar. cbn [forallb]. destruct Hx as [->|[->| ->]]; [now rewrite E4|now rewrite E2|now rewrite E3].
Qed.

Lemma tsv_encode_nil_inv s : tsv_encode s = [] -> s = [].
Proof.
  destruct s as [|c t]; [reflexivity|]. rewrite tsv_encode_cons. unfold tsv_esc.
  destruct (eqc c BSL); [discriminate|]. destruct (eqc c LF); [discriminate|].
  destruct (eqc c CR); [discriminate|]. destruct (eqc c TAB); discriminate.
Qed.

(* The domain: rectangular streams with unique keys (what a header-plus-rows format can represent), of ANY bytes,
   except -- known finding tsv-single-column-empty-cell -- a single column whose key or some value is empty
   (the line is then empty and lib.SplitString yields zero fields instead of one empty field). *)
Definition not_single_empty (fs : list bytes) : bool := match fs with [[]] => false | _ => true end.
Definition wf_tsv (recs : list record) : bool :=
  rect recs
  && match recs with
     | [] => true
     | r0 :: _ => nodupb (keys r0) && not_single_empty (keys r0)
     end
  && forallb (fun r => not_single_empty (values r)) recs.

Lemma join_not_nil sep fs : sep <> [] -> fs <> [] -> not_single_empty fs = true -> is_nil (join sep fs) = false.
Proof.
  intros Hs Hne Hn. destruct (join sep fs) eqn:E; [|reflexivity].
  apply join_nil_inv in E as [E|E]; [congruence|subst; discriminate|assumption].
Qed.

Lemma tsv_line_clean x fs : x = LF \/ x = CR -> nochar x (tsv_line fs) = true.
Proof.
  intros Hx. unfold tsv_line. apply nochar_join; [now destruct Hx as [-> | ->]|].
  rewrite forallb_map. apply forallb_true. intros f. apply tsv_encode_clean. tauto.
Qed.

Lemma tsv_line_ok crlf fs : line_ok crlf (tsv_line fs) = true.
Proof.
  unfold line_ok. rewrite tsv_line_clean, ends_cr_nochar by auto using tsv_line_clean. now rewrite orb_true_r.
Qed.

Lemma tsv_lines_ok crlf (rows : list (list bytes)) : forallb (line_ok crlf) (map tsv_line rows) = true.
Proof. rewrite forallb_map. apply forallb_true. intros fs. apply tsv_line_ok. Qed.

Lemma tsv_line_split fs :
  not_single_empty fs = true -> map tsv_decode (split_string [TAB] (tsv_line fs)) = fs.
Proof.
  intros Hn. unfold tsv_line. rewrite split_string_join.
  - rewrite map_map. apply map_id_in. intros f _. apply tsv_codec_inverse.
  - discriminate.
  - rewrite forallb_map. apply forallb_true. intros x. rewrite <- nochar_freeof. apply tsv_encode_clean. auto.
  - destruct fs as [|x [|y t]]; try discriminate. intros [= E%tsv_encode_nil_inv]. now subst.
Qed.

Definition obind {A B} (x : option A) (f : A -> option B) : option B := match x with Some a => f a | None => None end.

Lemma tsv_roundtrip crlf dedupe ragged recs :
  wf_tsv recs = true ->
  obind (write_tsv false crlf recs) (read_tsv dedupe ragged) = Some recs.
Proof.
  unfold wf_tsv. intros [[Hrect Hk]%andb_true_iff Hvals]%andb_true_iff.
  destruct recs as [|r0 rest]; [reflexivity|]. apply andb_true_iff in Hk as [Hnd Hnse].
  unfold write_tsv. rewrite rows_of_rect by exact Hrect. cbn [orb is_nil obind app]. unfold read_tsv.
  rewrite (lines_of_unlines crlf (_ :: _)) by (cbn [forallb]; now rewrite tsv_line_ok, tsv_lines_ok).
  rewrite tsv_line_split, map_map by exact Hnse.
  apply map_opt_map_id. intros r Hr. rewrite forallb_forall in Hvals. rewrite tsv_line_split by now apply Hvals.
  rewrite <- (rect_keys _ _ _ Hrect Hr) in *. now apply row_to_record_rect.
Qed.

(* the remaining exclusion is genuine: today's reader rejects the writer's output for a single empty cell *)
Lemma tsv_single_empty_cell_refuted :
  exists recs, rect recs = true /\ obind (write_tsv false false recs) (read_tsv true false) <> Some recs.
Proof. exists [[(B "a", [])]]. split; [reflexivity|]. vm_compute. discriminate. Qed.
