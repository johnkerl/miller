(* What the csvlite, PPRINT, barred PPRINT and Markdown round trips share.  Each of these writers emits the stream as
   blocks -- maximal runs of records with the same ","-joined keys, a header per block, an empty line between blocks --
   and each of the readers forgets its header at an empty line.  [all_blocks] says what the grouping yields,
   [stream_blocks] that the writers which decide record by record emit the same blocks, [read_blocks] reads the text
   back given what the reader does on the header lines and on one data line. *)
From Miller Require Import Base.Bytes Base.Record C01.Model C01.ModelLite C01.ModelPprint C01.ProofsUtil.
From Miller Require Import Base.ListFacts.
Open Scope char_scope.

(* the lines of blocks, an empty line between two ([List.concat] at [bytes] and not at the [list ascii] that is inferred,
   for rewriting with lemmas stated on [bytes]) *)
Definition sep_lines {A} (L : A -> list bytes) (xs : list A) : list bytes :=
  match xs with [] => [] | x :: t => L x ++ @List.concat bytes (map (fun y => [] :: L y) t) end.

Lemma forallb_sep_lines {A} (Q : bytes -> bool) (L : A -> list bytes) xs :
  Q [] = true -> Forall (fun x => forallb Q (L x) = true) xs -> forallb Q (sep_lines L xs) = true.
Proof.
  intros Q0 H. destruct H as [|x t Hx Ht]; [reflexivity|]. cbn [sep_lines]. rewrite forallb_app, Hx.
  induction Ht as [|y t Hy Ht IH]; [reflexivity|]. cbn [map List.concat app forallb]. now rewrite Q0, forallb_app, Hy.
Qed.

Definition jk (r : record) : bytes := join [","] (keys r).

Lemma jk_inj r r' : r <> [] -> r' <> [] -> forallb (nochar ",") (keys r) = true -> forallb (nochar ",") (keys r') = true ->
  jk r = jk r' -> keys r = keys r'.
Proof.
  intros Hr Hr' Hk Hk'.
  apply (join_inj [","]); [discriminate|now destruct r|now destruct r'| |];
    (eapply forallb_impl; [|eassumption]); intros k H; now rewrite <- nochar_freeof.
Qed.

(* what the four domains ask of every record *)
Lemma rec_ok_inv (K V : bytes -> bool) (r : record) :
  negb (is_nil r) && nodupb (keys r) && forallb K (keys r) && forallb V (values r) = true ->
  r <> [] /\ NoDup (keys r) /\ forallb K (keys r) = true /\ forallb V (values r) = true.
Proof.
  intros [[[Hne Hnd%nodupb_NoDup]%andb_true_iff Hk]%andb_true_iff Hv]%andb_true_iff. now destruct r.
Qed.

Section Blocks.
Variable ok : record -> bool.
Hypothesis ok_keys : forall r, ok r = true -> r <> [] /\ forallb (nochar ",") (keys r) = true.

Definition block (b : list record) : Prop := b <> [] /\ Forall (fun r => ok r = true /\ keys r = keys (hd [] b)) b.

Lemma block_rev cur curj : cur <> [] -> Forall (fun r => ok r = true /\ jk r = curj) cur -> block (rev cur).
Proof.
  intros Hne Hall. apply rev_not_nil in Hne. apply Forall_rev in Hall. split; [exact Hne|].
  destruct (rev cur) as [|r0 b]; [congruence|]. destruct (Forall_inv Hall) as [H0 Hj0].
  eapply Forall_impl; [|exact Hall]. intros r [Hr Hj]. split; [exact Hr|].
  destruct (ok_keys r Hr), (ok_keys r0 H0). apply jk_inj; try assumption. now rewrite Hj.
Qed.

Lemma pp_batches_blocks recs : forall cur curj,
  cur <> [] -> Forall (fun r => ok r = true /\ jk r = curj) cur -> Forall (fun r => ok r = true) recs ->
  List.concat (pp_batches cur curj recs) = rev cur ++ recs /\ Forall block (pp_batches cur curj recs).
Proof.
  induction recs as [|r recs IH]; intros cur curj Hne Hcur Hrecs.
  - cbn [pp_batches List.concat]. rewrite !app_nil_r. split; [reflexivity|]. constructor; [|constructor].
    now apply (block_rev cur curj).
  - inversion Hrecs as [|? ? Hr Hrecs']; subst. cbn [pp_batches]. fold (jk r). destruct (beqb_spec (jk r) curj) as [E|E].
    + destruct (IH (r :: cur) curj) as [H1 H2]; [discriminate|now constructor|assumption|].
      split; [|exact H2]. rewrite H1. cbn [rev]. now rewrite <- app_assoc.
    + destruct (IH [r] (jk r)) as [H1 H2]; [discriminate|now repeat constructor|assumption|].
      split; [cbn [List.concat]; now rewrite H1|]. constructor; [|exact H2]. now apply (block_rev cur curj).
Qed.

Lemma all_blocks recs : forallb ok recs = true ->
  List.concat (pp_all_batches recs) = recs /\ Forall block (pp_all_batches recs).
Proof.
  intros H. apply forallb_Forall in H. destruct H as [|r recs Hr Hrecs]; [split; [reflexivity|constructor]|].
  apply (pp_batches_blocks recs [r] (jk r)); [discriminate|now repeat constructor|assumption].
Qed.

Lemma block_ok b : block b -> ok (hd [] b) = true /\ Forall (fun r => ok r = true) b.
Proof.
  intros [Hne Hall]. split; [destruct b; [congruence|apply (Forall_inv Hall)]|].
  eapply Forall_impl; [|exact Hall]. now intros r [Hr _].
Qed.

Lemma lines_of_blocks crlf (L : list record -> list bytes) bs :
  Forall block bs -> (forall b, block b -> forallb (line_ok crlf) (L b) = true) ->
  lines_of (unlines (ors_of crlf) (sep_lines L bs)) = sep_lines L bs.
Proof.
  intros Hbs HL. apply lines_of_unlines, forallb_sep_lines; [now destruct crlf|]. eapply Forall_impl; [|exact Hbs]. exact HL.
Qed.

(* the reader strips a BOM from the first line, which is the header line [hl] of the first record *)
Lemma strip_bom_first_lines (hl : list record -> record -> bytes) (L : list record -> list bytes) bs :
  Forall block bs -> (forall b, block b -> exists ls, L b = hl b (hd [] b) :: ls) ->
  match List.concat bs with r :: _ => forall b, strip_bom (hl b r) = hl b r | [] => True end ->
  strip_bom_first (sep_lines L bs) = sep_lines L bs.
Proof.
  intros Hbs HL. destruct Hbs as [|b bs Hb _]; [reflexivity|]. destruct (HL b Hb) as [ls E]. cbn [sep_lines]. rewrite E.
  destruct Hb as [Hne _]. destruct b as [|r b]; [congruence|]. cbn. intros H. now rewrite H.
Qed.

(* the PPRINT writer's text: the blocks' lines, a block that wrote something followed by an ORS *)
Lemma pp_texts_lines ors (f : list record -> bytes) (L : list record -> list bytes) bs :
  Forall block bs -> (forall b, block b -> f b = unlines ors (L b)) ->
  pp_texts f ors bs = unlines ors (sep_lines L bs).
Proof.
  intros Hbs Hf. destruct Hbs as [|b bs Hb Hbs]; [reflexivity|]. cbn [sep_lines]. revert b Hb.
  induction Hbs as [|b2 bs Hb2 Hbs IH]; intros b Hb; [cbn; rewrite app_nil_r; now apply Hf|].
  change (pp_texts f ors (b :: b2 :: bs)) with (f b ++ (if forallb is_nil b then [] else ors) ++ pp_texts f ors (b2 :: bs)).
  rewrite (IH b2 Hb2), (Hf b Hb). cbn [map List.concat app]. rewrite (unlines_app ors (L b)).
  replace (forallb is_nil b) with false; [reflexivity|].
  destruct Hb as [Hne Hall]. destruct b as [|r b]; [congruence|]. apply Forall_inv in Hall as [Hr _]. apply ok_keys in Hr as [Hr _]. now destruct r.
Qed.

(* Reading the blocks back.  [St]: the reader's state between lines, [s0] after an empty line;
   [at_keys ks s]: in state [s] the reader holds the header [ks].  A block's lines are header lines [H], a line
   [D] per record, and trailing lines [T] which the reader skips. *)
Section Read.
Variables (St : Type) (R : St -> list bytes -> option (list record)) (s0 : St) (at_keys : list bytes -> St -> Prop).
Variables (L H T : list record -> list bytes) (D : list record -> record -> bytes).
Hypothesis L_eq : forall b, block b -> L b = H b ++ map (D b) b ++ T b.
Hypothesis R_nil : forall s, R s [] = Some [].
Hypothesis R_blank : forall s rest, R s ([] :: rest) = R s0 rest.
Hypothesis R_head : forall b rest, block b -> exists s, at_keys (keys (hd [] b)) s /\ R s0 (H b ++ rest) = R s rest.
Hypothesis R_data : forall b r s rest, ok r = true -> at_keys (keys r) s ->
  exists s', at_keys (keys r) s' /\ R s (D b r :: rest) = option_map (cons r) (R s' rest).
Hypothesis R_tail : forall b s rest, R s (T b ++ rest) = R s rest.

Lemma read_rows b ks rs : forall s rest, Forall (fun r => ok r = true /\ keys r = ks) rs -> at_keys ks s ->
  exists s', at_keys ks s' /\ R s (map (D b) rs ++ rest) = option_map (app rs) (R s' rest).
Proof.
  induction rs as [|r rs IH]; intros s rest Hall Hs.
  - exists s. split; [exact Hs|]. cbn. now destruct (R s rest).
  - inversion Hall as [|? ? [Hr Hk] Hall']; subst. cbn [map app].
    destruct (R_data b r s (map (D b) rs ++ rest) Hr Hs) as (s1 & Hs1 & E1).
    destruct (IH s1 rest Hall' Hs1) as (s2 & Hs2 & E2). exists s2. split; [exact Hs2|].
    rewrite E1, E2. now destruct (R s2 rest).
Qed.

Lemma read_block b rest : block b -> exists s, R s0 (L b ++ rest) = option_map (app b) (R s rest).
Proof.
  intros Hb. destruct (R_head b (map (D b) b ++ T b ++ rest) Hb) as (s & Hs & E).
  destruct (read_rows b _ b s (T b ++ rest) (proj2 Hb) Hs) as (s' & _ & E').
  exists s'. rewrite (L_eq b Hb), <- !app_assoc, E, E', R_tail. reflexivity.
Qed.

Lemma read_more bs : Forall block bs ->
  forall s, R s (@List.concat bytes (map (fun b => [] :: L b) bs)) = Some (List.concat bs).
Proof.
  induction 1 as [|b bs Hb Hbs IH]; intros s; [apply R_nil|]. cbn [map List.concat app]. rewrite R_blank.
  edestruct (read_block b) as [s' E]; [exact Hb|]. now rewrite E, IH.
Qed.

Lemma read_blocks bs : Forall block bs -> R s0 (sep_lines L bs) = Some (List.concat bs).
Proof.
  intros Hbs. destruct Hbs as [|b bs Hb Hbs]; [apply R_nil|]. cbn [sep_lines List.concat].
  edestruct (read_block b) as [s E]; [exact Hb|]. now rewrite E, read_more.
Qed.
End Read.
End Blocks.

(* The record-by-record writers (csvlite, Markdown).
   [last]: the joined keys of the previous record; header lines [H] when they change, one line [D] per record *)
Fixpoint stream_lines (H : record -> list bytes) (D : record -> bytes) (last : option bytes) (recs : list record) : list bytes :=
  match recs with
  | [] => []
  | r :: t => match last with
              | None => H r
              | Some l => if beqb (jk r) l then [] else [] :: H r
              end ++ D r :: stream_lines H D (Some (jk r)) t
  end.

Lemma stream_batches H D recs : forall cur curj, cur <> [] ->
  @List.concat bytes (map (fun b => [] :: H (hd [] b) ++ map D b) (pp_batches cur curj recs))
  = [] :: (H (hd [] (rev cur)) ++ map D (rev cur)) ++ stream_lines H D (Some curj) recs.
Proof.
  induction recs as [|r recs IH]; intros cur curj Hne.
  - cbn. now rewrite !app_nil_r.
  - cbn [pp_batches stream_lines]. fold (jk r). destruct (beqb_spec (jk r) curj) as [E|E].
    + rewrite IH by discriminate. rewrite E. cbn [rev app]. f_equal. rewrite map_app, <- !app_assoc.
      apply rev_not_nil in Hne. now destruct (rev cur).
    + cbn [map List.concat]. rewrite IH by discriminate. cbn [rev app hd map]. now rewrite <- !app_assoc.
Qed.

Lemma stream_blocks H D recs :
  stream_lines H D None recs = sep_lines (fun b => H (hd [] b) ++ map D b) (pp_all_batches recs).
Proof.
  destruct recs as [|r recs]; [reflexivity|]. cbn [stream_lines pp_all_batches]. fold (jk r).
  pose proof (stream_batches H D recs [r] (jk r) ltac:(discriminate)) as E.
  destruct (pp_batches [r] (jk r) recs) as [|b bs]; [discriminate|].
  cbn [map List.concat app rev hd] in E. injection E as E. cbn [sep_lines]. etransitivity; [|symmetry; exact E]. now rewrite <- app_assoc.
Qed.
