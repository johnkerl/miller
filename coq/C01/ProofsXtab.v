(* XTAB: writer then reader is the identity, for EVERY display-width function. *)
From Miller Require Import Base.Bytes Base.Record C01.Model C01.ModelXtab C01.ProofsUtil C01.ProofsBlocks.
From Miller Require Import Base.ListFacts.
Open Scope char_scope.

Definition starts_with (c : ascii) (v : bytes) : bool := match v with x :: _ => eqc x c | [] => false end.

Definition xtab_field_ok (c : ascii) (kv : field) : bool :=
  nochar c (fst kv) && nochar LF (fst kv) && nochar LF (snd kv) && negb (starts_with c (snd kv)) && negb (ends_cr (snd kv)).
(* IPS = OPS = one byte c, not CR/LF; records non-empty with unique keys; keys free of c and LF (the empty key is fine);
   values free of LF, not starting with c (the reader skips repeated IPS), not ending in CR (line reader) *)
Definition wf_xtab (c : ascii) (recs : list record) : bool :=
  negb (eqc c LF) && negb (eqc c CR)
  && forallb (fun r => negb (is_nil r) && nodupb (keys r) && forallb (xtab_field_ok c) r) recs.

Lemma field_ok_inv c k v : xtab_field_ok c (k, v) = true ->
  nochar c k = true /\ nochar LF k = true /\ nochar LF v = true /\ starts_with c v = false /\ ends_cr v = false.
Proof. unfold xtab_field_ok. cbn [fst snd]. rewrite !andb_true_iff, !negb_true_iff. tauto. Qed.

Lemma prefixb_single c s : prefixb [c] s = starts_with c s.
Proof. destruct s as [|x s]; [reflexivity|]. cbn. unfold eqc. rewrite andb_true_r. apply Ascii.eqb_sym. Qed.

Lemma strip_copies_rep c n v : forall fuel,
  n <= fuel -> starts_with c v = false -> strip_copies fuel [c] (repeat_bytes n [c] ++ v) = v.
Proof.
  induction n as [|n IH]; intros fuel Hf Hv.
  - cbn [repeat_bytes app]. destruct fuel; [reflexivity|]. cbn [strip_copies]. now rewrite prefixb_single, Hv.
  - destruct fuel as [|fuel]; [lia|]. cbn [repeat_bytes app strip_copies].
    rewrite prefixb_single. cbn [starts_with]. rewrite eqc_refl. cbn [List.length skipn]. apply IH; [lia|assumption].
Qed.

Lemma drop_while_rep c n v : starts_with c v = false -> drop_while_ips [c] (repeat_bytes n [c] ++ v) = v.
Proof.
  intros Hv. induction n as [|n IH].
  - cbn [repeat_bytes app]. destruct v as [|x t]; [reflexivity|]. cbn [drop_while_ips]. now rewrite prefixb_single, Hv.
  - cbn [repeat_bytes app drop_while_ips]. rewrite prefixb_single. cbn [starts_with]. now rewrite eqc_refl.
Qed.

Lemma find_ips_key c k : forall rest acc,
  nochar c k = true -> find_ips [c] (k ++ c :: rest) acc = Some (rev acc ++ k, c :: rest).
Proof.
  induction k as [|x k IH]; intros rest acc H.
  - cbn [app find_ips]. rewrite prefixb_single. cbn [starts_with]. now rewrite eqc_refl, app_nil_r.
  - apply andb_true_iff in H as [Hx%negb_true_iff H].
    cbn [app find_ips]. rewrite prefixb_single. cbn [starts_with]. rewrite Hx.
    rewrite IH by exact H. cbn [rev]. now rewrite <- app_assoc.
Qed.

Lemma xtab_split_line c k p v :
  nochar c k = true -> starts_with c v = false ->
  xtab_split [c] (k ++ repeat_bytes (S p) [c] ++ v) = Some (k, v).
Proof.
  intros Hk Hv. destruct k as [|x k].
  - cbn [repeat_bytes app]. unfold xtab_split. rewrite prefixb_single. cbn [starts_with]. rewrite eqc_refl.
    do 2 f_equal. apply (strip_copies_rep c (S p)); [|assumption].
    cbn [List.length]. rewrite app_length. apply le_n_S. clear. induction p; cbn in *; lia.
  - apply andb_true_iff in Hk as [Hx%negb_true_iff Hk].
    cbn [repeat_bytes app]. unfold xtab_split. rewrite prefixb_single. cbn [starts_with]. rewrite Hx.
    rewrite find_ips_key by exact Hk. cbn [rev app List.length skipn]. now rewrite drop_while_rep.
Qed.

Section W.
Variable w : bytes -> nat.
Variable c : ascii.
(* --xvright pads the VALUES with spaces: that is more copies of the IPS exactly when the IPS is the space *)
Variable right : bool.
Hypothesis Hright : right = false \/ c = SP.

Definition xpad (maxk maxv : nat) (kv : field) : nat := (maxk - w (fst kv)) + (if right then maxv - w (snd kv) else 0).

Lemma xtab_line_shape maxk maxv kv :
  xtab_line w [c] right maxk maxv kv = fst kv ++ repeat_bytes (S (xpad maxk maxv kv)) [c] ++ snd kv.
Proof.
  unfold xtab_line, xpad. cbn [List.length Nat.eqb repeat_bytes]. rewrite repeat_bytes_add, <- !app_assoc.
  destruct Hright as [-> | ->]; [reflexivity|]. now destruct right.
Qed.

Lemma xtab_record_spec d maxk maxv r : forall acc,
  forallb (xtab_field_ok c) r = true -> NoDup (keys acc ++ keys r) ->
  xtab_record [c] d (map (xtab_line w [c] right maxk maxv) r) acc = Some (acc ++ r).
Proof.
  induction r as [|[k v] r IH]; intros acc Hok Hnd; [cbn; now rewrite app_nil_r|].
  apply andb_true_iff in Hok as [(Hk & _ & _ & Hv & _)%field_ok_inv Hok].
  destruct (nodup_keys_snoc acc k v _ Hnd) as [Hh Hnd'].
  cbn [map xtab_record]. rewrite xtab_line_shape. cbn [fst snd].
  rewrite xtab_split_line, put_deferred_new, IH by assumption. now rewrite <- app_assoc.
Qed.

Lemma xtab_line_ok maxk maxv kv :
  eqc c LF = false -> eqc c CR = false -> xtab_field_ok c kv = true ->
  is_nil (xtab_line w [c] right maxk maxv kv) = false /\ line_ok false (xtab_line w [c] right maxk maxv kv) = true.
Proof.
  intros Hlf Hcr Hok. destruct kv as [k v]. apply field_ok_inv in Hok as (_ & Hkl & Hvl & _ & Hve).
  rewrite xtab_line_shape. cbn [fst snd]. split; [now destruct k|].
  assert (Hrep : forall x, eqc c x = false -> nochar x (repeat_bytes (S (xpad maxk maxv (k, v))) [c]) = true)
    by (intros x Hx; apply forallb_repeat; now rewrite Hx).
  unfold line_ok. rewrite !nochar_app, Hkl, Hvl, Hrep by exact Hlf.
  rewrite ends_cr_app_ne, ends_cr_app by (assumption || discriminate || now apply ends_cr_nochar, Hrep). reflexivity.
Qed.

Lemma stanza_lines L : forall rest cur,
  forallb (fun l => negb (is_nil l)) L = true ->
  xtab_stanzas (L ++ rest) cur = xtab_stanzas rest (rev L ++ cur).
Proof.
  induction L as [|l L IH]; intros rest cur H; [reflexivity|].
  apply andb_true_iff in H as [Hl%negb_true_iff H].
  cbn [app xtab_stanzas]. rewrite Hl, IH by assumption. cbn [rev]. now rewrite <- app_assoc.
Qed.

Lemma stanzas_sep_lines {A} (L : A -> list bytes) xs :
  Forall (fun x => L x <> [] /\ forallb (fun l => negb (is_nil l)) (L x) = true) xs ->
  xtab_stanzas (sep_lines L xs) [] = map L xs.
Proof.
  assert (Hmore : forall ys, Forall (fun x => L x <> [] /\ forallb (fun l => negb (is_nil l)) (L x) = true) ys ->
            forall cur, cur <> [] -> xtab_stanzas (List.concat (map (fun y => [] :: L y) ys)) cur = rev cur :: map L ys).
  { induction 1 as [|y ys [Hne Hy] _ IH]; intros cur Hcur; (destruct cur; [congruence|]); [reflexivity|].
    cbn [map List.concat app xtab_stanzas is_nil]. now rewrite stanza_lines, app_nil_r, IH, rev_involutive by auto using rev_not_nil. }
  intros H. destruct H as [|x xs [Hne Hx] H]; [reflexivity|]. cbn [sep_lines map].
  now rewrite stanza_lines, app_nil_r, Hmore, rev_involutive by auto using rev_not_nil.
Qed.

Lemma xtab_rec_lines_ok d r :
  eqc c LF = false -> eqc c CR = false -> negb (is_nil r) && nodupb (keys r) && forallb (xtab_field_ok c) r = true ->
  xtab_rec_lines w [c] right r <> []
  /\ forallb (fun l => negb (is_nil l)) (xtab_rec_lines w [c] right r) = true
  /\ forallb (line_ok false) (xtab_rec_lines w [c] right r) = true
  /\ xtab_record [c] d (xtab_rec_lines w [c] right r) [] = Some r.
Proof.
  intros Hlf Hcr [[Hne Hnd%nodupb_NoDup]%andb_true_iff Hok]%andb_true_iff. unfold xtab_rec_lines.
  repeat split; [now destruct r| | |now apply xtab_record_spec]; rewrite forallb_map;
    (eapply forallb_impl; [|exact Hok]); intros kv Hkv; [apply negb_true_iff|]; now apply xtab_line_ok.
Qed.

Lemma xtab_roundtrip_g dedupe recs :
  wf_xtab c recs = true -> read_xtab [c] dedupe (write_xtab w [c] right recs) = Some recs.
Proof.
  unfold wf_xtab. intros [[Hlf%negb_true_iff Hcr%negb_true_iff]%andb_true_iff Hrecs]%andb_true_iff.
  assert (H : Forall (fun r => _) recs)
    by (eapply Forall_impl; [|exact (forallb_Forall _ _ Hrecs)]; exact (fun r => xtab_rec_lines_ok dedupe r Hlf Hcr)).
  unfold read_xtab, write_xtab. change [LF] with (ors_of false).
  change (xtab_all_lines w [c] right recs) with (sep_lines (xtab_rec_lines w [c] right) recs).
  rewrite lines_of_unlines, stanzas_sep_lines.
  - apply map_opt_map_id. intros r Hin. rewrite Forall_forall in H. now apply H.
  - eapply Forall_impl; [|exact H]. now intros r (? & ? & _).
  - apply forallb_sep_lines; [reflexivity|]. eapply Forall_impl; [|exact H]. now intros r (_ & _ & ? & _).
Qed.
End W.

Lemma xtab_roundtrip w c dedupe recs :
  wf_xtab c recs = true -> read_xtab [c] dedupe (write_xtab w [c] false recs) = Some recs.
Proof. exact (xtab_roundtrip_g w c false (or_introl eq_refl) dedupe recs). Qed.

(* --xvright with the default IPS/OPS (the space) *)
Lemma xtab_xvright_roundtrip w dedupe recs :
  wf_xtab SP recs = true -> read_xtab [SP] dedupe (write_xtab w [SP] true recs) = Some recs.
Proof. exact (xtab_roundtrip_g w SP true (or_intror eq_refl) dedupe recs). Qed.
