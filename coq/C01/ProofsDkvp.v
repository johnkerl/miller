(* DKVP and NIDX: writer/reader round trips. *)
From Miller Require Import Base.Bytes Base.Record C01.Model C01.ProofsUtil.
From Coq Require Import DecimalString DecimalNat FinFun.
Open Scope char_scope.

Definition sep_ok (s : bytes) : bool := negb (is_nil s) && nochar LF s && nochar CR s.
Definition pair_of (ops : bytes) (kv : field) : bytes := fst kv ++ ops ++ snd kv.

Fixpoint last_value_ok (r : record) : bool :=
  match r with
  | [] => true
  | kv :: t => match t with [] => negb (ends_cr (snd kv)) | _ => last_value_ok t end
  end.

Definition dkvp_field_ok (ifs ips : bytes) (kv : field) : bool :=
  freeof ifs (fst kv) && freeof ips (fst kv) && nochar LF (fst kv) && freeof ifs (snd kv) && nochar LF (snd kv).

Definition wf_dkvp (ifs ips : bytes) (crlf : bool) (recs : list record) : bool :=
  sep_ok ifs && sep_ok ips && freeof ifs ips
  && forallb (fun r => nodupb (keys r) && forallb (dkvp_field_ok ifs ips) r && (crlf || last_value_ok r)) recs.

Lemma sep_ok_inv s : sep_ok s = true -> s <> [] /\ nochar LF s = true /\ nochar CR s = true.
Proof. unfold sep_ok. intros [[Hn Hlf]%andb_true_iff Hcr]%andb_true_iff. now destruct s. Qed.

Lemma dkvp_field_ok_inv ifs ips k v : dkvp_field_ok ifs ips (k, v) = true ->
  freeof ifs k = true /\ freeof ips k = true /\ nochar LF k = true /\ freeof ifs v = true /\ nochar LF v = true.
Proof. unfold dkvp_field_ok. cbn [fst snd]. rewrite !andb_true_iff. tauto. Qed.

(* a line built with [join] ends in CR only if its last piece does *)
Lemma join_ends_cr sep (f : field -> bytes) r :
  (forall kv, ends_cr (snd kv) = false -> ends_cr (f kv) = false) ->
  forallb (fun kv => negb (is_nil (f kv))) r = true -> last_value_ok r = true ->
  ends_cr (join sep (map f r)) = false.
Proof.
  intros He. induction r as [|kv r IH]; [reflexivity|]. intros [_ Hne]%andb_true_iff H.
  destruct r as [|kv2 r]; [apply He; now apply negb_true_iff|].
  cbn [map] in *. rewrite join_cons2, app_assoc, ends_cr_app_ne; [now apply IH|].
  apply join_ne. apply andb_true_iff in Hne as [Hne _]. now destruct (f kv2).
Qed.

Section Dkvp.
Variables (ifs ips : bytes).
Hypotheses (Hifs : sep_ok ifs = true) (Hips : sep_ok ips = true).

Lemma dkvp_line_ends r : last_value_ok r = true -> ends_cr (dkvp_line ifs ips r) = false.
Proof.
  destruct (sep_ok_inv _ Hips) as (Hne & _ & Hcr). apply join_ends_cr.
  - intros [k v] H. cbn [fst snd]. rewrite ends_cr_app_ne by now destruct ips. now apply ends_cr_app; [apply ends_cr_nochar|].
  - apply forallb_true. intros [[|c k] v]; [now destruct ips|reflexivity].
Qed.

Lemma dkvp_line_nolf r : forallb (dkvp_field_ok ifs ips) r = true -> nochar LF (dkvp_line ifs ips r) = true.
Proof.
  intros H. apply nochar_join; [apply (sep_ok_inv _ Hifs)|].
  rewrite forallb_map. rewrite forallb_forall in *. intros [k v] Hkv.
  destruct (dkvp_field_ok_inv _ _ _ _ (H _ Hkv)) as (_ & _ & Hk & _ & Hv), (sep_ok_inv _ Hips) as (_ & Hs & _).
  cbn [fst snd]. now rewrite !nochar_app, Hk, Hs, Hv.
Qed.

Lemma dkvp_pairs_spec d r : forall i acc,
  forallb (fun kv => freeof ips (fst kv)) r = true -> NoDup (keys acc ++ keys r) ->
  dkvp_pairs ips d i (map (fun kv => fst kv ++ ips ++ snd kv) r) acc = acc ++ r.
Proof.
  destruct (sep_ok_inv _ Hips) as (Hne & _).
  induction r as [|[k v] r IH]; intros i acc Hf Hnd; [cbn; now rewrite app_nil_r|].
  apply andb_true_iff in Hf as [Hk Hf]. destruct (nodup_keys_snoc acc k v _ Hnd) as [Hh Hnd'].
  cbn [map dkvp_pairs fst snd]. rewrite split2_spec, put_deferred_new, IH by assumption. now rewrite <- app_assoc.
Qed.

Lemma dkvp_line_inverse d r :
  freeof ifs ips = true -> nodupb (keys r) = true -> forallb (dkvp_field_ok ifs ips) r = true ->
  dkvp_pairs ips d 0 (field_split ifs false (dkvp_line ifs ips r)) [] = r.
Proof.
  intros Hii Hnd Hf. destruct (sep_ok_inv _ Hifs) as (Hne & _), (sep_ok_inv _ Hips) as (Hne' & _).
  rewrite forallb_forall in Hf. unfold field_split, dkvp_line. rewrite split_string_join; [|exact Hne| |].
  - apply (dkvp_pairs_spec d r 0 []); [|now apply nodupb_NoDup]. apply forallb_forall. intros [k v] Hkv.
    apply (dkvp_field_ok_inv _ _ _ _ (Hf _ Hkv)).
  - rewrite forallb_map. apply forallb_forall. intros [k v] Hkv.
    destruct (dkvp_field_ok_inv _ _ _ _ (Hf _ Hkv)) as (Hk & _ & _ & Hv & _). cbn [fst snd]. now rewrite !freeof_app, Hk, Hii, Hv.
  - destruct r as [|[k v] [|kv2 r]]; try discriminate. intros [= [_ [E _]%app_eq_nil]%app_eq_nil]. auto.
Qed.
End Dkvp.

Lemma dkvp_lines_ok ifs ips crlf recs : wf_dkvp ifs ips crlf recs = true ->
  forallb (line_ok crlf) (map (dkvp_line ifs ips) recs) = true.
Proof.
  unfold wf_dkvp. intros [[[Hifs Hips]%andb_true_iff _]%andb_true_iff Hrecs]%andb_true_iff.
  rewrite forallb_map. rewrite forallb_forall in *. intros r Hr. specialize (Hrecs r Hr).
  apply andb_true_iff in Hrecs as [[_ Hf]%andb_true_iff Hlast].
  unfold line_ok. rewrite dkvp_line_nolf by assumption. destruct crlf; [reflexivity|]. now rewrite dkvp_line_ends.
Qed.

Lemma dkvp_lines_inverse ifs ips crlf dedupe recs : wf_dkvp ifs ips crlf recs = true ->
  map (fun l => dkvp_pairs ips dedupe 0 (field_split ifs false l) []) (map (dkvp_line ifs ips) recs) = recs.
Proof.
  unfold wf_dkvp. intros [[[Hifs Hips]%andb_true_iff Hii]%andb_true_iff Hrecs]%andb_true_iff.
  rewrite map_map. apply map_id_in. intros r Hr. rewrite forallb_forall in Hrecs. specialize (Hrecs r Hr).
  apply andb_true_iff in Hrecs as [[Hnd Hf]%andb_true_iff _]. now apply dkvp_line_inverse.
Qed.

Lemma dkvp_roundtrip ifs ips crlf dedupe recs :
  wf_dkvp ifs ips crlf recs = true ->
  read_dkvp ifs ips false dedupe (write_dkvp ifs ips crlf recs) = recs.
Proof.
  intros H. unfold read_dkvp, write_dkvp. rewrite lines_of_unlines by now apply dkvp_lines_ok.
  now apply dkvp_lines_inverse with crlf.
Qed.

Lemma itoa_inj a b : itoa a = itoa b -> a = b.
Proof.
  unfold itoa. intros H.
  apply (f_equal string_of_list_ascii) in H. rewrite !string_of_list_ascii_of_string in H.
  apply (f_equal NilEmpty.uint_of_string) in H. rewrite !NilEmpty.usu in H. injection H as H.
  now apply Unsigned.to_uint_inj.
Qed.

Lemma positional_keys_nodup n : nodupb (positional_keys n) = true.
Proof.
  apply nodupb_NoDup. unfold positional_keys. apply Injective_map_NoDup; [|apply seq_NoDup].
  intros a b. apply itoa_inj.
Qed.

Definition wf_nidx_rec (ifs : bytes) (crlf : bool) (r : record) : bool :=
  list_beqb (keys r) (positional_keys (List.length r))
  && forallb (fun v => negb (is_nil v) && freeof ifs v && nochar LF v) (values r)
  && (crlf || last_value_ok r).
Definition wf_nidx (ifs : bytes) (crlf : bool) (recs : list record) : bool :=
  sep_ok ifs && forallb (wf_nidx_rec ifs crlf) recs.

Lemma nidx_fields_spec fs : forall i acc,
  NoDup (keys acc ++ map itoa (seq (S i) (List.length fs))) ->
  nidx_fields i fs acc = acc ++ combine (map itoa (seq (S i) (List.length fs))) fs.
Proof.
  induction fs as [|f fs IH]; intros i acc Hnd; [cbn; now rewrite app_nil_r|].
  cbn [nidx_fields List.length seq map combine] in *. destruct (nodup_keys_snoc acc _ f _ Hnd) as [Hh Hnd'].
  rewrite put_deferred_new, IH by assumption. now rewrite <- app_assoc.
Qed.

Lemma nidx_fields_values (r : record) :
  keys r = positional_keys (List.length r) -> nidx_fields 0 (values r) [] = r.
Proof.
  intros Hk. assert (Hl : List.length (values r) = List.length r) by apply map_length.
  rewrite nidx_fields_spec; rewrite Hl.
  - unfold positional_keys in Hk. rewrite <- Hk. apply combine_keys_values.
  - apply nodupb_NoDup, positional_keys_nodup.
Qed.

(* the two NIDX domains differ in the splitter's condition [P] on a value only *)
Lemma nidx_rec_inv (P : bytes -> bool) crlf (r : record) :
  list_beqb (keys r) (positional_keys (List.length r))
  && forallb (fun v => negb (is_nil v) && P v && nochar LF v) (values r) && (crlf || last_value_ok r) = true ->
  nidx_fields 0 (values r) [] = r /\ forallb (fun v => negb (is_nil v)) (values r) = true /\ forallb P (values r) = true
  /\ forall sep, nochar LF sep = true -> line_ok crlf (join sep (values r)) = true.
Proof.
  rewrite !forallb_andb. intros [[Hk%list_beqb_eq [[Hne HP]%andb_true_iff Hlf]%andb_true_iff]%andb_true_iff Hlast]%andb_true_iff.
  repeat split; [now apply nidx_fields_values|exact Hne|exact HP|]. intros sep Hsep.
  unfold line_ok. rewrite nochar_join by assumption. destruct crlf; [reflexivity|].
  unfold values in *. rewrite forallb_map in Hne. now rewrite (join_ends_cr sep snd).
Qed.

Lemma nidx_lines_ok ifs crlf recs : wf_nidx ifs crlf recs = true ->
  forallb (line_ok crlf) (map (fun r => join ifs (values r)) recs) = true.
Proof.
  intros [Hifs Hrecs]%andb_true_iff. rewrite forallb_map. rewrite forallb_forall in *. intros r Hr.
  now apply (nidx_rec_inv (freeof ifs) crlf r (Hrecs r Hr)), sep_ok_inv.
Qed.

Lemma nidx_lines_inverse ifs crlf recs : wf_nidx ifs crlf recs = true ->
  map (fun l => nidx_fields 0 (field_split ifs true l) []) (map (fun r => join ifs (values r)) recs) = recs.
Proof.
  intros [[Hifs _]%sep_ok_inv Hrecs]%andb_true_iff. rewrite map_map. apply map_id_in. intros r Hr.
  rewrite forallb_forall in Hrecs. destruct (nidx_rec_inv (freeof ifs) crlf r (Hrecs r Hr)) as (Hf & Hne & HP & _).
  unfold field_split. rewrite split_string_join, strip_empties_id; try assumption.
  intros E. now rewrite E in Hne.
Qed.

Lemma nidx_roundtrip ifs crlf recs :
  wf_nidx ifs crlf recs = true ->
  read_nidx ifs true (write_nidx ifs crlf recs) = recs.
Proof.
  intros H. unfold read_nidx, write_nidx. rewrite lines_of_unlines by now apply nidx_lines_ok.
  now apply nidx_lines_inverse with crlf.
Qed.

(* NIDX with the default whitespace regex *)
Definition ws_free (v : bytes) : bool := forallb (fun c => negb (is_ws c)) v.

Lemma split_ws_field f : forall rest acc b,
  f <> [] -> ws_free f = true ->
  split_ws_go (f ++ rest) acc b = split_ws_go rest (rev f ++ acc) false.
Proof.
  induction f as [|c f IH]; intros rest acc b Hne H; [congruence|].
  apply andb_true_iff in H as [Hc%negb_true_iff H]. cbn [app split_ws_go]. rewrite Hc.
  destruct f as [|d f]; [reflexivity|]. rewrite IH by (discriminate || exact H). cbn [rev]. now rewrite <- !app_assoc.
Qed.

Lemma split_ws_go_join vs : forall x b,
  forallb (fun v => negb (is_nil v)) (x :: vs) = true -> forallb ws_free (x :: vs) = true ->
  split_ws_go (join [SP] (x :: vs)) [] b = x :: vs.
Proof.
  induction vs as [|y vs IH]; intros x b [Hne H]%andb_true_iff [Hx H']%andb_true_iff;
    assert (Hx' : x <> []) by now destruct x.
  - cbn [join]. rewrite <- (app_nil_r x) at 1. rewrite split_ws_field by assumption.
    cbn [split_ws_go]. now rewrite app_nil_r, rev_involutive.
  - rewrite join_cons2, split_ws_field by assumption. cbn [app split_ws_go].
    change (is_ws SP) with true. cbv iota. rewrite app_nil_r, rev_involutive. f_equal. now apply IH.
Qed.

Lemma split_ws_join vs :
  forallb (fun v => negb (is_nil v)) vs = true -> forallb ws_free vs = true -> split_ws (join [SP] vs) = vs.
Proof.
  destruct vs as [|x vs]; [reflexivity|]. intros Hne Hws. unfold split_ws.
  destruct (join [SP] (x :: vs)) eqn:E; [|rewrite <- E; now apply split_ws_go_join].
  apply join_ne in E; [easy|]. apply andb_true_iff in Hne as [Hx _]. now destruct x.
Qed.

Definition wf_nidx_ws_rec (crlf : bool) (r : record) : bool :=
  list_beqb (keys r) (positional_keys (List.length r))
  && forallb (fun v => negb (is_nil v) && ws_free v && nochar LF v) (values r)
  && (crlf || last_value_ok r).

Lemma nidx_ws_roundtrip crlf recs :
  forallb (wf_nidx_ws_rec crlf) recs = true ->
  read_nidx_ws (write_nidx [SP] crlf recs) = recs.
Proof.
  intros Hrecs. rewrite forallb_forall in Hrecs. unfold read_nidx_ws, write_nidx. rewrite lines_of_unlines, map_map.
  - apply map_id_in. intros r Hr. destruct (nidx_rec_inv ws_free crlf r (Hrecs r Hr)) as (Hf & Hne & HP & _).
    now rewrite split_ws_join.
  - rewrite forallb_map. apply forallb_forall. intros r Hr. now apply (nidx_rec_inv ws_free crlf r (Hrecs r Hr)).
Qed.
