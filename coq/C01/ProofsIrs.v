(* custom IRS/ORS: the line reader inverts "every line followed by the ORS"; DKVP and NIDX round trips with it. *)
From Miller Require Import Base.Bytes Base.Record C01.Model C01.ModelIrs C01.ProofsUtil C01.ProofsDkvp.
Open Scope char_scope.

Lemma unlines_join sep (ls : list bytes) : unlines sep ls = join sep (ls ++ [[]]).
Proof.
  unfold unlines. induction ls as [|l ls IH]; [reflexivity|]. cbn [map List.concat app].
  destruct ls as [|m ls]; [cbn [map List.concat app join]; now rewrite !app_nil_r|].
  change ((m :: ls) ++ [[]]) with (m :: ls ++ [[]]) in *. rewrite join_cons2, <- IH. now rewrite <- app_assoc.
Qed.

Lemma lines_irs_unlines irs ls : irs <> [] -> forallb (freeof irs) ls = true -> lines_irs irs (unlines irs ls) = ls.
Proof.
  intros Hs Hf. unfold lines_irs. rewrite unlines_join. rewrite split_join.
  - unfold drop_last_empty. rewrite rev_app_distr. cbn [rev app]. apply rev_involutive.
  - exact Hs.
  - rewrite forallb_app, Hf. reflexivity.
  - destruct ls; discriminate.
Qed.

(* domain: that of the DKVP round trip (any IFS/IPS, see C01_dkvp_roundtrip) and no byte of the IRS in any written line *)
Lemma dkvp_irs_roundtrip irs ifs ips dedupe recs :
  irs <> [] -> default_irs irs = false -> wf_dkvp ifs ips true recs = true ->
  forallb (freeof irs) (map (dkvp_line ifs ips) recs) = true ->
  read_dkvp_irs irs ifs ips false dedupe (write_dkvp_ors ifs ips irs recs) = recs.
Proof.
  intros Hs Hd Hw Hf. unfold read_dkvp_irs, write_dkvp_ors, line_reader. rewrite Hd.
  rewrite lines_irs_unlines by assumption. now apply dkvp_lines_inverse with true.
Qed.

Lemma nidx_irs_roundtrip irs ifs recs :
  irs <> [] -> default_irs irs = false -> wf_nidx ifs true recs = true ->
  forallb (freeof irs) (map (fun r => join ifs (values r)) recs) = true ->
  read_nidx_irs irs ifs true (write_nidx_ors ifs irs recs) = recs.
Proof.
  intros Hs Hd Hw Hf. unfold read_nidx_irs, write_nidx_ors, line_reader. rewrite Hd.
  rewrite lines_irs_unlines by assumption. now apply nidx_lines_inverse with true.
Qed.

(* regression examples over the model for /repo a96f6ff95 and 3c48708b5 *)
Example irs_regressions :
  lines_irs (B ";;") (B "a=1;;b=2;;") = [B "a=1"; B "b=2"]
  /\ lines_irs (B ";;") (B "a;b;;;c;") = [B "a;b"; B ";c;"]
  /\ lines_irs (B "ab") (B "xbabyb") = [B "xb"; B "yb"]
  /\ lines_irs (B ";") (B ";x") = [[]; B "x"] /\ lines_irs (B ";") [] = [].
Proof. vm_compute. repeat split; reflexivity. Qed.
