(* PPRINT --barred output read back with --barred-input: writer then reader is the identity, for EVERY display-width
   function and both alignments.  The reader (RecordReaderPprintBarredOrMarkdown) splits on "|" and trims every cell
   with strings.TrimSpace, so the empty value and "-" are ordinary values here. *)
From Miller Require Import Base.Bytes Base.Record C01.Model C01.ModelXtab C01.ModelLite
     C01.ModelPprint C01.ProofsUtil C01.ProofsBlocks C01.ProofsLite C01.ProofsPprint.
From Miller Require Import Base.ListFacts.
Open Scope char_scope.

Definition trim_ok (x : bytes) : bool := is_nil x || (Nat.eqb (ws_head x) 0 && Nat.eqb (ws_head_rev (rev x)) 0).

Lemma uws2_sp a : uws2 a (code SP) = false.
Proof. unfold uws2. change (code SP) with 32%N. destruct (a =? 194)%N; reflexivity. Qed.
Lemma uws3_sp3 a b : uws3 a b (code SP) = false.
Proof.
  unfold uws3. change (code SP) with 32%N.
  destruct (a =? 225)%N, (b =? 154)%N, (a =? 226)%N, (b =? 128)%N, (b =? 129)%N, (a =? 227)%N; reflexivity.
Qed.

Lemma trim_go_spaces head n s : (forall t, head (SP :: t) = 1) -> trim_go head 0 (spaces n ++ s) = trim_go head 0 s.
Proof. intros Hh. induction n as [|n IH]; [reflexivity|]. rewrite spaces_S. cbn [app trim_go]. now rewrite Hh. Qed.
Lemma trim_go_stop head s : head s = 0 -> trim_go head 0 s = s.
Proof. intros H. destruct s; [reflexivity|]. cbn [trim_go]. now rewrite H. Qed.

(* no white-space rune ends in a space, so spaces after [x] do not complete one that starts in [x] *)
Lemma ws_head_app_spaces x m : x <> [] -> ws_head x = 0 -> ws_head (x ++ spaces m) = 0.
Proof.
  revert x. induction m as [|m IH]; intros x Hx H; [now rewrite app_nil_r|].
  rewrite spaces_S. change (x ++ SP :: spaces m) with (x ++ [SP] ++ spaces m). rewrite app_assoc.
  apply IH; [now destruct x|]. destruct x as [|a [|b [|c x]]]; [congruence| | |exact H]; cbn [app ws_head] in *;
    destruct (ascii_space a); try discriminate; [now rewrite uws2_sp|].
  destruct (uws2 (code a) (code b)); [discriminate|now rewrite uws3_sp3].
Qed.

Lemma trim_padded a b x : trim_ok x = true -> trim_space (spaces a ++ x ++ spaces b) = x.
Proof.
  unfold trim_ok, trim_space. intros H. rewrite (trim_go_spaces ws_head) by reflexivity.
  destruct x as [|c x].
  - cbn [app]. rewrite <- (app_nil_r (spaces b)). now rewrite (trim_go_spaces ws_head) by reflexivity.
  - cbn [is_nil orb] in H. apply andb_true_iff in H as [H1 H2]. apply Nat.eqb_eq in H1, H2.
    rewrite (trim_go_stop ws_head) by (apply ws_head_app_spaces; [discriminate|exact H1]).
    rewrite rev_app_distr, rev_spaces. rewrite (trim_go_spaces ws_head_rev) by reflexivity.
    rewrite (trim_go_stop ws_head_rev) by exact H2. apply rev_involutive.
Qed.

(* what stands between two bars: a cell with its padding, between two spaces *)
Definition bcell (p : bytes) : bytes := SP :: p ++ [SP].

Lemma trim_bcell a b x : trim_ok x = true -> trim_space (bcell (spaces a ++ x ++ spaces b)) = x.
Proof.
  intros H. unfold bcell. rewrite <- !app_assoc, spaces_end. now apply (trim_padded (S a) (S b)).
Qed.

Lemma trim_cell w right wd x : trim_ok x = true -> trim_space (bcell (pp_pad w right wd x)) = x.
Proof.
  intros H. unfold pp_pad. generalize (wd - w x). intros n.
  destruct right; [rewrite <- (app_nil_r x) at 1; now apply (trim_bcell n 0)|now apply (trim_bcell 0 n)].
Qed.

Lemma bar_join ps : ps <> [] ->
  SP :: join (B " | ") ps ++ B " |" = List.concat (map (fun f => f ++ [BAR]) (map bcell ps)).
Proof.
  induction ps as [|p [|q ps] IH]; intros Hne; [congruence| |].
  - cbn. now rewrite app_nil_r, <- app_assoc.
  - rewrite join_cons2.
    change (List.concat (map ?g (map bcell (p :: q :: ps)))) with ((bcell p ++ [BAR]) ++ List.concat (map g (map bcell (q :: ps)))).
    rewrite <- IH by discriminate. unfold bcell. cbn. now rewrite <- !app_assoc.
Qed.

Definition padded (w : bytes -> nat) (right : bool) (wds : list nat) (cells : list bytes) : list bytes :=
  map (fun wx => pp_pad w right (fst wx) (snd wx)) (combine wds cells).

Lemma nochar_pad c w right wd x : eqc SP c = false -> nochar c x = true -> nochar c (pp_pad w right wd x) = true.
Proof. intros Hc Hx. unfold pp_pad. destruct right; rewrite nochar_app, Hx, nochar_spaces by assumption; reflexivity. Qed.

(* what the barred and the Markdown reader make of a row split at its bars: at least two pieces, the outer ones are
   dropped, the others trimmed *)
Definition bar_fields (pieces fs : list bytes) : Prop :=
  Nat.ltb (List.length pieces) 2 = false /\ map trim_space (middle pieces) = fs.

Lemma bar_fields_bcells ps fs : map trim_space (map bcell ps) = fs -> bar_fields ([] :: map bcell ps ++ [[]]) fs.
Proof.
  intros H. split; [cbn [List.length]; rewrite app_length; cbn [List.length]; apply Nat.ltb_ge; lia|].
  unfold middle. cbn [tl]. now rewrite removelast_last.
Qed.

Section Row.
Variables (w : bytes -> nat) (right : bool).

Lemma nochar_padded c wds cells : eqc SP c = false -> forallb (nochar c) cells = true ->
  forallb (nochar c) (padded w right wds cells) = true.
Proof.
  intros Hc H. unfold padded. rewrite forallb_map. apply forallb_forall. intros [wd x] Hin. apply in_combine_r in Hin.
  rewrite forallb_forall in H. apply nochar_pad; [exact Hc|now apply H].
Qed.

Lemma barred_row_fields wds cells :
  cells <> [] -> List.length wds = List.length cells -> forallb (nochar BAR) cells = true ->
  field_split [BAR] false (barred_row w right wds cells) = [] :: map bcell (padded w right wds cells) ++ [[]].
Proof.
  intros Hne Hl Hb. unfold barred_row. fold (padded w right wds cells).
  change (B "| " ++ ?t) with ([BAR] ++ SP :: t). rewrite bar_join by (destruct wds, cells; try discriminate; congruence).
  unfold field_split, split_string, split_on. cbn [app]. change (BAR :: ?t) with ([BAR] ++ t).
  rewrite split_go_sep by discriminate. f_equal. apply split_terminated; [discriminate|].
  rewrite forallb_map. eapply forallb_impl; [|now apply (nochar_padded BAR wds cells)].
  intros p Hp. unfold bcell. change (SP :: p ++ [SP]) with ([SP] ++ p ++ [SP]).
  now rewrite <- nochar_freeof, !nochar_app, Hp.
Qed.

Lemma trim_padded_cells wds cells :
  List.length wds = List.length cells -> forallb trim_ok cells = true ->
  map trim_space (map bcell (padded w right wds cells)) = cells.
Proof.
  revert wds. induction cells as [|x cells IH]; intros wds Hl H; [destruct wds; reflexivity|].
  destruct wds as [|wd wds]; [discriminate|]. cbn [forallb] in H. apply andb_true_iff in H as [Hx H].
  unfold padded. cbn [combine map fst snd]. rewrite trim_cell by assumption. f_equal.
  apply IH; [now injection Hl|assumption].
Qed.
End Row.

Section Read.
Variables (is_sep : bytes -> bool) (d rg : bool).
Notation R := (barred_read_go is_sep false d rg).

Definition row_reads (l : bytes) (fs : list bytes) : Prop :=
  is_nil l = false /\ is_sep l = false /\ bar_fields (field_split [BAR] false l) fs.

Lemma B_header hl ks rest : row_reads hl ks -> R None (hl :: rest) = R (Some ks) rest.
Proof. intros (H1 & H2 & H3 & H4). cbn [barred_read_go]. now rewrite H1, H2, H3, H4. Qed.
Lemma B_skip l hdr rest : is_nil l = false -> is_sep l = true -> R hdr (l :: rest) = R hdr rest.
Proof. intros H1 H2. cbn [barred_read_go]. now rewrite H1, H2. Qed.
Lemma B_data l r rest : row_reads l (values r) -> NoDup (keys r) ->
  R (Some (keys r)) (l :: rest) = option_map (cons r) (R (Some (keys r)) rest).
Proof.
  intros (H1 & H2 & H3 & H4) Hnd. cbn [barred_read_go]. rewrite H1, H2, H3, H4.
  now rewrite keys_values_length, Nat.eqb_refl, attach_values.
Qed.
End Read.

Definition pm (c : ascii) : bool := eqc c "+" || eqc c "-".

Lemma bar_line_sep wds : sep_barred (bar_line wds) = true /\ forall crlf, line_ok crlf (bar_line wds) = true.
Proof.
  unfold bar_line. set (m := join (B "-+-") (map (fun wd => repeat_bytes wd ["-"]) wds)).
  assert (Hall : forallb pm (B "+-" ++ m ++ B "-+") = true).
  { rewrite !forallb_app. unfold m. rewrite forallb_join; [reflexivity|reflexivity|]. rewrite forallb_map. apply forallb_true. intros n. now apply forallb_repeat. }
  assert (Hrev : rev (B "+-" ++ m ++ B "-+") = "+" :: "-" :: rev m ++ B "-+") by (now rewrite !rev_app_distr).
  split.
  - unfold sep_barred, last_is. fold pm. now rewrite Hall, Hrev.
  - intros crlf. unfold line_ok, ends_cr. rewrite Hrev. cbn [eqc Ascii.eqb Bool.eqb negb]. rewrite orb_true_r, andb_true_r.
    eapply forallb_impl; [|exact Hall]. intros c Hc. apply orb_true_iff in Hc as [E|E]; apply eqc_eq in E; now subst.
Qed.

Definition bp_key_ok (k : bytes) : bool := nochar BAR k && nochar LF k && nochar COMMA k && trim_ok k.
Definition bp_val_ok (v : bytes) : bool := nochar BAR v && nochar LF v && trim_ok v.
(* records non-empty with unique keys; cells free of "|" and LF and stable under strings.TrimSpace (no leading or
   trailing white space; empty is fine); keys free of "," (batching) *)
Definition bp_rec_ok (r : record) : bool :=
  negb (is_nil r) && nodupb (keys r) && forallb bp_key_ok (keys r) && forallb bp_val_ok (values r).
Definition wf_barred (recs : list record) : bool := forallb bp_rec_ok recs.

Lemma bp_facts r : bp_rec_ok r = true ->
  r <> [] /\ NoDup (keys r) /\ forallb bp_key_ok (keys r) = true /\ forallb bp_val_ok (values r) = true.
Proof. apply rec_ok_inv. Qed.

Lemma bp_key_val k : bp_key_ok k = true -> bp_val_ok k = true /\ nochar "," k = true.
Proof. unfold bp_key_ok, bp_val_ok. rewrite !andb_true_iff. tauto. Qed.

Lemma bp_ok_keys r : bp_rec_ok r = true -> r <> [] /\ forallb (nochar ",") (keys r) = true.
Proof.
  intros H. destruct (bp_facts r H) as (? & _ & Hk & _). split; [assumption|].
  eapply forallb_impl; [|exact Hk]. apply bp_key_val.
Qed.

Section Main.
Variables (w : bytes -> nat) (right crlf d rg : bool).
Notation R := (barred_read_go sep_barred false d rg).

(* the lines of a block: bar, keys, bar; a row per record; bar *)
Definition wds (b : list record) (r : record) : list nat := map (pp_width w b) (keys r).
Definition bhead (b : list record) : list bytes :=
  [bar_line (wds b (hd [] b)); barred_row w right (wds b (hd [] b)) (keys (hd [] b)); bar_line (wds b (hd [] b))].
Definition brow (b : list record) (r : record) : bytes := barred_row w right (wds b r) (values r).
Definition bfoot (b : list record) : list bytes := [bar_line (wds b (last b (hd [] b)))].
Definition blines (b : list record) : list bytes := bhead b ++ map (brow b) b ++ bfoot b.

Lemma batch_text b : block bp_rec_ok b -> barred_batch_text w right false (ors_of crlf) b = unlines (ors_of crlf) (blines b).
Proof.
  intros Hb. destruct (block_ok _ b Hb) as [H0 Hall]. destruct Hb as [Hne _].
  assert (Hlast : bp_rec_ok (last b (hd [] b)) = true) by (rewrite Forall_forall in Hall; now apply Hall, last_In).
  assert (Hbar : forall r, bp_rec_ok r = true -> bar_text (ors_of crlf) (wds b r) = bar_line (wds b r) ++ ors_of crlf).
  { intros r Hr. apply bp_facts in Hr as [Hr _]. now destruct r. }
  assert (Hrow : forall r cells, bp_rec_ok r = true -> List.length cells = List.length r ->
            barred_row_text w right (ors_of crlf) (wds b r) cells = barred_row w right (wds b r) cells ++ ors_of crlf).
  { intros r cells Hr Hl. apply bp_facts in Hr as [Hr _]. destruct cells; [now destruct r|reflexivity]. }
  destruct b as [|r0 b']; [congruence|]. unfold barred_batch_text, blines, bhead, brow, bfoot, unlines. cbn [hd] in *. set (bb := r0 :: b') in *. unfold wds in *.
  replace (forallb is_nil bb) with false by (apply bp_facts in H0 as [H0 _]; now destruct r0).
  cbn [negb]. rewrite !Hbar, Hrow by (assumption || apply map_length).
  rewrite (map_ext_in _ (fun r => barred_row w right (wds bb r) (values r) ++ ors_of crlf) bb).
  2:{ intros r Hr. rewrite Forall_forall in Hall. apply Hrow; [now apply Hall|apply map_length]. }
  rewrite !map_app, !concat_app, map_map. cbn [map List.concat]. now rewrite ?app_nil_r, <- ?app_assoc.
Qed.

Lemma row_facts wds cells :
  cells <> [] -> List.length wds = List.length cells -> forallb bp_val_ok cells = true ->
  row_reads sep_barred (barred_row w right wds cells) cells /\ line_ok crlf (barred_row w right wds cells) = true.
Proof.
  unfold bp_val_ok. rewrite !forallb_andb. intros Hne Hl [[Hb Hlf]%andb_true_iff Ht]%andb_true_iff.
  split; [split; [reflexivity|split; [reflexivity|]]|].
  - rewrite barred_row_fields by assumption. now apply bar_fields_bcells, trim_padded_cells.
  - unfold barred_row, line_ok. fold (padded w right wds cells). rewrite !nochar_app, nochar_join by (reflexivity || now apply nochar_padded).
    rewrite app_assoc, ends_cr_app_ne by discriminate. now rewrite orb_true_r.
Qed.

Lemma key_row_facts f r : bp_rec_ok r = true ->
  row_reads sep_barred (barred_row w right (map f (keys r)) (keys r)) (keys r)
  /\ line_ok crlf (barred_row w right (map f (keys r)) (keys r)) = true.
Proof.
  intros H. destruct (bp_facts r H) as (Hne & _ & Hk & _). apply row_facts; [now destruct r|apply map_length|].
  eapply forallb_impl; [|exact Hk]. apply bp_key_val.
Qed.
Lemma val_row_facts f r : bp_rec_ok r = true ->
  row_reads sep_barred (barred_row w right (map f (keys r)) (values r)) (values r)
  /\ line_ok crlf (barred_row w right (map f (keys r)) (values r)) = true.
Proof.
  intros H. destruct (bp_facts r H) as (Hne & _ & _ & Hv).
  apply row_facts; [now destruct r|rewrite map_length; apply keys_values_length|exact Hv].
Qed.

Lemma bar_skip wds hdr rest : R hdr (bar_line wds :: rest) = R hdr rest.
Proof. now apply B_skip, bar_line_sep. Qed.

Lemma read_barred_blocks bs : Forall (block bp_rec_ok) bs -> R None (sep_lines blines bs) = Some (List.concat bs).
Proof.
  apply read_blocks with (at_keys := fun ks s => s = Some ks) (H := bhead) (D := brow) (T := bfoot).
  - reflexivity.
  - reflexivity.
  - reflexivity.
  - intros b rest Hb. eexists. split; [reflexivity|]. unfold bhead. cbn [app]. rewrite bar_skip, (B_header _ _ _ _ (keys (hd [] b))), bar_skip; [reflexivity|].
    now apply key_row_facts, (block_ok _ b Hb).
  - intros b r s rest Hr ->. exists (Some (keys r)). split; [reflexivity|].
    apply B_data; [now apply val_row_facts|now apply bp_facts].
  - intros. apply bar_skip.
Qed.

Lemma bp_block_ok b : block bp_rec_ok b -> forallb (line_ok crlf) (blines b) = true.
Proof.
  intros Hb. destruct (block_ok _ b Hb) as [H0 Hall]. unfold blines, bhead, brow, bfoot, wds. cbn [app forallb]. rewrite forallb_app. cbn [forallb].
  rewrite !(proj2 (bar_line_sep _)), (proj2 (key_row_facts _ _ H0)), forallb_map. cbn [andb]. rewrite andb_true_r.
  apply forallb_forall. rewrite Forall_forall in Hall. intros r Hr. now apply val_row_facts, Hall.
Qed.
End Main.

Lemma pprint_barred_roundtrip w right crlf dedupe ragged recs :
  wf_barred recs = true ->
  read_pprint_barred false dedupe ragged (write_pprint_g w right true false crlf recs) = Some recs.
Proof.
  unfold wf_barred. intros Hrecs.
  destruct (all_blocks _ bp_ok_keys recs Hrecs) as [Hcat Hbs].
  unfold read_pprint_barred, read_barred, write_pprint_g.
  rewrite pp_texts_lines with (L := blines w right) (1 := bp_ok_keys) (2 := Hbs) by apply batch_text.
  rewrite lines_of_blocks with (1 := Hbs) by apply bp_block_ok.
  rewrite read_barred_blocks by assumption. now rewrite Hcat.
Qed.
