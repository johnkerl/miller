(* Markdown: writer then reader is the identity (streaming writer and --omd-aligned writer), for EVERY display-width
   function.  The reader (pkg/input/record_reader_markdown.go) splits a row
   at bars not preceded by a backslash, turns "\|" into "|", trims every cell with strings.TrimSpace and takes only the
   second line of a block for the header-separator line. *)
From Miller Require Import Base.Bytes Base.Record C01.Model C01.ModelPprint C01.ModelMd
     C01.ProofsUtil C01.ProofsTsv C01.ProofsBlocks C01.ProofsLite C01.ProofsPprint C01.ProofsBarred.
Open Scope char_scope.

Lemma md_escape_cons c x : md_escape (c :: x) = (if eqc c BAR then [BSL; BAR] else [c]) ++ md_escape x.
Proof. reflexivity. Qed.

Lemma md_escape_nobar x : nochar BAR x = true -> md_escape x = x.
Proof.
  induction x as [|c x IH]; intros H; [reflexivity|]. cbn [nochar forallb] in H. apply andb_true_iff in H as [Hc H].
  rewrite md_escape_cons. apply negb_true_iff in Hc. rewrite Hc. cbn [app]. f_equal. now apply IH.
Qed.

Lemma md_escape_nochar c x : eqc BSL c = false -> nochar c x = true -> nochar c (md_escape x) = true.
Proof.
  intros Hc. induction x as [|a x IH]; intros H; [reflexivity|]. cbn [nochar forallb] in H. apply andb_true_iff in H as [Ha H].
  rewrite md_escape_cons, nochar_app, (IH H), andb_true_r. destruct (eqc a BAR) eqn:E; cbn [nochar forallb]; [|now rewrite Ha].
  apply eqc_eq in E. subst a. now rewrite Hc, Ha.
Qed.

Lemma md_go_esc x : forall pb acc rest,
  md_split_go (md_escape x ++ SP :: rest) pb acc = md_split_go rest false (SP :: rev x ++ acc).
Proof.
  induction x as [|c x IH]; intros pb acc rest; [reflexivity|].
  rewrite md_escape_cons. destruct (eqc c BAR) eqn:E.
  - apply eqc_eq in E. subst c. cbn [app].
    change (md_split_go (BSL :: BAR :: md_escape x ++ SP :: rest) pb acc)
      with (md_split_go (md_escape x ++ SP :: rest) false (BAR :: acc)).
    rewrite IH. cbn [rev]. now rewrite <- app_assoc.
  - cbn [app md_split_go]. rewrite E. rewrite IH. cbn [rev]. now rewrite <- app_assoc.
Qed.

Lemma md_go_spaces n : forall rest acc, md_split_go (spaces n ++ rest) false acc = md_split_go rest false (spaces n ++ acc).
Proof.
  induction n as [|n IH]; intros rest acc; [reflexivity|]. rewrite spaces_S. cbn [app].
  change (md_split_go (SP :: spaces n ++ rest) false acc) with (md_split_go (spaces n ++ rest) false (SP :: acc)).
  rewrite IH. now rewrite spaces_snoc.
Qed.

(* a cell as both writers write it: a space, the escaped text, padding, a space, a bar *)
Definition gcell (xp : bytes * nat) : bytes := SP :: md_escape (fst xp) ++ spaces (snd xp) ++ [SP; BAR].
Definition grow (cells : list (bytes * nat)) : bytes := BAR :: List.concat (map gcell cells).

Lemma md_go_cells cells :
  md_split_go (List.concat (map gcell cells)) false [] = map bcell (map (fun xp => fst xp ++ spaces (snd xp)) cells) ++ [[]].
Proof.
  induction cells as [|[x p] cells IH]; [reflexivity|]. cbn [map List.concat]. unfold gcell at 1. cbn [fst snd app].
  rewrite <- !app_assoc. cbn [app]. rewrite spaces_snoc.
  change (md_split_go (SP :: ?t) false []) with (md_split_go t false [SP]).
  rewrite md_go_esc, md_go_spaces. cbn [md_split_go]. change (eqc BAR BAR) with true. cbn iota.
  rewrite IH. cbn [app]. f_equal. unfold bcell.
  rewrite rev_app_distr, rev_spaces. cbn [rev]. rewrite rev_app_distr, rev_involutive. cbn [rev app].
  now rewrite <- !app_assoc, spaces_end.
Qed.

Lemma md_split_grow cells : md_split (grow cells) = [] :: map bcell (map (fun xp => fst xp ++ spaces (snd xp)) cells) ++ [[]].
Proof.
  unfold grow, md_split. cbn [md_split_go]. change (eqc BAR BAR) with true. cbn iota. cbn [rev]. now rewrite md_go_cells.
Qed.

Definition row_ok (l : bytes) (fs : list bytes) : Prop := is_nil l = false /\ bar_fields (md_split l) fs.

Lemma grow_ok {A} (f : A -> bytes) (g : A -> nat) l :
  forallb trim_ok (map f l) = true -> row_ok (grow (map (fun a => (f a, g a)) l)) (map f l).
Proof.
  intros H. split; [reflexivity|]. rewrite md_split_grow. apply bar_fields_bcells.
  rewrite !map_map. apply map_ext_in. intros a Hin. apply (trim_bcell 0 (g a)).
  rewrite forallb_forall in H. apply H. now apply in_map.
Qed.

Lemma grow_last cells : exists q, rev (grow cells) = BAR :: q.
Proof.
  unfold grow. destruct cells as [|xp cells _] using rev_ind; [now exists []|].
  rewrite map_app, concat_app. cbn [map List.concat]. rewrite app_nil_r. unfold gcell at 2.
  cbn [rev]. rewrite rev_app_distr. cbn [rev]. rewrite !rev_app_distr. cbn [rev app]. now eexists.
Qed.

Lemma grow_line_ok {A} crlf (f : A -> bytes) (g : A -> nat) l :
  forallb (nochar LF) (map f l) = true -> line_ok crlf (grow (map (fun a => (f a, g a)) l)) = true.
Proof.
  intros H. unfold line_ok, ends_cr. destruct (grow_last (map (fun a => (f a, g a)) l)) as [q ->].
  rewrite orb_true_r, andb_true_r. unfold nochar, grow. cbn [forallb negb andb]. rewrite map_map. apply forallb_concat_map. intros a Hin.
  fold (nochar LF (gcell (f a, g a))). unfold gcell. cbn [fst snd]. change (SP :: ?t) with ([SP] ++ t).
  rewrite !nochar_app, nochar_spaces, md_escape_nochar; try reflexivity.
  rewrite forallb_forall in H. apply H. now apply in_map.
Qed.

(* a row of dashes is a header-separator line *)
Lemma grow_sep {A} (p : A -> nat) l : l <> [] -> sep_md (grow (map (fun a => (DASHES, p a)) l)) = true.
Proof.
  intros Hne. set (cells := map _ l). unfold sep_md, last_is. destruct (grow_last cells) as [q ->]. set (P := fun c => _).
  replace (forallb P (grow cells)) with true; [subst cells; now destruct l|].
  symmetry. unfold grow. cbn [forallb]. apply forallb_concat_map. intros xp Hin. apply in_map_iff in Hin as (a & <- & _).
  unfold gcell. cbn. rewrite forallb_app. now rewrite (forallb_repeat P).
Qed.

Section Read.
Variables (d rg : bool).
Notation R := (md_read_go false d rg).

Lemma M_header hl ks rest : row_ok hl ks -> R None 0 (hl :: rest) = R (Some ks) 1 rest.
Proof. intros (H1 & H2 & H3). cbn [md_read_go]. rewrite H1. unfold md_is_sep. cbn [Nat.eqb andb]. now rewrite H2, H3. Qed.
Lemma M_sep l hdr rest : is_nil l = false -> sep_md l = true -> R hdr 1 (l :: rest) = R hdr 2 rest.
Proof. intros H1 H2. cbn [md_read_go]. rewrite H1. unfold md_is_sep. cbn [Nat.eqb andb]. now rewrite H2. Qed.
Lemma M_data n l r rest : 2 <= n -> row_ok l (values r) -> NoDup (keys r) ->
  R (Some (keys r)) n (l :: rest) = option_map (cons r) (R (Some (keys r)) (S n) rest).
Proof.
  intros Hn (H1 & H2 & H3) Hnd. cbn [md_read_go]. rewrite H1. unfold md_is_sep.
  replace (Nat.eqb (S n) 2) with false by (symmetry; apply Nat.eqb_neq; lia). cbn [andb]. rewrite H2, H3.
  now rewrite keys_values_length, Nat.eqb_refl, attach_values.
Qed.
End Read.

Definition md_key_ok (k : bytes) : bool := nochar BAR k && nochar LF k && nochar COMMA k && trim_ok k.
Definition md_val_ok (v : bytes) : bool := nochar LF v && trim_ok v.
(* records non-empty with unique keys; cells free of LF and unchanged by strings.TrimSpace (no leading or trailing
   Unicode white space; empty is fine); keys free of "|" (keys are not escaped) and of "," (schema changes are
   detected on the ","-joined keys); not the single key "" (the joined keys "" mean "no header written yet").
   VALUES may contain "|" (written "\|"), backslashes, dashes, colons, anything else. *)
Definition md_rec_ok (r : record) : bool :=
  negb (is_nil r) && nodupb (keys r) && forallb md_key_ok (keys r) && forallb md_val_ok (values r)
  && not_single_empty (keys r).
Definition wf_markdown (recs : list record) : bool := forallb md_rec_ok recs.

Lemma md_facts r : md_rec_ok r = true ->
  r <> [] /\ NoDup (keys r) /\ jk r <> []
  /\ forallb (nochar ",") (keys r) = true
  /\ forallb (nochar BAR) (keys r) = true /\ forallb (nochar LF) (keys r) = true /\ forallb trim_ok (keys r) = true
  /\ forallb (nochar LF) (values r) = true /\ forallb trim_ok (values r) = true.
Proof.
  unfold md_rec_ok. intros [(Hne & Hnd & Hk & Hv)%rec_ok_inv Hn]%andb_true_iff.
  unfold md_key_ok in Hk. unfold md_val_ok in Hv. rewrite !forallb_andb, !andb_true_iff in Hk. rewrite forallb_andb, andb_true_iff in Hv.
  destruct Hk as (((Hb & Hl) & Hc) & Ht), Hv as (Hvl & Hvt). repeat split; try assumption.
  intros E. apply (f_equal is_nil) in E. unfold jk in E. rewrite join_not_nil in E; [discriminate|discriminate|now destruct r|assumption].
Qed.

Lemma md_ok_keys r : md_rec_ok r = true -> r <> [] /\ forallb (nochar ",") (keys r) = true.
Proof. intros H. now destruct (md_facts r H) as (? & _ & _ & ? & _). Qed.

(* one block, as either writer lays it out: the paddings [pk], [pd], [pv] of the key, dash and value cells are 0 for the
   streaming writer *)
Section Block.
Variables (d rg crlf : bool) (pk pd : list record -> bytes -> nat) (pv : list record -> field -> nat).
Variable L : list record -> list bytes.

Definition head_rows (b : list record) : list bytes :=
  [grow (map (fun k => (k, pk b k)) (keys (hd [] b))); grow (map (fun k => (DASHES, pd b k)) (keys (hd [] b)))].
Definition value_row (b : list record) (r : record) : bytes := grow (map (fun kv => (snd kv, pv b kv)) r).
Hypothesis L_rows : forall b, block md_rec_ok b -> L b = head_rows b ++ map (value_row b) b.

Lemma read_md_blocks bs : Forall (block md_rec_ok) bs -> md_read_go false d rg None 0 (sep_lines L bs) = Some (List.concat bs).
Proof.
  apply read_blocks with (R := fun s => md_read_go false d rg (fst s) (snd s)) (s0 := (None, 0))
    (at_keys := fun ks s => fst s = Some ks /\ 2 <= snd s) (H := head_rows) (D := value_row) (T := fun _ => []).
  - intros b Hb. now rewrite (L_rows b Hb), app_nil_r.
  - reflexivity.
  - reflexivity.
  - intros b rest Hb. exists (Some (keys (hd [] b)), 2). split; [now split|]. unfold head_rows. cbn [app fst snd].
    destruct (md_facts _ (proj1 (block_ok _ b Hb))) as (Hne & _ & _ & _ & _ & _ & Ht & _).
    rewrite (M_header d rg _ (keys (hd [] b))), M_sep; [reflexivity|reflexivity|apply grow_sep; now destruct (hd [] b)|].
    rewrite <- (map_id (keys (hd [] b))) at 2. apply grow_ok. now rewrite map_id.
  - intros b r [hdr n] rest Hr [Hh Hn]. cbn [fst snd] in *. subst hdr. exists (Some (keys r), S n). split; [split; [reflexivity|cbn [snd]; lia]|].
    destruct (md_facts r Hr) as (_ & Hnd & _ & _ & _ & _ & _ & _ & Ht). cbn [fst snd]. unfold value_row.
    apply M_data; [exact Hn|now apply grow_ok|exact Hnd].
  - reflexivity.
Qed.

Lemma md_block_ok b : block md_rec_ok b -> forallb (line_ok crlf) (L b) = true.
Proof.
  intros Hb. rewrite (L_rows b Hb). destruct (block_ok _ b Hb) as [H0 Hall]. unfold head_rows, value_row. cbn [app forallb].
  destruct (md_facts _ H0) as (_ & _ & _ & _ & _ & Hlf & _).
  rewrite !grow_line_ok, forallb_map; [|rewrite forallb_map; now apply forallb_true|now rewrite map_id].
  apply forallb_forall. rewrite Forall_forall in Hall. intros r Hr. apply grow_line_ok. now apply (md_facts r (Hall r Hr)).
Qed.
End Block.

Lemma md_stream_lines recs : forall last,
  Forall (fun r => jk r <> []) recs -> match last with Some l => l <> [] | None => True end ->
  md_lines (match last with Some l => l | None => [] end) recs
  = stream_lines (fun r => [md_row (keys r); md_row (map (fun _ => DASHES) r)]) (fun r => md_row (map md_escape (values r))) last recs.
Proof.
  induction recs as [|r recs IH]; intros last Hrecs Hlast; [reflexivity|]. inversion Hrecs as [|? ? Hr Hrecs']; subst.
  cbn [md_lines stream_lines]. fold (jk r). rewrite <- (IH (Some (jk r))) by assumption.
  destruct last as [l|]; [|destruct (jk r); [congruence|reflexivity]].
  replace (is_nil l) with false by now destruct l.
  destruct (beqb_spec (jk r) l) as [<-|_]; cbn [negb andb is_nil app]; [|reflexivity].
  now replace (is_nil (jk r)) with false by now destruct (jk r).
Qed.

Lemma md_stream_rows b : block md_rec_ok b ->
  [md_row (keys (hd [] b)); md_row (map (fun _ => DASHES) (hd [] b))] ++ map (fun r => md_row (map md_escape (values r))) b
  = head_rows (fun _ _ => 0) (fun _ _ => 0) b ++ map (value_row (fun _ _ => 0) b) b.
Proof.
  intros Hb. destruct (md_facts _ (proj1 (block_ok _ b Hb))) as (_ & _ & _ & _ & Hbar & _).
  unfold head_rows, value_row, md_row, grow, keys, values. rewrite !map_map. cbn [app]. f_equal; [|f_equal].
  - do 2 f_equal. apply map_ext_in. intros kv Hin. unfold gcell. cbn [fst snd].
    rewrite forallb_forall in Hbar. now rewrite md_escape_nobar by (apply Hbar; now apply (in_map fst) in Hin).
  - apply map_ext. intros r. now rewrite !map_map.
Qed.

Lemma markdown_roundtrip_streaming w crlf dedupe ragged recs :
  wf_markdown recs = true ->
  read_markdown false dedupe ragged (write_markdown w false crlf recs) = Some recs.
Proof.
  unfold wf_markdown, read_markdown, write_markdown. intros H.
  destruct (all_blocks _ md_ok_keys recs H) as [Hcat Hbs].
  rewrite (md_stream_lines recs None), stream_blocks; [|eapply Forall_impl; [|exact (forallb_Forall _ _ H)]; intros r Hr; now apply md_facts in Hr|exact I].
  rewrite lines_of_blocks with (1 := Hbs) by apply (md_block_ok _ _ _ _ _ md_stream_rows).
  rewrite (read_md_blocks _ _ _ _ _ _ md_stream_rows) by assumption. now rewrite Hcat.
Qed.

Lemma md_aligned_rows w b : block md_rec_ok b ->
  md_batch_lines w b
  = head_rows (fun b k => md_width w b (hd [] b) k - w k) (fun b k => md_width w b (hd [] b) k - 3) b
    ++ map (value_row (fun b kv => md_width w b (hd [] b) (fst kv) - w (md_escape (snd kv))) b) b.
Proof.
  intros Hb. destruct (md_facts _ (proj1 (block_ok _ b Hb))) as (_ & _ & _ & _ & Hbar & _). destruct Hb as [Hne _].
  destruct b as [|r0 b']; [congruence|]. unfold md_batch_lines, head_rows, value_row, md_row_aligned, grow. cbn [hd app]. rewrite !map_map.
  f_equal; [|f_equal].
  - do 2 f_equal. apply map_ext_in. intros k Hin. unfold gcell. cbn [fst snd].
    rewrite forallb_forall in Hbar. now rewrite md_escape_nobar by now apply Hbar.
  - apply map_ext. intros r. now rewrite !map_map.
Qed.

Lemma md_aligned_sep w bs : md_aligned_lines w true bs = sep_lines (md_batch_lines w) bs.
Proof.
  destruct bs as [|b bs]; [reflexivity|]. cbn [md_aligned_lines sep_lines app]. f_equal.
  induction bs as [|b2 bs IH]; [reflexivity|]. cbn [md_aligned_lines map List.concat app]. now rewrite IH.
Qed.

Lemma markdown_roundtrip_aligned w crlf dedupe ragged recs :
  wf_markdown recs = true ->
  read_markdown false dedupe ragged (write_markdown w true crlf recs) = Some recs.
Proof.
  unfold wf_markdown, read_markdown, write_markdown. intros H.
  destruct (all_blocks _ md_ok_keys recs H) as [Hcat Hbs]. rewrite md_aligned_sep.
  rewrite lines_of_blocks with (1 := Hbs) by apply (md_block_ok _ _ _ _ _ (md_aligned_rows w)).
  rewrite (read_md_blocks _ _ _ _ _ _ (md_aligned_rows w)) by assumption. now rewrite Hcat.
Qed.

Lemma markdown_roundtrip w aligned crlf dedupe ragged recs :
  wf_markdown recs = true ->
  read_markdown false dedupe ragged (write_markdown w aligned crlf recs) = Some recs.
Proof. destruct aligned; [apply markdown_roundtrip_aligned|apply markdown_roundtrip_streaming]. Qed.

(* the two former defects (repaired in /repo 80287c7ad, 75f65c604), as regression examples over the models *)
Example markdown_escaped_bar_regression :
  read_markdown false true false (write_markdown (@List.length ascii) false false [[(B "a", B "x|y"); (B "b", B "2")]])
  = Some [[(B "a", B "x|y"); (B "b", B "2")]].
Proof. vm_compute. reflexivity. Qed.
Example markdown_dash_row_regression :
  read_markdown false true false (write_markdown (@List.length ascii) false false [[(B "a", B "-"); (B "b", B "")]; [(B "a", B "---"); (B "b", B "-")]])
  = Some [[(B "a", B "-"); (B "b", B "")]; [(B "a", B "---"); (B "b", B "-")]].
Proof. vm_compute. reflexivity. Qed.

(* samples of both writers, evaluated: a test of the models that does not go through the lemmas above *)
Example markdown_roundtrip_sample :
  read_markdown false true false (write_markdown (@List.length ascii) false false
     [[(B "a", B "x y"); (B "", B "")]; [(B "a", B "-"); (B "", B "z")]; [(B "k", B "1")]])
  = Some [[(B "a", B "x y"); (B "", B "")]; [(B "a", B "-"); (B "", B "z")]; [(B "k", B "1")]]
  /\ read_markdown false true false (write_markdown (@List.length ascii) true true
     [[(B "a", B "x y"); (B "bb", B "")]; [(B "a", B "long value"); (B "bb", B "z")]; [(B "k", B "1")]])
  = Some [[(B "a", B "x y"); (B "bb", B "")]; [(B "a", B "long value"); (B "bb", B "z")]; [(B "k", B "1")]].
Proof. split; vm_compute; reflexivity. Qed.
