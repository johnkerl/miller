(* C05 property theorems, each followed by Print Assumptions. *)
From Miller Require Import Base.Bytes Base.Record C05.Model C05.Proofs C05.CtxModel C05.CtxProofs C05.Harness.
Open Scope Z_scope.

(* `mlr A then B` = B applied to the output of A, for ALL verbs of the stream shape (any state type, any step and
   end-of-stream functions) and all inputs *)
Theorem C05_chain_is_composition : forall (a b : verb) (xs : list record), run (chain a b) xs = run b (run a xs).
Proof. exact chain_is_composition. Qed.
Print Assumptions C05_chain_is_composition.

(* chains of any length (2..4 and beyond) *)
Theorem C05_chain_list_is_iterated_composition : forall (vs : list verb) (xs : list record), run (chain_list vs) xs = run_list vs xs.
Proof. exact chain_list_run. Qed.
Print Assumptions C05_chain_list_is_iterated_composition.

Theorem C05_chain_associative : forall (a b c : verb) xs, run (chain (chain a b) c) xs = run (chain a (chain b c)) xs.
Proof. exact chain_assoc. Qed.
Print Assumptions C05_chain_associative.

(* piping through any intermediate format that is lossless on the stream A produced *)
Theorem C05_chain_equals_pipe :
  forall (T : Type) (write : list record -> T) (read : T -> list record) (a b : verb) (xs : list record),
  read (write (run a xs)) = run a xs -> run b (read (write (run a xs))) = run (chain a b) xs.
Proof. exact (@chain_equals_pipe). Qed.
Print Assumptions C05_chain_equals_pipe.

(* the reader may cut the input into batches of any sizes (runSingleTransformerBatch) *)
Theorem C05_batch_independence : forall (v : verb) (batches : list (list record)), run_batched v batches = run v (List.concat batches).
Proof. exact batch_independence. Qed.
Print Assumptions C05_batch_independence.

(* reading f1..fn: closed form of every record's context.  [recs] are the records of each file read alone. *)
Theorem C05_multi_file_contexts :
  forall (m : ropts) (fs : list file) (recs : list (list record)),
  Forall2 (fun f rs => parse_file m (snd f) = Some rs) fs recs ->
  snd (read_files m fs) = spec_files 0 0 (combine (map fst fs) recs).
Proof. exact (multi_file_contexts). Qed.
Print Assumptions C05_multi_file_contexts.

(* inputs concatenate *)
Theorem C05_inputs_concatenate :
  forall (m : ropts) (fs : list file) (recs : list (list record)),
  Forall2 (fun f rs => parse_file m (snd f) = Some rs) fs recs ->
  map fst (snd (read_files m fs)) = List.concat recs.
Proof. exact (inputs_concatenate). Qed.
Print Assumptions C05_inputs_concatenate.

(* NR counts 1..N across files *)
Theorem C05_NR_counts_across_files :
  forall (m : ropts) (fs : list file) (recs : list (list record)),
  Forall2 (fun f rs => parse_file m (snd f) = Some rs) fs recs ->
  map (fun rc => nr (snd rc)) (snd (read_files m fs)) = zseq 1 (total_records recs).
Proof. exact (nr_counts_across_files). Qed.
Print Assumptions C05_NR_counts_across_files.

(* the end block sees the final NR (and FILENUM = number of files) *)
Theorem C05_end_block_sees_final_NR :
  forall (m : ropts) (fs : list file) (recs : list (list record)),
  Forall2 (fun f rs => parse_file m (snd f) = Some rs) fs recs ->
  nr (rctx (fst (read_files m fs))) = Z.of_nat (total_records recs)
  /\ filenum (rctx (fst (read_files m fs))) = Z.of_nat (List.length fs)
  /\ rfailed (fst (read_files m fs)) = false.
Proof. exact (end_block_sees_final_nr). Qed.
Print Assumptions C05_end_block_sees_final_NR.

(* FNR restarts at 1 in every file; FILENAME/FILENUM are those of the file; NR = records before the file + FNR *)
Theorem C05_FNR_FILENAME_FILENUM_per_file :
  forall name fn before rs,
  map (fun rc => fnr (snd rc)) (number_from name fn before 1 rs) = zseq 1 (List.length rs)
  /\ forall rc, In rc (number_from name fn before 1 rs) ->
       filename (snd rc) = name /\ filenum (snd rc) = fn /\ nr (snd rc) = before + fnr (snd rc)
       /\ 1 <= fnr (snd rc) < 1 + Z.of_nat (List.length rs).
Proof. exact (fun name fn before rs => conj (number_from_fnr name fn before rs 1) (number_from_ctx name fn before rs 1)). Qed.
Print Assumptions C05_FNR_FILENAME_FILENUM_per_file.

(* ---- the side condition "verbs that do not consult the original record counters" ---- *)
(* every modelled verb, seen as a function of records WITH contexts, is oblivious *)
Theorem C05_modelled_verbs_are_oblivious : forall vc : vcode, oblivious (lift (verb_of vc)).
Proof. exact (fun vc => lift_oblivious (verb_of vc)). Qed.
Print Assumptions C05_modelled_verbs_are_oblivious.

Theorem C05_oblivious_closed_under_chain : forall a b : cverb, oblivious a -> oblivious b -> oblivious (cchain a b).
Proof. exact oblivious_chain. Qed.
Print Assumptions C05_oblivious_closed_under_chain.

(* with contexts: the downstream process of a pipe renumbers the records it reads; the outputs agree with the chain as
   soon as the downstream verb is oblivious (the upstream verb may be anything) *)
Theorem C05_chain_equals_pipe_with_contexts :
  forall (a b : cverb) (xs : list crec) (c : context) (name : bytes) (c' : context),
  oblivious b ->
  map fst (crun b (renumber name (map fst (crun a xs c))) c') = map fst (crun (cchain a b) xs c).
Proof. exact chain_equals_pipe_oblivious. Qed.
Print Assumptions C05_chain_equals_pipe_with_contexts.

(* the side condition is necessary: `tac then put '$nr = NR'` differs from `tac | put '$nr = NR'` *)
Theorem C05_chain_differs_from_pipe_for_NR_refuted :
  exists (xs : list crec) (c : context),
  map fst (crun cput_nr (renumber (B "(stdin)") (map fst (crun (lift v_tac) xs c))) c)
  <> map fst (crun (cchain (lift v_tac) cput_nr) xs c).
Proof. exact chain_differs_from_pipe_for_nr. Qed.
Print Assumptions C05_chain_differs_from_pipe_for_NR_refuted.

(* ---- contexts travel with the records through the chain; the end block sees the reader's final context ---- *)
(* NR/FNR/FILENAME/FILENUM evaluated by a put (unconditionally or under any guard: if, pattern-action, ternary) placed after ANY
   verb are those of the context each record carries out of that verb ... *)
Theorem C05_context_variables_follow_the_record :
  forall (v : cverb) (guard : record -> bool) (xs : list crec) (c : context),
  crun (cchain v (cput_ctx guard)) xs c = map (annot guard) (crun v xs c)
  /\ forall p, crun (cchain v (cfilter_ctx p)) xs c = filter (fun x => p (snd x)) (crun v xs c).
Proof. exact (fun v guard xs c => conj (context_travels v guard xs c) (fun p => context_filter_after v p xs c)). Qed.
Print Assumptions C05_context_variables_follow_the_record.

(* ... and after record-selecting / reordering verbs (tac, head, filter on fields, nothing, and any chain of them) every surviving
   record is labelled with the context of ITS OWN source, i.e. with the closed form of C05_multi_file_contexts *)
Theorem C05_selectors_keep_each_records_own_context :
  selector c_tac /\ (forall n, selector (c_head n)) /\ (forall p, selector (c_filter p)) /\ selector c_nothing
  /\ (forall a b, selector a -> selector b -> selector (cchain a b))
  /\ forall v guard xs c y, selector v -> In y (crun (cchain v (cput_ctx guard)) xs c) -> exists x, In x xs /\ y = annot guard x.
Proof. exact (conj selector_tac (conj selector_head (conj selector_filter (conj selector_nothing (conj selector_chain selector_annotates_own_source))))). Qed.
Print Assumptions C05_selectors_keep_each_records_own_context.

(* the end block after ANY verbs sees exactly the context carried by the end-of-stream marker ... *)
Theorem C05_end_block_sees_marker_context_through_any_chain :
  forall (v : cverb) (xs : list crec) (c : context), crun (cchain v cput_end) xs c = [(end_record c, c)].
Proof. exact end_block_context. Qed.
Print Assumptions C05_end_block_sees_marker_context_through_any_chain.

(* ... which is the reader's final context: FILENAME/FILENUM of the LAST file (also when it is empty), FNR = its record count,
   NR = all records *)
Theorem C05_end_context_closed_form :
  (forall (m : ropts) (fs : list file) (recs : list (list record)),
     Forall2 (fun f rs => parse_file m (snd f) = Some rs) fs recs ->
     rctx (fst (read_files m fs)) = end_ctx ctx0 (combine (map fst fs) recs))
  /\ forall c0 fs name rs,
     end_ctx c0 (fs ++ [(name, rs)]) =
     Ctx name (filenum c0 + Z.of_nat (List.length fs) + 1)
         (nr c0 + Z.of_nat (List.length (List.concat (map snd fs))) + Z.of_nat (List.length rs)) (Z.of_nat (List.length rs)).
Proof. exact (conj end_context_closed_form end_ctx_last). Qed.
Print Assumptions C05_end_context_closed_form.

Example C05_context_nonvacuous :
  let xs := [([(B "id", B "r1")], Ctx (B "f1") 1 1 1); ([(B "id", B "r2")], Ctx (B "f2") 2 2 1); ([(B "id", B "r3")], Ctx (B "f2") 2 3 2)] in
  let c := Ctx (B "empty") 3 3 0 in
  map fst (crun (cchain c_tac (cput_ctx (fun _ => true))) xs c)
  = [[(B "id", B "r3"); (B "_nr", B "3"); (B "_fnr", B "2"); (B "_fn", B "f2"); (B "_fnum", B "2")];
     [(B "id", B "r2"); (B "_nr", B "2"); (B "_fnr", B "1"); (B "_fn", B "f2"); (B "_fnum", B "2")];
     [(B "id", B "r1"); (B "_nr", B "1"); (B "_fnr", B "1"); (B "_fn", B "f1"); (B "_fnum", B "1")]]
  /\ map fst (crun (cchain (c_head 1) cput_end) xs c) = [[(B "e", B "3:0:empty:3")]]
  /\ end_ctx ctx0 [(B "f1", [[(B "id", B "r1")]]); (B "f2", [[(B "id", B "r2")]; [(B "id", B "r3")]]); (B "empty", [])] = c.
Proof. vm_compute. repeat split; reflexivity. Qed.

(* non-vacuity: a three-file CSV input with differing headers and an empty file meets the hypothesis; closed form evaluated *)
Example C05_nonvacuous :
  let f1 := (B "f1.csv", [[(B "", B "a"); (B "", B "b")]; [(B "", B "1"); (B "", B "2")]; [(B "", B "3"); (B "", B "4")]]) in
  let f2 := (B "empty.csv", []) in
  let f3 := (B "f3.csv", [[(B "", B "c")]; [(B "", B "5")]]) in
  Forall2 (fun f rs => parse_file (ROpts MHeader false true false) (snd f) = Some rs) [f1; f2; f3]
          [[[(B "a", B "1"); (B "b", B "2")]; [(B "a", B "3"); (B "b", B "4")]]; []; [[(B "c", B "5")]]]
  /\ map snd (snd (read_files (ROpts MHeader false true false) [f1; f2; f3]))
     = [Ctx (B "f1.csv") 1 1 1; Ctx (B "f1.csv") 1 2 2; Ctx (B "f3.csv") 3 3 1]
  /\ run (chain_list (map verb_of [VSortF (B "a"); VHead 2; VPutDot (B "z") (B "a") (B "!")]))
         [[(B "a", B "b")]; [(B "x", B "1")]; [(B "a", B "a")]; [(B "a", B "c")]]
     = [[(B "a", B "a"); (B "z", B "a!")]; [(B "a", B "b"); (B "z", B "b!")]].
Proof. split; [repeat constructor|vm_compute; split; reflexivity]. Qed.

(* reader details: field-name de-duplication, ragged lines with and without --allow-ragged-csv-input, csvlite schema change *)
Example C05_reader_details :
  let v (s : string) := (B "", B s) in
  parse_file (ROpts MHeader false true false) [[v "a"%string; v "a"%string; v "b"%string]; [v "1"%string; v "2"%string; v "3"%string]]
    = Some [[(B "a", B "1"); (B "a_2", B "2"); (B "b", B "3")]]
  /\ parse_file (ROpts MHeader false false false) [[v "a"%string; v "a"%string; v "b"%string]; [v "1"%string; v "2"%string; v "3"%string]]
    = Some [[(B "a", B "2"); (B "b", B "3")]]
  /\ parse_file (ROpts MHeader false true false) [[v "a"%string; v "b"%string]; [v "1"%string]] = None
  /\ parse_file (ROpts MHeader false true true) [[v "a"%string; v "b"%string]; [v "1"%string]; [v "1"%string; v "2"%string; v "3"%string]]
    = Some [[(B "a", B "1")]; [(B "a", B "1"); (B "b", B "2"); (B "3", B "3")]]
  /\ parse_file (ROpts MHeader true true true) [[v "a"%string; v "b"%string]; [v "1"%string]] = Some [[(B "a", B "1"); (B "b", B "")]]
  /\ parse_file (ROpts MHeader true true false) [[v "a"%string]; [v "1"%string]; []; [v "b"%string; v "c"%string]; [v "2"%string; v "3"%string]]
    = Some [[(B "a", B "1")]; [(B "b", B "2"); (B "c", B "3")]]
  /\ parse_file (ROpts MPairs false true false) [[(B "a", B "1"); (B "a", B "2")]] = Some [[(B "a", B "1"); (B "a_2", B "2")]].
Proof. vm_compute. repeat split; reflexivity. Qed.
