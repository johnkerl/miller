(* C05, contexts through the chain: proofs. *)
From Miller Require Import Base.Bytes Base.Record C05.Model C05.Proofs C05.CtxModel.
Open Scope Z_scope.

Lemma crun_stateless (f : crec -> list crec) (fin : unit -> context -> list crec) xs c :
  crun (CVerb unit tt (fun s x => (s, f x)) fin) xs c = flat_map f xs ++ fin tt c.
Proof.
  unfold crun. cbn [cinit cfinish].
  assert (H : cfeed (CVerb unit tt (fun s x => (s, f x)) fin) tt xs = (tt, flat_map f xs)).
  { induction xs as [|x t IH]; cbn [cfeed flat_map cstep]; [reflexivity|]. now rewrite IH. }
  now rewrite H.
Qed.

Lemma flat_map_single {A B} (g : A -> B) l : flat_map (fun x => [g x]) l = map g l.
Proof. induction l as [|x l IH]; cbn; [reflexivity|]. now rewrite IH. Qed.

Lemma flat_map_filter {A} (p : A -> bool) l : flat_map (fun x => if p x then [x] else []) l = filter p l.
Proof. induction l as [|x l IH]; cbn; [reflexivity|]. rewrite IH. now destruct (p x). Qed.

Lemma crun_put_ctx guard ys c : crun (cput_ctx guard) ys c = map (annot guard) ys.
Proof. unfold cput_ctx. now rewrite crun_stateless, app_nil_r, flat_map_single. Qed.

Lemma crun_filter_ctx p ys c : crun (cfilter_ctx p) ys c = filter (fun x => p (snd x)) ys.
Proof. unfold cfilter_ctx. rewrite crun_stateless, app_nil_r. apply (flat_map_filter (fun x => p (snd x))). Qed.

Lemma crun_put_end ys c : crun cput_end ys c = [(end_record c, c)].
Proof. unfold cput_end. rewrite crun_stateless. now induction ys. Qed.

(* NR/FNR/FILENAME/FILENUM evaluated after ANY verb are those of the context each record carries out of that verb *)
Lemma context_travels v guard xs c :
  crun (cchain v (cput_ctx guard)) xs c = map (annot guard) (crun v xs c).
Proof. now rewrite cchain_is_composition, crun_put_ctx. Qed.

Lemma context_filter_after v p xs c :
  crun (cchain v (cfilter_ctx p)) xs c = filter (fun x => p (snd x)) (crun v xs c).
Proof. now rewrite cchain_is_composition, crun_filter_ctx. Qed.

Lemma selector_annotates_own_source v guard xs c y :
  selector v -> In y (crun (cchain v (cput_ctx guard)) xs c) -> exists x, In x xs /\ y = annot guard x.
Proof.
  intros Hs Hy. rewrite context_travels in Hy. apply in_map_iff in Hy as (x & <- & Hx).
  exists x. split; [now apply (Hs xs c)|reflexivity].
Qed.

(* the end block sees the context of the end-of-stream marker whatever the verbs before it did *)
Lemma end_block_context v xs c : crun (cchain v cput_end) xs c = [(end_record c, c)].
Proof. now rewrite cchain_is_composition, crun_put_end. Qed.

Lemma selector_chain a b : selector a -> selector b -> selector (cchain a b).
Proof.
  intros Ha Hb xs c. rewrite cchain_is_composition. intros y Hy. apply (Ha xs c). now apply (Hb _ c).
Qed.

Lemma selector_stepwise v :
  (forall s x, incl (snd (cstep v s x)) [x]) -> (forall s c, cfinish v s c = []) -> selector v.
Proof.
  intros Hstep Hfin xs c. unfold crun.
  assert (H : forall s, incl (snd (cfeed v s xs)) xs).
  { induction xs as [|x t IH]; intros s; cbn [cfeed]; [intros y []|].
    specialize (Hstep s x). destruct (cstep v s x) as [s1 o1]. specialize (IH s1). destruct (cfeed v s1 t) as [s2 o2].
    cbn [snd] in *. intros y Hy. apply in_app_or in Hy as [Hy|Hy]; [apply Hstep in Hy as [<-|[]]; now left|right; now apply IH]. }
  specialize (H (cinit v)). destruct (cfeed v (cinit v) xs) as [s o]. now rewrite Hfin, app_nil_r.
Qed.

Lemma selector_filter p : selector (c_filter p).
Proof. apply selector_stepwise; [|reflexivity]. intros s x. cbn. destruct (p (fst x)); [apply incl_refl|intros y []]. Qed.

Lemma selector_nothing : selector c_nothing.
Proof. apply selector_stepwise; [|reflexivity]. intros s x y []. Qed.

Lemma selector_head n : selector (c_head n).
Proof. apply selector_stepwise; [|reflexivity]. intros k x. cbn. destruct (k <? n); [apply incl_refl|intros y []]. Qed.

Lemma tac_feed xs : forall s, cfeed c_tac s xs = (rev xs ++ s, []).
Proof.
  induction xs as [|x t IH]; intros s; [reflexivity|]. cbn [cfeed]. change (cstep c_tac s x) with (x :: s, @nil crec).
  cbv beta iota. rewrite IH. cbn [rev]. now rewrite <- app_assoc.
Qed.
Lemma crun_tac xs c : crun c_tac xs c = rev xs.
Proof. unfold crun. change (cinit c_tac) with (@nil crec). rewrite tac_feed. cbn. now rewrite app_nil_r. Qed.
Lemma selector_tac : selector c_tac.
Proof. intros xs c y Hy. rewrite crun_tac in Hy. now apply in_rev. Qed.

Lemma files_run_end m fs recs c0 h0 :
  Forall2 (fun f rs => parse_file m (snd f) = Some rs) fs recs ->
  rctx (fst (reader_run m (RS c0 h0 false) (events_of fs))) = end_ctx c0 (combine (map fst fs) recs).
Proof. intros H. now destruct (files_run m fs recs c0 h0 H) as [h1 ->]. Qed.

Lemma end_context_closed_form m fs recs :
  Forall2 (fun f rs => parse_file m (snd f) = Some rs) fs recs ->
  rctx (fst (read_files m fs)) = end_ctx ctx0 (combine (map fst fs) recs).
Proof. apply files_run_end. Qed.

Lemma end_ctx_last c0 fs name rs :
  end_ctx c0 (fs ++ [(name, rs)]) =
  Ctx name (filenum c0 + Z.of_nat (List.length fs) + 1)
      (nr c0 + Z.of_nat (List.length (List.concat (map snd fs))) + Z.of_nat (List.length rs)) (Z.of_nat (List.length rs)).
Proof.
  unfold end_ctx. rewrite fold_left_app. cbn [fold_left fst snd]. fold (end_ctx c0 fs).
  destruct (end_ctx_counts fs c0) as [H1 H2]. now rewrite H1, H2.
Qed.
