(* C05 lemmas: chains are compositions, batching is irrelevant, multi-file bookkeeping has a closed form. *)
From Miller Require Import Base.Bytes Base.Record C05.Model C05.CtxModel.
Open Scope Z_scope.

Lemma feed_app v : forall xs ys s,
  feed v s (xs ++ ys) = let '(s1, o1) := feed v s xs in let '(s2, o2) := feed v s1 ys in (s2, o1 ++ o2).
Proof.
  induction xs as [|x t IH]; intros ys s; cbn [feed app].
  - destruct (feed v s ys); reflexivity.
  - destruct (vstep v s x) as [s1 o1]. rewrite IH. destruct (feed v s1 t) as [s2 o2].
    destruct (feed v s2 ys) as [s3 o3]. now rewrite app_assoc.
Qed.

Lemma chain_feed a b : forall xs sa sb,
  feed (chain a b) (sa, sb) xs =
  let '(sa1, ys) := feed a sa xs in let '(sb1, zs) := feed b sb ys in ((sa1, sb1), zs).
Proof.
  induction xs as [|x t IH]; intros sa sb; cbn [feed]; [reflexivity|].
  cbn [chain vstep fst snd]. destruct (vstep a sa x) as [sa1 y1].
  destruct (feed b sb y1) as [sb1 z1] eqn:E1. rewrite IH.
  destruct (feed a sa1 t) as [sa2 y2]. rewrite feed_app, E1.
  destruct (feed b sb1 y2) as [sb2 z2]. reflexivity.
Qed.

Lemma chain_is_composition a b xs : run (chain a b) xs = run b (run a xs).
Proof.
  unfold run. cbn [vinit chain]. rewrite chain_feed.
  destruct (feed a (vinit a) xs) as [sa ys]. rewrite feed_app.
  destruct (feed b (vinit b) ys) as [sb zs]. cbn [vfinish chain fst snd].
  destruct (feed b sb (vfinish a sa)) as [sb2 ws]. now rewrite app_assoc.
Qed.

Lemma feed_vcat xs : forall s, feed vcat s xs = (s, xs).
Proof. induction xs as [|x t IH]; intros s; cbn; [reflexivity|]. now rewrite IH. Qed.

Lemma run_vcat xs : run vcat xs = xs.
Proof. unfold run. rewrite feed_vcat. cbn. apply app_nil_r. Qed.

Lemma chain_list_run vs : forall xs, run (chain_list vs) xs = run_list vs xs.
Proof.
  induction vs as [|v t IH]; intros xs; cbn [chain_list run_list]; [apply run_vcat|].
  destruct t as [|w t']; [reflexivity|]. rewrite chain_is_composition. apply IH.
Qed.

Lemma chain_assoc a b c xs : run (chain (chain a b) c) xs = run (chain a (chain b c)) xs.
Proof. now rewrite !chain_is_composition. Qed.

Lemma feed_batches_concat v : forall bs s,
  feed v s (List.concat bs) = let '(s1, outs) := feed_batches v s bs in (s1, List.concat outs).
Proof.
  induction bs as [|b t IH]; intros s; cbn [List.concat feed_batches feed]; [reflexivity|].
  rewrite feed_app. destruct (feed v s b) as [s1 o1]. rewrite IH. destruct (feed_batches v s1 t) as [s2 os]. reflexivity.
Qed.

Lemma batch_independence v bs : run_batched v bs = run v (List.concat bs).
Proof.
  unfold run_batched, run. rewrite feed_batches_concat. destruct (feed_batches v (vinit v) bs). reflexivity.
Qed.

Lemma chain_equals_pipe {T} (enc : list record -> T) (dec : T -> list record) a b xs :
  dec (enc (run a xs)) = run a xs -> run b (dec (enc (run a xs))) = run (chain a b) xs.
Proof. intros H. now rewrite H, chain_is_composition. Qed.

Lemma number_from_fst name fn before : forall rs i, map fst (number_from name fn before i rs) = rs.
Proof. induction rs as [|r t IH]; intros i; cbn; [reflexivity|]. now rewrite IH. Qed.

Lemma number_from_nr name fn before : forall rs i,
  map (fun rc => nr (snd rc)) (number_from name fn before i rs) = zseq (before + i) (List.length rs).
Proof.
  induction rs as [|r t IH]; intros i; cbn; [reflexivity|]. rewrite IH. f_equal. f_equal. lia.
Qed.

Lemma number_from_ctx name fn before : forall rs i rc,
  In rc (number_from name fn before i rs) ->
  filename (snd rc) = name /\ filenum (snd rc) = fn /\ nr (snd rc) = before + fnr (snd rc)
  /\ i <= fnr (snd rc) < i + Z.of_nat (List.length rs).
Proof.
  induction rs as [|r t IH]; intros i rc Hin; cbn in Hin; [contradiction|].
  destruct Hin as [<-|Hin]; cbn [snd filename filenum nr fnr List.length].
  - repeat split; lia.
  - destruct (IH (i + 1) rc Hin) as (H1 & H2 & H3 & H4). repeat split; auto; lia.
Qed.

Lemma number_from_fnr name fn before : forall rs i,
  map (fun rc => fnr (snd rc)) (number_from name fn before i rs) = zseq i (List.length rs).
Proof. induction rs as [|r t IH]; intros i; cbn; [reflexivity|]. now rewrite IH. Qed.

Lemma zseq_app a n m : zseq a (n + m) = zseq a n ++ zseq (a + Z.of_nat n) m.
Proof.
  revert a. induction n as [|n IH]; intros a; cbn [zseq Nat.add app].
  - f_equal. cbn. lia.
  - rewrite IH. f_equal. f_equal. f_equal. lia.
Qed.

Lemma spec_files_fst : forall fs fn before, map fst (spec_files fn before fs) = List.concat (map snd fs).
Proof.
  induction fs as [|[name rs] t IH]; intros fn before; cbn; [reflexivity|].
  now rewrite map_app, number_from_fst, IH.
Qed.

Lemma spec_files_nr : forall fs fn before,
  map (fun rc => nr (snd rc)) (spec_files fn before fs) = zseq (before + 1) (List.length (List.concat (map snd fs))).
Proof.
  induction fs as [|[name rs] t IH]; intros fn before; cbn [spec_files map List.concat snd]; [reflexivity|].
  rewrite map_app, number_from_nr, IH, app_length, zseq_app. f_equal. f_equal. lia.
Qed.

Lemma end_ctx_counts fs c0 :
  filenum (end_ctx c0 fs) = filenum c0 + Z.of_nat (List.length fs)
  /\ nr (end_ctx c0 fs) = nr c0 + Z.of_nat (List.length (List.concat (map snd fs))).
Proof.
  unfold end_ctx. induction fs as [|f fs [IH1 IH2]] using rev_ind; [cbn; lia|].
  rewrite fold_left_app, map_app, concat_app, !app_length. cbn [fold_left filenum nr map List.concat List.length].
  rewrite IH1, IH2, app_nil_r. lia.
Qed.

Lemma reader_run_app m : forall es1 es2 s,
  reader_run m s (es1 ++ es2) =
  let '(s1, o1) := reader_run m s es1 in let '(s2, o2) := reader_run m s1 es2 in (s2, o1 ++ o2).
Proof.
  induction es1 as [|e t IH]; intros es2 s; cbn [reader_run app].
  - destruct (reader_run m s es2); reflexivity.
  - destruct (reader_step m s e) as [s1 o1]. rewrite IH. destruct (reader_run m s1 t) as [s2 o2].
    destruct (reader_run m s2 es2) as [s3 o3]. now rewrite app_assoc.
Qed.

Lemma lines_run o before : forall ls h rs c,
  nr c = before + fnr c -> parse_lines o h ls = Some rs ->
  exists h1,
  reader_run o (RS c h false) (map Line ls) =
  (RS (Ctx (filename c) (filenum c) (nr c + Z.of_nat (List.length rs)) (fnr c + Z.of_nat (List.length rs))) h1 false,
   number_from (filename c) (filenum c) before (fnr c + 1) rs).
Proof.
  induction ls as [|l t IH]; intros h rs c Hc Hp; cbn [parse_lines] in Hp.
  - injection Hp as <-. exists h. cbn. rewrite !Z.add_0_r. now destruct c.
  - cbn [map reader_run reader_step rfailed rheader rctx].
    destruct (line_step o h l) as [|h'|h' r]; [discriminate| |].
    + destruct (IH h' rs c Hc Hp) as [h1 ->]. now exists h1.
    + destruct (parse_lines o h' t) as [rs'|] eqn:Ep; [|discriminate]. injection Hp as <-.
      destruct (IH h' rs' (input_record c)) as [h1 ->]; [cbn; lia|exact Ep|]. exists h1.
      unfold input_record. cbn [filename filenum nr fnr number_from app List.length]. repeat (f_equal; try lia).
Qed.

Lemma file_run m name ls rs c0 h0 :
  parse_file m ls = Some rs ->
  exists h1,
  reader_run m (RS c0 h0 false) (FileStart name :: map Line ls) =
  (RS (Ctx name (filenum c0 + 1) (nr c0 + Z.of_nat (List.length rs)) (Z.of_nat (List.length rs))) h1 false,
   number_from name (filenum c0 + 1) (nr c0) 1 rs).
Proof.
  intros Hp. destruct (lines_run m (nr c0) ls None rs (start_file c0 name)) as [h1 H]; [cbn; lia|exact Hp|].
  exists h1. cbn [reader_run reader_step rfailed rctx]. now rewrite H.
Qed.

Lemma files_run m : forall fs recs c0 h0,
  Forall2 (fun f rs => parse_file m (snd f) = Some rs) fs recs ->
  exists h1,
  reader_run m (RS c0 h0 false) (events_of fs) =
  (RS (end_ctx c0 (combine (map fst fs) recs)) h1 false, spec_files (filenum c0) (nr c0) (combine (map fst fs) recs)).
Proof.
  induction fs as [|[name ls] t IH]; intros recs c0 h0 HF; inversion HF as [|? rs ? recs' Hp HF']; subst.
  - now exists h0.
  - unfold events_of. cbn [flat_map fst snd]. fold (events_of t). rewrite reader_run_app.
    destruct (file_run m name ls rs c0 h0 Hp) as [h1 ->]. edestruct IH as [h2 E]; [exact HF'|]. rewrite E. now exists h2.
Qed.

Lemma names_recs {P : file -> list record -> Prop} {fs recs} :
  Forall2 P fs recs ->
  map snd (combine (map fst fs) recs) = recs /\ List.length (combine (map fst fs) recs) = List.length fs.
Proof. induction 1 as [|f rs fs recs _ _ [IH1 IH2]]; cbn; [auto|]. now rewrite IH1, IH2. Qed.

Section AllFilesParse.
Variables (m : ropts) (fs : list file) (recs : list (list record)).
Hypothesis H : Forall2 (fun f rs => parse_file m (snd f) = Some rs) fs recs.

Lemma multi_file_contexts : snd (read_files m fs) = spec_files 0 0 (combine (map fst fs) recs).
Proof. destruct (files_run m fs recs ctx0 None H) as [h1 E]. unfold read_files, rs0. now rewrite E. Qed.

Lemma inputs_concatenate : map fst (snd (read_files m fs)) = List.concat recs.
Proof. now rewrite multi_file_contexts, spec_files_fst, (proj1 (names_recs H)). Qed.

Lemma nr_counts_across_files : map (fun rc => nr (snd rc)) (snd (read_files m fs)) = zseq 1 (total_records recs).
Proof. now rewrite multi_file_contexts, spec_files_nr, (proj1 (names_recs H)). Qed.

Lemma end_block_sees_final_nr :
  nr (rctx (fst (read_files m fs))) = Z.of_nat (total_records recs)
  /\ filenum (rctx (fst (read_files m fs))) = Z.of_nat (List.length fs)
  /\ rfailed (fst (read_files m fs)) = false.
Proof.
  destruct (files_run m fs recs ctx0 None H) as [h1 E]. unfold read_files, rs0. rewrite E. cbn [fst rctx rfailed].
  destruct (end_ctx_counts (combine (map fst fs) recs) ctx0) as [-> ->], (names_recs H) as [-> ->]. auto.
Qed.
End AllFilesParse.

Lemma cfeed_app v : forall xs ys s,
  cfeed v s (xs ++ ys) = let '(s1, o1) := cfeed v s xs in let '(s2, o2) := cfeed v s1 ys in (s2, o1 ++ o2).
Proof.
  induction xs as [|x t IH]; intros ys s; cbn [cfeed app].
  - destruct (cfeed v s ys); reflexivity.
  - destruct (cstep v s x) as [s1 o1]. rewrite IH. destruct (cfeed v s1 t) as [s2 o2].
    destruct (cfeed v s2 ys) as [s3 o3]. now rewrite app_assoc.
Qed.

Lemma cchain_feed a b : forall xs sa sb,
  cfeed (cchain a b) (sa, sb) xs =
  let '(sa1, ys) := cfeed a sa xs in let '(sb1, zs) := cfeed b sb ys in ((sa1, sb1), zs).
Proof.
  induction xs as [|x t IH]; intros sa sb; cbn [cfeed]; [reflexivity|].
  cbn [cchain cstep fst snd]. destruct (cstep a sa x) as [sa1 y1].
  destruct (cfeed b sb y1) as [sb1 z1] eqn:E1. rewrite IH.
  destruct (cfeed a sa1 t) as [sa2 y2]. rewrite cfeed_app, E1.
  destruct (cfeed b sb1 y2) as [sb2 z2]. reflexivity.
Qed.

Lemma cchain_is_composition a b xs c : crun (cchain a b) xs c = crun b (crun a xs c) c.
Proof.
  unfold crun. cbn [cinit cchain]. rewrite cchain_feed.
  destruct (cfeed a (cinit a) xs) as [sa ys]. rewrite cfeed_app.
  destruct (cfeed b (cinit b) ys) as [sb zs]. cbn [cfinish cchain fst snd].
  destruct (cfeed b sb (cfinish a sa c)) as [sb2 ws]. now rewrite app_assoc.
Qed.

Lemma map_fst_tag (c : context) (rs : list record) : map fst (map (fun r => (r, c)) rs) = rs.
Proof. rewrite map_map. apply map_id. Qed.

Lemma lift_feed v : forall xs (s : vstate v),
  (let '(s', o) := cfeed (lift v) s xs in (s', map fst o)) = feed v s (map fst xs).
Proof.
  induction xs as [|x t IH]; intros s; [reflexivity|]. cbn [cfeed feed map lift cstep].
  destruct (vstep v s (fst x)) as [s1 o1]. rewrite <- (IH s1). change (cstate (lift v)) with (vstate v).
  destruct (cfeed (lift v) s1 t) as [s2 o2]. now rewrite map_app, map_fst_tag.
Qed.

Lemma lift_run v xs c : map fst (crun (lift v) xs c) = run v (map fst xs).
Proof.
  unfold crun, run. rewrite <- lift_feed. change (cinit (lift v)) with (vinit v). change (cstate (lift v)) with (vstate v).
  destruct (cfeed (lift v) (vinit v) xs) as [s o]. rewrite map_app. f_equal. apply map_fst_tag.
Qed.

Lemma lift_oblivious v : oblivious (lift v).
Proof. intros xs ys c c' H. now rewrite !lift_run, H. Qed.

Lemma oblivious_chain a b : oblivious a -> oblivious b -> oblivious (cchain a b).
Proof.
  intros Ha Hb xs ys c c' H. rewrite !cchain_is_composition. apply Hb. now apply Ha.
Qed.

Lemma renumber_fst name rs : map fst (renumber name rs) = rs.
Proof. apply number_from_fst. Qed.

(* chain = pipe needs only the DOWNSTREAM verb to be oblivious: the pipe's second process renumbers the records *)
Lemma chain_equals_pipe_oblivious a b xs c name c' :
  oblivious b ->
  map fst (crun b (renumber name (map fst (crun a xs c))) c') = map fst (crun (cchain a b) xs c).
Proof.
  intros Hb. rewrite cchain_is_composition. apply Hb. apply renumber_fst.
Qed.

Lemma chain_differs_from_pipe_for_nr :
  exists (xs : list crec) (c : context),
  map fst (crun cput_nr (renumber (B "(stdin)") (map fst (crun (lift v_tac) xs c))) c)
  <> map fst (crun (cchain (lift v_tac) cput_nr) xs c).
Proof.
  exists (renumber (B "f") [[(B "a", B "1")]; [(B "a", B "2")]]), (Ctx (B "f") 1 2 2).
  vm_compute. discriminate.
Qed.
