(* C15 lemmas: wrapper verbs = function per selected field *)
From Miller Require Import Base.Bytes C15.Model C15.ModelCodec C15.ModelVerbs.

Lemma map_values_keys sel f r : map fst (map_values sel f r) = map fst r.
Proof.
  unfold map_values. rewrite map_map. apply map_ext. intros [k v]. cbn [fst]. now destruct (sel k).
Qed.

Lemma map_values_length sel f r : List.length (map_values sel f r) = List.length r.
Proof. unfold map_values. apply map_length. Qed.

Lemma map_values_nth sel f r i k v :
  nth_error r i = Some (k, v) ->
  nth_error (map_values sel f r) i = Some (k, if sel k then f v else v).
Proof.
  intros H. unfold map_values. rewrite nth_error_map, H. cbn [option_map fst snd]. now destruct (sel k).
Qed.

Lemma run_verb_spec v r i k x :
  nth_error r i = Some (k, x) ->
  nth_error (run_verb v r) i = Some (k, if verb_sel v k then verb_fun v x else x)
  /\ map fst (run_verb v r) = map fst r.
Proof. intros H. split; [now apply map_values_nth|apply map_values_keys]. Qed.

Lemma map_values_none f r : map_values (fun _ => false) f r = r.
Proof. unfold map_values. induction r as [|[k v] t IH]; [reflexivity|]. cbn [map]. now rewrite IH. Qed.
Lemma map_values_app sel f a b : map_values sel f (a ++ b) = map_values sel f a ++ map_values sel f b.
Proof. unfold map_values. apply map_app. Qed.
