(* C15 property theorems, each followed by Print Assumptions, and non-vacuity Examples. *)
From Miller Require Import Base.Bytes C15.Model C15.Proofs C15.Utf8Proofs.
From Miller Require C01.ModelJson C01.ProofsJson.
Open Scope char_scope.
Open Scope Z_scope.

(* 1-up inclusive bounds: for 1 <= m <= k <= strlen, the slice is characters m..k (character, not byte, positions) *)
Theorem C15_substr_spec :
  forall rs m k, 1 <= m -> m <= k -> k <= Z.of_nat (List.length rs) ->
  slice_runes rs m k false = firstn (Z.to_nat (k - m + 1)) (skipn (Z.to_nat (m - 1)) rs)
  /\ List.length (slice_runes rs m k false) = Z.to_nat (k - m + 1).
Proof. exact slice_runes_spec. Qed.
Print Assumptions C15_substr_spec.

(* negative indices -n..-1 alias 1..n *)
Theorem C15_substr_negative_alias :
  forall n m k, 1 <= m -> m <= k -> k <= n -> slice_access n (m - n - 1) (k - n - 1) false = slice_access n m k false.
Proof. exact (fun n m k H1 H2 H3 => eq_trans (slice_access_negative_alias n m k H1 H2 H3) (eq_sym (slice_access_in_range n m k H1 H2 H3))). Qed.
Print Assumptions C15_substr_negative_alias.

(* an upper bound beyond the length is clamped *)
Theorem C15_substr_clamps_high :
  forall n m k, 1 <= m -> m <= n -> n < k -> slice_access n m k false = Some (m - 1, n - 1).
Proof. exact slice_access_clamps_high. Qed.
Print Assumptions C15_substr_clamps_high.

(* substr0 is substr1 shifted by one on non-negative indices *)
Theorem C15_substr0_is_substr1_shifted :
  forall n m k, 0 <= m -> 0 <= k -> slice_access n m k true = slice_access n (m + 1) (k + 1) false.
Proof. exact slice_access_zero_up. Qed.
Print Assumptions C15_substr0_is_substr1_shifted.

(* strlen counts characters, not bytes: additive over any well-formed UTF-8 left part (whatever follows, valid or not) *)
Theorem C15_strlen_app :
  forall a b, valid_utf8 a = true -> strlen (a ++ b) = strlen a + strlen b.
Proof. exact strlen_app_valid. Qed.
Print Assumptions C15_strlen_app.

Theorem C15_runes_app :
  forall a b, valid_utf8 a = true -> runes (a ++ b) = runes a ++ runes b.
Proof. exact runes_app_valid. Qed.
Print Assumptions C15_runes_app.

(* case mapping (ASCII model): idempotence and inverse on letters *)
Theorem C15_tolower_toupper : forall s, tolower (toupper s) = tolower s.
Proof. exact tolower_toupper. Qed.
Print Assumptions C15_tolower_toupper.
Theorem C15_toupper_tolower : forall s, toupper (tolower s) = toupper s.
Proof. exact toupper_tolower. Qed.
Print Assumptions C15_toupper_tolower.
Theorem C15_tolower_toupper_inverse_on_lowercase :
  forall s, forallb (fun c => negb (in_range "A" "Z" c)) s = true -> tolower (toupper s) = s.
Proof. exact tolower_toupper_lower. Qed.
Print Assumptions C15_tolower_toupper_inverse_on_lowercase.

(* hex: inverse pair, all byte strings *)
Theorem C15_hex_decode_encode : forall s, hex_decode (hex_encode s) = Some s.
Proof. exact hex_decode_encode. Qed.
Print Assumptions C15_hex_decode_encode.

(* split / join *)
Theorem C15_join_split : forall s sep, joinv (splitax s sep) sep = s.
Proof. exact join_split. Qed.
Print Assumptions C15_join_split.

Theorem C15_split_join :
  forall c l, Forall (fun x => forallb (fun d => negb (Ascii.eqb c d)) x = true) l ->
  joinv l [c] <> [] -> splitax (joinv l [c]) [c] = l.
Proof. exact split_join. Qed.
Print Assumptions C15_split_join.

(* ssub / gssub are literal: the pattern is searched byte for byte (no metacharacters in the model at all);
   ssub rewrites exactly the first occurrence, leaves the text alone when there is none *)
Theorem C15_ssub_first_occurrence :
  forall s pat rep a b, pat <> [] -> find_lit pat s = Some (a, b) -> s = a ++ pat ++ b /\ ssub s pat rep = a ++ rep ++ b.
Proof. exact ssub_first_occurrence. Qed.
Print Assumptions C15_ssub_first_occurrence.
Theorem C15_ssub_no_match : forall s pat rep, pat <> [] -> find_lit pat s = None -> ssub s pat rep = s.
Proof. exact ssub_no_match. Qed.
Print Assumptions C15_ssub_no_match.
Theorem C15_gssub_no_match : forall s pat rep, find_lit pat s = None -> gssub s pat rep = s.
Proof. exact gssub_no_match. Qed.
Print Assumptions C15_gssub_no_match.
Theorem C15_gssub_same_is_identity : forall s pat, gssub s pat pat = s.
Proof. exact gssub_same. Qed.
Print Assumptions C15_gssub_same_is_identity.

(* json_stringify of a string (millerJSONEncodeString, model shared with C01 and tied to json_stringify by this
   property's correspondence) is read back to the same bytes by an RFC 8259 string decoder: all byte strings *)
Theorem C15_json_stringify_decodes :
  forall s, C01.ProofsJson.ref_decode_string (C01.ModelJson.json_string s) = Some s.
Proof. exact C01.ProofsJson.json_string_decodes. Qed.
Print Assumptions C15_json_stringify_decodes.

Example C15_nonvacuous :
  strlen (bs [104; 195; 169; 255; 226; 130]%N) = 5
  /\ valid_utf8 (bs [104; 195; 169; 226; 130; 172; 240; 159; 152; 128]%N) = true /\ valid_utf8 (bs [237; 160; 128]%N) = false
  /\ substr1 (bs [104; 195; 169; 108]%N) 2 2 = bs [195; 169]%N
  /\ find_lit (B ".") (B "a.b.c") = Some (B "a", B "b.c")
  /\ ssub (B "a.b.c") (B ".") (B "X") = B "aXb.c" /\ gssub (B "a.b.c") (B ".") (B "X") = B "aXbXc"
  /\ splitax (B "a,b,,c") (B ",") = [B "a"; B "b"; []; B "c"]
  /\ hex_decode (B "4A6b") = Some (B "Jk") /\ slice_access 5 (-4) (-2) false = Some (1, 3).
Proof. vm_compute. repeat split; reflexivity. Qed.

(* ================================================================== codecs (ModelCodec.v) *)
From Miller Require Import C15.ModelCodec C15.ProofsCodec C15.ModelHash C15.ProofsHash C15.ModelFmt C15.ProofsFmt.
Open Scope N_scope.

(* base64: inverse pair, ALL byte strings *)
Theorem C15_base64_decode_encode : forall s, b64_decode (b64_encode s) = Some s.
Proof. exact b64_decode_encode. Qed.
Print Assumptions C15_base64_decode_encode.

(* output length 4*ceil(n/3), alphabet A-Za-z0-9+/ and '=' *)
Theorem C15_base64_encode_length : forall s, N.of_nat (List.length (b64_encode s)) = 4 * ((N.of_nat (List.length s) + 2) / 3).
Proof. exact b64_encode_length. Qed.
Print Assumptions C15_base64_encode_length.
Theorem C15_base64_encode_alphabet : forall s, forallb b64_out_char (b64_encode s) = true.
Proof. exact b64_encode_alphabet. Qed.
Print Assumptions C15_base64_encode_alphabet.

(* what the decoder accepts: (after CR/LF removal) a multiple of four characters, all from the alphabet or '=' ... *)
Theorem C15_base64_decode_accepts_only :
  forall s r, b64_decode s = Some r ->
  N.of_nat (List.length (strip_crlf s)) mod 4 = 0 /\ forallb (fun c => b64_out_char c || is_crlf c) s = true.
Proof. exact b64_decode_accepts. Qed.
Print Assumptions C15_base64_decode_accepts_only.
(* ... CR and LF are ignored wherever they stand ... *)
Theorem C15_base64_decode_ignores_crlf : forall a c b, is_crlf c = true -> b64_decode (a ++ c :: b) = b64_decode (a ++ b).
Proof. exact b64_decode_ignores_crlf. Qed.
Print Assumptions C15_base64_decode_ignores_crlf.
(* ... unpadded whole quanta give three bytes each *)
Theorem C15_base64_decode_full_quanta :
  forall s r, forallb is_b64 s = true -> b64_quanta s = Some r ->
  N.of_nat (List.length s) = 4 * (N.of_nat (List.length r) / 3) /\ N.of_nat (List.length r) mod 3 = 0.
Proof. exact b64_quanta_full_length. Qed.
Print Assumptions C15_base64_decode_full_quanta.
(* "decoding is injective on CR/LF-free text" is FALSE of the code (StdEncoding is not Strict()): QQ== and QR== both give "A" *)
Theorem C15_base64_decode_injective_refuted :
  exists s1 s2, s1 <> s2 /\ strip_crlf s1 = s1 /\ strip_crlf s2 = s2 /\ b64_decode s1 = b64_decode s2 /\ b64_decode s1 = Some (B "A").
Proof. exact b64_decode_not_injective. Qed.
Print Assumptions C15_base64_decode_injective_refuted.

(* latin1 -> utf8 -> latin1 is the identity on ALL byte strings *)
Theorem C15_latin1_utf8_latin1 : forall s, utf8_to_latin1 (latin1_to_utf8 s) = Some s.
Proof. exact utf8_to_latin1_of_latin1_to_utf8. Qed.
Print Assumptions C15_latin1_utf8_latin1.
(* utf8_to_latin1 is an error exactly when some decoded character is above U+00FF (each invalid byte decodes to U+FFFD) *)
Theorem C15_utf8_to_latin1_error_iff : forall s, utf8_to_latin1 s = None <-> existsb (fun r => 255 <? r) (runes s) = true.
Proof. exact utf8_to_latin1_none. Qed.
Print Assumptions C15_utf8_to_latin1_error_iff.
(* otherwise: one byte per character, the byte value being the code point *)
Theorem C15_utf8_to_latin1_result :
  forall s o, utf8_to_latin1 s = Some o -> map code o = runes s /\ Z.of_nat (List.length o) = strlen s.
Proof. exact utf8_to_latin1_some. Qed.
Print Assumptions C15_utf8_to_latin1_result.
(* PARTIAL: latin1_to_utf8 is the identity on ASCII.  The inverse law on all well-formed text
   (valid_utf8 s = true -> utf8_to_latin1 s = Some o -> latin1_to_utf8 o = s) is not among the theorems. *)
Theorem C15_latin1_to_utf8_ascii_partial : forall s, forallb (fun c => (code c <? 128)) s = true -> latin1_to_utf8 s = s.
Proof. exact latin1_to_utf8_ascii. Qed.
Print Assumptions C15_latin1_to_utf8_ascii_partial.

(* ================================================================== digests (ModelHash.v): structure only, no cryptographic claim *)
Theorem C15_digest_padding_whole_blocks :
  forall m, N.of_nat (List.length (pad_md5 m)) mod 64 = 0 /\ N.of_nat (List.length (pad_sha m)) mod 64 = 0
            /\ N.of_nat (List.length (pad_sha512 m)) mod 128 = 0.
Proof. exact pad_blocks. Qed.
Print Assumptions C15_digest_padding_whole_blocks.
Theorem C15_digest_padding_minimal :
  forall m, N.of_nat (List.length m) + 9 <= N.of_nat (List.length (pad_sha m)) < N.of_nat (List.length m) + 9 + 64
         /\ N.of_nat (List.length m) + 9 <= N.of_nat (List.length (pad_md5 m)) < N.of_nat (List.length m) + 9 + 64
         /\ N.of_nat (List.length m) + 17 <= N.of_nat (List.length (pad_sha512 m)) < N.of_nat (List.length m) + 17 + 128.
Proof. exact pad_minimal. Qed.
Print Assumptions C15_digest_padding_minimal.
(* the message is recoverable from the padded message (whatever the length field holds), hence padding is injective *)
Theorem C15_digest_padding_recoverable :
  forall m, unpad 8 (pad_md5 m) = m /\ unpad 8 (pad_sha m) = m /\ unpad 16 (pad_sha512 m) = m.
Proof. exact (fun m => conj (unpad_md5 m) (conj (unpad_sha m) (unpad_sha512 m))). Qed.
Print Assumptions C15_digest_padding_recoverable.
Theorem C15_digest_padding_injective :
  forall m m', (pad_md5 m = pad_md5 m' -> m = m') /\ (pad_sha m = pad_sha m' -> m = m') /\ (pad_sha512 m = pad_sha512 m' -> m = m').
Proof.
  exact (fun m m' => conj (cancel_injective _ _ unpad_md5 m m')
                       (conj (cancel_injective _ _ unpad_sha m m') (cancel_injective _ _ unpad_sha512 m m'))).
Qed.
Print Assumptions C15_digest_padding_injective.
(* md5/sha1/sha256/sha512 texts: 32/40/64/128 lower-case hex characters, every input *)
Theorem C15_digest_text_format :
  forall s,
  (List.length (md5 s) = 32 /\ List.length (sha1 s) = 40 /\ List.length (sha256 s) = 64 /\ List.length (sha512 s) = 128)%nat
  /\ forallb is_lower_hex (md5 s) = true /\ forallb is_lower_hex (sha1 s) = true
  /\ forallb is_lower_hex (sha256 s) = true /\ forallb is_lower_hex (sha512 s) = true.
Proof. exact digest_text_format. Qed.
Print Assumptions C15_digest_text_format.

(* ================================================================== printf-style formatting (ModelFmt.v) *)
(* fmtnum(z, "%d") reads back as z (signed decimal), every integer *)
Theorem C15_fmtnum_d_roundtrip :
  forall z txt, exists t, fmtnum (VInt z) txt (B "%d") = FOut t /\ parse_signed_dec t = Some z.
Proof. exact fmtnum_d_roundtrip. Qed.
Print Assumptions C15_fmtnum_d_roundtrip.
(* fmtnum(z, "%x") of a non-negative integer reads back as z *)
Theorem C15_fmtnum_x_roundtrip :
  forall z txt, (0 <= z)%Z -> exists t, fmtnum (VInt z) txt (B "%x") = FOut t /\ parse_base 16 t 0 = Some (Z.to_N z).
Proof. exact fmtnum_x_roundtrip. Qed.
Print Assumptions C15_fmtnum_x_roundtrip.
(* the digit text in any base 2..16, either case, reads back as the number *)
Theorem C15_digits_text_roundtrip : forall b up u, 2 <= b -> b <= 16 -> parse_base b (digits_text b up u) 0 = Some u.
Proof. exact parse_digits_text. Qed.
Print Assumptions C15_digits_text_roundtrip.
(* width: the result is max(width, natural length) long and only blanks are added, left or (flag -) right *)
Theorem C15_fmt_integer_width_law :
  forall sp z base up w, fwid sp = Some w -> (fprec sp = Some 0 -> z <> 0%Z) ->
  let b := int_body sp (z <? 0)%Z (Z.abs_N z) base up in
  blen (fmt_integer sp z base up) = Z.max (Z.of_N w) (blen b)
  /\ fmt_integer sp z base up = (if fminus sp then b ++ repeat " "%char (Z.to_nat (Z.of_N w - blen b)) else repeat " "%char (Z.to_nat (Z.of_N w - blen b)) ++ b).
Proof. exact fmt_integer_width. Qed.
Print Assumptions C15_fmt_integer_width_law.
(* %0Nd: sign, zeros up to the width, digits; nothing else *)
Theorem C15_fmt_zero_padding_law :
  forall (sp : spec) (negative : bool) (u base : N) (up : bool) (w : N),
  fwid sp = Some w -> fprec sp = None -> fzero sp = true -> fminus sp = false -> fsharp sp = false ->
  let ds := digits_text base up u in
  let sg := if negative then ["-"%char] else if fplus sp then ["+"%char] else if fspace sp then [" "%char] else [] in
  int_body sp negative u base up = sg ++ zeros (Z.of_N w - blen sg - blen ds) ++ ds
  /\ blen (int_body sp negative u base up) = Z.max (Z.of_N w) (blen sg + blen ds).
Proof. exact int_body_zero_padding. Qed.
Print Assumptions C15_fmt_zero_padding_law.
(* %.pf: the digits q satisfy |q/10^p - num/den| <= 1/2 * 10^-p (cross-multiplied), ties go to the even q;
   num/den is the exact value of the binary64 argument (decode_bits, positive denominator) *)
Theorem C15_fixed_precision_correctly_rounded :
  forall p num den, 0 < den ->
  (2 * Z.abs (Z.of_N (fixed_q p num den) * Z.of_N den - Z.of_N num * 10 ^ Z.of_N p) <= Z.of_N den)%Z.
Proof. exact fixed_q_correctly_rounded. Qed.
Print Assumptions C15_fixed_precision_correctly_rounded.
Theorem C15_rounding_ties_to_even : forall a b, 0 < b -> 2 * (a mod b) = b -> N.even (round_div a b) = true.
Proof. exact round_div_ties_even. Qed.
Print Assumptions C15_rounding_ties_to_even.
Theorem C15_decode_bits_denominator_positive : forall bits neg num den, decode_bits bits = Some (neg, num, den) -> 0 < den.
Proof. exact decode_bits_den. Qed.
Print Assumptions C15_decode_bits_denominator_positive.
(* instances: literal text around the directive, trailing text, %x of a negative int *)
Theorem C15_fmtnum_repaired_witnesses :
  fmtnum (VInt 17) (B "17") (B "old:%d") = FOut (B "old:17")
  /\ fmtnum (VInt 17) (B "17") (B "%5d|") = FOut (B "   17|")
  /\ fmtnum (VInt 0) (B "0") (B "le %16lf") = FOut (B "le         0.000000")
  /\ fmtnum (VInt (-1)) (B "-1") (B "%x") = FOut (B "ffffffffffffffff") /\ hexfmt (VInt (-1)) (B "-1") = B "0xffffffffffffffff"
  /\ fmtnum (VInt (-5)) (B "-5") (B "%08llx") = FOut (B "fffffffffffffffb")
  /\ fmtnum (VInt (-1)) (B "-1") (B "%-10x|") = FOut (B "ffffffffffffffff|").
Proof. exact fmtnum_repaired_witnesses. Qed.
Print Assumptions C15_fmtnum_repaired_witnesses.

Example C15_nonvacuous_2 :
  b64_encode (B "Ma") = B "TWE=" /\ b64_decode (B "TW
Fu") = Some (B "Man") /\ b64_decode (B "TWE") = None
  /\ utf8_to_latin1 (bs [195; 169]%N) = Some (bs [233]%N) /\ utf8_to_latin1 (bs [226; 130; 172]%N) = None /\ utf8_to_latin1 (bs [255]%N) = None
  /\ (exists sp, parse_format (B "%-8d") = Some sp /\ fwid sp = Some 8 /\ fprec sp = None /\ fminus sp = true /\ fmt_integer sp (-17) 10 false = B "-17     ")
  /\ (exists sp, parse_format (B "%+08d") = Some sp /\ fwid sp = Some 8 /\ fprec sp = None /\ fzero sp = true /\ fminus sp = false /\ fsharp sp = false
                 /\ int_body sp false 17 10 false = B "+0000017")
  /\ decode_bits 4612811918334230528%Z = Some (false, 5629499534213120, 2251799813685248)        (* 2.5 *)
  /\ fixed_q 0 5 2 = 2 /\ fixed_q 0 7 2 = 4 /\ 2 * (5 mod 2) = 2
  /\ fmtnum (VFloat 4612811918334230528%Z) (B "2.5") (B "%08.3lf") = FOut (B "0002.500")
  /\ fmtnum (VFloat 4612811918334230528%Z) (B "2.5") (B "%.0f") = FOut (B "2")
  /\ fmtnum (VFloat 4600877379321698714%Z) (B "0.4") (B "%.20f") = FOut (B "0.40000000000000002220")
  /\ fmtnum (VInt 9007199254740993) (B "9007199254740993") (B "%.1le") = FOut (B "9.0e+15")
  /\ fmtnum (VInt 17) (B "17") (B "%5d|") = FOut (B "   17|") /\ fmtnum (VInt (-1)) (B "-1") (B "%x") = FOut (B "ffffffffffffffff").
Proof.
  (* each witness is read off the first equation of its group; evaluating the whole statement first would normalise
     fmt_integer and int_body on a variable spec *)
  repeat match goal with |- _ /\ _ => split | |- exists _, _ => eexists end.
  all: first [vm_compute; reflexivity | reflexivity].
Qed.

(* ================================================================== wrapper verbs (ModelVerbs.v) *)
From Miller Require Import C15.ModelVerbs C15.ProofsVerbs.
(* the verb is the function applied per selected field: entry i keeps its key; its value is the function of the old
   value when the field is selected and the old value otherwise; the key sequence is unchanged *)
Theorem C15_verb_is_function_per_field :
  forall v r i k x, nth_error r i = Some (k, x) ->
  nth_error (run_verb v r) i = Some (k, if verb_sel v k then verb_fun v x else x) /\ map fst (run_verb v r) = map fst r.
Proof. exact run_verb_spec. Qed.
Print Assumptions C15_verb_is_function_per_field.
Theorem C15_verb_record_length : forall sel f r, List.length (map_values sel f r) = List.length r.
Proof. exact map_values_length. Qed.
Print Assumptions C15_verb_record_length.
Example C15_nonvacuous_verbs :
  run_verb (VSsub (Some [B "a"; B "c"]) (B ".") (B "X")) [(B "a", B "1.2.3"); (B "b", B "4.5"); (B "c", B "6")]
    = [(B "a", B "1X2.3"); (B "b", B "4.5"); (B "c", B "6")]
  /\ run_verb VUtf8ToLatin1 [(B "k", bs [195; 169]%N); (B "e", bs [226; 130; 172]%N)] = [(B "k", bs [233]%N); (B "e", B "(error)")]
  /\ nth_error [(B "a", B "x"); (B "b", B "y")] 1 = Some (B "b", B "y").
Proof. vm_compute. repeat split; reflexivity. Qed.

(* ================================================================== fmtnum: the directive parsing of newFormatter *)
(* the text before and after the directive is copied verbatim: ALL integers, ALL texts free of '%' *)
Theorem C15_fmtnum_copies_literal_text :
  forall z txt pr po, no_pct pr = true -> no_pct po = true ->
  fmtnum (VInt z) txt (pr ++ B "%d" ++ po) = FOut (pr ++ sdec z ++ po) /\ parse_signed_dec (sdec z) = Some z.
Proof. intros z txt pr po Hp Ho. split; [exact (fmtnum_d_literal z txt pr po Hp Ho)|exact (parse_signed_dec_text z)]. Qed.
Print Assumptions C15_fmtnum_copies_literal_text.
Theorem C15_fmtnum_x_copies_literal_text :
  forall z txt pr po, no_pct pr = true -> no_pct po = true -> (-18446744073709551616 <= z)%Z ->
  fmtnum (VInt z) txt (pr ++ B "%x" ++ po) = FOut (pr ++ digits_text 16 false (Z.to_N (as_unsigned z)) ++ po).
Proof. exact fmtnum_x_literal. Qed.
Print Assumptions C15_fmtnum_x_copies_literal_text.
(* %x of ANY int64 is its 64-bit two's complement: hexfmt without the 0x, reading back as z mod 2^64 *)
Theorem C15_fmtnum_x_twos_complement :
  forall z txt, (-9223372036854775808 <= z <= 9223372036854775807)%Z ->
  exists t, fmtnum (VInt z) txt (B "%x") = FOut t /\ hexfmt (VInt z) txt = "0"%char :: "x"%char :: t
            /\ parse_base 16 t 0 = Some (Z.to_N (z mod 18446744073709551616)).
Proof. exact fmtnum_x_hexfmt. Qed.
Print Assumptions C15_fmtnum_x_twos_complement.
Example C15_nonvacuous_fmt_round2 :
  no_pct (B "old: le lld ") = true /\ no_pct (B " units|") = true /\ no_pct (B "100%") = false
  /\ fmtnum (VInt (-42)) (B "-42") (B "old: le lld %d units|") = FOut (B "old: le lld -42 units|")
  /\ sdec (-42) = B "-42" /\ as_unsigned (-1) = 18446744073709551615%Z /\ as_unsigned 5 = 5%Z
  /\ fmtnum (VInt (-9223372036854775808)) (B "") (B "<%x>") = FOut (B "<8000000000000000>")
  /\ split_directive (B "a%-08.3ll_fz") = Some (B "a", B "-08.3", true, "f"%char, B "z")
  /\ go_format (B "x%05lldy") = (KInt, B "x%05dy") /\ go_format (B "old:%s") = (KString, B "old:%s") /\ go_format (B "%5") = (KString, B "%5").
Proof. vm_compute. repeat split; reflexivity. Qed.
(* coercion rule: an integer verb (d x X o b) applied to a float formats int(float) = truncation toward zero (inside
   int64); a float verb (f e g E G) applied to an int formats float64(int), exact below 2^53 *)
Theorem C15_fmtnum_int_verb_truncates_float :
  forall bits neg num den z txt f,
  fst (go_format f) = KInt -> decode_bits bits = Some (neg, num, den) -> int_of_float (neg, num, den) = Some z ->
  fmtnum (VFloat bits) txt f = fmtnum (VInt z) txt f
  /\ z = (if neg then - Z.of_N (num / den) else Z.of_N (num / den))%Z.
Proof.
  intros bits neg num den z txt f K D I. split; [exact (fmtnum_int_verb_of_float bits _ z txt f K D I)|].
  exact (proj1 (int_of_float_trunc neg num den z I)).
Qed.
Print Assumptions C15_fmtnum_int_verb_truncates_float.
Theorem C15_fmtnum_float_verb_converts_int :
  forall z txt f, fst (go_format f) = KFloat ->
  fmtnum (VInt z) txt f =
    (if negb (Nat.eqb (count_pct f) 1) then FError else
     match parse_format (snd (go_format f)) with Some sp => of_opt (sprintf_float sp (float_of_int z)) | None => FUnmodelled end)
  /\ ((Z.abs z < 9007199254740992)%Z -> float_of_int z = ((z <? 0)%Z, Z.abs_N z, 1%N)).
Proof. intros z txt f K. split; [exact (fmtnum_float_verb_of_int z txt f K)|exact (float_of_int_exact z)]. Qed.
Print Assumptions C15_fmtnum_float_verb_converts_int.
(* fmtifnum = fmtnum except that an error gives the first argument back: ALL values and formats *)
Theorem C15_fmtifnum_is_fmtnum_or_identity :
  forall v txt f, fmtifnum v txt f <> FError
  /\ (fmtnum v txt f = FError -> fmtifnum v txt f = FOut txt) /\ (fmtnum v txt f <> FError -> fmtifnum v txt f = fmtnum v txt f)
  /\ (count_pct f <> 1%nat -> fmtnum v txt f = FError /\ fmtifnum v txt f = FOut txt).
Proof.
  intros v txt f. split; [exact (fmtifnum_never_error v txt f)|]. split; [exact (proj1 (fmtifnum_spec v txt f))|].
  split; [exact (proj2 (fmtifnum_spec v txt f))|exact (fmtnum_rejects v txt f)].
Qed.
Print Assumptions C15_fmtifnum_is_fmtnum_or_identity.
Example C15_nonvacuous_fmt_coercion :
  fst (go_format (B "%5d|")) = KInt /\ fst (go_format (B "%.2lf")) = KFloat
  /\ decode_bits 13836465430165716992%Z = Some (true, 5910974510923776, 2251799813685248)%N     (* -2.625 *)
  /\ int_of_float (true, 5910974510923776, 2251799813685248)%N = Some (-2)%Z
  /\ fmtnum (VFloat 13836465430165716992%Z) (B "-2.625") (B "%5d|") = FOut (B "   -2|")
  /\ fmtnum (VInt 3) (B "3") (B "%.2lf") = FOut (B "3.00") /\ float_of_int 9007199254740993 = (false, 9007199254740992, 1)%N
  /\ fmtnum (VInt 17) (B "17") (B "%d%d") = FError /\ fmtifnum (VInt 17) (B "17") (B "%d%d") = FOut (B "17")
  /\ fmtifnum (VInt 17) (B "17") (B "%04d") = FOut (B "0017").
Proof. vm_compute. repeat split; reflexivity. Qed.
(* leftpad/rightpad: length in CHARACTERS; whole copies of the pad only: the result never exceeds n and falls short of n by
   less than one pad; nothing is added when not even one copy fits; truncate leaves short strings alone *)
Theorem C15_pad_length_law :
  forall s n p, valid_utf8 p = true ->
  strlen (leftpad s n p) = (Z.of_nat (pad_count s n p) * strlen p + strlen s)%Z
  /\ (valid_utf8 s = true -> strlen (rightpad s n p) = (strlen s + Z.of_nat (pad_count s n p) * strlen p)%Z)
  /\ ((0 < strlen p)%Z -> (strlen s + strlen p <= n)%Z -> (n - strlen p < strlen (leftpad s n p) <= n)%Z)
  /\ ((n < strlen s + strlen p)%Z -> leftpad s n p = s /\ rightpad s n p = s).
Proof.
  intros s n p V. split; [exact (leftpad_length s n p V)|]. split; [intros Vs; exact (rightpad_length s n p Vs V)|].
  split; [intros P H; rewrite (leftpad_length s n p V); exact (pad_count_bounds s n p P H)|exact (pad_count_zero s n p)].
Qed.
Print Assumptions C15_pad_length_law.
Theorem C15_truncate_short_is_identity : forall s n, (strlen s <= n)%Z -> truncate s n = s.
Proof. exact truncate_short. Qed.
Print Assumptions C15_truncate_short_is_identity.
Example C15_nonvacuous_pad :
  valid_utf8 (bs [195; 169; 45]%N) = true /\ strlen (bs [195; 169; 45]%N) = 2%Z
  /\ leftpad (B "ab") 7 (bs [195; 169; 45]%N) = bs [195; 169; 45; 195; 169; 45; 97; 98]%N
  /\ strlen (leftpad (B "ab") 7 (bs [195; 169; 45]%N)) = 6%Z /\ pad_count (B "ab") 7 (bs [195; 169; 45]%N) = 2%nat
  /\ leftpad (B "ab") 3 (bs [195; 169; 45]%N) = B "ab" /\ truncate (B "ab") 5 = B "ab".
Proof. vm_compute. repeat split; reflexivity. Qed.

(* ================================================================== regex: matcher, sub/gsub/regextract, =~ registers
   (RegexModel.v, RegexProofs.v, RegexProofs2.v).  D ci r i w rest is the denotational semantics of the regex subset
   (literals, ., classes, ? * +, |, groups, ^ $, case folding): r matches the word w at character position i of the
   text, followed by rest.  The matcher m is the backtracking (leftmost-first) matcher the harness runs. *)
From Miller Require Import C15.RegexModel C15.RegexProofs C15.RegexProofs2.
Open Scope nat_scope.

(* soundness, for every continuation: whatever the matcher accepts is a word of the language, and the continuation
   was run right after it *)
Theorem C15_regex_matcher_sound :
  forall ci r i s c k res, m ci r i s c k = Some res ->
  exists w s' c', s = w ++ s' /\ D ci r i w s' /\ k (i + List.length w) s' c' = Some res.
Proof. exact m_sound. Qed.
Print Assumptions C15_regex_matcher_sound.

(* completeness: if some word of the language is a prefix of the text and the continuation accepts after it, the
   matcher succeeds (stars over bodies that can match the empty word included) *)
Theorem C15_regex_matcher_complete :
  forall ci r i w rest, D ci r i w rest -> forall c k, (forall c', exists res, k (i + List.length w) rest c' = Some res) ->
  exists res, m ci r i (w ++ rest) c k = Some res.
Proof. exact m_complete. Qed.
Print Assumptions C15_regex_matcher_complete.

(* the unanchored search finds a match iff one exists anywhere, and what it returns is a match of the language whose
   start is leftmost: no word of the language starts at an earlier position *)
Theorem C15_regex_search_finds_iff :
  forall ci r s i, (exists pre w post, s = pre ++ w ++ post /\ D ci r (i + List.length pre) w post) <-> search ci r i s <> None.
Proof. exact search_finds_iff. Qed.
Print Assumptions C15_regex_search_finds_iff.
Theorem C15_regex_search_leftmost :
  forall ci r s i a b c, search ci r i s = Some (a, b, c) ->
  exists pre w post, s = pre ++ w ++ post /\ a = i + List.length pre /\ b = a + List.length w /\ D ci r a w post
                     /\ no_match_before ci r i s (List.length pre).
Proof. exact search_some. Qed.
Print Assumptions C15_regex_search_leftmost.
(* PARTIAL: among the matches that start at the leftmost position the matcher returns the FIRST in backtracking order
   (Perl / Go leftmost-first: left alternative before right, greedy iteration); that order is the definition of m and is
   tied to Go's regexp by correspondence only -- there is no independent ordered semantics it is proved against. *)

(* the text the matcher walks over is a partition of the subject's bytes (invalid UTF-8 included) *)
Theorem C15_regex_text_is_partition_of_bytes : forall s, flat (chunks s) = s.
Proof. exact flat_chunks. Qed.
Print Assumptions C15_regex_text_is_partition_of_bytes.

(* gsub / sub with a regex that matches nowhere are the identity, regextract is absent *)
Theorem C15_gsub_sub_identity_without_match :
  forall ci r s rep, no_match ci r (chunks s) -> gsub ci r s rep = s /\ sub ci r s rep = s /\ regextract ci r s = None.
Proof. exact gsub_sub_identity_without_match. Qed.
Print Assumptions C15_gsub_sub_identity_without_match.

(* sub replaces exactly the leftmost match, byte-exact around it; regextract returns that match *)
Theorem C15_sub_replaces_leftmost_match :
  forall ci r s rep a b c, search ci r 0 (chunks s) = Some (a, b, c) ->
  exists pre w post, chunks s = pre ++ w ++ post /\ a = List.length pre /\ b = a + List.length w /\ D ci r a w post
    /\ no_match_before ci r 0 (chunks s) (List.length pre)
    /\ s = flat pre ++ flat w ++ flat post
    /\ sub ci r s rep = flat pre ++ interp rep (captures10 (chunks s) a b c) ++ flat post
    /\ regextract ci r s = Some (flat w).
Proof. exact sub_replaces_leftmost_match. Qed.
Print Assumptions C15_sub_replaces_leftmost_match.
Theorem C15_sub_plain_replacement :
  forall ci r s rep a b c, search ci r 0 (chunks s) = Some (a, b, c) -> has_capture_ref rep = false ->
  exists pre w post, s = flat pre ++ flat w ++ flat post /\ D ci r (List.length pre) w post /\ sub ci r s rep = flat pre ++ rep ++ flat post.
Proof. exact sub_plain_replacement. Qed.
Print Assumptions C15_sub_plain_replacement.

(* gsub on empty matches (Go's FindAll rule): once before every character and once at the end *)
Theorem C15_gsub_empty_regex :
  forall ci s rep, gsub ci Eps s rep = E0 rep ++ List.concat (map (fun x => snd x ++ E0 rep) (chunks s)).
Proof. exact gsub_empty_regex. Qed.
Print Assumptions C15_gsub_empty_regex.

(* the "\0".."\9" registers: untouched by anything but =~ / !=~ (print, sub, gsub, calls of user-defined functions,
   which get a fresh frame); a string literal is left alone while they are unset; after a failed match every \digit
   interpolates as empty *)
Theorem C15_registers_kept_until_next_match :
  forall n body st, forallb (fun x => negb (sets_registers x)) body = true -> snd (run_block n body st) = st.
Proof. exact registers_kept_until_next_match. Qed.
Print Assumptions C15_registers_kept_until_next_match.
Theorem C15_sub_replacement_ignores_registers :
  forall n glob subj ci r rep st,
  run_stmt n (SSub glob subj ci r rep) st = ([(if glob then gsub else sub) ci r (eval_lit subj st) (unbackslash rep)], st).
Proof. exact sub_replacement_ignores_registers. Qed.
Print Assumptions C15_sub_replacement_ignores_registers.
Theorem C15_literal_untouched_while_unset : forall lit, eval_lit lit None = unbackslash lit.
Proof. exact eval_lit_unset. Qed.
Print Assumptions C15_literal_untouched_while_unset.
Theorem C15_failed_match_clears_registers :
  forall n neg subj ci r st, no_match ci r (chunks (eval_lit subj st)) ->
  run_stmt n (SMatch neg subj ci r) st = ([if neg then TRUE_ else FALSE_], Some (repeat [] 10)).
Proof. exact failed_match_clears. Qed.
Print Assumptions C15_failed_match_clears_registers.
Theorem C15_empty_registers_erase_references : forall rep, interp rep (repeat [] 10) = strip_refs rep.
Proof. exact interp_empty_registers. Qed.
Print Assumptions C15_empty_registers_erase_references.

(* "..."i and "..." as CompileMillerRegex reads them, for every pattern text *)
Theorem C15_regex_case_insensitive_suffix :
  forall p, compile_miller (DQ :: p ++ [DQ; "i"%char]) = (true, p) /\ compile_miller (DQ :: p ++ [DQ]) = (false, p).
Proof. exact (fun p => conj (compile_quoted_i p) (compile_quoted p)). Qed.
Print Assumptions C15_regex_case_insensitive_suffix.

Example C15_nonvacuous_regex :
  let a := At (AChr 97%N) in let b := At (AChr 98%N) in
  gsub false (Star (At (AChr 120%N))) (B "abc") (B "-") = B "-a-b-c-"
  /\ gsub false (Grp 1%N (Plus a)) (B "aabab") (B "<\1>") = B "<aa>b<a>b"
  /\ sub false (Cat (Grp 1%N a) (Grp 2%N b)) (B "xxabab") (B "<\2\1\0\3>") = B "xx<baab>ab"
  /\ sub true (Alt (At (AChr 107%N)) b) (bs [226; 132; 170; 66]%N) (B "_") = bs [95; 66]%N
  /\ search false (Cat a b) 0 (chunks (B "xab")) = Some (1, 3, [])
  /\ D false (Cat a b) 1 (chunks (B "ab")) []
  /\ no_match false (Cat a a) (chunks (B "a"))
  /\ gsub false (Cat a a) (B "a") (B "X") = B "a"
  /\ fst (run_block 3 [SPrint (B "\1:\2"); SMatch false (B "abc") false (Cat (Grp 1%N a) (Grp 2%N b)); SPrint (B "\1:\2\101");
                       SFrame [SPrint (B "in\1")]; SSub false (B "ab") false (Grp 1%N b) (B "[\1]"); SMatch false (B "q") false a; SPrint (B "<\1>")] None)
     = [B "\1:\2"; B "true"; B "a:bA"; B "in\1"; B "a[b]"; B "false"; B "<>"]
  /\ compile_miller (B """a.*b""i") = (true, B "a.*b").
Proof.
  cbv zeta. repeat split; try (vm_compute; reflexivity).
  - change (chunks (B "ab")) with ([(97%N, B "a")] ++ [(98%N, B "b")]).
    apply (DCat false _ _ 1 [(97%N, B "a")] [(98%N, B "b")] []); constructor; reflexivity.
  - intros pre w post Heq HD. inversion HD; subst.
    match goal with H1 : D _ (At _) _ ?w1 _, H2 : D _ (At _) _ ?w2 _ |- _ => inversion H1; inversion H2; subst end.
    vm_compute in Heq. destruct pre as [|p0 [|p1 pre]]; cbn in Heq; discriminate.
Qed.
