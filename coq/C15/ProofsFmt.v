(* C15 lemmas: printf-style formatting model; at the end, the length laws of leftpad / rightpad / truncate *)
From Miller Require Import Base.Bytes C15.Model C15.Proofs C15.ModelFmt.
From Coq Require Import ZifyBool ZifyN ZifyNat.
Open Scope char_scope.
Open Scope N_scope.

Lemma digs_value b f : 2 <= b -> forall u acc, u < 2 ^ N.of_nat f ->
  fold_left (fun a d => a * b + d) (digs f b u acc) 0 = fold_left (fun a d => a * b + d) acc u.
Proof.
  intros Hb. induction f as [|f IH]; intros u acc Hu.
  - cbn [digs]. change (2 ^ N.of_nat 0) with 1 in Hu. now replace u with 0 by lia.
  - cbn [digs]. destruct (u <? b) eqn:E.
    + cbn [fold_left]. now rewrite N.mul_0_l, N.add_0_l.
    + rewrite IH.
      * cbn [fold_left]. f_equal. rewrite N.mul_comm. symmetry. apply N.div_mod. lia.
      * rewrite Nat2N.inj_succ, N.pow_succ_r' in Hu. apply N.div_lt_upper_bound; nia.
Qed.

Lemma lt_pow2_log2 u : u < 2 ^ N.of_nat (S (N.to_nat (N.log2 u))).
Proof.
  rewrite Nat2N.inj_succ, N2Nat.id. destruct (N.eq_dec u 0) as [->|Hne]; [reflexivity|].
  apply N.log2_spec. lia.
Qed.

Lemma digits_value b u : 2 <= b -> fold_left (fun a d => a * b + d) (digits b u) 0 = u.
Proof. intros Hb. exact (digs_value b _ Hb u [] (lt_pow2_log2 u)). Qed.

Lemma digs_lt b f : 2 <= b -> forall u acc, Forall (fun d => d < b) acc -> Forall (fun d => d < b) (digs f b u acc).
Proof.
  intros Hb. induction f as [|f IH]; intros u acc Ha; cbn [digs]; [exact Ha|].
  destruct (u <? b) eqn:E.
  - constructor; [lia|exact Ha].
  - apply IH. constructor; [apply N.mod_lt; lia|exact Ha].
Qed.
Lemma digits_lt b u : 2 <= b -> Forall (fun d => d < b) (digits b u).
Proof. intros Hb. apply digs_lt; [exact Hb|constructor]. Qed.

Lemma digs_nonempty b f u acc : digs (S f) b u acc <> [].
Proof.
  revert u acc. induction f as [|f IH]; intros u acc; cbn [digs].
  - destruct (u <? b); [discriminate|]. cbn [digs]. discriminate.
  - destruct (u <? b); [discriminate|]. apply IH.
Qed.
Lemma digits_nonempty b u : digits b u <> [].
Proof. apply digs_nonempty. Qed.

Definition dval (c : ascii) : option N :=
  if in_range "0" "9" c then Some (code c - 48)
  else if in_range "a" "f" c then Some (code c - 87)
  else if in_range "A" "F" c then Some (code c - 55) else None.
Fixpoint parse_base (b : N) (s : bytes) (acc : N) : option N :=
  match s with
  | [] => Some acc
  | c :: t => match dval c with Some d => if d <? b then parse_base b t (acc * b + d) else None | None => None end
  end.

Lemma dval_dchar up d : d < 16 -> dval (dchar up d) = Some d.
Proof. intros H. apply N_below_16 in H. destruct up; repeat (destruct H as [<-|H]; [reflexivity|]); destruct H. Qed.

Lemma parse_base_digits b up l : b <= 16 -> Forall (fun d => d < b) l ->
  forall acc, parse_base b (map (dchar up) l) acc = Some (fold_left (fun a d => a * b + d) l acc).
Proof.
  intros Hb Hl. induction Hl as [|d l Hd _ IH]; intros acc; [reflexivity|].
  cbn [map parse_base fold_left]. rewrite dval_dchar by lia. replace (d <? b) with true by lia. apply IH.
Qed.

Lemma parse_digits_text b up u : 2 <= b -> b <= 16 -> parse_base b (digits_text b up u) 0 = Some u.
Proof.
  intros H2 H16. unfold digits_text. rewrite (parse_base_digits b up _ H16 (digits_lt b u H2)).
  f_equal. exact (digits_value b u H2).
Qed.

Definition parse_signed_dec (s : bytes) : option Z :=
  match s with
  | "-" :: t => match t with [] => None | _ => match parse_base 10 t 0 with Some u => Some (- Z.of_N u)%Z | None => None end end
  | [] => None
  | _ => match parse_base 10 s 0 with Some u => Some (Z.of_N u) | None => None end
  end.

Lemma parse_signed_dec_digit d t : d < 16 ->
  parse_signed_dec (dchar false d :: t) = option_map Z.of_N (parse_base 10 (dchar false d :: t) 0).
Proof. intros H. apply N_below_16 in H. repeat (destruct H as [<-|H]; [reflexivity|]). destruct H. Qed.

Definition plainp (pr : bytes) (v : ascii) (po : bytes) : spec :=
  {| pre := pr; fminus := false; fplus := false; fsharp := false; fspace := false; fzero := false;
     fwid := None; fprec := None; verb := v; post := po |}.
Definition plain (v : ascii) : spec := plainp [] v [].

Lemma parse_plain_d : parse_format (B "%d") = Some (plain "d").
Proof. reflexivity. Qed.
Lemma parse_plain_x : parse_format (B "%x") = Some (plain "x").
Proof. reflexivity. Qed.

Lemma fmt_integer_plain pr po v z base up :
  fmt_integer (plainp pr v po) z base up = (if (z <? 0)%Z then ["-"] else []) ++ digits_text base up (Z.abs_N z).
Proof.
  unfold fmt_integer. cbn [fprec plainp]. unfold int_body. cbn [fprec plainp fzero fminus fsharp fplus fspace andb fwid pad_gen].
  unfold zeros. replace (Z.to_nat (0 - blen (digits_text base up (Z.abs_N z)))) with 0%nat by (unfold blen; lia).
  cbn [repeat app]. now destruct (z <? 0)%Z.
Qed.

Definition no_pct (s : bytes) : bool := forallb (fun c => negb (Ascii.eqb c "%")) s.

Lemma split_pct_app pr r : no_pct pr = true -> split_pct (pr ++ "%" :: r) = Some (pr, r).
Proof.
  unfold no_pct. induction pr as [|c t IH]; intros H; [reflexivity|].
  cbn [forallb] in H. apply andb_prop in H. destruct H as [Hc Ht].
  cbn [app split_pct]. destruct (Ascii.eqb c "%"); [discriminate Hc|]. rewrite (IH Ht). reflexivity.
Qed.

Lemma filter_no_pct s : no_pct s = true -> filter (fun c => Ascii.eqb c "%") s = [].
Proof.
  unfold no_pct. induction s as [|c t IH]; intros H; [reflexivity|].
  cbn [forallb] in H. apply andb_prop in H. destruct H as [Hc Ht].
  cbn [filter]. destruct (Ascii.eqb c "%"); [discriminate Hc|]. exact (IH Ht).
Qed.

Lemma count_pct_one pr r : no_pct pr = true -> no_pct r = true -> count_pct (pr ++ "%" :: r) = 1%nat.
Proof.
  intros Hp Hr. unfold count_pct. rewrite filter_app. cbn [filter]. change (Ascii.eqb "%" "%") with true. cbv iota.
  rewrite (filter_no_pct pr Hp), (filter_no_pct r Hr). reflexivity.
Qed.

Definition sdec (z : Z) : bytes := (if (z <? 0)%Z then ["-"] else []) ++ dec (Z.abs_N z).

Lemma fmtnum_plain_int z txt pr v po : no_pct pr = true -> no_pct po = true -> v = "d" \/ v = "x" ->
  fmtnum (VInt z) txt (pr ++ "%" :: v :: po) = of_opt (sprintf_int (plainp pr v po) z).
Proof.
  intros Hp Ho V. unfold fmtnum.
  rewrite (count_pct_one pr (v :: po) Hp) by (destruct V as [-> | ->]; exact Ho).
  unfold go_format, split_directive. rewrite (split_pct_app pr _ Hp).
  destruct V as [-> | ->]; cbn -[parse_format]; unfold parse_format; rewrite (split_pct_app pr _ Hp); reflexivity.
Qed.

Lemma fmtnum_d_literal z txt pr po : no_pct pr = true -> no_pct po = true ->
  fmtnum (VInt z) txt (pr ++ "%" :: "d" :: po) = FOut (pr ++ sdec z ++ po).
Proof.
  intros Hp Ho. rewrite fmtnum_plain_int by auto. unfold sprintf_int. cbn [verb plainp pre post].
  rewrite fmt_integer_plain. reflexivity.
Qed.

Lemma as_unsigned_nonneg z : (-18446744073709551616 <= z)%Z -> (0 <= as_unsigned z)%Z.
Proof. intros H. unfold as_unsigned. destruct (z <? 0)%Z eqn:E; lia. Qed.

Lemma as_unsigned_mod z : (-18446744073709551616 <= z < 18446744073709551616)%Z ->
  (z mod 18446744073709551616)%Z = as_unsigned z.
Proof. intros H. unfold as_unsigned. destruct (z <? 0)%Z eqn:E; Z.div_mod_to_equations; lia. Qed.

Lemma fmtnum_x_literal z txt pr po : no_pct pr = true -> no_pct po = true -> (-18446744073709551616 <= z)%Z ->
  fmtnum (VInt z) txt (pr ++ "%" :: "x" :: po) = FOut (pr ++ digits_text 16 false (Z.to_N (as_unsigned z)) ++ po).
Proof.
  intros Hp Ho Hz. rewrite fmtnum_plain_int by auto. unfold sprintf_int. cbn [verb plainp pre post].
  rewrite !fmt_integer_plain. pose proof (as_unsigned_nonneg z Hz) as N.
  replace (as_unsigned z <? 0)%Z with false by lia. rewrite (Zabs2N.abs_N_nonneg _ N). reflexivity.
Qed.

Lemma parse_signed_dec_text z : parse_signed_dec (sdec z) = Some z.
Proof.
  unfold sdec, dec, digits_text. pose proof (parse_digits_text 10 false (Z.abs_N z) ltac:(lia) ltac:(lia)) as P.
  pose proof (digits_lt 10 (Z.abs_N z) ltac:(lia)) as L. unfold digits_text in P.
  destruct (digits 10 (Z.abs_N z)) as [|d l] eqn:D; [now apply digits_nonempty in D|]. inversion L as [|? ? Hd _]; subst.
  cbn [map] in *. destruct (z <? 0)%Z eqn:E; cbn [app].
  - cbn [parse_signed_dec]. rewrite P. f_equal. lia.
  - rewrite parse_signed_dec_digit, P by lia. cbn [option_map]. f_equal. lia.
Qed.

Lemma fmtnum_x_plain z txt : (-18446744073709551616 <= z)%Z ->
  fmtnum (VInt z) txt (B "%x") = FOut (digits_text 16 false (Z.to_N (as_unsigned z))).
Proof.
  intros Hz. rewrite <- (app_nil_r (digits_text _ _ _)). exact (fmtnum_x_literal z txt [] [] eq_refl eq_refl Hz).
Qed.

Lemma fmtnum_x_hexfmt z txt : (-9223372036854775808 <= z <= 9223372036854775807)%Z ->
  exists t, fmtnum (VInt z) txt (B "%x") = FOut t /\ hexfmt (VInt z) txt = "0" :: "x" :: t
            /\ parse_base 16 t 0 = Some (Z.to_N (z mod 18446744073709551616)).
Proof.
  intros Hz. exists (digits_text 16 false (Z.to_N (as_unsigned z))). split; [apply fmtnum_x_plain; lia|].
  unfold hexfmt. rewrite (as_unsigned_mod z ltac:(lia)). split; [reflexivity|apply parse_digits_text; lia].
Qed.

Lemma pad_gen_length w minus zero s :
  blen (pad_gen (Some w) minus zero (blen s) s) = Z.max (Z.of_N w) (blen s).
Proof.
  unfold pad_gen. destruct (w =? 0) eqn:E; [unfold blen; lia|].
  destruct minus; unfold blen; rewrite app_length, repeat_length; lia.
Qed.

Lemma pad_gen_shape w minus zero s :
  pad_gen (Some w) minus zero (blen s) s =
    let k := Z.to_nat (Z.of_N w - blen s) in if minus then s ++ repeat " " k else repeat (if zero then "0" else " ") k ++ s.
Proof.
  unfold pad_gen. destruct (w =? 0) eqn:E; [|reflexivity].
  replace (Z.to_nat (Z.of_N w - blen s)) with 0%nat by (unfold blen; lia). destruct minus; [now rewrite app_nil_r|reflexivity].
Qed.

Lemma pad_gen_none minus zero len s : pad_gen None minus zero len s = s.
Proof. reflexivity. Qed.

Lemma fmt_integer_width sp z base up w :
  fwid sp = Some w -> (fprec sp = Some 0 -> z <> 0%Z) ->
  let b := int_body sp (z <? 0)%Z (Z.abs_N z) base up in
  blen (fmt_integer sp z base up) = Z.max (Z.of_N w) (blen b)
  /\ fmt_integer sp z base up = (if fminus sp then b ++ repeat " " (Z.to_nat (Z.of_N w - blen b)) else repeat " " (Z.to_nat (Z.of_N w - blen b)) ++ b).
Proof.
  intros Hw Hp b.
  assert (E : fmt_integer sp z base up = pad_gen (fwid sp) (fminus sp) false (blen b) b).
  { unfold fmt_integer. fold b. destruct (fprec sp) as [[|p]|]; try reflexivity. destruct (Z.abs_N z =? 0) eqn:E0; [|reflexivity].
    exfalso. apply Hp; [reflexivity|lia]. }
  rewrite E, Hw. split; [apply pad_gen_length|apply pad_gen_shape].
Qed.

Lemma int_body_zero_padding (sp : spec) (negative : bool) (u base : N) (up : bool) (w : N) :
  fwid sp = Some w -> fprec sp = None -> fzero sp = true -> fminus sp = false -> fsharp sp = false ->
  let ds := digits_text base up u in
  let sg := if negative then ["-"] else if fplus sp then ["+"] else if fspace sp then [" "] else [] in
  int_body sp negative u base up = sg ++ zeros (Z.of_N w - blen sg - blen ds) ++ ds
  /\ blen (int_body sp negative u base up) = Z.max (Z.of_N w) (blen sg + blen ds).
Proof.
  intros Hw Hp Hz Hm Hs ds sg.
  assert (E : int_body sp negative u base up = sg ++ zeros (Z.of_N w - blen sg - blen ds) ++ ds).
  { unfold int_body. rewrite Hp, Hz, Hm, Hs. unfold wid_present, wid_of. rewrite Hw. subst sg ds.
    now destruct negative, (fplus sp), (fspace sp). }
  split; [exact E|]. rewrite E. unfold blen, zeros. rewrite !app_length, repeat_length. lia.
Qed.

Lemma round_div_nearest a b : 0 < b ->
  (2 * Z.abs (Z.of_N (round_div a b) * Z.of_N b - Z.of_N a) <= Z.of_N b)%Z.
Proof.
  intros Hb. unfold round_div.
  pose proof (N.div_mod a b ltac:(lia)) as D. pose proof (N.mod_lt a b ltac:(lia)) as R.
  set (q := a / b) in *. set (r := a mod b) in *.
  destruct ((b <? 2 * r) || ((2 * r =? b) && N.odd q)) eqn:E; nia.
Qed.

Lemma round_div_ties_even a b : 0 < b -> 2 * (a mod b) = b -> N.even (round_div a b) = true.
Proof.
  intros Hb T. unfold round_div. replace (b <? 2 * (a mod b)) with false by lia. replace (2 * (a mod b) =? b) with true by lia.
  cbn [orb andb]. destruct (N.odd (a / b)) eqn:O.
  - rewrite N.add_1_r, N.even_succ. exact O.
  - rewrite <- N.negb_odd. now rewrite O.
Qed.

Lemma round_div_exact a b : 0 < b -> a mod b = 0 -> round_div a b = a / b.
Proof.
  intros Hb E. unfold round_div. rewrite E. replace (b <? 2 * 0) with false by lia. replace (2 * 0 =? b) with false by lia. reflexivity.
Qed.

Lemma fixed_q_correctly_rounded p num den : 0 < den ->
  (2 * Z.abs (Z.of_N (fixed_q p num den) * Z.of_N den - Z.of_N num * 10 ^ Z.of_N p) <= Z.of_N den)%Z.
Proof.
  intros Hd. unfold fixed_q. pose proof (round_div_nearest (num * 10 ^ p) den Hd) as H.
  rewrite N2Z.inj_mul, N2Z.inj_pow in H. exact H.
Qed.

Lemma decode_bits_den bits neg num den : decode_bits bits = Some (neg, num, den) -> 0 < den.
Proof.
  unfold decode_bits. destruct (_ =? 2047); [discriminate|]. destruct (if _ =? 0 then _ else _) as [m ex].
  destruct (0 <=? ex)%Z; intros H; injection H as _ _ <-; [reflexivity|]. apply N.neq_0_lt_0, N.pow_nonzero. discriminate.
Qed.

Lemma fmtnum_d_roundtrip z txt : exists t, fmtnum (VInt z) txt (B "%d") = FOut t /\ parse_signed_dec t = Some z.
Proof.
  exists (sdec z). split; [|apply parse_signed_dec_text].
  rewrite <- (app_nil_r (sdec z)). exact (fmtnum_d_literal z txt [] [] eq_refl eq_refl).
Qed.

Lemma fmtnum_x_roundtrip z txt : (0 <= z)%Z ->
  exists t, fmtnum (VInt z) txt (B "%x") = FOut t /\ parse_base 16 t 0 = Some (Z.to_N z).
Proof.
  intros Hz. eexists. split; [apply fmtnum_x_plain; lia|]. unfold as_unsigned. replace (z <? 0)%Z with false by lia.
  apply parse_digits_text; lia.
Qed.

(* the witnesses of the repaired findings fmtnum-literal-text-mangled, fmtnum-trailing-text and
   fmtnum-x-negative-not-twos-complement, on the model (the same inputs are probed on mlr by the check) *)
Lemma fmtnum_repaired_witnesses :
  fmtnum (VInt 17) (B "17") (B "old:%d") = FOut (B "old:17")
  /\ fmtnum (VInt 17) (B "17") (B "%5d|") = FOut (B "   17|")
  /\ fmtnum (VInt 0) (B "0") (B "le %16lf") = FOut (B "le         0.000000")
  /\ fmtnum (VInt (-1)) (B "-1") (B "%x") = FOut (B "ffffffffffffffff") /\ hexfmt (VInt (-1)) (B "-1") = B "0xffffffffffffffff"
  /\ fmtnum (VInt (-5)) (B "-5") (B "%08llx") = FOut (B "fffffffffffffffb")
  /\ fmtnum (VInt (-1)) (B "-1") (B "%-10x|") = FOut (B "ffffffffffffffff|").
Proof. vm_compute. repeat split; reflexivity. Qed.

Lemma fmtnum_int_verb_of_float bits x z txt f :
  fst (go_format f) = KInt -> decode_bits bits = Some x -> int_of_float x = Some z ->
  fmtnum (VFloat bits) txt f = fmtnum (VInt z) txt f.
Proof.
  intros K D I. unfold fmtnum. destruct (negb (Nat.eqb (count_pct f) 1)); [reflexivity|].
  destruct (go_format f) as [k g]. cbn [fst] in K. subst k. cbv beta iota.
  destruct (parse_format g); [|reflexivity]. rewrite D, I. reflexivity.
Qed.

Lemma int_of_float_trunc neg num den z : int_of_float (neg, num, den) = Some z ->
  z = (if neg then - Z.of_N (num / den) else Z.of_N (num / den))%Z /\ (-9223372036854775808 <= z <= 9223372036854775807)%Z.
Proof.
  unfold int_of_float. destruct (_ && _) eqn:E; [|discriminate]. intros H. injection H as <-. split; [reflexivity|lia].
Qed.

Lemma fmtnum_float_verb_of_int z txt f :
  fst (go_format f) = KFloat ->
  fmtnum (VInt z) txt f =
    if negb (Nat.eqb (count_pct f) 1) then FError else
    match parse_format (snd (go_format f)) with Some sp => of_opt (sprintf_float sp (float_of_int z)) | None => FUnmodelled end.
Proof.
  intros K. unfold fmtnum. destruct (negb (Nat.eqb (count_pct f) 1)); [reflexivity|].
  destruct (go_format f) as [k g]. cbn [fst snd] in *. subst k. reflexivity.
Qed.

Lemma float_of_int_exact z : (Z.abs z < 9007199254740992)%Z -> float_of_int z = ((z <? 0)%Z, Z.abs_N z, 1).
Proof.
  intros H. unfold float_of_int. destruct (N.eq_dec (Z.abs_N z) 0) as [E|E].
  - rewrite E. reflexivity.
  - replace (Z.abs_N z =? 0) with false by lia.
    assert (L : N.log2 (Z.abs_N z) < 53).
    { apply N.log2_lt_pow2; [lia|]. change (2 ^ 53) with 9007199254740992. lia. }
    replace (N.log2 (Z.abs_N z) + 1 <=? 53) with true by lia. reflexivity.
Qed.

Lemma fmtifnum_never_error v txt f : fmtifnum v txt f <> FError.
Proof. unfold fmtifnum. destruct (fmtnum v txt f); discriminate. Qed.
Lemma fmtifnum_spec v txt f :
  (fmtnum v txt f = FError -> fmtifnum v txt f = FOut txt) /\ (fmtnum v txt f <> FError -> fmtifnum v txt f = fmtnum v txt f).
Proof. unfold fmtifnum. destruct (fmtnum v txt f); split; intros H; try reflexivity; try discriminate; now elim H. Qed.
Lemma fmtnum_rejects v txt f : count_pct f <> 1%nat -> fmtnum v txt f = FError /\ fmtifnum v txt f = FOut txt.
Proof.
  intros H. assert (E : fmtnum v txt f = FError).
  { unfold fmtnum. destruct (Nat.eqb (count_pct f) 1) eqn:Q; [apply Nat.eqb_eq in Q; contradiction|reflexivity]. }
  split; [exact E|]. unfold fmtifnum. now rewrite E.
Qed.

From Miller Require Import C15.Utf8Proofs.
Lemma strlen_repeat p k b : valid_utf8 p = true ->
  strlen (List.concat (repeat p k) ++ b) = (Z.of_nat k * strlen p + strlen b)%Z.
Proof.
  intros V. induction k as [|k IH].
  - cbn [repeat List.concat app]. lia.
  - cbn [repeat List.concat]. rewrite <- app_assoc. rewrite (strlen_app_valid p _ V). rewrite IH. lia.
Qed.
Lemma leftpad_length s n p : valid_utf8 p = true ->
  strlen (leftpad s n p) = (Z.of_nat (pad_count s n p) * strlen p + strlen s)%Z.
Proof. intros V. unfold leftpad. apply strlen_repeat. exact V. Qed.
Lemma rightpad_length s n p : valid_utf8 s = true -> valid_utf8 p = true ->
  strlen (rightpad s n p) = (strlen s + Z.of_nat (pad_count s n p) * strlen p)%Z.
Proof.
  intros Vs V. unfold rightpad. rewrite (strlen_app_valid s _ Vs). f_equal.
  rewrite <- (app_nil_r (List.concat (repeat p (pad_count s n p)))). rewrite (strlen_repeat p _ [] V).
  change (strlen []) with 0%Z. lia.
Qed.
Lemma pad_count_bounds s n p : (0 < strlen p)%Z -> (strlen s + strlen p <= n)%Z ->
  (n - strlen p < Z.of_nat (pad_count s n p) * strlen p + strlen s <= n)%Z.
Proof.
  intros P H. unfold pad_count.
  replace ((strlen p <=? 0)%Z || (n <? strlen s + strlen p)%Z) with false by lia.
  assert (Q : (0 <= (n - strlen s) / strlen p)%Z) by (apply Z.div_pos; lia).
  rewrite (Z2Nat.id _ Q).
  pose proof (Z.div_mod (n - strlen s) (strlen p) ltac:(lia)) as D.
  pose proof (Z.mod_pos_bound (n - strlen s) (strlen p) P) as B. nia.
Qed.
Lemma pad_count_zero s n p : (n < strlen s + strlen p)%Z -> leftpad s n p = s /\ rightpad s n p = s.
Proof.
  intros H. unfold leftpad, rightpad, pad_count.
  replace ((strlen p <=? 0)%Z || (n <? strlen s + strlen p)%Z) with true by lia.
  cbn [repeat List.concat app]. split; [reflexivity|apply app_nil_r].
Qed.
Lemma truncate_short s n : (strlen s <= n)%Z -> truncate s n = s.
Proof. intros H. unfold truncate. unfold strlen in H. now replace (Z.of_nat (List.length (runes s)) <=? n)%Z with true by lia. Qed.
