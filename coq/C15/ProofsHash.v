(* C15 lemmas: digests.  Provable structure only (padding, lengths, output format) plus the standards' test vectors
   as labelled tests; no cryptographic property is claimed. *)
From Miller Require Import Base.Bytes C15.Model C15.Proofs C15.ModelHash.
From Coq Require Import ZifyBool ZifyN ZifyNat.
From Miller Require Import Base.ListFacts.
Open Scope N_scope.
Ltac Zify.zify_post_hook ::= Z.div_mod_to_equations.

Lemma le_bytes_length n v : List.length (le_bytes n v) = n.
Proof. revert v. induction n as [|n IH]; intros v; cbn [le_bytes List.length]; [reflexivity|now rewrite IH]. Qed.
Lemma be_bytes_length n v : List.length (be_bytes n v) = n.
Proof. unfold be_bytes. now rewrite rev_length, le_bytes_length. Qed.
Lemma le_bytes_lt n v : Forall (fun b => b < 256) (le_bytes n v).
Proof. revert v. induction n as [|n IH]; intros v; cbn [le_bytes]; constructor; [lia|apply IH]. Qed.

Lemma pad_with_length blk L m :
  N.of_nat (List.length (pad_with blk L m)) =
  N.of_nat (List.length m) + 1 + pad_zeros blk (N.of_nat (List.length L)) (N.of_nat (List.length m)) + N.of_nat (List.length L).
Proof. unfold pad_with. rewrite app_length. cbn [List.length]. rewrite app_length, repeat_length. lia. Qed.

Lemma pad_blocks m :
  N.of_nat (List.length (pad_md5 m)) mod 64 = 0 /\ N.of_nat (List.length (pad_sha m)) mod 64 = 0
  /\ N.of_nat (List.length (pad_sha512 m)) mod 128 = 0.
Proof.
  unfold pad_md5, pad_sha, pad_sha512. rewrite !pad_with_length, !be_bytes_length, le_bytes_length. unfold pad_zeros.
  repeat split; lia.
Qed.

Lemma pad_minimal m :
  N.of_nat (List.length m) + 9 <= N.of_nat (List.length (pad_sha m)) < N.of_nat (List.length m) + 9 + 64
  /\ N.of_nat (List.length m) + 9 <= N.of_nat (List.length (pad_md5 m)) < N.of_nat (List.length m) + 9 + 64
  /\ N.of_nat (List.length m) + 17 <= N.of_nat (List.length (pad_sha512 m)) < N.of_nat (List.length m) + 17 + 128.
Proof.
  unfold pad_md5, pad_sha, pad_sha512. rewrite !pad_with_length, !be_bytes_length, le_bytes_length. unfold pad_zeros.
  repeat split; lia.
Qed.

Lemma rev_repeat {A} (a : A) k : rev (repeat a k) = repeat a k.
Proof.
  induction k as [|k IH]; [reflexivity|]. cbn [repeat rev]. rewrite IH. symmetry. apply repeat_cons.
Qed.
Lemma drop_zeros_repeat k t : drop_zeros (repeat 0 k ++ 128 :: t) = 128 :: t.
Proof. induction k as [|k IH]; [reflexivity|exact IH]. Qed.

Lemma unpad_pad_with blk L m : unpad (List.length L) (pad_with blk L m) = m.
Proof.
  unfold unpad, pad_with. rewrite rev_app_distr. cbn [rev]. rewrite rev_app_distr, rev_repeat.
  rewrite <- !app_assoc. cbn [app].
  rewrite skipn_app, rev_length, Nat.sub_diag, skipn_all2 by (rewrite rev_length; lia). cbn [skipn app].
  rewrite drop_zeros_repeat. cbn [tl]. apply rev_involutive.
Qed.

(* the length fields are 8 (16) bytes long by computation *)
Lemma unpad_md5 m : unpad 8 (pad_md5 m) = m.
Proof. exact (unpad_pad_with 64 (le_bytes 8 (bitlen m)) m). Qed.
Lemma unpad_sha m : unpad 8 (pad_sha m) = m.
Proof. exact (unpad_pad_with 64 (be_bytes 8 (bitlen m)) m). Qed.
Lemma unpad_sha512 m : unpad 16 (pad_sha512 m) = m.
Proof. exact (unpad_pad_with 128 (be_bytes 16 (bitlen m)) m). Qed.

Lemma cancel_injective {A B} (f : A -> B) (g : B -> A) : (forall x, g (f x) = x) -> forall x y, f x = f y -> x = y.
Proof. intros C x y H. rewrite <- (C x), H. apply C. Qed.

Lemma codes_injective s s' : codes s = codes s' -> s = s'.
Proof.
  unfold codes. revert s'. induction s as [|c t IH]; intros [|c' t'] H; try discriminate; [reflexivity|].
  cbn [map] in H. inversion H as [[H1 H2]]. f_equal; [|now apply IH].
  unfold code in H1. rewrite <- (ascii_N_embedding c), <- (ascii_N_embedding c'). now rewrite H1.
Qed.

Lemma md5_digest_length m : List.length (md5_digest m) = 16%nat.
Proof. unfold md5_digest. destruct (fold_left _ _ _) as [[[a b] c] d]. reflexivity. Qed.
Lemma sha1_digest_length m : List.length (sha1_digest m) = 20%nat.
Proof. unfold sha1_digest. destruct (fold_left _ _ _) as [[[[a b] c] d] e]. reflexivity. Qed.
Lemma sha256_digest_length m : List.length (sha256_digest m) = 32%nat.
Proof. unfold sha256_digest. destruct (fold_left _ _ _) as [[[[[[[a b] c] d] e] f] g] h]. reflexivity. Qed.
Lemma sha512_digest_length m : List.length (sha512_digest m) = 64%nat.
Proof. unfold sha512_digest. destruct (fold_left _ _ _) as [[[[[[[a b] c] d] e] f] g] h]. reflexivity. Qed.

Definition is_lower_hex (c : ascii) : bool := in_range "0" "9" c || in_range "a" "f" c.
Lemma hexdig_lower n : n < 16 -> is_lower_hex (hexdig n) = true.
Proof. intros H. apply N_below_16 in H. repeat (destruct H as [<-|H]; [reflexivity|]). destruct H. Qed.
Lemma hex_encode_lower s : forallb is_lower_hex (hex_encode s) = true.
Proof.
  induction s as [|c t IH]; [reflexivity|]. pose proof (code_lt c) as Hc. cbn [hex_encode forallb].
  rewrite !hexdig_lower by lia. exact IH.
Qed.

Lemma hexstr_length d : List.length (hexstr d) = (2 * List.length d)%nat.
Proof. unfold hexstr. now rewrite hex_encode_length, map_length. Qed.

Lemma digest_text_format s :
  (List.length (md5 s) = 32 /\ List.length (sha1 s) = 40 /\ List.length (sha256 s) = 64 /\ List.length (sha512 s) = 128)%nat
  /\ forallb is_lower_hex (md5 s) = true /\ forallb is_lower_hex (sha1 s) = true
  /\ forallb is_lower_hex (sha256 s) = true /\ forallb is_lower_hex (sha512 s) = true.
Proof.
  unfold md5, sha1, sha256, sha512.
  rewrite !hexstr_length, md5_digest_length, sha1_digest_length, sha256_digest_length, sha512_digest_length.
  repeat split; apply hex_encode_lower.
Qed.

(* The compression functions with the reductions mod 2^w done by masking.  The kernel's N.modulo is a bit-by-bit long
   division, some ten times dearer at 64 bits than N.land, and a SHA-512 block takes about a thousand of them: the test
   vectors below are evaluated through these functions.  The mask mk = 2^w - 1 is an argument so that it is computed once
   per block and not at every use. *)
Definition mrotl (mk w n x : N) : N := N.lor (N.land (N.shiftl x n) mk) (N.shiftr x (w - n)).
Definition mrotr (mk w n x : N) : N := mrotl mk w (w - n) x.

Lemma mrotl_rotl w n x : mrotl (N.ones w) w n x = rotl w n x.
Proof. unfold mrotl, rotl. now rewrite N.land_ones. Qed.
Lemma mrotr_rotr w n x : mrotr (N.ones w) w n x = rotr w n x.
Proof. apply mrotl_rotl. Qed.
Lemma notw_ones w x : N.lxor x (N.ones w) = notw w x.
Proof. unfold notw. now rewrite N.ones_equiv, N.sub_1_r. Qed.

Definition ones32 : N := 4294967295.

Definition mmd5_step (X : list N) (st : N * N * N * N) (e : N * N * N) : N * N * N * N :=
  let '(a, b, c, d) := st in
  let '(i, t, s) := e in
  let '(f, g) :=
    if i <? 16 then (N.lor (N.land b c) (N.land (N.lxor b ones32) d), i)
    else if i <? 32 then (N.lor (N.land b d) (N.land c (N.lxor d ones32)), (5 * i + 1) mod 16)
    else if i <? 48 then (N.lxor b (N.lxor c d), (3 * i + 5) mod 16)
    else (N.lxor c (N.lor b (N.lxor d ones32)), (7 * i) mod 16) in
  (d, N.land (b + mrotl ones32 32 s (N.land (a + f + w_at X g + t) ones32)) ones32, b, c).
Definition mmd5_block (st : N * N * N * N) (X : list N) : N * N * N * N :=
  let '(a, b, c, d) := st in
  let '(a', b', c', d') := fold_left (mmd5_step X) md5_table st in
  ((a + a') mod M32, (b + b') mod M32, (c + c') mod M32, (d + d') mod M32).

Lemma mmd5_step_eq X st e : mmd5_step X st e = md5_step X st e.
Proof.
  destruct st as [[[a b] c] d], e as [[i t] s]. unfold mmd5_step, md5_step. change ones32 with (N.ones 32).
  rewrite !notw_ones. destruct (if i <? 16 then _ else _) as [f g]. now rewrite mrotl_rotl, !N.land_ones.
Qed.
Lemma md5_block_masked st X : md5_block st X = mmd5_block st X.
Proof. unfold mmd5_block, md5_block. now rewrite (fold_left_ext _ _ _ (mmd5_step_eq X)). Qed.

Fixpoint msha1_extend (n : nat) (rw : list N) : list N :=
  match n with
  | O => rw
  | S k => msha1_extend k (mrotl ones32 32 1 (N.lxor (N.lxor (w_at rw 2) (w_at rw 7)) (N.lxor (w_at rw 13) (w_at rw 15))) :: rw)
  end.
Definition msha1_round (st : N * N * N * N * N * N) (w : N) : N * N * N * N * N * N :=
  let '(t, a, b, c, d, e) := st in
  let '(f, k) :=
    if t <? 20 then (N.lxor (N.land b c) (N.land (N.lxor b ones32) d), 1518500249)
    else if t <? 40 then (N.lxor b (N.lxor c d), 1859775393)
    else if t <? 60 then (N.lxor (N.land b c) (N.lxor (N.land b d) (N.land c d)), 2400959708)
    else (N.lxor b (N.lxor c d), 3395469782) in
  (t + 1, N.land (mrotl ones32 32 5 a + f + e + k + w) ones32, a, mrotl ones32 32 30 b, c, d).
Definition msha1_block (h : N * N * N * N * N) (X : list N) : N * N * N * N * N :=
  let '(h0, h1, h2, h3, h4) := h in
  let '(_, a, b, c, d, e) := fold_left msha1_round (rev (msha1_extend 64 (rev X))) (0, h0, h1, h2, h3, h4) in
  ((h0 + a) mod M32, (h1 + b) mod M32, (h2 + c) mod M32, (h3 + d) mod M32, (h4 + e) mod M32).

Lemma msha1_extend_eq n rw : msha1_extend n rw = sha1_extend n rw.
Proof.
  revert rw. induction n as [|n IH]; intros rw; cbn [msha1_extend sha1_extend]; [reflexivity|].
  rewrite IH. change ones32 with (N.ones 32). now rewrite mrotl_rotl.
Qed.
Lemma msha1_round_eq st w : msha1_round st w = sha1_round st w.
Proof.
  destruct st as [[[[[t a] b] c] d] e]. unfold msha1_round, sha1_round. change ones32 with (N.ones 32).
  rewrite !notw_ones. destruct (if t <? 20 then _ else _) as [f k]. now rewrite !mrotl_rotl, N.land_ones.
Qed.
Lemma sha1_block_masked h X : sha1_block h X = msha1_block h X.
Proof.
  destruct h as [[[[h0 h1] h2] h3] h4]. unfold msha1_block, sha1_block, sha1_schedule.
  now rewrite msha1_extend_eq, (fold_left_ext _ _ _ msha1_round_eq).
Qed.

Definition mssig0 p mk x := N.lxor (mrotr mk (sw p) (s0a p) x) (N.lxor (mrotr mk (sw p) (s0b p) x) (N.shiftr x (s0c p))).
Definition mssig1 p mk x := N.lxor (mrotr mk (sw p) (s1a p) x) (N.lxor (mrotr mk (sw p) (s1b p) x) (N.shiftr x (s1c p))).
Definition mbsig0 p mk x := N.lxor (mrotr mk (sw p) (S0a p) x) (N.lxor (mrotr mk (sw p) (S0b p) x) (mrotr mk (sw p) (S0c p) x)).
Definition mbsig1 p mk x := N.lxor (mrotr mk (sw p) (S1a p) x) (N.lxor (mrotr mk (sw p) (S1b p) x) (mrotr mk (sw p) (S1c p) x)).
Fixpoint msha2_extend (p : sha2p) (mk : N) (n : nat) (rw : list N) : list N :=
  match n with
  | O => rw
  | S k => msha2_extend p mk k (N.land (mssig1 p mk (w_at rw 1) + w_at rw 6 + mssig0 p mk (w_at rw 14) + w_at rw 15) mk :: rw)
  end.
Definition msha2_round (p : sha2p) (mk : N) (st : st8) (kw : N * N) : st8 :=
  let '(a, b, c, d, e, f, g, h) := st in
  let '(k, w) := kw in
  let ch := N.lxor (N.land e f) (N.land (N.lxor e mk) g) in
  let maj := N.lxor (N.land a b) (N.lxor (N.land a c) (N.land b c)) in
  let t1 := h + mbsig1 p mk e + ch + k + w in
  let t2 := mbsig0 p mk a + maj in
  (N.land (t1 + t2) mk, a, b, c, N.land (d + t1) mk, e, f, g).
Definition msha2_block (p : sha2p) (K : list N) (hs : st8) (X : list N) : st8 :=
  let mk := N.ones (sw p) in
  let '(h0, h1, h2, h3, h4, h5, h6, h7) := hs in
  let '(a, b, c, d, e, f, g, h) :=
    fold_left (msha2_round p mk) (combine K (rev (msha2_extend p mk (rounds p - 16) (rev X)))) hs in
  (N.land (h0 + a) mk, N.land (h1 + b) mk, N.land (h2 + c) mk, N.land (h3 + d) mk,
   N.land (h4 + e) mk, N.land (h5 + f) mk, N.land (h6 + g) mk, N.land (h7 + h) mk).

Lemma msha2_extend_eq p n rw : msha2_extend p (N.ones (sw p)) n rw = sha2_extend p n rw.
Proof.
  revert rw. induction n as [|n IH]; intros rw; cbn [msha2_extend sha2_extend]; [reflexivity|].
  rewrite IH. unfold mssig0, mssig1. now rewrite !mrotr_rotr, N.land_ones.
Qed.
Lemma msha2_round_eq p st kw : msha2_round p (N.ones (sw p)) st kw = sha2_round p st kw.
Proof.
  destruct st as [[[[[[[a b] c] d] e] f] g] h], kw as [k w]. unfold msha2_round, mbsig0, mbsig1.
  now rewrite !mrotr_rotr, !N.land_ones, notw_ones.
Qed.
Lemma sha2_block_masked p K hs X : sha2_block p K hs X = msha2_block p K hs X.
Proof.
  unfold msha2_block, sha2_block, sha2_schedule. cbv zeta. rewrite msha2_extend_eq, (fold_left_ext _ _ _ (msha2_round_eq p)).
  destruct hs as [[[[[[[h0 h1] h2] h3] h4] h5] h6] h7], (fold_left _ _ _) as [[[[[[[a b] c] d] e] f] g] h].
  now rewrite !N.land_ones.
Qed.

(* TESTS (labelled): the test suites of RFC 1321 A.5 and the FIPS 180 / RFC 3174 / RFC 6234 example messages *)
Example md5_rfc1321_test_suite :
  md5 (B "") = B "d41d8cd98f00b204e9800998ecf8427e" /\
  md5 (B "a") = B "0cc175b9c0f1b6a831c399e269772661" /\
  md5 (B "abc") = B "900150983cd24fb0d6963f7d28e17f72" /\
  md5 (B "message digest") = B "f96b697d7cb7938d525a2f31aaf161d0" /\
  md5 (B "abcdefghijklmnopqrstuvwxyz") = B "c3fcd3d76192e4007dfb496cca67e13b" /\
  md5 (B "ABCDEFGHIJKLMNOPQRSTUVWXYZabcdefghijklmnopqrstuvwxyz0123456789") = B "d174ab98d277d9f5a5611c2c9f419d9f" /\
  md5 (B "12345678901234567890123456789012345678901234567890123456789012345678901234567890") = B "57edf4a22be3c955ac49da2e2107b67a".
Proof.
  unfold md5, md5_digest. repeat apply conj.
  all: rewrite (fold_left_ext _ _ _ md5_block_masked); vm_compute; reflexivity.
Qed.

Example sha1_fips180_vectors :
  sha1 (B "abc") = B "a9993e364706816aba3e25717850c26c9cd0d89d" /\
  sha1 (B "abcdbcdecdefdefgefghfghighijhijkijkljklmklmnlmnomnopnopq") = B "84983e441c3bd26ebaae4aa1f95129e5e54670f1" /\
  sha1 (B "") = B "da39a3ee5e6b4b0d3255bfef95601890afd80709".
Proof.
  unfold sha1, sha1_digest. repeat apply conj.
  all: rewrite (fold_left_ext _ _ _ sha1_block_masked); vm_compute; reflexivity.
Qed.

Example sha256_fips180_vectors :
  sha256 (B "abc") = B "ba7816bf8f01cfea414140de5dae2223b00361a396177a9cb410ff61f20015ad" /\
  sha256 (B "abcdbcdecdefdefgefghfghighijhijkijkljklmklmnlmnomnopnopq") = B "248d6a61d20638b8e5c026930c3e6039a33ce45964ff2167f6ecedd419db06c1" /\
  sha256 (B "") = B "e3b0c44298fc1c149afbf4c8996fb92427ae41e4649b934ca495991b7852b855".
Proof.
  unfold sha256, sha256_digest. repeat apply conj.
  all: rewrite (fold_left_ext _ _ _ (sha2_block_masked p256 K256)); vm_compute; reflexivity.
Qed.

Example sha512_fips180_vectors :
  sha512 (B "abc") = B "ddaf35a193617abacc417349ae20413112e6fa4e89a97ea20a9eeee64b55d39a2192992a274fc1a836ba3c23a3feebbd454d4423643ce80e2a9ac94fa54ca49f" /\
  sha512 (B "abcdefghbcdefghicdefghijdefghijkefghijklfghijklmghijklmnhijklmnoijklmnopjklmnopqklmnopqrlmnopqrsmnopqrstnopqrstu") = B "8e959b75dae313da8cf4f72814fc143f8f7779c6eb9f7fa17299aeadb6889018501d289e4900f7e4331b99dec4b5433ac7d329eeb6dd26545e96e55b874be909" /\
  sha512 (B "") = B "cf83e1357eefb8bdf1542850d66d8007d620e4050b5715dc83f4a921d36ce9ce47d0d13c5d85f2b0ff8318d2877eec2f63b931bd47417a81a538327af927da3e".
Proof.
  unfold sha512, sha512_digest. repeat apply conj.
  all: rewrite (fold_left_ext _ _ _ (sha2_block_masked p512 K512)); vm_compute; reflexivity.
Qed.
