(* C15: character counting is additive over well-formed UTF-8 *)
From Miller Require Import Base.Bytes C15.Model.
Open Scope char_scope.

Lemma runes_app_valid_n : forall n a, (List.length a <= n)%nat -> valid_utf8 a = true ->
  forall b, runes (a ++ b) = runes a ++ runes b.
Proof.
  induction n as [|n IH]; intros a Hlen Hv b.
  - destruct a; [reflexivity|cbn in Hlen; lia].
  - destruct a as [|b0 t]; [reflexivity|]. cbn [List.length] in Hlen.
    cbn [valid_utf8] in Hv. cbn [app runes]. cbv zeta in *.
    destruct (N.ltb (bn b0) 128).
    { cbn [app]. f_equal. apply IH; [lia|exact Hv]. }
    destruct (inr 194 223 b0).
    { destruct t as [|b1 t1]; [discriminate|]. apply andb_true_iff in Hv. destruct Hv as [H1 H2].
      cbn [app List.length] in *. rewrite H1. cbn [app]. f_equal. apply IH; [lia|exact H2]. }
    destruct (inr 224 239 b0).
    { destruct t as [|b1 [|b2 t2]]; try discriminate.
      apply andb_true_iff in Hv. destruct Hv as [H12 H3].
      cbn [app List.length] in *. rewrite H12. cbn [app]. f_equal. apply IH; [lia|exact H3]. }
    destruct (inr 240 244 b0); [|discriminate].
    destruct t as [|b1 [|b2 [|b3 t3]]]; try discriminate.
    apply andb_true_iff in Hv. destruct Hv as [H123 H4].
    cbn [app List.length] in *. rewrite H123. cbn [app]. f_equal. apply IH; [lia|exact H4].
Qed.

Lemma runes_app_valid a b : valid_utf8 a = true -> runes (a ++ b) = runes a ++ runes b.
Proof. intros H. exact (runes_app_valid_n (List.length a) a (le_n _) H b). Qed.

Lemma strlen_app_valid a b : valid_utf8 a = true -> strlen (a ++ b) = (strlen a + strlen b)%Z.
Proof. intros H. unfold strlen. rewrite (runes_app_valid a b H), app_length. lia. Qed.

Lemma valid_ascii s : forallb (fun c => (code c <? 128)%N) s = true -> valid_utf8 s = true.
Proof.
  induction s as [|c t IH]; intros H; [reflexivity|]. cbn [forallb] in H. apply andb_true_iff in H. destruct H as [H1 H2].
  cbn [valid_utf8]. cbv zeta. unfold bn. rewrite H1. now apply IH.
Qed.
