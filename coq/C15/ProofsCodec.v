(* C15 lemmas: base64 and latin1/utf8 codecs *)
From Miller Require Import Base.Bytes C15.Model C15.ModelCodec C15.Proofs C15.Utf8Proofs.
From Coq Require Import ZifyBool ZifyN ZifyNat.
Open Scope char_scope.
Open Scope N_scope.
Ltac Zify.zify_post_hook ::= Z.div_mod_to_equations.

Lemma list_ind3 {A} (P : list A -> Prop) :
  P [] -> (forall a, P [a]) -> (forall a b, P [a; b]) -> (forall a b c t, P t -> P (a :: b :: c :: t)) -> forall l, P l.
Proof.
  intros H0 H1 H2 H3.
  assert (K : forall l, P l /\ (forall a, P (a :: l)) /\ (forall a b, P (a :: b :: l))).
  { induction l as [|x l [IH0 [IH1 IH2]]]; repeat split; auto. }
  intros l. apply K.
Qed.

Lemma list_ind4 {A} (P : list A -> Prop) :
  P [] -> (forall a, P [a]) -> (forall a b, P [a; b]) -> (forall a b c, P [a; b; c]) ->
  (forall a b c d t, P t -> P (a :: b :: c :: d :: t)) -> forall l, P l.
Proof.
  intros H0 H1 H2 H3 H4.
  assert (K : forall l, P l /\ (forall a, P (a :: l)) /\ (forall a b, P (a :: b :: l)) /\ (forall a b c, P (a :: b :: c :: l))).
  { induction l as [|x l [IH0 [IH1 [IH2 IH3]]]]; repeat split; auto. }
  intros l. apply K.
Qed.

Lemma forallb_filter_id {A} (f : A -> bool) l : forallb f l = true -> filter f l = l.
Proof.
  induction l as [|x l IH]; [reflexivity|]. cbn [forallb filter]. intros H. apply andb_true_iff in H. destruct H as [-> H].
  now rewrite IH.
Qed.

Lemma ascii_code c : ascii_of_N (code c) = c.
Proof. unfold code. apply ascii_N_embedding. Qed.

Lemma byte_eq n c : n = code c -> ascii_of_N n = c.
Proof. intros ->. apply ascii_code. Qed.

Lemma forall_below64 (p : N -> bool) : forallb p (map N.of_nat (seq 0 64)) = true -> forall n, n < 64 -> p n = true.
Proof. intros H n Hn. rewrite forallb_forall in H. apply H. rewrite <- (N2Nat.id n). apply in_map, in_seq. lia. Qed.

Lemma b64val_b64char n : n < 64 -> b64val (b64char n) = Some n.
Proof.
  intros H. apply (forall_below64 (fun k => match b64val (b64char k) with Some m => m =? k | None => false end)) in H; [|reflexivity].
  destruct (b64val (b64char n)); [|discriminate]. f_equal. lia.
Qed.

Lemma b64char_not_crlf n : n < 64 -> is_crlf (b64char n) = false.
Proof. intros H. apply negb_true_iff. revert n H. apply forall_below64. reflexivity. Qed.

Lemma b64char_not_pad n : n < 64 -> Ascii.eqb (b64char n) PAD = false.
Proof. intros H. apply negb_true_iff. revert n H. apply forall_below64. reflexivity. Qed.

Definition is_b64 (c : ascii) : bool := match b64val c with Some _ => true | None => false end.
Definition b64_out_char (c : ascii) : bool := is_b64 c || Ascii.eqb c PAD.

Lemma is_b64_b64char n : n < 64 -> is_b64 (b64char n) = true.
Proof. intros H. unfold is_b64. now rewrite b64val_b64char. Qed.

Lemma b64val_lt c n : b64val c = Some n -> n < 64.
Proof.
  assert (E : forall c, match b64val c with Some n => n <? 64 | None => true end = true)
    by (apply forall_byte_spec; vm_compute; reflexivity).
  intros H. specialize (E c). rewrite H in E. lia.
Qed.

Lemma q24_sextets v : q24 (v / 262144) ((v / 4096) mod 64) ((v / 64) mod 64) (v mod 64) = v.
Proof. unfold q24. lia. Qed.

Lemma b64_encode_forallb (q : ascii -> bool) : (forall n, n < 64 -> q (b64char n) = true) -> q PAD = true ->
  forall s, forallb q (b64_encode s) = true.
Proof.
  intros Hq Hp. induction s as [|a|a b|a b c t IH] using list_ind3; [reflexivity| | |].
  all: pose proof (code_lt a) as Ha; try pose proof (code_lt b) as Hb; try pose proof (code_lt c) as Hc.
  all: cbn [b64_encode forallb]; cbv zeta; rewrite !Hq by lia.
  all: rewrite ?Hp, ?IH; reflexivity.
Qed.

Lemma b64_encode_alphabet s : forallb b64_out_char (b64_encode s) = true.
Proof.
  apply b64_encode_forallb; [|reflexivity]. intros n H. unfold b64_out_char. now rewrite is_b64_b64char.
Qed.

Lemma b64_encode_length s : N.of_nat (List.length (b64_encode s)) = 4 * ((N.of_nat (List.length s) + 2) / 3).
Proof.
  induction s as [|a|a b|a b c t IH] using list_ind3; [reflexivity|reflexivity|reflexivity|].
  cbn [b64_encode List.length]. cbv zeta. cbn [List.length]. lia.
Qed.

Lemma b64_encode_no_crlf s : strip_crlf (b64_encode s) = b64_encode s.
Proof.
  apply forallb_filter_id, b64_encode_forallb; [|reflexivity]. intros n H. now rewrite b64char_not_crlf.
Qed.

(* in each of the three cases the decoder rebuilds the group's value v from its sextets (the sextets it takes as 0 in a
   padded group are 0), and the bytes of v are the input bytes *)
Lemma b64_quanta_encode s : b64_quanta (b64_encode s) = Some s.
Proof.
  induction s as [|a|a b|a b c t IH] using list_ind3; [reflexivity| | |].
  all: pose proof (code_lt a) as Ha; try pose proof (code_lt b) as Hb; try pose proof (code_lt c) as Hc.
  all: cbn [b64_encode]; cbv zeta; cbn [b64_quanta].
  all: match goal with |- context [b64char (?u / 262144)] => set (v := u); pose proof (q24_sextets v) as Q end.
  all: rewrite !b64val_b64char
         by (first [apply N.mod_lt; discriminate | apply N.div_lt_upper_bound; [discriminate|subst v; lia]]).
  - replace ((v / 64) mod 64) with 0 in Q by (subst v; lia). replace (v mod 64) with 0 in Q by (subst v; lia).
    change (b64val PAD) with (@None N). change (Ascii.eqb PAD PAD) with true. cbn [andb]. rewrite Q.
    unfold byte0. repeat f_equal. apply byte_eq. subst v. lia.
  - replace (v mod 64) with 0 in Q by (subst v; lia).
    change (b64val PAD) with (@None N). change (Ascii.eqb PAD PAD) with true. rewrite Q.
    unfold byte0, byte1. repeat f_equal; apply byte_eq; subst v; lia.
  - rewrite IH. cbv zeta. rewrite Q. unfold byte0, byte1, byte2. repeat f_equal; apply byte_eq; subst v; lia.
Qed.

Theorem b64_decode_encode s : b64_decode (b64_encode s) = Some s.
Proof. unfold b64_decode. rewrite b64_encode_no_crlf. apply b64_quanta_encode. Qed.

Lemma strip_crlf_app a b : strip_crlf (a ++ b) = strip_crlf a ++ strip_crlf b.
Proof. unfold strip_crlf. apply filter_app. Qed.

Lemma b64_decode_ignores_crlf a c b : is_crlf c = true -> b64_decode (a ++ c :: b) = b64_decode (a ++ b).
Proof.
  intros H. unfold b64_decode. rewrite !strip_crlf_app. unfold strip_crlf at 2. cbn [filter]. rewrite H. reflexivity.
Qed.

Lemma b64_quanta_accepts s r : b64_quanta s = Some r -> N.of_nat (List.length s) mod 4 = 0 /\ forallb b64_out_char s = true.
Proof.
  revert r. induction s as [|a|a b|a b c|a b c d t IH] using list_ind4; intros r H; try discriminate; [now split|].
  cbn [b64_quanta] in H. cbn [forallb List.length]. unfold b64_out_char at 1 2 3 4. unfold is_b64.
  destruct (b64val a); [|discriminate]. destruct (b64val b); [|discriminate]. cbn [orb andb].
  destruct (b64val c); destruct (b64val d) eqn:Ed; cbn [orb andb].
  - destruct (b64_quanta t) as [r'|]; [|discriminate]. destruct (IH r' eq_refl) as [L F]. split; [lia|exact F].
  - destruct (Ascii.eqb d PAD); [|discriminate]. destruct t; [now split|discriminate].
  - destruct (Ascii.eqb c PAD); [|discriminate]. cbn [andb] in H.
    destruct (Ascii.eqb_spec d PAD) as [->|]; [discriminate Ed|discriminate].
  - destruct (Ascii.eqb c PAD); [|discriminate]. cbn [andb] in H |- *. destruct (Ascii.eqb d PAD); [|discriminate].
    destruct t; [now split|discriminate].
Qed.

Lemma b64_decode_accepts s r : b64_decode s = Some r ->
  N.of_nat (List.length (strip_crlf s)) mod 4 = 0 /\ forallb (fun c => b64_out_char c || is_crlf c) s = true.
Proof.
  unfold b64_decode. intros H. apply b64_quanta_accepts in H. destruct H as [L F]. split; [exact L|].
  rewrite forallb_forall in *. intros c Hc. destruct (is_crlf c) eqn:E; [apply orb_true_r|]. rewrite orb_false_r.
  apply F, filter_In. now rewrite E.
Qed.

Lemma b64_quanta_full_length s r : forallb is_b64 s = true -> b64_quanta s = Some r ->
  N.of_nat (List.length s) = 4 * (N.of_nat (List.length r) / 3) /\ N.of_nat (List.length r) mod 3 = 0.
Proof.
  revert r. induction s as [|a|a b|a b c|a b c d t IH] using list_ind4; intros r Ha H; try discriminate.
  - inversion H. split; reflexivity.
  - cbn [forallb] in Ha. unfold is_b64 at 1 2 3 4 in Ha. cbn [b64_quanta] in H.
    destruct (b64val a); [|discriminate]. destruct (b64val b); [|discriminate].
    destruct (b64val c); [|discriminate]. destruct (b64val d); [|discriminate]. cbn [andb] in Ha.
    destruct (b64_quanta t) as [r'|] eqn:E; [|discriminate]. inversion H; subst r.
    destruct (IH r' Ha eq_refl) as [L1 L2]. cbn [List.length]. split; lia.
Qed.

Lemma runes_encode_latin1 c t : runes (encode_rune (code c) ++ t) = code c :: runes t.
Proof.
  assert (E : forall c, valid_utf8 (encode_rune (code c))
                        && match runes (encode_rune (code c)) with [r] => r =? code c | _ => false end = true)
    by (apply forall_byte_spec; vm_compute; reflexivity).
  specialize (E c). apply andb_true_iff in E. destruct E as [V R]. rewrite (runes_app_valid _ t V).
  destruct (runes (encode_rune (code c))) as [|r [|]]; try discriminate. apply N.eqb_eq in R. now subst.
Qed.

Lemma runes_latin1_to_utf8 s : runes (latin1_to_utf8 s) = map code s.
Proof.
  unfold latin1_to_utf8. induction s as [|c t IH]; [reflexivity|].
  cbn [map List.concat]. rewrite runes_encode_latin1. now rewrite IH.
Qed.

Lemma latin1_of_runes_codes s : latin1_of_runes (map code s) = Some s.
Proof.
  induction s as [|c t IH]; [reflexivity|]. cbn [map latin1_of_runes]. pose proof (code_lt c) as Hc.
  replace (code c <=? 255) with true by lia. rewrite IH. unfold byte_of. now rewrite ascii_code.
Qed.

Theorem utf8_to_latin1_of_latin1_to_utf8 s : utf8_to_latin1 (latin1_to_utf8 s) = Some s.
Proof. unfold utf8_to_latin1. rewrite runes_latin1_to_utf8. apply latin1_of_runes_codes. Qed.

Lemma latin1_of_runes_none rs : latin1_of_runes rs = None <-> existsb (fun r => 255 <? r) rs = true.
Proof.
  induction rs as [|r t IH]; cbn [latin1_of_runes existsb]; [split; discriminate|].
  destruct (r <=? 255) eqn:E.
  - replace (255 <? r) with false by lia. cbn [orb]. destruct (latin1_of_runes t); [|tauto].
    split; [discriminate|]. intros H. apply IH in H. discriminate.
  - replace (255 <? r) with true by lia. tauto.
Qed.

Lemma utf8_to_latin1_none s : utf8_to_latin1 s = None <-> existsb (fun r => 255 <? r) (runes s) = true.
Proof. apply latin1_of_runes_none. Qed.

Lemma latin1_of_runes_some rs o : latin1_of_runes rs = Some o -> map code o = rs.
Proof.
  revert o. induction rs as [|r t IH]; intros o H; cbn [latin1_of_runes] in H; [now inversion H|].
  destruct (r <=? 255) eqn:E; [|discriminate]. destruct (latin1_of_runes t) as [o'|]; [|discriminate].
  inversion H; subst o. cbn [map]. rewrite (IH o' eq_refl). f_equal. unfold byte_of, code. apply N_ascii_embedding. lia.
Qed.

Lemma utf8_to_latin1_some s o : utf8_to_latin1 s = Some o -> map code o = runes s /\ Z.of_nat (List.length o) = strlen s.
Proof.
  intros H. apply latin1_of_runes_some in H. split; [exact H|]. unfold strlen. rewrite <- H, map_length. reflexivity.
Qed.

Lemma latin1_to_utf8_ascii s : forallb (fun c => (code c <? 128)) s = true -> latin1_to_utf8 s = s.
Proof.
  unfold latin1_to_utf8. induction s as [|c t IH]; intros H; [reflexivity|]. cbn [forallb] in H.
  apply andb_true_iff in H. destruct H as [H1 H2]. cbn [map List.concat]. rewrite (IH H2).
  unfold encode_rune. rewrite H1. unfold byte_of. now rewrite ascii_code.
Qed.

Lemma b64_decode_not_injective :
  exists s1 s2, s1 <> s2 /\ strip_crlf s1 = s1 /\ strip_crlf s2 = s2 /\ b64_decode s1 = b64_decode s2 /\ b64_decode s1 = Some (B "A").
Proof. exists (B "QQ=="), (B "QR=="). repeat split; try reflexivity. discriminate. Qed.
