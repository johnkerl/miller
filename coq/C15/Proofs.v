From Miller Require Import Base.Bytes C15.Model.
Open Scope char_scope.

Lemma N_below_16 n : (n < 16)%N -> In n [0; 1; 2; 3; 4; 5; 6; 7; 8; 9; 10; 11; 12; 13; 14; 15]%N.
Proof. cbn [In]. lia. Qed.

Lemma hexval_hexdig n : (n < 16)%N -> hexval (hexdig n) = Some n.
Proof. intros H. apply N_below_16 in H. repeat (destruct H as [<-|H]; [reflexivity|]). destruct H. Qed.

Lemma code_lt c : (code c < 256)%N.
Proof. unfold code. apply N_ascii_bounded. Qed.

Lemma hex_decode_encode s : hex_decode (hex_encode s) = Some s.
Proof.
  induction s as [|c t IH]; cbn [hex_encode hex_decode]; [reflexivity|].
  pose proof (code_lt c) as Hc.
  rewrite !hexval_hexdig.
  - rewrite IH. f_equal. f_equal.
    replace (code c / 16 * 16 + code c mod 16)%N with (code c) by (pose proof (N.div_mod (code c) 16 ltac:(lia)); lia).
    unfold code. apply ascii_N_embedding.
  - apply N.mod_lt. lia.
  - apply N.div_lt_upper_bound; lia.
Qed.

Lemma hex_encode_length s : List.length (hex_encode s) = (2 * List.length s)%nat.
Proof. induction s as [|c t IH]; cbn [hex_encode List.length]; lia. Qed.

(* a boolean property of all 256 bytes is decided by one evaluation; splitting a byte into 256 goals costs several times
   as much to build and to check *)
Definition forall_bool (p : bool -> bool) : bool := p false && p true.
Definition forall_byte (p : ascii -> bool) : bool :=
  forall_bool (fun b0 => forall_bool (fun b1 => forall_bool (fun b2 => forall_bool (fun b3 =>
  forall_bool (fun b4 => forall_bool (fun b5 => forall_bool (fun b6 => forall_bool (fun b7 =>
    p (Ascii b0 b1 b2 b3 b4 b5 b6 b7))))))))).

Lemma forall_bool_spec p b : forall_bool p = true -> p b = true.
Proof. unfold forall_bool. intros H. apply andb_true_iff in H. now destruct b. Qed.
Lemma forall_byte_spec p : forall_byte p = true -> forall c, p c = true.
Proof.
  intros H [b0 b1 b2 b3 b4 b5 b6 b7]. unfold forall_byte in H.
  apply (forall_bool_spec _ b0) in H. apply (forall_bool_spec _ b1) in H. apply (forall_bool_spec _ b2) in H.
  apply (forall_bool_spec _ b3) in H. apply (forall_bool_spec _ b4) in H. apply (forall_bool_spec _ b5) in H.
  apply (forall_bool_spec _ b6) in H. apply (forall_bool_spec _ b7) in H. exact H.
Qed.

Lemma lo_up_c c : lo_c (up_c c) = lo_c c.
Proof. apply Ascii.eqb_eq. revert c. apply forall_byte_spec. vm_compute. reflexivity. Qed.
Lemma up_lo_c c : up_c (lo_c c) = up_c c.
Proof. apply Ascii.eqb_eq. revert c. apply forall_byte_spec. vm_compute. reflexivity. Qed.
Lemma up_up_c c : up_c (up_c c) = up_c c.
Proof. apply Ascii.eqb_eq. revert c. apply forall_byte_spec. vm_compute. reflexivity. Qed.
Lemma up_c_letter c : in_range "a" "z" c = true -> lo_c (up_c c) = c.
Proof.
  assert (E : forall c, implb (in_range "a" "z" c) (Ascii.eqb (lo_c (up_c c)) c) = true)
    by (apply forall_byte_spec; vm_compute; reflexivity).
  intros H. specialize (E c). rewrite H in E. now apply Ascii.eqb_eq.
Qed.
Lemma lo_c_letter c : in_range "A" "Z" c = true -> up_c (lo_c c) = c.
Proof.
  assert (E : forall c, implb (in_range "A" "Z" c) (Ascii.eqb (up_c (lo_c c)) c) = true)
    by (apply forall_byte_spec; vm_compute; reflexivity).
  intros H. specialize (E c). rewrite H in E. now apply Ascii.eqb_eq.
Qed.
Lemma up_c_nonletter c : in_range "a" "z" c = false -> up_c c = c.
Proof. unfold up_c. now intros ->. Qed.

Lemma tolower_toupper s : tolower (toupper s) = tolower s.
Proof. unfold tolower, toupper. rewrite map_map. apply map_ext. apply lo_up_c. Qed.
Lemma toupper_tolower s : toupper (tolower s) = toupper s.
Proof. unfold tolower, toupper. rewrite map_map. apply map_ext. apply up_lo_c. Qed.
Lemma toupper_idem s : toupper (toupper s) = toupper s.
Proof. unfold toupper. rewrite map_map. apply map_ext. apply up_up_c. Qed.
Lemma tolower_toupper_lower s : forallb (fun c => negb (in_range "A" "Z" c)) s = true -> tolower (toupper s) = s.
Proof.
  intros H. rewrite tolower_toupper. unfold tolower. induction s as [|c t IH]; cbn [map forallb] in *; [reflexivity|].
  apply andb_true_iff in H. destruct H as [Hc Ht]. rewrite (IH Ht). f_equal. unfold lo_c.
  apply negb_true_iff in Hc. now rewrite Hc.
Qed.
Lemma toupper_length s : List.length (toupper s) = List.length s.
Proof. apply map_length. Qed.

Open Scope Z_scope.
Lemma unalias_pos n m : 1 <= m -> unalias n m = m - 1.
Proof. intros H. unfold unalias. destruct (Z.leb_spec 1 m); [reflexivity|lia]. Qed.
Lemma unalias_neg n m : m <= -1 -> unalias n m = m + n.
Proof. intros H. unfold unalias. destruct (Z.leb_spec 1 m); [lia|]. destruct (Z.leb_spec m (-1)); [reflexivity|lia]. Qed.

Lemma slice_access_clamped n lo hi :
  let l := Z.max 0 (unalias n lo) in let h := Z.min (n - 1) (unalias n hi) in
  l <= h -> slice_access n lo hi false = Some (l, h).
Proof.
  intros l h H. subst l h. unfold slice_access. cbn [andb]. cbv zeta.
  destruct (Z.ltb_spec (unalias n lo) 0), (Z.ltb_spec (n - 1) (unalias n hi));
    repeat match goal with |- context [?a <? ?b] => destruct (Z.ltb_spec a b) end; try lia; f_equal; f_equal; lia.
Qed.

Lemma slice_access_in_range n m k :
  1 <= m -> m <= k -> k <= n -> slice_access n m k false = Some (m - 1, k - 1).
Proof. intros H1 H2 H3. rewrite slice_access_clamped; rewrite !unalias_pos by lia; [f_equal; f_equal|]; lia. Qed.

Lemma slice_access_negative_alias n m k :
  1 <= m -> m <= k -> k <= n -> slice_access n (m - n - 1) (k - n - 1) false = Some (m - 1, k - 1).
Proof. intros H1 H2 H3. rewrite slice_access_clamped; rewrite !unalias_neg by lia; [f_equal; f_equal|]; lia. Qed.

Lemma slice_access_clamps_high n m k :
  1 <= m -> m <= n -> n < k -> slice_access n m k false = Some (m - 1, n - 1).
Proof. intros H1 H2 H3. rewrite slice_access_clamped; rewrite !unalias_pos by lia; [f_equal; f_equal|]; lia. Qed.

Lemma slice_access_zero_up n m k : 0 <= m -> 0 <= k -> slice_access n m k true = slice_access n (m + 1) (k + 1) false.
Proof.
  intros H1 H2. unfold slice_access. cbn [andb].
  destruct (0 <=? m) eqn:E1; [|apply Z.leb_gt in E1; lia]. destruct (0 <=? k) eqn:E2; [|apply Z.leb_gt in E2; lia]. reflexivity.
Qed.

Lemma slice_runes_spec rs m k :
  1 <= m -> m <= k -> k <= Z.of_nat (List.length rs) ->
  slice_runes rs m k false = firstn (Z.to_nat (k - m + 1)) (skipn (Z.to_nat (m - 1)) rs)
  /\ List.length (slice_runes rs m k false) = Z.to_nat (k - m + 1).
Proof.
  intros H1 H2 H3. unfold slice_runes. rewrite slice_access_in_range by lia.
  replace (k - 1 - (m - 1) + 1) with (k - m + 1) by lia. split; [reflexivity|].
  rewrite firstn_length, skipn_length. lia.
Qed.

Lemma prefixb_spec p s : prefixb p s = true -> s = p ++ skipn (List.length p) s.
Proof.
  revert s; induction p as [|c p IH]; intros s H; [reflexivity|].
  destruct s as [|d s]; cbn in H; [discriminate|]. apply andb_true_iff in H. destruct H as [H1 H2].
  apply Ascii.eqb_eq in H1. subst d. cbn. f_equal. now apply IH.
Qed.

Lemma find_lit_spec pat s a b : find_lit pat s = Some (a, b) -> s = a ++ pat ++ b.
Proof.
  revert a b; induction s as [|c t IH]; intros a b H; cbn [find_lit] in H.
  - destruct (prefixb pat []) eqn:E; [|discriminate]. inversion H; subst. now apply prefixb_spec in E.
  - destruct (prefixb pat (c :: t)) eqn:E.
    + inversion H; subst. now apply prefixb_spec in E.
    + destruct (find_lit pat t) as [[a' b']|] eqn:F; [|discriminate]. inversion H; subst. cbn. f_equal. now apply IH.
Qed.

Lemma find_lit_shorter pat s a b : pat <> [] -> find_lit pat s = Some (a, b) -> (List.length b < List.length s)%nat.
Proof.
  intros Hp H. apply find_lit_spec in H. subst s. rewrite !app_length. destruct pat; [congruence|]. cbn. lia.
Qed.

Lemma joinv_cons x l sep : l <> [] -> joinv (x :: l) sep = x ++ sep ++ joinv l sep.
Proof. destruct l; [congruence|reflexivity]. Qed.

Lemma split_fuel_nonempty f s sep : split_fuel f s sep <> [].
Proof. destruct f; cbn; [congruence|]. destruct (find_lit sep s) as [[a b]|]; congruence. Qed.

Lemma join_split_fuel f s sep : joinv (split_fuel f s sep) sep = s.
Proof.
  revert s; induction f as [|f IH]; intros s; cbn [split_fuel]; [reflexivity|].
  destruct (find_lit sep s) as [[a b]|] eqn:F; [|reflexivity].
  rewrite joinv_cons by apply split_fuel_nonempty. rewrite IH. symmetry. now apply find_lit_spec.
Qed.

Lemma join_split s sep : joinv (splitax s sep) sep = s.
Proof. unfold splitax. destruct s; [reflexivity|]. apply join_split_fuel. Qed.

Lemma find_lit1_none c x : forallb (fun d => negb (Ascii.eqb c d)) x = true -> find_lit [c] x = None.
Proof.
  induction x as [|d x IH]; intros H; cbn [find_lit prefixb]; [reflexivity|].
  cbn [forallb] in H. apply andb_true_iff in H. destruct H as [H1 H2]. apply negb_true_iff in H1. rewrite H1. cbn [andb].
  now rewrite (IH H2).
Qed.

Lemma find_lit1_first c x rest :
  forallb (fun d => negb (Ascii.eqb c d)) x = true -> find_lit [c] (x ++ c :: rest) = Some (x, rest).
Proof.
  induction x as [|d x IH]; intros H.
  - cbn [app find_lit prefixb]. rewrite Ascii.eqb_refl. reflexivity.
  - cbn [forallb] in H. apply andb_true_iff in H. destruct H as [H1 H2]. apply negb_true_iff in H1.
    cbn [app find_lit prefixb]. rewrite H1. cbn [andb]. now rewrite (IH H2).
Qed.

Lemma split_join_fuel c l : l <> [] ->
  Forall (fun x => forallb (fun d => negb (Ascii.eqb c d)) x = true) l ->
  forall f, (List.length (joinv l [c]) < f)%nat -> split_fuel f (joinv l [c]) [c] = l.
Proof.
  induction l as [|x l IH]; intros Hne Hall f Hf; [congruence|].
  inversion Hall as [|? ? Hx Hl]; subst.
  destruct l as [|y l'].
  - cbn [joinv] in *. destruct f; [lia|]. cbn [split_fuel]. now rewrite find_lit1_none.
  - rewrite joinv_cons in * by congruence. destruct f; [lia|]. cbn [split_fuel].
    change ([c] ++ joinv (y :: l') [c]) with (c :: joinv (y :: l') [c]) in *.
    rewrite find_lit1_first by exact Hx. f_equal. apply IH; [congruence|exact Hl|].
    rewrite app_length in Hf. cbn [List.length] in Hf. lia.
Qed.

Lemma split_join c l :
  Forall (fun x => forallb (fun d => negb (Ascii.eqb c d)) x = true) l ->
  joinv l [c] <> [] -> splitax (joinv l [c]) [c] = l.
Proof.
  intros Hall Hne. unfold splitax. destruct (joinv l [c]) eqn:E; [congruence|]. rewrite <- E.
  assert (l <> []) by (intros ->; discriminate E).
  apply split_join_fuel; auto; rewrite E; cbn; lia.
Qed.

Lemma ssub_no_match s pat rep : pat <> [] -> find_lit pat s = None -> ssub s pat rep = s.
Proof. intros Hp H. unfold ssub. destruct pat; [congruence|]. now rewrite H. Qed.

Lemma ssub_first_occurrence s pat rep a b :
  pat <> [] -> find_lit pat s = Some (a, b) -> s = a ++ pat ++ b /\ ssub s pat rep = a ++ rep ++ b.
Proof.
  intros Hp H. split; [now apply find_lit_spec|]. unfold ssub. destruct pat; [congruence|]. now rewrite H.
Qed.

Lemma gssub_no_match s pat rep : find_lit pat s = None -> gssub s pat rep = s.
Proof. intros H. unfold gssub. cbn [gssub_fuel]. now rewrite H. Qed.

Lemma gssub_fuel_same f s pat : gssub_fuel f s pat pat = s.
Proof.
  revert s; induction f as [|f IH]; intros s; cbn [gssub_fuel]; [reflexivity|].
  destruct (find_lit pat s) as [[a b]|] eqn:F; [|reflexivity]. rewrite IH. symmetry. now apply find_lit_spec.
Qed.
Lemma gssub_same s pat : gssub s pat pat = s.
Proof. apply gssub_fuel_same. Qed.

Lemma runes_ascii s : forallb (fun c => (code c <? 128)%N) s = true -> runes s = map code s.
Proof.
  induction s as [|c t IH]; intros H; [reflexivity|]. cbn [forallb] in H. apply andb_true_iff in H. destruct H as [H1 H2].
  cbn [runes map]. unfold bn. rewrite H1. f_equal. now apply IH.
Qed.

Lemma strlen_ascii_app a b :
  forallb (fun c => (code c <? 128)%N) a = true -> strlen (a ++ b) = strlen a + strlen b.
Proof.
  intros H. unfold strlen. induction a as [|c t IH]; [cbn; lia|].
  cbn [forallb] in H. apply andb_true_iff in H. destruct H as [H1 H2].
  cbn [app runes]. unfold bn. rewrite H1. cbn [List.length]. specialize (IH H2). lia.
Qed.
