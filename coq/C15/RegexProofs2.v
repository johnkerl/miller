(* C15 regex proofs, part 2: gsub on the empty regex (Go's empty-match rule), interpolation with empty registers. *)
From Miller Require Import Base.Bytes C15.Model C15.RegexModel C15.RegexProofs.
Open Scope nat_scope.

Definition mk (j : nat) : nat * nat * caps := (j, j, []).
Definition E0 (rep : bytes) : bytes := interp rep (repeat [] 10).

Lemma search_eps ci pos s : search ci Eps pos s = Some (pos, pos, []).
Proof. destruct s; reflexivity. Qed.

(* an empty match is kept unless it sits where the previous match ended *)
Lemma empty_match_kept {A} (prev : option nat) pos (x : A) : prev <> Some pos ->
  match prev with Some p => if pos =? p then [] else [x] | None => [x] end = [x].
Proof. destruct prev as [p|]; [|reflexivity]. destruct (Nat.eqb_spec pos p); congruence. Qed.

Lemma findall_eps ci : forall s n pos prev, List.length s < n -> prev <> Some pos ->
  findall n ci Eps pos s prev = map mk (seq pos (S (List.length s))).
Proof.
  induction s as [|x s IH]; intros [|n] pos prev Hn Hp; try (cbn [List.length] in Hn; lia);
    cbn [findall]; rewrite search_eps, Nat.eqb_refl, empty_match_kept by exact Hp; [reflexivity|].
  cbn [app List.length seq map]. f_equal. apply IH; [cbn [List.length] in Hn; lia|]. intros E. injection E. lia.
Qed.

Lemma captures10_empty t a : captures10 t a a [] = repeat [] 10.
Proof. unfold captures10, piece. rewrite Nat.sub_diag. reflexivity. Qed.

Lemma piece_one done (x : ch) s : piece (done ++ x :: s) (List.length done) (S (List.length done)) = snd x.
Proof.
  unfold piece. rewrite skipn_app, Nat.sub_diag, skipn_all, Nat.sub_succ_l, Nat.sub_diag by auto. apply app_nil_r.
Qed.

Lemma splice_eps rep t : forall s done, t = done ++ s ->
  splice t rep (List.length done) (map mk (seq (S (List.length done)) (List.length s))) = List.concat (map (fun x => snd x ++ E0 rep) s).
Proof.
  induction s as [|x s IH]; intros done ->; cbn [List.length seq map splice List.concat].
  - now rewrite app_nil_r, skipn_all.
  - unfold mk at 1. cbn [splice]. rewrite captures10_empty, piece_one, <- app_assoc. fold (E0 rep). f_equal. f_equal.
    rewrite <- (last_length done x). apply IH. now rewrite <- app_assoc.
Qed.

Theorem gsub_empty_regex ci s rep :
  gsub ci Eps s rep = E0 rep ++ List.concat (map (fun x => snd x ++ E0 rep) (chunks s)).
Proof.
  unfold gsub, gsub_t, find_all.
  rewrite (findall_eps ci (chunks s) (S (List.length (chunks s))) 0 None); [|lia|discriminate].
  cbn [seq map]. unfold mk at 1. cbn [splice]. rewrite captures10_empty. fold (E0 rep).
  unfold piece. cbn [skipn firstn]. rewrite Nat.sub_diag. cbn [firstn]. unfold flat at 1. cbn [map List.concat app].
  f_equal. apply (splice_eps rep (chunks s) (chunks s) []). reflexivity.
Qed.

Lemma interp_empty_aux : forall rep,
  interp rep (repeat [] 10) = strip_refs rep /\ forall x, interp (x :: rep) (repeat [] 10) = strip_refs (x :: rep).
Proof.
  induction rep as [|d t IH].
  - split; reflexivity.
  - destruct IH as [IH1 IH2]. split; [apply IH2|].
    intro x. cbn [interp strip_refs].
    destruct (Ascii.eqb x BSL).
    + destruct (digit_of d) as [k|].
      * rewrite nth_repeat_nil. cbn [app]. exact IH1.
      * f_equal. apply IH2.
    + f_equal. apply IH2.
Qed.
Theorem interp_empty_registers rep : interp rep (repeat [] 10) = strip_refs rep.
Proof. apply interp_empty_aux. Qed.

Theorem E0_plain rep : has_capture_ref rep = false -> E0 rep = rep.
Proof. apply interp_plain. Qed.
