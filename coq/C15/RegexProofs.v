(* C15 regex proofs: the backtracking matcher of RegexModel against a denotational semantics D (soundness, completeness,
   leftmost start), and the laws of sub / gsub / regextract / the capture registers on top of it. *)
From Miller Require Import Base.Bytes C15.Model C15.RegexModel.
Open Scope nat_scope.

(* D ci r i w rest : r matches the word w when w starts at position i of the text and is followed by rest *)
Inductive D (ci : bool) : re -> nat -> list ch -> list ch -> Prop :=
| DEps i rest : D ci Eps i [] rest
| DAt a x i rest : test ci a (fst x) = true -> D ci (At a) i [x] rest
| DCat r1 r2 i w1 w2 rest : D ci r1 i w1 (w2 ++ rest) -> D ci r2 (i + List.length w1) w2 rest -> D ci (Cat r1 r2) i (w1 ++ w2) rest
| DAltL r1 r2 i w rest : D ci r1 i w rest -> D ci (Alt r1 r2) i w rest
| DAltR r1 r2 i w rest : D ci r2 i w rest -> D ci (Alt r1 r2) i w rest
| DStar0 r i rest : D ci (Star r) i [] rest
| DStarS r i w1 w2 rest : D ci r i w1 (w2 ++ rest) -> D ci (Star r) (i + List.length w1) w2 rest -> D ci (Star r) i (w1 ++ w2) rest
| DPlus r i w1 w2 rest : D ci r i w1 (w2 ++ rest) -> D ci (Star r) (i + List.length w1) w2 rest -> D ci (Plus r) i (w1 ++ w2) rest
| DOpt0 r i rest : D ci (Opt r) i [] rest
| DOptS r i w rest : D ci r i w rest -> D ci (Opt r) i w rest
| DGrp n r i w rest : D ci r i w rest -> D ci (Grp n r) i w rest
| DBol rest : D ci Bol 0 [] rest
| DEol i : D ci Eol i [] [].

(* what a successful run of a matcher for r owes: a word of r in front of the text, and the continuation run after it *)
Definition accepts (ci : bool) (r : re) (i : nat) (s : list ch) (k : K) (res : R) : Prop :=
  exists w s' c', s = w ++ s' /\ D ci r i w s' /\ k (i + List.length w) s' c' = Some res.

Definition sound_body (ci : bool) (r : re) (mb : nat -> list ch -> caps -> K -> option R) : Prop :=
  forall i s c k res, mb i s c k = Some res -> accepts ci r i s k res.

Lemma accepts_nil ci r i s c k res : D ci r i [] s -> k i s c = Some res -> accepts ci r i s k res.
Proof. intros HD Hk. exists [], s, c. cbn [app List.length]. now rewrite Nat.add_0_r. Qed.

Lemma accepts_mono ci r1 r i s k res :
  (forall w rest, D ci r1 i w rest -> D ci r i w rest) -> accepts ci r1 i s k res -> accepts ci r i s k res.
Proof. intros HD (w & s' & c' & Hs & H1 & Hk). exists w, s', c'. auto. Qed.

(* r1 then r2, glued by whatever rule of D builds r from them (DCat, DPlus, DStarS) *)
Lemma accepts_seq ci r1 r2 r i s k1 k res :
  (forall w1 w2 rest, D ci r1 i w1 (w2 ++ rest) -> D ci r2 (i + List.length w1) w2 rest -> D ci r i (w1 ++ w2) rest) ->
  accepts ci r1 i s k1 res -> (forall i' s' c', k1 i' s' c' = Some res -> accepts ci r2 i' s' k res) ->
  accepts ci r i s k res.
Proof.
  intros HD (w1 & s1 & c1 & -> & H1 & Hk) H2. apply H2 in Hk. destruct Hk as (w2 & s2 & c2 & -> & HD2 & Hk2).
  exists (w1 ++ w2), s2, c2. rewrite app_assoc, app_length, Nat.add_assoc. auto.
Qed.

Lemma loop_sound ci r mb : sound_body ci r mb ->
  forall n i s c k res, loop mb n i s c k = Some res -> accepts ci (Star r) i s k res.
Proof.
  intros Hb n; induction n as [|n IH]; intros i s c k res H; cbn [loop] in H.
  - eapply accepts_nil; [constructor|exact H].
  - destruct (mb i s c _) as [x|] eqn:E; [|eapply accepts_nil; [constructor|exact H]].
    injection H as ->. apply Hb in E. eapply accepts_seq; [apply DStarS|exact E|]. intros i' s' c' Hk. cbv beta in Hk.
    destruct (_ <? _); [now apply IH in Hk|eapply accepts_nil; [constructor|exact Hk]].
Qed.

Lemma m_sound ci r : sound_body ci r (m ci r).
Proof.
  induction r as [|a|r1 IH1 r2 IH2|r1 IH1 r2 IH2|r1 IH1|r1 IH1|r1 IH1|n r1 IH1| |]; intros i s c k res H; cbn [m] in H.
  - eapply accepts_nil; [constructor|exact H].
  - destruct s as [|x s']; [discriminate|]. destruct (test ci a (fst x)) eqn:T; [|discriminate].
    exists [x], s', c. cbn [app List.length]. rewrite Nat.add_1_r. auto using DAt.
  - apply IH1 in H. eapply accepts_seq; [apply DCat|exact H|]. intros i' s' c'. apply IH2.
  - destruct (m ci r1 i s c k) as [x|] eqn:E.
    + injection H as ->. apply IH1 in E. revert E. apply accepts_mono, DAltL.
    + apply IH2 in H. revert H. apply accepts_mono, DAltR.
  - revert H. apply loop_sound, IH1.
  - apply IH1 in H. eapply accepts_seq; [apply DPlus|exact H|]. intros i' s' c'. apply loop_sound, IH1.
  - destruct (m ci r1 i s c k) as [x|] eqn:E.
    + injection H as ->. apply IH1 in E. revert E. apply accepts_mono, DOptS.
    + eapply accepts_nil; [constructor|exact H].
  - apply IH1 in H. destruct H as (w & s' & c' & Hs & HD & Hk). exists w, s', ((n, (i, i + List.length w)) :: c'). auto using DGrp.
  - destruct i; [|discriminate]. eapply accepts_nil; [constructor|exact H].
  - destruct s; [|discriminate]. eapply accepts_nil; [constructor|exact H].
Qed.

Definition kok (k : K) (i : nat) (s : list ch) : Prop := forall c, exists res, k i s c = Some res.

Definition complete_body (ci : bool) (r : re) (mb : nat -> list ch -> caps -> K -> option R) : Prop :=
  forall i w rest, D ci r i w rest -> forall c k, kok k (i + List.length w) rest -> exists res, mb i (w ++ rest) c k = Some res.

Lemma orelse_l {A} (o d : option A) :
  (exists x, o = Some x) -> exists x, match o with Some y => Some y | None => d end = Some x.
Proof. intros [x ->]. eauto. Qed.
Lemma orelse_r {A} (o d : option A) :
  (exists x, d = Some x) -> exists x, match o with Some y => Some y | None => d end = Some x.
Proof. destruct o; eauto. Qed.

Lemma kok_nil k i rest c : kok k (i + List.length (@nil ch)) rest -> exists res, k i rest c = Some res.
Proof. cbn [List.length]. rewrite Nat.add_0_r. auto. Qed.
Lemma kok_app k i (w1 w2 : list ch) rest :
  kok k (i + List.length (w1 ++ w2)) rest -> kok k (i + List.length w1 + List.length w2) rest.
Proof. now rewrite app_length, Nat.add_assoc. Qed.

Lemma loop_complete ci r mb : complete_body ci r mb ->
  forall i w rest, D ci (Star r) i w rest ->
  forall n c k, List.length (w ++ rest) <= n -> kok k (i + List.length w) rest -> exists res, loop mb n i (w ++ rest) c k = Some res.
Proof.
  intros Hb i w rest HD. remember (Star r) as sr eqn:Esr.
  induction HD; inversion Esr; subst; clear Esr; intros n c k Hn Hk.
  - destruct n; cbn [loop]; [|apply orelse_r]; now apply kok_nil.
  - (* one iteration w1, then w2; an empty w1 adds nothing *)
    clear IHHD1. specialize (IHHD2 eq_refl). apply kok_app in Hk. destruct w1 as [|x1 w1].
    + cbn [app List.length] in *. rewrite Nat.add_0_r in *. now apply IHHD2.
    + rewrite <- app_assoc in *. rewrite app_length in Hn. cbn [List.length] in Hn.
      destruct n as [|n]; [lia|]. cbn [loop]. apply orelse_l, (Hb _ _ _ HD1). intro c'.
      replace (_ <? _) with true by (symmetry; apply Nat.ltb_lt; rewrite (app_length (x1 :: w1)); cbn [List.length]; lia).
      apply IHHD2; [lia|exact Hk].
Qed.

Lemma m_complete ci r : complete_body ci r (m ci r).
Proof.
  induction r as [|a|r1 IH1 r2 IH2|r1 IH1 r2 IH2|r1 IH1|r1 IH1|r1 IH1|n r1 IH1| |]; intros i w rest HD c k Hk; inversion HD; subst; cbn [m].
  - now apply kok_nil.
  - cbn [app List.length] in *. rewrite Nat.add_1_r in Hk.
    match goal with H : test _ _ _ = true |- _ => rewrite H end. apply Hk.
  - rewrite <- app_assoc. eapply IH1; eauto. intro c'. eapply IH2; eauto. now apply kok_app.
  - apply orelse_l. eapply IH1; eauto.
  - apply orelse_r. eapply IH2; eauto.
  - cbn [app]. destruct (List.length rest); cbn [loop]; [|apply orelse_r]; now apply kok_nil.
  - eapply loop_complete; eauto.
  - rewrite <- app_assoc. eapply IH1; eauto. intro c'. eapply loop_complete; eauto. now apply kok_app.
  - apply orelse_r. now apply kok_nil.
  - apply orelse_l. eapply IH1; eauto.
  - eapply IH1; eauto. intro c'. apply Hk.
  - apply Hk.
  - now apply kok_nil.
Qed.

Definition no_match_before (ci : bool) (r : re) (i : nat) (s : list ch) (n : nat) : Prop :=
  forall pre w post, s = pre ++ w ++ post -> List.length pre < n -> ~ D ci r (i + List.length pre) w post.

Lemma m_kend_some ci r i s j c : m ci r i s [] kend = Some (j, c) ->
  exists w post, s = w ++ post /\ D ci r i w post /\ j = i + List.length w.
Proof. intros H. apply m_sound in H. destruct H as (w & s' & c' & Hs & HD & Hk). injection Hk as <- _. eauto. Qed.

Lemma m_kend_none ci r i s : m ci r i s [] kend = None -> forall w post, s = w ++ post -> ~ D ci r i w post.
Proof.
  intros H w post -> HD. destruct (m_complete ci r _ _ _ HD [] kend) as [res Hres]; [|congruence].
  intro c. unfold kend. eauto.
Qed.

Lemma no_match_before_cons ci r i x s n :
  m ci r i (x :: s) [] kend = None -> no_match_before ci r (S i) s n -> no_match_before ci r i (x :: s) (S n).
Proof.
  intros E Hno [|y pre] w post Heq Hl HD; cbn [app List.length] in *.
  - rewrite Nat.add_0_r in HD. exact (m_kend_none _ _ _ _ E w post Heq HD).
  - injection Heq as _ Heq. apply (Hno pre w post Heq); [lia|]. now rewrite Nat.add_succ_comm.
Qed.

Lemma search_eq ci r i s :
  search ci r i s = match m ci r i s [] kend with
                    | Some (j, c) => Some (i, j, c)
                    | None => match s with [] => None | _ :: s' => search ci r (S i) s' end
                    end.
Proof. destruct s; reflexivity. Qed.

(* w, found at a..b after pre, is a match of r in s (which starts at position i), and no match starts before it *)
Definition leftmost (ci : bool) (r : re) (i : nat) (s : list ch) (a b : nat) : Prop :=
  exists pre w post, s = pre ++ w ++ post /\ a = i + List.length pre /\ b = a + List.length w /\ D ci r a w post
                     /\ no_match_before ci r i s (List.length pre).

Lemma leftmost_head ci r i s j c : m ci r i s [] kend = Some (j, c) -> leftmost ci r i s i j.
Proof.
  intros E. apply m_kend_some in E. destruct E as (w & post & Hs & HD & Hj).
  exists [], w, post. cbn [app List.length]. repeat split; auto. intros pre w' post' _ Hl. lia.
Qed.

Lemma search_some ci r : forall s i a b c, search ci r i s = Some (a, b, c) -> leftmost ci r i s a b.
Proof.
  induction s as [|x s IH]; intros i a b c; rewrite search_eq; destruct (m ci r i _ [] kend) as [[j c']|] eqn:E; intros H;
    try discriminate H; try (injection H as <- <- <-; exact (leftmost_head _ _ _ _ _ _ E)).
  apply IH in H. destruct H as (pre & w & post & -> & -> & Hb & HD & Hno).
  exists (x :: pre), w, post. cbn [app List.length]. rewrite <- Nat.add_succ_comm.
  repeat split; auto using no_match_before_cons.
Qed.

Lemma search_none ci r : forall s i, search ci r i s = None -> forall n, no_match_before ci r i s n.
Proof.
  induction s as [|x s IH]; intros i; rewrite search_eq; destruct (m ci r i _ [] kend) as [[j c']|] eqn:E; intros H;
    try discriminate H; intros [|n]; try (intros pre w post _ Hl; lia).
  - intros [|y pre] w post Heq _; [|discriminate]. cbn [List.length]. rewrite Nat.add_0_r. exact (m_kend_none _ _ _ _ E w post Heq).
  - apply no_match_before_cons; auto.
Qed.

Theorem search_finds_iff ci r s i :
  (exists pre w post, s = pre ++ w ++ post /\ D ci r (i + List.length pre) w post) <-> search ci r i s <> None.
Proof.
  split.
  - intros (pre & w & post & Heq & HD) Hn. exact (search_none ci r s i Hn (S (List.length pre)) pre w post Heq (le_n _) HD).
  - intro Hn. destruct (search ci r i s) as [[[a b] c]|] eqn:E; [|congruence].
    apply search_some in E. destruct E as (pre & w & post & Hs & -> & _ & HD & _). eauto.
Qed.

Lemma step_cons b0 t : exists r w, step (b0 :: t) = Some (r, w) /\ 1 <= w <= S (List.length t).
Proof.
  unfold step.
  repeat match goal with
         | |- context [if ?c then _ else _] => destruct c
         | |- context [match ?l with [] => _ | _ :: _ => _ end] => destruct l
         end; do 2 eexists; (split; [reflexivity|]); cbn [List.length]; lia.
Qed.

Lemma chunks_fuel_flat : forall n s, List.length s <= n -> flat (chunks_fuel n s) = s.
Proof.
  induction n as [|n IH]; intros [|b0 t] Hn; try reflexivity; [cbn [List.length] in Hn; lia|].
  cbn [chunks_fuel]. destruct (step_cons b0 t) as (r & w & -> & Hw).
  change (flat ((r, ?a) :: ?l)) with (a ++ flat l).
  rewrite IH; [apply firstn_skipn|]. rewrite skipn_length. lia.
Qed.
Theorem flat_chunks s : flat (chunks s) = s.
Proof. apply chunks_fuel_flat. auto. Qed.

Lemma flat_app a b : flat (a ++ b) = flat a ++ flat b.
Proof. unfold flat. rewrite map_app, concat_app. reflexivity. Qed.

Lemma find_all_none ci r t : search ci r 0 t = None -> find_all ci r t = [].
Proof. intro H. unfold find_all. cbn [findall]. rewrite H. reflexivity. Qed.

Lemma find_all_head ci r t a b c : search ci r 0 t = Some (a, b, c) -> exists tl, find_all ci r t = (a, b, c) :: tl.
Proof.
  intro H. unfold find_all. cbn [findall]. rewrite H.
  destruct (b =? 0).
  - destruct t; cbn [app]; eauto.
  - eauto.
Qed.

Definition no_match (ci : bool) (r : re) (t : list ch) : Prop :=
  forall pre w post, t = pre ++ w ++ post -> ~ D ci r (List.length pre) w post.

Lemma no_match_search ci r t : no_match ci r t -> search ci r 0 t = None.
Proof.
  intro Hno. destruct (search ci r 0 t) as [[[a b] c]|] eqn:E; [|reflexivity].
  apply search_some in E. destruct E as (pre & w & post & Hs & -> & _ & HD & _). destruct (Hno pre w post Hs HD).
Qed.

Theorem gsub_sub_identity_without_match ci r s rep :
  no_match ci r (chunks s) -> gsub ci r s rep = s /\ sub ci r s rep = s /\ regextract ci r s = None.
Proof.
  intro Hno. apply no_match_search in Hno.
  unfold gsub, sub, gsub_t, sub_t, regextract. rewrite (find_all_none _ _ _ Hno), Hno, flat_chunks. auto.
Qed.

Lemma piece_pre pre w post : piece (pre ++ w ++ post) 0 (List.length pre) = flat pre.
Proof.
  unfold piece. cbn [skipn]. rewrite Nat.sub_0_r, firstn_app, Nat.sub_diag, firstn_all. cbn [firstn]. rewrite app_nil_r. reflexivity.
Qed.
Lemma piece_mid pre w post : piece (pre ++ w ++ post) (List.length pre) (List.length pre + List.length w) = flat w.
Proof.
  unfold piece. rewrite skipn_app, Nat.sub_diag, skipn_all. cbn [skipn app].
  replace (List.length pre + List.length w - List.length pre) with (List.length w) by lia.
  rewrite firstn_app, Nat.sub_diag, firstn_all. cbn [firstn]. rewrite app_nil_r. reflexivity.
Qed.
Lemma skipn_post (pre w post : list ch) : skipn (List.length pre + List.length w) (pre ++ w ++ post) = post.
Proof.
  rewrite app_assoc. rewrite <- app_length. rewrite skipn_app, Nat.sub_diag, skipn_all. reflexivity.
Qed.

Theorem sub_replaces_leftmost_match ci r s rep a b c :
  search ci r 0 (chunks s) = Some (a, b, c) ->
  exists pre w post, chunks s = pre ++ w ++ post /\ a = List.length pre /\ b = a + List.length w /\ D ci r a w post
    /\ no_match_before ci r 0 (chunks s) (List.length pre)
    /\ s = flat pre ++ flat w ++ flat post
    /\ sub ci r s rep = flat pre ++ interp rep (captures10 (chunks s) a b c) ++ flat post
    /\ regextract ci r s = Some (flat w).
Proof.
  intro H. pose proof (search_some _ _ _ _ _ _ _ H) as (pre & w & post & Hs & Ha & Hb & HD & Hno).
  cbn [plus] in Ha. exists pre, w, post. repeat split; auto.
  - rewrite <- (flat_chunks s) at 1. rewrite Hs, !flat_app. reflexivity.
  - unfold sub, sub_t. destruct (find_all_head _ _ _ _ _ _ H) as [tl Htl]. rewrite Htl.
    cbn [splice]. subst a b. rewrite Hs at 1 3. rewrite piece_pre, skipn_post. reflexivity.
  - unfold regextract. rewrite H. subst a b. rewrite Hs. rewrite piece_mid. reflexivity.
Qed.

Lemma interp_plain rep cs : has_capture_ref rep = false -> interp rep cs = rep.
Proof.
  induction rep as [|x t IH]; intro H; [reflexivity|].
  cbn [interp]. destruct t as [|d t']; [reflexivity|].
  cbn [has_capture_ref] in H. apply orb_false_iff in H. destruct H as [H1 H2].
  destruct (Ascii.eqb x BSL); cbn [andb] in H1.
  - destruct (digit_of d); [discriminate|]. rewrite IH; auto.
  - rewrite IH; auto.
Qed.

Theorem sub_plain_replacement ci r s rep a b c :
  search ci r 0 (chunks s) = Some (a, b, c) -> has_capture_ref rep = false ->
  exists pre w post, s = flat pre ++ flat w ++ flat post /\ D ci r (List.length pre) w post /\ sub ci r s rep = flat pre ++ rep ++ flat post.
Proof.
  intros H Hp. destruct (sub_replaces_leftmost_match ci r s rep a b c H) as (pre & w & post & Hs & Ha & Hb & HD & _ & Hflat & Hsub & _).
  exists pre, w, post. subst a. rewrite interp_plain in Hsub; auto.
Qed.

Lemma run_stmt_frame_isolated n body st : snd (run_stmt n (SFrame body) st) = st.
Proof. destruct n; reflexivity. Qed.

Definition sets_registers (x : stmt) : bool :=
  match x with SMatch _ _ _ _ => true | SReset => true | _ => false end.

Lemma run_stmt_keeps n x st : sets_registers x = false -> snd (run_stmt n x st) = st.
Proof.
  destruct x; cbn [sets_registers]; intro H; try discriminate.
  - destruct n; reflexivity.
  - destruct n; reflexivity.
  - apply run_stmt_frame_isolated.
Qed.

Lemma run_block_keeps n body : forall acc st,
  forallb (fun x => negb (sets_registers x)) body = true ->
  snd (fold_left (fun acc y => let '(out, s1) := run_stmt n y (snd acc) in (fst acc ++ out, s1)) body (acc, st)) = st.
Proof.
  induction body as [|x body IH]; intros acc st H; [reflexivity|].
  cbn [forallb] in H. apply andb_true_iff in H. destruct H as [Hx Hb]. apply negb_true_iff in Hx.
  cbn [fold_left snd fst]. apply (run_stmt_keeps n x st) in Hx. destruct (run_stmt n x st) as [out s1].
  cbn [snd] in Hx. subst s1. now apply IH.
Qed.

Theorem registers_kept_until_next_match n body st :
  forallb (fun x => negb (sets_registers x)) body = true -> snd (run_block n body st) = st.
Proof. intro H. unfold run_block. apply run_block_keeps; auto. Qed.

Lemma sub_replacement_ignores_registers n glob subj ci r rep st :
  run_stmt n (SSub glob subj ci r rep) st = ([(if glob then gsub else sub) ci r (eval_lit subj st) (unbackslash rep)], st).
Proof. destruct n; reflexivity. Qed.

Lemma eval_lit_unset lit : eval_lit lit None = unbackslash lit.
Proof. reflexivity. Qed.

Lemma match_sets_registers n neg subj ci r st :
  exists cs, snd (run_stmt n (SMatch neg subj ci r) st) = Some cs /\ List.length cs = 10.
Proof.
  destruct n; cbn [run_stmt]; unfold match_captures;
  destruct (search ci r 0 (chunks (eval_lit subj st))) as [[[a b] c]|]; cbn [snd]; eexists; split; reflexivity.
Qed.

Lemma failed_match_clears n neg subj ci r st :
  no_match ci r (chunks (eval_lit subj st)) ->
  run_stmt n (SMatch neg subj ci r) st = ([if neg then TRUE_ else FALSE_], Some (repeat [] 10)).
Proof.
  intro Hno. apply no_match_search in Hno. destruct n; cbn [run_stmt]; unfold match_captures; rewrite Hno; now destruct neg.
Qed.

(* with all registers empty every \digit disappears *)
Fixpoint strip_refs (rep : bytes) : bytes :=
  match rep with
  | [] => []
  | x :: t =>
      match t with
      | d :: t' => if Ascii.eqb x BSL then match digit_of d with Some _ => strip_refs t' | None => x :: strip_refs t end else x :: strip_refs t
      | [] => [x]
      end
  end.
Lemma nth_repeat_nil k : nth k (repeat (@nil ascii) 10) [] = [].
Proof. do 11 (destruct k as [|k]; [reflexivity|]). reflexivity. Qed.

Lemma wrap_long (q : ascii) p suf : suf <> [] -> (List.length (q :: p ++ suf) <? 2) = false.
Proof. destruct suf; [congruence|]. intros _. apply Nat.ltb_ge. cbn [List.length]. rewrite app_length. cbn [List.length]. lia. Qed.

Lemma mid_wrap (q : ascii) p suf : mid (q :: p ++ suf) (List.length suf) = p.
Proof.
  unfold mid. cbn [skipn List.length]. rewrite app_length.
  replace (S (List.length p + List.length suf) - 1 - List.length suf) with (List.length p) by lia.
  rewrite firstn_app, Nat.sub_diag, firstn_all. apply app_nil_r.
Qed.

Lemma compile_quoted p : compile_miller (DQ :: p ++ [DQ]) = (false, p).
Proof.
  unfold compile_miller. rewrite wrap_long by discriminate. unfold first_is, last_is. cbn [rev]. rewrite rev_app_distr. cbn [rev app].
  rewrite Ascii.eqb_refl. cbn [andb]. f_equal. exact (mid_wrap DQ p [DQ]).
Qed.

Lemma compile_quoted_i p : compile_miller (DQ :: p ++ [DQ; "i"%char]) = (true, p).
Proof.
  unfold compile_miller. rewrite wrap_long by discriminate. unfold first_is, last_is, ends_with2. cbn [rev]. rewrite rev_app_distr.
  cbn [rev app]. rewrite !Ascii.eqb_refl. cbn. f_equal. exact (mid_wrap DQ p [DQ; "i"%char]).
Qed.
